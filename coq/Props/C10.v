(* Props/C10.v — "Connection lifecycle is safe under any call history and failure point".

   Model: Model/Lifecycle.v (CIPDriver / LogixDriver lifecycle + the fake socket) composed with the
   reference target [Spec/TargetCore.tstep] — the same definition that runs as the live peer — for
   ANY application handler [h], any target configuration [cfg] (session / Forward Open policies,
   identity, expected route, ...), any error injections with a non-zero status byte, any fault
   schedule [flt] (k-th connect / send / receive / close raises an OS error or any other exception,
   reply lost, reply left queued = arriving late, peer vanishes), any driver kind, route, urandom
   stream and any history of calls.  (Since f3bd898 a failed send or receive abandons the transport, so a
   late reply is never read by a later request: no fault kind is excluded any more.)  All quantifiers are universal; proofs are by induction over
   the history with invariants relating driver state and target state (Proofs/Lifecycle*.v). *)
From PV Require Import Base.Bytes Base.Res.
From PV Require Import Spec.EncapParser Spec.TargetIface Spec.TargetCore.
From PV Require Import Proofs.LifecycleTarget Model.Lifecycle Proofs.LifecycleP Proofs.LifecycleReopen
  Proofs.LifecycleInv Proofs.LifecycleHistory Proofs.LifecycleReplyBridge Proofs.LifecycleUpload.
From PV Require Model.Reply.
Open Scope Z_scope.

(* inputs: injected service errors carry a status whose byte is not 0; route segments are byte
   strings and os.urandom(4) returns 4 bytes; messages given to generic_message(connected=False) do
   not themselves ask the connection manager to open or close a connection *)
Definition inputs_ok (inj : list injection) (route rands : list bytes) (ops : list op) : Prop :=
  inj_ok inj /\ all_bytes route /\ all_draws rands /\ Forall op_ok ops.

(* nothing is sent on a connection before a session is registered and a Forward Open succeeded.
   (a) every SendUnitData frame that reaches the target finds, in the target's tables AT THAT MOMENT,
   the session of its header and a connection of that session with the connection id it carries
   ([unitdata_ok], Proofs/LifecycleInv.v);
   (b) in the trace, every such frame is preceded, with no reset of the TCP connection in between, by
   a RegisterSession frame that put that session into the table and by a Forward Open frame that
   created, in that session, the connection whose id the frame carries ([unitdata_preceded],
   Proofs/LifecycleHistory.v; frames are classified by the target's own strict parsers) *)
Definition no_connected_before_fo : Prop :=
  forall S (h : handler S) app cfg inj flt logix route rands ops,
    inputs_ok inj route rands ops ->
    let tr := w_trace (fst (fst (run h app cfg inj flt logix route rands ops))) in
    Forall (deliver_ok (S := S)) tr
    /\ forall newer b fr rep older, tr = newer ++ TDeliver b fr rep :: older -> unitdata_preceded h older fr.

(* extended first, then standard with the 500-byte size: a standard Forward Open (service 0x54 to the
   connection manager, as the target's parsers read the frame) reaches the target only after a Large
   one (0x5B) that the target did not grant (its connection table unchanged); and the connection
   sizes the target's parser reads from every Forward Open frame ([fo_sizes]) are 4000 / 4000 in a
   Large one and 500 / 500 in a standard one *)
Definition fo_order : Prop :=
  forall S (h : handler S) app cfg inj flt logix route rands ops,
    inputs_ok inj route rands ops ->
    let tr := w_trace (fst (fst (run h app cfg inj flt logix route rands ops))) in
    fo_trace_ok h tr /\ Forall (size_ok (S := S)) tr.

(* failures surface only as library exceptions or falsy Tags: no call outcome is a foreign exception
   (the with-body's own exception is [OUser]) *)
Definition library_exceptions_only : Prop :=
  forall S (h : handler S) app cfg inj flt logix route rands ops,
    inj_ok inj ->
    Forall (fun o => lib_outcome (o_out o)) (snd (run h app cfg inj flt logix route rands ops)).

(* after close(): not connected, driver state reset, and the target holds no session and no connection *)
Definition close_resets : Prop :=
  forall S (h : handler S) app cfg inj flt logix route rands pre,
    inj_ok inj ->
    closed_state (fst (run h app cfg inj flt logix route rands (pre ++ [Simple Close]))).

(* a later open() works again: from ANY state, close() then open() with no fault during that open and
   a session-granting policy returns True, the driver is connected and holds a session that is in
   the target's table *)
Definition reopen_works : Prop :=
  forall S (h : handler S) flt (s : st (S := S)),
    let s1 := fst (drv_close h flt s) in
    quiet_open flt (fst s1) -> cf_accept_session (t_cfg (w_t (fst s1))) = true ->
    forall s' r, cip_open h flt s1 = (s', r) ->
      r = Ok true /\ d_opened (snd s') = true /\ d_session (snd s') <> 0
      /\ mem_z (d_session (snd s')) (t_sessions (w_t (fst s'))) = true.

(* the property at full strength: every fault schedule *)
Definition C10_full : Prop :=
  no_connected_before_fo /\ fo_order /\ library_exceptions_only /\ close_resets /\ reopen_works.

(* ================================================================ the five clauses, every fault schedule *)
Theorem C10_library_exceptions_only : library_exceptions_only.
Proof.
  intros S h app cfg inj flt logix route rands ops Hinj.
  destruct (run_good h app cfg inj flt logix route rands ops Hinj) as (_ & F).
  eapply Forall_impl; [| exact F]. intros o [_ L]. exact L.
Qed.

Theorem C10_close_resets : close_resets.
Proof.
  intros S h app cfg inj flt logix route rands pre Hinj. unfold run. rewrite run_ops_app.
  pose proof (run_ops_good h cfg logix flt pre _ (start_good h app cfg inj rands route Hinj)) as (G & _).
  destruct (run_ops h logix flt _ pre) as [s1 l1]. cbn [fst snd] in *.
  cbn [run_ops exec_op].
  pose proof (exec_sop_good h cfg logix flt s1 Close G) as (_ & _ & C).
  destruct (exec_sop h logix flt s1 Close) as [s2 o2]. cbn [fst snd] in *. exact (C eq_refl).
Qed.

Theorem C10_reopen_works : reopen_works.
Proof. intros S h flt s. apply reopen_works_state. Qed.

Theorem C10_no_connected_before_fo : no_connected_before_fo.
Proof.
  intros S h app cfg inj flt logix route rands ops (Hinj & Hr & Hn & Hops).
  destruct (run_inv h app cfg inj flt logix route rands ops Hinj Hr Hn Hops) as [I0 _].
  destruct (run_good h app cfg inj flt logix route rands ops Hinj) as ([W _] & _).
  split; [exact (i_trace _ _ I0) |].
  intros newer b fr rep older E. eapply preceded_of_tables; [exact (wg_chain _ _ _ W) | exact (i_trace _ _ I0) | exact E].
Qed.

Theorem C10_fo_order : fo_order.
Proof.
  intros S h app cfg inj flt logix route rands ops (Hinj & Hr & Hn & Hops).
  destruct (run_inv h app cfg inj flt logix route rands ops Hinj Hr Hn Hops) as [I0 _].
  split; [exact (i_fo _ _ I0) | exact (i_sizes _ _ I0)].
Qed.

Theorem C10_holds : C10_full.
Proof.
  split; [exact C10_no_connected_before_fo |]. split; [exact C10_fo_order |].
  split; [exact C10_library_exceptions_only |]. split; [exact C10_close_resets | exact C10_reopen_works].
Qed.

(* ================================================================ the tie to C13 and the upload abstraction *)
(* The lifecycle model decides "RegisterSession granted", "Forward Open granted / refused" and "generic
   reply ok" with its own small predicates.  For EVERY byte string they agree with Model/Reply.v, the
   model of the response classes that C13 proves correct against the status words of the wire
   layout: same validity and session for RegisterSession; for generic_message (which _forward_open
   and _forward_close go through) the same exception class, or the same Tag truthiness and value. *)
Definition reply_classification_is_C13s : Prop :=
  (forall raw, bytes_ok raw = true ->
     register_valid raw = Reply.is_valid Reply.KRegister (Reply.parse_register raw)
     /\ Reply.register_session raw = if register_valid raw then Some (register_session_of raw) else None)
  /\ (forall k raw, bytes_ok raw = true ->
        valid k raw = Reply.is_valid (rk k) (parse_k k raw)
        /\ match Reply.generic_message (rk k) None raw with
           | Reply.RErr e _ => classify k raw = Err e
           | Reply.ROk t => classify k raw = Ok (Reply.tag_truthy t, data_of k raw)
           end).

Theorem C10_reply_classification : reply_classification_is_C13s.
Proof.
  split.
  - intros raw Hok. apply register_reply_agrees. exact Hok.
  - intros k raw Hok. split; [apply (cip_reply_agrees k raw Hok) | apply classify_agrees; exact Hok].
Qed.

(* LogixDriver.open(init_tags=True) uploads the tag list: any number of @with_forward_open calls, each
   sending any number of connected requests.  The theorems above treat it as [ConnectedCall]
   operations of the history; that abstraction is sound for ANY number of calls, requests and
   replies: from every reachable state the sequence keeps the reachability invariant and the
   lifecycle invariant (so C10_holds covers histories whose open() includes the upload). *)
Definition upload_abstraction_sound : Prop :=
  forall S (h : handler S) cfg0 logix flt calls (s : st (S := S)),
    Good h cfg0 s -> Inv h s ->
    let r := run_ops h logix flt s (upload_ops calls) in
    Good h cfg0 (fst r) /\ Inv h (fst r) /\ Forall (fun o => lib_outcome (o_out o)) (snd r).

Theorem C10_upload_abstraction : upload_abstraction_sound.
Proof. intros S h cfg0 logix flt calls s. apply upload_preserves. Qed.

(* ================================================================ non-vacuity *)
(* a fault-free history on which connected frames DO reach the target (so the theorems speak about
   something), a Large-refusing policy under which a standard Forward Open IS sent, and a
   close();open() that satisfies the hypotheses of [reopen_works] *)
Definition w_echo : bytes := [75; 3; 33; 0; 0; 3; 36; 1; 97; 98; 99; 100; 101; 102; 103; 104].
Definition w_rands : list bytes := [[1; 2; 3; 4]; [5; 6; 7; 8]].
Definition ex_ops : list op :=
  [Simple Open; Simple (GenericConnected w_echo); Simple (GenericUnconnected w_echo);
   WithBlock [GenericConnected w_echo; ConnectedCall [(7, w_echo)] 8] true; Simple Open; Simple Close].
Definition ex_cfg : tcfg :=
  {| cf_accept_session := true; cf_session_handle := 16777217; cf_session_refuse_status := 105;
     cf_accept_large_fo := false; cf_accept_std_fo := true; cf_fo_refuse_ext := 282; cf_conn_id := 12648449;
     cf_max_large_size := 4002; cf_multi_service := true; cf_ident := default_ident; cf_expect_route := None |}.
Definition ex_run := run basic_handler init_basic ex_cfg [] no_faults false [] w_rands ex_ops.
Definition is_cmd (c : Z) (e : tev (S := basic_state)) : bool :=
  match e with TDeliver _ f _ => nth 0 f 0 =? c | _ => false end.

Example C10_inhabited :
  inputs_ok [] [] w_rands ex_ops
  /\ List.length (filter (is_cmd 112) (w_trace (fst (fst ex_run)))) = 3%nat
  /\ existsb (fun e => match e with TDeliver _ f _ => match frame_effect f with EFo false => true | _ => false end | _ => false end)
             (w_trace (fst (fst ex_run))) = true
  /\ filter (fun o => match o with Some _ => true | None => false end)
            (map (fun e => match e with TDeliver _ f _ => fo_sizes f | _ => None end) (w_trace (fst (fst ex_run))))
     = [Some (false, 500, 500); Some (true, 4000, 4000)]
  /\ map o_out (snd ex_run) = [OBool true; OTag true; OTag true; OTag true; OTags [true]; OUser; OBool true; ONone]
  /\ quiet_open no_faults (fst (fst (drv_close basic_handler no_faults (fst ex_run))))
  /\ cf_accept_session (t_cfg (w_t (fst (fst (drv_close basic_handler no_faults (fst ex_run)))))) = true.
Proof.
  split; [split; [constructor |]; split; [constructor |]; split; repeat constructor |].
  split; [vm_compute; reflexivity |]. split; [vm_compute; reflexivity |].
  split; [vm_compute; reflexivity |].
  split; [vm_compute; reflexivity |]. split; [vm_compute; repeat split |]. vm_compute. reflexivity.
Qed.

Print Assumptions C10_holds.
Print Assumptions C10_no_connected_before_fo.
Print Assumptions C10_fo_order.
Print Assumptions C10_library_exceptions_only.
Print Assumptions C10_close_resets.
Print Assumptions C10_reopen_works.
Print Assumptions C10_reply_classification.
Print Assumptions C10_upload_abstraction.
Print Assumptions C10_inhabited.
