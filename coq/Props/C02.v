(* Props/C02.v — tag writes change exactly the addressed data, exactly once.
   Statements, each proved by the theorem of coq/Proofs it names, and their Print Assumptions.
   Model: Model/LogixWrite.v (encode_value, the write / fragmented / read-modify-write packets,
   RequestPacket.build_message, _send_write_fragmented, the packets of a plan) over the planner
   Model/LogixPlan.v.  Specification side: Spec/Expect.v (ref_write / ref_read: the reference effect
   of a request on the project's memory) and Spec/TargetLogix.v (the controller's tag services, which
   log every executed write as EvApp 1).  Proofs: Proofs/WriteBits.v WriteMsg.v WriteEnc.v WriteBools.v
   WriteStruct.v WriteStruct2.v WriteCorrect.v WriteCall.v WriteMore.v WriteSlices.v WritePlan.v (over PlanP.v,
   TargetLogixP.v); the statements for BOOL arrays are in Proofs/WriteFull.v.

   Reading guide.  A write request reaches the controller as: sequence count, service, request path,
   data.  "The path the driver emits denotes the addressed tag" is property C09 (and C01's parsing):
   here the wire location [l] the target resolves the path to is the one of the reference place
   (same instance, byte offset, type, remaining elements).  Everything after that point is proved:
   what the model puts in the data (type field, element count, value bytes / masks), that the
   target's strict service accepts it, that the memory it leaves IS the reference memory
   (so: the addressed bytes hold the reference encoding and nothing else moved), that exactly one
   executed write is logged, and that every request of a call is served by exactly one packet. *)
From Coq Require Import String.
From PV Require Import Base.Bytes Base.Res Base.PyStr Model.Path Model.LogixPlan Model.LogixWrite.
From PV Require Import Spec.EncapParser Spec.MRParser Spec.TargetIface Spec.TargetCore Spec.Project Spec.Expect Spec.TargetLogix.
From PV Require Import Proofs.PlanP Proofs.TargetLogixP Proofs.WriteBits Proofs.WriteEnc Proofs.WriteMsg Proofs.WritePlan Proofs.WriteCorrect Proofs.WriteFull Proofs.WriteBools Proofs.WriteCall Proofs.WriteStruct Proofs.WriteMore.
Open Scope Z_scope.

(* For ALL old values, ALL lists of bit writes merged into one packet (named bits 0..63; for a
   BOOL-array element the bit is taken mod 32) and the tag's width size (1/2/4/8): both masks are
   encodable and are sent with exactly `size` bytes; what the target computes, (old | OR) & AND
   byte-wise on the size-byte images, is the reference set/clear of exactly the named bits below the
   width, in call order: bit k of the result is the value of the LAST write naming k, and the old
   bit k when no write names it. *)
Definition C02_rmw_effect : Prop :=
  forall dword bl size old,
  Forall (fun bv => 0 <= eff_bit dword (fst bv) < 64) bl -> 0 < size <= 8 -> 0 <= old < pow256 (Z.to_nat size) ->
  let o := fst (rmw_masks dword bl) in
  let a := snd (rmw_masks dword bl) in
  let w := Z.to_nat size in
  mask_bytes o size = Ok (le_enc w o) /\ mask_bytes a size = Ok (le_enc w a)
  /\ length (le_enc w o) = w /\ length (le_enc w a) = w
  /\ le_dec (rmw_bytes (le_enc w old) (le_enc w o) (le_enc w a)) = apply_bits old (filter (in_width size) (eff dword bl))
  /\ forall k, 0 <= k ->
       Z.testbit (apply_bits old (filter (in_width size) (eff dword bl))) k
       = if k <? 8 * size then or_default (last_write (eff dword bl) k) (Z.testbit old k) else false.
Theorem C02_rmw_effect_holds : C02_rmw_effect.
Proof. exact rmw_effect. Qed.
Print Assumptions C02_rmw_effect_holds.

Definition C02_encode_value : Prop :=
  (* bytes pass through *)
  (forall q b, q_value q = PBytes b -> encode_value q = Ok (b, q_elements q))
  (* every failure is a RequestError *)
  /\ (forall q e, is_bytes (q_value q) = false -> encode_value q = Err e -> e = RequestError)
  (* BOOL arrays: an index that is not a multiple of 32 is refused *)
  /\ (forall q, is_bytes (q_value q) = false -> q_dword q = true -> opt_or0 (q_bit q) mod 32 <> 0 ->
        encode_value q = Err RequestError)
  (* ... and the element count becomes elements - bit / 32 (unchanged for other types) *)
  /\ (forall q b n, is_bytes (q_value q) = false -> encode_value q = Ok (b, n) -> n = q_new_elements q)
  (* which, with _parse_tag_request's ceil((bit + n) / 32), is ceil(n / 32): the DWORDs written *)
  /\ (forall bit n, 0 <= bit -> bit mod 32 = 0 -> 0 <= n ->
        (bit + n) / 32 + (if (bit + n) mod 32 =? 0 then 0 else 1) - bit / 32 = n / 32 + (if n mod 32 =? 0 then 0 else 1))
  (* a list longer than the requested count is cut to it *)
  /\ (forall q l, q_value q = PList l -> is_array_ty (ti_type (q_info q)) = true ->
        (q_dword q = true -> opt_or0 (q_bit q) mod 32 = 0) -> 1 < q_value_elements q -> q_value_elements q <= LogixWrite.zlen l ->
        encode_value q = encode_value (with_value q (PList (firstn (Z.to_nat (q_value_elements q)) l))))
  (* a shorter one is a RequestError *)
  /\ (forall q l, q_value q = PList l -> is_array_ty (ti_type (q_info q)) = true ->
        (q_dword q = true -> opt_or0 (q_bit q) mod 32 = 0) -> 1 < q_value_elements q -> LogixWrite.zlen l < q_value_elements q ->
        encode_value q = Err RequestError)
  (* a scalar written to one element of an array is [scalar] *)
  /\ (forall q, is_bytes (q_value q) = false -> is_nonstr_sequence (q_value q) = false ->
        is_array_ty (ti_type (q_info q)) = true -> q_value_elements q <= 1 ->
        (q_dword q = true -> opt_or0 (q_bit q) mod 32 = 0) ->
        encode_value q = encode_value (with_value q (PList [q_value q]))).
Theorem C02_encode_value_holds : C02_encode_value.
Proof.
  split; [exact encode_value_bytes|]. split; [exact encode_value_error_kind|]. split; [exact encode_value_misaligned|].
  split; [exact encode_value_elements|]. split; [exact bool_array_elements|]. split; [exact encode_value_truncates|].
  split; [exact encode_value_too_short|]. exact encode_value_scalar.
Qed.
Print Assumptions C02_encode_value_holds.

Definition C02_build_once : Prop :=
  (forall p p1, build_message p = Ok p1 ->
     build_message p1 = Ok p1 /\ k_msg_setup p1 = true /\ k_message p1 = concat (k_msg p1))
  /\ (forall p p1 p2, build_message p = Ok p1 -> build_message p1 = Ok p2 -> k_message p2 = k_message p1).
Theorem C02_build_once_holds : C02_build_once.
Proof. split; [exact build_message_once|exact build_message_twice]. Qed.
Print Assumptions C02_build_once_holds.

(* the fragment message and the read-modify-write message; the target's message-router parser
   splits every message into service / path / data (the Write Tag message is in the theorems below) *)
Definition C02_layout : Prop :=
  (forall seq r off seg p, frag_from_request seq r off seg = Ok p -> seg <> [] -> k_path r <> None ->
     0 <= seq < 65536 -> 0 <= k_elements r < 65536 -> 0 <= off < 4294967296 ->
     exists p1 path, k_path r = Some path /\ build_message p = Ok p1
       /\ k_message p1 = le_enc 2 seq ++ [83] ++ path ++ frag_data (k_packed_type p) (k_elements r) off seg)
  /\ (forall p size o a path ob ab,
     k_kind p = KRmw -> k_msg_setup p = false -> k_msg p = [] -> k_added p = [] -> k_path p = Some path ->
     k_mask_size p = size -> k_or p = o -> k_and p = a ->
     0 <= k_seq p < 65536 -> 0 <= size < 65536 -> mask_bytes o size = Ok ob -> mask_bytes a size = Ok ab ->
     exists p1, build_message p = Ok p1 /\ k_message p1 = le_enc 2 (k_seq p) ++ [78] ++ path ++ rmw_data size ob ab)
  /\ (forall svc path body data, 0 <= svc < 128 -> counted_path path body ->
     MRParser.parse_mr ([svc] ++ path ++ data) = EncapParser.RcOk {| mr_service := svc; mr_path := body; mr_data := data |})
  (* and the fragmented service stores its segment at its offset *)
  /\ (forall p m img l data ty n off seg s,
     parse_wtype data = Some (ty, le_enc 2 n ++ le_enc 4 off ++ seg) ->
     type_matches p l ty = true -> loc_esize p l = Some s ->
     1 <= n <= w_avail l -> n < 65536 -> 0 <= off < 4294967296 ->
     1 <= Expect.blen seg -> off < n * s -> off + Expect.blen seg <= n * s ->
     fst (svc_write_frag p m img l data) = fst (do_store 83 m img l off seg)
     /\ exists extra, snd (svc_write_frag p m img l data) = snd (do_store 83 m img l off seg) ++ extra
          /\ Forall (fun e => match e with EvApp 3 _ _ => True | _ => False end) extra).
Theorem C02_layout_holds : C02_layout.
Proof. split; [exact frag_message|]. split; [exact rmw_message|]. split; [exact parse_mr_message|exact svc_write_frag_accepts]. Qed.
Print Assumptions C02_layout_holds.

(* the segments tile the value (from Proofs/PlanP.v), and storing them in order at their offsets
   leaves the image that one store of the whole value leaves *)
Definition C02_fragments : Prop :=
  (forall conn ovh value, 0 < conn - ovh ->
     let frs := write_fragments conn ovh value in
     concat (map snd frs) = value
     /\ Forall (fun '(o, s) => s <> [] /\ ovh + Z.of_nat (length s) <= conn) frs
     /\ (forall k, (k < length frs)%nat -> fst (nth k frs (0, [])) = Z.of_nat (length (concat (firstn k (map snd frs)))))
     /\ (forall k, (k < length frs)%nat ->
           snd (nth k frs (0, [])) = firstn (length (snd (nth k frs (0, [])))) (skipn (Z.to_nat (fst (nth k frs (0, [])))) value)))
  /\ (forall img base conn ovh value, 0 < conn - ovh -> value <> [] ->
     store_frags img base (write_fragments conn ovh value) = put_bytes img base value).
Theorem C02_fragments_holds : C02_fragments.
Proof. split; [exact write_frag_tiles|exact frag_stores_compose]. Qed.
Print Assumptions C02_fragments_holds.

(* In what write() sends for a call with distinct request ids (they are the positions in the call):
   a request that parsed and encoded is served by exactly one packet — one Write Tag service, alone
   or as one entry of one multi-service packet, or one fragmented transfer, or, for a bit write, the
   single Read-Modify-Write of its merged group; a request that failed is served by none.  (Each
   executed service logs exactly one EvApp 1: the theorems below.) *)
Definition C02_applied_once : Prop :=
  forall cfg v reqs plan out failed,
  write_plan cfg v reqs = Ok (plan, out, failed) -> NoDup (map q_id reqs) ->
  length failed = length reqs
  /\ forall k q, nth_error reqs k = Some q ->
       exists fl, nth_error failed k = Some (q_id q, fl)
                  /\ count_occ Z.eq_dec (flat_map out_ids out) (q_id q) = if fl then 0%nat else 1%nat.
Theorem C02_applied_once_holds : C02_applied_once.
Proof. exact applied_once. Qed.
Print Assumptions C02_applied_once_holds.

(* one value of an integer / REAL / LREAL type at any data place *)
Definition C02_value : Prop :=
  forall p m r inst off c dims avail s name v rv m_ref img id tag tyh inst_id ui seq path,
  resolve p r = Some (PlData inst off (BAtom c) dims avail) -> r_bit r = None -> r_count r = None ->
  mem_get m inst = Some img ->
  atom_name c = Some name -> value_atom c = true -> atom_size c = Some s -> denotes_atom c v rv ->
  ref_write p m r rv = Some m_ref ->
  1 <= avail -> 0 <= seq < 65536 ->
  let info := mkInfo false name (WElem name) tyh inst_id in
  let q := mkParsed id false tag None 1 None info v in
  let l := mkWLoc inst off (BAtom c) dims avail None in
  path_of tag info ui = Ok (Some path) ->
  exists data pk pk1,
    encode_value q = Ok (data, 1)
    /\ new_write_packet KWrite seq tag 1 info id ui 0 data = Ok pk
    /\ build_message pk = Ok pk1
    /\ k_message pk1 = le_enc 2 seq ++ [77] ++ path ++ write_data (le_enc 2 c) 1 data
    /\ svc_write p m img l (write_data (le_enc 2 c) 1 data) = (m_ref, mr_ok [], [EvApp 1 [inst; off; 77] data]).
Theorem C02_value_holds : C02_value.
Proof. exact write_correct_value. Qed.
Print Assumptions C02_value_holds.

(* `{n}` consecutive elements from any index; a longer list is truncated to n *)
Definition C02_array : Prop :=
  forall p m r inst off c dims avail s name l_py vs n m_ref img id tag n0 tyh inst_id ui seq path,
  resolve p r = Some (PlData inst off (BAtom c) dims avail) -> r_bit r = None -> r_count r = Some n ->
  mem_get m inst = Some img ->
  atom_name c = Some name -> value_atom c = true -> atom_size c = Some s ->
  Forall2 (denotes_atom c) l_py vs ->
  ref_write p m r (RList vs) = Some m_ref ->
  1 < n < 65536 -> 0 <= seq < 65536 ->
  let info := mkInfo false name (WArray n0 (WElem name)) tyh inst_id in
  let q := mkParsed id false tag None n None info (PList l_py) in
  let l := mkWLoc inst off (BAtom c) dims avail None in
  path_of tag info ui = Ok (Some path) ->
  exists data pk pk1,
    encode_value q = Ok (data, n)
    /\ new_write_packet KWrite seq tag n info id ui 0 data = Ok pk
    /\ build_message pk = Ok pk1
    /\ k_message pk1 = le_enc 2 seq ++ [77] ++ path ++ write_data (le_enc 2 c) n data
    /\ svc_write p m img l (write_data (le_enc 2 c) n data) = (m_ref, mr_ok [], [EvApp 1 [inst; off; 77] data]).
Theorem C02_array_holds : C02_array.
Proof. exact write_correct_array. Qed.
Print Assumptions C02_array_holds.

(* a string: LEN and characters, truncated to the capacity, the rest of DATA zero *)
Definition C02_string : Prop :=
  forall p m r inst off tid dims avail t lm dm cs m_ref img id tag tname inst_id ui seq path,
  resolve p r = Some (PlData inst off (BStruct tid) dims avail) -> r_bit r = None -> r_count r = None ->
  mem_get m inst = Some img ->
  find_template (p_templates p) tid = Some t -> string_shape t = Some (lm, dm) ->
  m_off lm = 0 -> m_off dm = 4 -> 0 <= m_arr dm -> 4 + m_arr dm <= t_size t -> 0 <= t_handle t < 65536 ->
  PyStr.text_eqb tname n_DWORD = false ->
  ref_write p m r (RStr cs) = Some m_ref ->
  1 <= avail -> 0 <= seq < 65536 ->
  let info := mkInfo true tname (WFixedStr (t_size t - 4) (m_arr dm)) (t_handle t) inst_id in
  let q := mkParsed id false tag None 1 None info (PStr cs) in
  let l := mkWLoc inst off (BStruct tid) dims avail None in
  path_of tag info ui = Ok (Some path) ->
  exists data pk pk1,
    encode_value q = Ok (data, 1)
    /\ new_write_packet KWrite seq tag 1 info id ui 0 data = Ok pk
    /\ build_message pk = Ok pk1
    /\ k_message pk1 = le_enc 2 seq ++ [77] ++ path ++ write_data (160 :: 2 :: le_enc 2 (t_handle t)) 1 data
    /\ svc_write p m img l (write_data (160 :: 2 :: le_enc 2 (t_handle t)) 1 data) = (m_ref, mr_ok [], [EvApp 1 [inst; off; 77] data]).
Theorem C02_string_holds : C02_string.
Proof. exact write_correct_string. Qed.
Print Assumptions C02_string_holds.

(* a BOOL tag / BOOL member: only its bit of the host byte *)
Definition C02_bool : Prop :=
  forall p m r inst off bit v m_ref img id tag tyh inst_id ui seq path,
  resolve p r = Some (PlBit inst off bit) -> r_bit r = None -> r_count r = None ->
  mem_get m inst = Some img ->
  ref_write p m r (RBool (truthy v)) = Some m_ref ->
  is_bytes v = false -> 0 <= seq < 65536 ->
  let info := mkInfo false n_BOOL (WElem n_BOOL) tyh inst_id in
  let q := mkParsed id false tag None 1 None info v in
  let l := mkWLoc inst off (BAtom C_BOOL) [] 1 (Some bit) in
  path_of tag info ui = Ok (Some path) ->
  exists data pk pk1 stored,
    encode_value q = Ok (data, 1) /\ data = [if truthy v then 255 else 0]
    /\ new_write_packet KWrite seq tag 1 info id ui 0 data = Ok pk
    /\ build_message pk = Ok pk1
    /\ k_message pk1 = le_enc 2 seq ++ [77] ++ path ++ write_data (le_enc 2 C_BOOL) 1 data
    /\ svc_write p m img l (write_data (le_enc 2 C_BOOL) 1 data) = (m_ref, mr_ok [], [EvApp 1 [inst; off; 77] [stored]]).
Theorem C02_bool_holds : C02_bool.
Proof. exact write_correct_bool. Qed.
Print Assumptions C02_bool_holds.

(* bits of an integer, any number of them merged into ONE Read-Modify-Write: the single store of the
   target = the reference bit writes applied one after the other in call order *)
Definition C02_bits : Prop :=
  forall p m img inst off c dims avail s bl old,
  atom_size c = Some s -> atom_integer c = true ->
  get_bytes img off s = Some old -> bytes_ok old = true ->
  Forall (fun bv => 0 <= fst bv < 8 * s) bl -> bl <> [] ->
  let pl := PlData inst off (BAtom c) dims avail in
  let l := mkWLoc inst off (BAtom c) dims avail None in
  let o := fst (rmw_masks false bl) in
  let a := snd (rmw_masks false bl) in
  exists ob ab img' stored,
    mask_bytes o s = Ok ob /\ mask_bytes a s = Ok ab
    /\ length ob = Z.to_nat s /\ length ab = Z.to_nat s
    /\ fold_left (ref_bit_step p pl) bl (Some img) = Some img'
    /\ svc_rmw p m img l (rmw_data s ob ab) = (mem_set m inst img', mr_ok [], [EvApp 1 [inst; off; 78] stored]).
Theorem C02_bits_holds : C02_bits.
Proof. exact write_correct_bits. Qed.
Print Assumptions C02_bits_holds.

Definition C02_frame : Prop :=
  (* whatever is stored (value, slice, string, RMW word): every other tag, and every byte of this tag
     outside the stored range, keeps its value; the stored range reads back *)
  (forall m img inst off d img', put_bytes img off d = Some img' ->
     (forall j, j <> inst -> mem_get (mem_set m inst img') j = mem_get m j)
     /\ mem_get (mem_set m inst img') inst = Some img'
     /\ length img' = length img
     /\ (forall k, (k < Z.to_nat off \/ Z.to_nat off + length d <= k)%nat -> nth k img' 0 = nth k img 0)
     /\ get_bytes img' off (Expect.blen d) = Some d)
  (* read_after_write at the reference level: after the reference write (= the target's memory by the
     theorems above) the reference read of the same address returns the written value *)
  /\ (forall p m r v m' inst off c dims avail s,
     resolve p r = Some (PlData inst off (BAtom c) dims avail) ->
     r_bit r = None -> r_count r = None -> value_atom c = true -> atom_size c = Some s ->
     ref_write p m r v = Some m' ->
     ref_read p m' r = Some v
     /\ (forall j, j <> inst -> mem_get m' j = mem_get m j)
     /\ exists img img', mem_get m inst = Some img /\ mem_get m' inst = Some img'
          /\ length img' = length img
          /\ forall k, (k < Z.to_nat off \/ Z.to_nat off + Z.to_nat s <= k)%nat -> nth k img' 0 = nth k img 0).
Theorem C02_frame_holds : C02_frame.
Proof. split; [exact store_frame|exact ref_write_read_atom]. Qed.
Print Assumptions C02_frame_holds.

(* BOOL-array aligned ranges `arr[i]{n}` (i, n multiples of 32): whole 32-bit words from DWORD i/32;
   the statement is Proofs/WriteFull.stmt_bools *)
Definition C02_bools : Prop := stmt_bools.
Theorem C02_bools_holds : C02_bools.
Proof. exact write_correct_bools. Qed.
Print Assumptions C02_bools_holds.

(* one BOOL-array element `arr[i]`: ONE Read-Modify-Write of DWORD i / 32 naming bit i mod 32; the
   statement is Proofs/WriteFull.stmt_bool_element *)
Definition C02_bool_element : Prop := stmt_bool_element.
Theorem C02_bool_element_holds : C02_bool_element.
Proof. exact write_correct_bool_element. Qed.
Print Assumptions C02_bool_element_holds.

(* a whole structure given as a dict: visible members at their offsets (nested structures, strings,
   BOOL[32k] members as DWORDs, arrays of them, by induction over template nesting), BOOL members in the
   bits of their host bytes — hidden hosts, or a VISIBLE host listed before them (module-defined types:
   host and bits are then both in the dict; the bits are set after the host is stored, by the code's
   "all members, then all bit members" exactly as by the reference's member order) —, hidden members
   and padding zero: for the class Proofs/WriteStruct.ty_guard; statement Proofs/WriteStruct.stmt_struct *)
Definition C02_struct : Prop := stmt_struct.
Theorem C02_struct_holds : C02_struct.
Proof. exact write_correct_struct. Qed.
Print Assumptions C02_struct_holds.

(* a structure (or string) given as BYTES: passed through unchanged, stored by Write Tag; when the bytes
   are the reference encoding of a value the memory is ref_write's *)
Definition C02_struct_bytes : Prop :=
  forall p m r inst off tid dims avail t b rv m_ref img id tag ty tname inst_id ui seq path,
  resolve p r = Some (PlData inst off (BStruct tid) dims avail) -> r_bit r = None -> r_count r = None ->
  mem_get m inst = Some img ->
  find_template (p_templates p) tid = Some t -> 0 <= t_handle t < 65536 ->
  encode_val (depth_fuel p) p (BStruct tid) rv = Some b ->
  ref_write p m r rv = Some m_ref ->
  1 <= avail -> 0 <= seq < 65536 ->
  let info := mkInfo true tname ty (t_handle t) inst_id in
  let q := mkParsed id false tag None 1 None info (PBytes b) in
  let l := mkWLoc inst off (BStruct tid) dims avail None in
  path_of tag info ui = Ok (Some path) ->
  exists pk pk1,
    encode_value q = Ok (b, 1)
    /\ new_write_packet KWrite seq tag 1 info id ui 0 b = Ok pk
    /\ build_message pk = Ok pk1
    /\ k_message pk1 = le_enc 2 seq ++ [77] ++ path ++ write_data (160 :: 2 :: le_enc 2 (t_handle t)) 1 b
    /\ svc_write p m img l (write_data (160 :: 2 :: le_enc 2 (t_handle t)) 1 b) = (m_ref, mr_ok [], [EvApp 1 [inst; off; 77] b]).
Theorem C02_struct_bytes_holds : C02_struct_bytes.
Proof. exact write_correct_struct_bytes. Qed.
Print Assumptions C02_struct_bytes_holds.

(* `{n}` consecutive elements of an array of structures / strings (element type in the class of
   C02_struct), longer lists truncated *)
Definition C02_slice : Prop :=
  forall p m r inst off tid dims avail t e l_py vs n m_ref img id tag n0 inst_id ui seq path,
  ty_guard (depth_fuel p) p (BStruct tid) = true -> wty_of (depth_fuel p) p (BStruct tid) = Some e ->
  resolve p r = Some (PlData inst off (BStruct tid) dims avail) -> r_bit r = None -> r_count r = Some n ->
  mem_get m inst = Some img ->
  find_template (p_templates p) tid = Some t -> 0 <= t_handle t < 65536 -> PyStr.text_eqb (t_name t) n_DWORD = false ->
  Forall2 denotes l_py vs ->
  ref_write p m r (RList vs) = Some m_ref ->
  1 < n < 65536 -> 0 <= seq < 65536 ->
  let info := mkInfo true (t_name t) (WArray n0 e) (t_handle t) inst_id in
  let q := mkParsed id false tag None n None info (PList l_py) in
  let l := mkWLoc inst off (BStruct tid) dims avail None in
  path_of tag info ui = Ok (Some path) ->
  exists data pk pk1,
    encode_value q = Ok (data, n)
    /\ new_write_packet KWrite seq tag n info id ui 0 data = Ok pk
    /\ build_message pk = Ok pk1
    /\ k_message pk1 = le_enc 2 seq ++ [77] ++ path ++ write_data (160 :: 2 :: le_enc 2 (t_handle t)) n data
    /\ svc_write p m img l (write_data (160 :: 2 :: le_enc 2 (t_handle t)) n data) = (m_ref, mr_ok [], [EvApp 1 [inst; off; 77] data]).
Theorem C02_slice_holds : C02_slice.
Proof. exact write_correct_slice. Qed.
Print Assumptions C02_slice_holds.

(* A multi-service packet as MultiServiceRequestPacket.build_message emits it, handed to the target's
   message router (TargetCore.dispatch): parsed as service 0x0A to the message router, unwrapped into
   exactly the embedded requests, which are executed one after the other by the application handler;
   application state and executed-write log are those of the embedded requests run in order (so the
   per-request theorems above apply to each of them, on the memory the previous one left). *)
Definition C02_multi : Prop :=
  forall (S : Type) (h : handler S) tr cap sq (st : tstate S) seq members m reqs,
  multi_message seq members = Ok m -> members <> [] ->
  t_inject st = [] -> cf_multi_service (t_cfg st) = true ->
  (forall msgs, map_res tag_only_message members = Ok msgs ->
     Forall2 (fun it r => parse_mr it = RcOk r /\ to_handler r = true) msgs reqs) ->
  exists rq caps, parse_mr (skipn 2 m) = RcOk rq /\ length caps = length reqs
    /\ let st' := fst (dispatch h tr cap sq st rq) in
       t_app st' = fst (run_items h tr (t_app st) (combine reqs caps))
       /\ writes_logged st' = rev (filter is_write_ev (snd (run_items h tr (t_app st) (combine reqs caps)))) ++ writes_logged st.
Theorem C02_multi_holds : C02_multi.
Proof. intros S h. exact (multi_packet_executes h). Qed.
Print Assumptions C02_multi_holds.

(* the Logix write services ignore the reply capacity (the capacities in C02_multi are immaterial) *)
Definition C02_cap_indep : Prop :=
  forall st tr c1 c2 rq l,
  resolve_path (ls_proj st) (mr_service rq =? 85) (mr_path rq) = TgTag l ->
  mr_service rq = 77 \/ mr_service rq = 78 \/ mr_service rq = 83 ->
  logix_request st tr c1 rq = logix_request st tr c2 rq.
Theorem C02_cap_indep_holds : C02_cap_indep.
Proof. exact logix_write_cap_indep. Qed.
Print Assumptions C02_cap_indep_holds.

(* a fragmented transfer end to end: every fragment _send_write_fragmented emits is accepted by Write
   Tag Fragmented, the memory afterwards is the memory ONE store of the whole value leaves, and exactly
   one executed write per fragment is logged, at its running offset *)
Definition C02_frag_transfer : Prop :=
  forall p m l img pt ty n s conn ovh value img',
  (forall r, parse_wtype (pt ++ r) = Some (ty, r)) -> type_matches p l ty = true -> loc_esize p l = Some s ->
  w_bit l = None -> 1 <= n <= w_avail l -> n < 65536 -> Expect.blen value = n * s -> n * s < 4294967296 ->
  mem_get m (w_inst l) = Some img -> 0 < conn - ovh -> value <> [] ->
  put_bytes img (w_off l) value = Some img' ->
  let frs := write_fragments conn ovh value in
  exists evs, run_frags p l pt n m frs = Some (mem_set m (w_inst l) img', evs)
    /\ filter is_store_ev evs = map (fun os => EvApp 1 [w_inst l; w_off l + fst os; 83] (snd os)) frs.
Theorem C02_frag_transfer_holds : C02_frag_transfer.
Proof. exact frag_transfer_correct. Qed.
Print Assumptions C02_frag_transfer_holds.

(* "for every call, whatever failed before": what write() sends and reports ([write_plan], [write_outcome])
   is a Gallina FUNCTION of the call's arguments: the driver configuration, the parsed requests with their
   values, and the sequence counter [v] — the one piece of driver state a call reads that earlier calls
   (failed or not) have advanced; its freshness is property C17 and no theorem above depends on its value
   beyond 0 <= count < 65536.  Nothing else is carried from one write() to the next: the merge table of bit
   writes, the packets, their masks and messages are created inside the call.  So "run_write from the state
   left by any earlier call = run_write from a fresh state" holds in the model by construction; it is a
   fact about the CODE (no packet, mask or merge table kept on the driver), tied on every run by the
   harness's histories: a multi-request write failing at its k-th send / receive, re-open, further calls
   held to the full oracle and to frame-for-frame correspondence; two drivers alternating on one target. *)
Remark C02_no_history : forall cfg v reqs cfg' v' reqs',
  cfg = cfg' -> v = v' -> reqs = reqs' -> write_plan cfg v reqs = write_plan cfg' v' reqs'.
Proof. intros; subst; reflexivity. Qed.
Remark C02_outcome_no_history : forall out sts out' sts',
  out = out' -> sts = sts' -> write_outcome out sts = write_outcome out' sts'.
Proof. intros; subst; reflexivity. Qed.

Definition C02_proved : Prop :=
  C02_rmw_effect /\ C02_encode_value /\ C02_build_once /\ C02_layout /\ C02_fragments /\ C02_applied_once
  /\ C02_value /\ C02_array /\ C02_string /\ C02_bool /\ C02_bits /\ C02_bools /\ C02_bool_element /\ C02_frame
  /\ C02_multi /\ C02_cap_indep /\ C02_frag_transfer /\ C02_struct /\ C02_struct_bytes /\ C02_slice.

(* a one-element slice of a BOOL array `arr[i]{1}` written with a one-item list, whatever the item
   (refuted before pycomm3 4698d97: set_bit tested the truthiness of the LIST) *)
Definition C02_bool_slice1 : Prop := stmt_bool_slice1.
Theorem C02_bool_slice1_holds : C02_bool_slice1.
Proof. exact write_correct_bool_slice1. Qed.
Print Assumptions C02_bool_slice1_holds.

(* full strength: whole structures given as dicts for EVERY well-formed project (C02_struct above is
   the same statement for the class [ty_guard]) *)
Definition C02_full : Prop :=
  C02_proved /\ C02_bool_slice1 /\ stmt_struct_with (fun p _ => wf_project p = true).

(* PARTIAL: C02_partial (+ C02_bool_slice1_holds) is everything C02_full asks EXCEPT the struct clause for
   templates outside Proofs/WriteStruct.ty_guard, i.e. exactly:
     - a BOOL member listed BEFORE a visible non-BOOL member that covers its byte (code: bits win; reference:
       the later host overwrites them — the two differ; no fixture or generated project has this order);
     - hidden BOOL members (the code then demands a dict entry for a member the reference does not list);
     - BYTE / WORD / LWORD bit-string members (DWORD / BOOL[32k] members ARE covered);
     - string types whose LEN / DATA are not at offsets 0 / 4.
   Hypotheses the clauses carry, and why they are hypotheses of THIS property rather than gaps:
     - every write_correct_* clause: the target resolves the emitted request path to the wire location
       [l] of the reference place (same instance, offset, type, remaining elements), and the parsed request
       [q] is what _parse_tag_request yields.  Which bytes denote which tag is property C09 (paths) and
       C01/C03 (request parsing), proved there against the same Spec/EPathParser / Spec/Expect; C02 starts
       where the path has been resolved ("the addressed location").
     - C02_value / C02_array / C02_struct for REAL: [denotes] relates the Python float b64 to the reference
       binary32 by round32 b64 = Some b32.  That struct.pack('<f') IS this rounding is the codec property
       (C06/C07, Model/CodecFloat.v against Flocq); C02 states "the encoding of the supplied value".
     - C02_multi / C02_frag_transfer: no error injection pending, multi-service enabled (a configuration of
       the reference target, not of the driver), and the connected-transport layer hands the data item to
       the message router (C11 frames, C14 delivery).
     - 0 <= sequence count, handle, element count < 65536: ranges of the UINT fields, true of every value
       the driver produces (C17 for the counter; the upload for handles).
   All of this is also exercised on the implementation by the oracle of harness/props/c02.py on every run. *)
Theorem C02_partial : C02_proved.
Proof.
  split; [exact rmw_effect|]. split; [exact C02_encode_value_holds|]. split; [exact C02_build_once_holds|].
  split; [exact C02_layout_holds|]. split; [exact C02_fragments_holds|]. split; [exact applied_once|].
  split; [exact write_correct_value|]. split; [exact write_correct_array|]. split; [exact write_correct_string|].
  split; [exact write_correct_bool|]. split; [exact write_correct_bits|]. split; [exact write_correct_bools|].
  split; [exact write_correct_bool_element|]. split; [exact C02_frame_holds|].
  split; [exact C02_multi_holds|]. split; [exact logix_write_cap_indep|]. split; [exact frag_transfer_correct|]. split; [exact write_correct_struct|]. split; [exact write_correct_struct_bytes|exact write_correct_slice].
Qed.
Print Assumptions C02_partial.

(* non-vacuity: the hypotheses are inhabited.  A DINT tag written with -2 through the model's packet
   and the target's service gives the reference memory; four bit writes merged on an INT. *)
Example C02_nonvacuous :
  let g := mkTag [100] 7 ScCtrl (BAtom C_DINT) [] 0 false 0 0 0 0 in
  let p := mkProject [] [g] in
  let m := [(7, [1; 2; 3; 4])] in
  let r := mkReq None [mkSeg [100] []] None None in
  let info := mkInfo false (Expect.zs "DINT") (WElem (Expect.zs "DINT")) 0 (Some 7) in
  let q := mkParsed 0 false [100] None 1 None info (PInt (-2)) in
  wf_project p = true /\ wf_mem p m = true
  /\ resolve p r = Some (PlData 7 0 (BAtom C_DINT) [] 1)
  /\ denotes_atom C_DINT (PInt (-2)) (RInt (-2))
  /\ ref_write p m r (RInt (-2)) = Some [(7, [254; 255; 255; 255])]
  /\ encode_value q = Ok ([254; 255; 255; 255], 1)
  /\ path_of [100] info true = Ok (Some [2; 32; 107; 36; 7])
  /\ svc_write p m [1; 2; 3; 4] (mkWLoc 7 0 (BAtom C_DINT) [] 1 None) (write_data (le_enc 2 C_DINT) 1 [254; 255; 255; 255])
     = ([(7, [254; 255; 255; 255])], mr_ok [], [EvApp 1 [7; 0; 77] [254; 255; 255; 255]])
  /\ rmw_masks false [(3, true); (0, false); (3, false); (9, true)] = (512, 18446744073709551606).
Proof.
  cbv zeta. split; [reflexivity|]. split; [reflexivity|]. split; [reflexivity|].
  split; [constructor; reflexivity|]. vm_compute. repeat split; reflexivity.
Qed.

(* Request kinds the clauses above do not state (they take a NON-array type class for a single value, and
   1 < n for `{n}`): `arr[i]`, `udts[i]`, `strs[i]`, `udt.arr[j]`, `udts[i].inner[k]` := one value — the tag_info
   the driver holds is the array's (Array(n0, element)), encode_value wraps the value as [value] —, and the same
   places written as `...{1}` with a list of any length >= 1 (first item written, rest ignored, by the code as by
   the reference).  Element types: Proofs/WriteStruct.ty_guard minus bit strings (an element of a BOOL array is
   C02_bool_element / C02_bool_slice1).  Statements: Proofs/WriteSlices.stmt_element / stmt_slice1 (generic in the
   type field packed_data_type yields, under "it parses as a type the location matches"), instances below. *)
From PV Require Import Proofs.WriteSlices.

Definition C02_write_correct_element : Prop := stmt_element.
Theorem C02_write_correct_element_holds : C02_write_correct_element.
Proof. exact write_correct_element. Qed.
Print Assumptions C02_write_correct_element_holds.

Definition C02_write_correct_slice1 : Prop := stmt_slice1.
Theorem C02_write_correct_slice1_holds : C02_write_correct_slice1.
Proof. exact write_correct_slice1. Qed.
Print Assumptions C02_write_correct_slice1_holds.

(* the instance for an element of an array of structures / strings given as a dict / str
   (`udts[i]`, `udt.inner[k]`, `strs[i]`): type field = the structure handle *)
Definition C02_write_correct_element_struct : Prop :=
  forall p m r inst off tid dims avail t e x rv m_ref img id tag n0 inst_id ui seq path,
  ty_guard (depth_fuel p) p (BStruct tid) = true -> wty_of (depth_fuel p) p (BStruct tid) = Some e ->
  resolve p r = Some (PlData inst off (BStruct tid) dims avail) -> r_bit r = None -> r_count r = None ->
  mem_get m inst = Some img ->
  find_template (p_templates p) tid = Some t -> 0 <= t_handle t < 65536 -> PyStr.text_eqb (t_name t) n_DWORD = false ->
  denotes x rv -> ref_write p m r rv = Some m_ref -> 1 <= avail -> 0 <= seq < 65536 ->
  let info := mkInfo true (t_name t) (WArray n0 e) (t_handle t) inst_id in
  let q := mkParsed id false tag None 1 None info x in
  let l := mkWLoc inst off (BStruct tid) dims avail None in
  path_of tag info ui = Ok (Some path) ->
  exists data pk pk1,
    encode_value q = Ok (data, 1)
    /\ new_write_packet KWrite seq tag 1 info id ui 0 data = Ok pk
    /\ build_message pk = Ok pk1
    /\ k_message pk1 = le_enc 2 seq ++ [77] ++ path ++ write_data (160 :: 2 :: le_enc 2 (t_handle t)) 1 data
    /\ svc_write p m img l (write_data (160 :: 2 :: le_enc 2 (t_handle t)) 1 data) = (m_ref, mr_ok [], [EvApp 1 [inst; off; 77] data]).
Theorem C02_write_correct_element_struct_holds : C02_write_correct_element_struct.
Proof. exact write_correct_element_struct. Qed.
Print Assumptions C02_write_correct_element_struct_holds.

(* the instance for an element of an array of integers / REALs / LREALs, incl. an array MEMBER (`udt.arr[j]`) *)
Definition C02_write_correct_element_atom : Prop :=
  forall p m r inst off c dims avail name x rv m_ref img id tag n0 tyh inst_id ui seq path,
  resolve p r = Some (PlData inst off (BAtom c) dims avail) -> r_bit r = None -> r_count r = None ->
  mem_get m inst = Some img ->
  atom_name c = Some name -> value_atom c = true ->
  denotes x rv -> ref_write p m r rv = Some m_ref -> 1 <= avail -> 0 <= seq < 65536 ->
  let info := mkInfo false name (WArray n0 (WElem name)) tyh inst_id in
  let q := mkParsed id false tag None 1 None info x in
  let l := mkWLoc inst off (BAtom c) dims avail None in
  path_of tag info ui = Ok (Some path) ->
  exists data pk pk1,
    encode_value q = Ok (data, 1)
    /\ new_write_packet KWrite seq tag 1 info id ui 0 data = Ok pk
    /\ build_message pk = Ok pk1
    /\ k_message pk1 = le_enc 2 seq ++ [77] ++ path ++ write_data (le_enc 2 c) 1 data
    /\ svc_write p m img l (write_data (le_enc 2 c) 1 data) = (m_ref, mr_ok [], [EvApp 1 [inst; off; 77] data]).
Theorem C02_write_correct_element_atom_holds : C02_write_correct_element_atom.
Proof. exact write_correct_element_atom. Qed.
Print Assumptions C02_write_correct_element_atom_holds.

(* `{1}` instances *)
Definition C02_write_correct_slice1_struct : Prop :=
  forall p m r inst off tid dims avail t e l_py vs m_ref img id tag n0 inst_id ui seq path,
  ty_guard (depth_fuel p) p (BStruct tid) = true -> wty_of (depth_fuel p) p (BStruct tid) = Some e ->
  resolve p r = Some (PlData inst off (BStruct tid) dims avail) -> r_bit r = None -> r_count r = Some 1 ->
  mem_get m inst = Some img ->
  find_template (p_templates p) tid = Some t -> 0 <= t_handle t < 65536 -> PyStr.text_eqb (t_name t) n_DWORD = false ->
  Forall2 denotes l_py vs -> ref_write p m r (RList vs) = Some m_ref -> 0 <= seq < 65536 ->
  let info := mkInfo true (t_name t) (WArray n0 e) (t_handle t) inst_id in
  let q := mkParsed id false tag None 1 None info (PList l_py) in
  let l := mkWLoc inst off (BStruct tid) dims avail None in
  path_of tag info ui = Ok (Some path) ->
  exists data pk pk1,
    encode_value q = Ok (data, 1)
    /\ new_write_packet KWrite seq tag 1 info id ui 0 data = Ok pk
    /\ build_message pk = Ok pk1
    /\ k_message pk1 = le_enc 2 seq ++ [77] ++ path ++ write_data (160 :: 2 :: le_enc 2 (t_handle t)) 1 data
    /\ svc_write p m img l (write_data (160 :: 2 :: le_enc 2 (t_handle t)) 1 data) = (m_ref, mr_ok [], [EvApp 1 [inst; off; 77] data]).
Theorem C02_write_correct_slice1_struct_holds : C02_write_correct_slice1_struct.
Proof. exact write_correct_slice1_struct. Qed.
Print Assumptions C02_write_correct_slice1_struct_holds.

Definition C02_write_correct_slice1_atom : Prop :=
  forall p m r inst off c dims avail name l_py vs m_ref img id tag n0 tyh inst_id ui seq path,
  resolve p r = Some (PlData inst off (BAtom c) dims avail) -> r_bit r = None -> r_count r = Some 1 ->
  mem_get m inst = Some img ->
  atom_name c = Some name -> value_atom c = true ->
  Forall2 denotes l_py vs -> ref_write p m r (RList vs) = Some m_ref -> 0 <= seq < 65536 ->
  let info := mkInfo false name (WArray n0 (WElem name)) tyh inst_id in
  let q := mkParsed id false tag None 1 None info (PList l_py) in
  let l := mkWLoc inst off (BAtom c) dims avail None in
  path_of tag info ui = Ok (Some path) ->
  exists data pk pk1,
    encode_value q = Ok (data, 1)
    /\ new_write_packet KWrite seq tag 1 info id ui 0 data = Ok pk
    /\ build_message pk = Ok pk1
    /\ k_message pk1 = le_enc 2 seq ++ [77] ++ path ++ write_data (le_enc 2 c) 1 data
    /\ svc_write p m img l (write_data (le_enc 2 c) 1 data) = (m_ref, mr_ok [], [EvApp 1 [inst; off; 77] data]).
Theorem C02_write_correct_slice1_atom_holds : C02_write_correct_slice1_atom.
Proof. exact write_correct_slice1_atom. Qed.
Print Assumptions C02_write_correct_slice1_atom_holds.

(* non-vacuity on a concrete project (Proofs/WriteSlices.ex2_proj: mix : udtMix, mixes : udtMix[3], us : udtS with a
   string member): `mixes[1]` := dict; `mixes[2]{1}` := [dict, 5]; member paths `mix.Vals[1]`, `mixes[1].Count`,
   `us.Name` resolve to the data places the clauses are stated for, and the reference / model / target agree there *)
Example C02_write_correct_element_nonvacuous :
  wf_project ex2_proj = true /\ wf_mem ex2_proj ex2_mem = true
  /\ ty_guard (depth_fuel ex2_proj) ex2_proj (BStruct 672) = true
  /\ denotes (py_of ex2_rv) ex2_rv
  /\ resolve ex2_proj (mkReq None [mkSeg (WriteFull.zs "mixes") [1]] None None) = Some (PlData 11 12 (BStruct 672) [] 2)
  /\ resolve ex2_proj (mkReq None [mkSeg (WriteFull.zs "mixes") [2]] None (Some 1)) = Some (PlData 11 24 (BStruct 672) [] 1)
  /\ resolve ex2_proj (mkReq None [mkSeg (WriteFull.zs "mix") []; mkSeg (WriteFull.zs "Vals") [1]] None None) = Some (PlData 9 8 (BAtom C_DINT) [] 1)
  /\ resolve ex2_proj (mkReq None [mkSeg (WriteFull.zs "mixes") [1]; mkSeg (WriteFull.zs "Count") []] None None) = Some (PlData 11 14 (BAtom C_INT) [] 1)
  /\ resolve ex2_proj (mkReq None [mkSeg (WriteFull.zs "us") []; mkSeg (WriteFull.zs "Name") []] None None) = Some (PlData 13 0 (BStruct 3000) [] 1).
Proof.
  split; [reflexivity|]. split; [reflexivity|]. split; [vm_compute; reflexivity|]. split; [exact ex2_denotes|].
  vm_compute. repeat split; reflexivity.
Qed.
Example C02_write_correct_element_example : _ := ex_element_struct.
Example C02_write_correct_slice1_example : _ := ex_slice1_struct.
Example C02_write_correct_member_paths_example : _ := ex_member_paths.

(* The struct clause of C02_full for EVERY well-formed project fails on a structure whose BOOL member is listed
   BEFORE a visible member covering its byte, written with a dict that contradicts itself (Pt00 = True, Data = 0 with
   Pt00 = Data.0): the code lets the bits win, the reference lets the later member win; no memory satisfies both
   entries, so this is a limit of the reference's convention, not a violation of the property text (replayed on the
   real driver through the harness (check_call of harness/props/c02.py on the fixed scenario + modT): memory after the write = "bits win",
   every byte outside the structure unchanged, one write executed, frames = the model's; with a dict that does not contradict
   itself the full oracle passes: corpus/C02/10-bool-before-host-consistent-dict.json).
   Second witness (Proofs/WriteStruct2.struct_hidden_bool): a hidden BOOL member makes the dict of the visible
   members fail with RequestError before anything is sent — no successful write, nothing for C02 to say.
   The guard is the complement of Proofs/WriteStruct.ty_guard; inside it the clause is C02_struct_holds. *)
From PV Require Import Proofs.WriteStruct2.

Theorem C02_full_refuted : ~ C02_full.
Proof. intros (_ & _ & H). exact (struct_full_refuted H). Qed.
Print Assumptions C02_full_refuted.

Definition C02_guard (p : project) (tid : Z) : bool := negb (ty_guard (depth_fuel p) p (BStruct tid)).

Definition C02_guarded_stmt : Prop :=
  C02_proved /\ C02_bool_slice1 /\ stmt_struct_with (fun p tid => C02_guard p tid = false).
Theorem C02_guarded : C02_guarded_stmt.
Proof.
  split; [exact C02_partial|]. split; [exact write_correct_bool_slice1|].
  unfold stmt_struct_with. intros p m r inst off tid dims avail t x rv m_ref img id tag ty inst_id ui seq path Hg.
  apply (write_correct_struct p m r inst off tid dims avail t x rv m_ref img id tag ty inst_id ui seq path).
  unfold C02_guard in Hg. destruct (ty_guard (depth_fuel p) p (BStruct tid)); [reflexivity|discriminate].
Qed.
Print Assumptions C02_guarded.

(* the witnesses: both projects are well-formed and outside the guard's complement; what differs / fails *)
Example C02_full_refuted_witness : _ := bh_facts.
Example C02_consistent_dict_agrees : _ := bh_consistent.
Example C02_hidden_bool_witness : _ := struct_hidden_bool.
Example C02_bit_string_members_agree : _ := bits_members_agree.
Example C02_odd_string_layout_differs : _ := odd_string_differs.
