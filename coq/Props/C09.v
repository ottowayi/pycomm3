(* Props/C09.v — emitted CIP paths denote the addressed object.
   Model: Model/Path.v (LogicalSegment / PortSegment / DataSegment._encode, EPATH.encode,
   request_path, tag_request_path, _find_tag_index; bit tables and port names regenerated into
   Gen/PathTables.v).  Oracle: the strict padded-EPATH parser and the intended readings of
   Spec/EPathParser.v.  Statements + exact + Print Assumptions only; proofs in Proofs/Path*.v, C09P.v. *)
From Coq Require Import String.
From PV Require Import Base.Bytes Base.Res Gen.PathTables Model.Path Spec.EPathParser Proofs.PathTag
     Proofs.C09P.
Open Scope Z_scope.

(* ---- logical segments: every value 0..2^32-1 of a class / instance / member / connection point /
   attribute id is emitted, has even length and is read back as exactly that type and number
   (the 255/256 and 65535/65536 format boundaries are case splits of the proof, not samples) *)
Definition C09_logical : Prop :=
  forall t lt v, assoc_text t spec_ltypes = Some lt -> 0 <= v < 4294967296 ->
    exists bs, encode_seg true (Logical t (LInt v)) = Ok bs /\ Nat.even (length bs) = true
               /\ parse_padded_epath bs = Some [SLogical lt v].

(* ---- any path: whenever PADDED_EPATH.encode(segments, length=True[, pad_length]) EMITS bytes for
   segments that have an intended reading, these are: the word count, the optional zero pad byte,
   and an even-length body of exactly that many words which the independent parser reads back as
   exactly the intended names and numbers *)
Definition C09_epath : Prop :=
  forall segs ssegs pad_length out,
    denote_all segs = Some ssegs ->
    epath_encode padded_PADDED_EPATH segs true pad_length = Ok out ->
    exists w body, out = w :: (if pad_length then [0] else []) ++ body /\ len body = 2 * w
                   /\ parse_padded_epath body = Some ssegs /\ parse_counted pad_length out = Some ssegs.

(* ---- and it does emit, unless the path needs more than 255 words (then DataError, never a
   truncated count) *)
Definition C09_epath_total : Prop :=
  forall segs ssegs pad_length,
    denote_all segs = Some ssegs ->
    exists body, encode_segs padded_PADDED_EPATH segs = Ok body /\ Nat.even (length body) = true
      /\ parse_padded_epath body = Some ssegs
      /\ epath_encode padded_PADDED_EPATH segs true pad_length
         = (if len body / 2 <=? 255 then Ok (counted pad_length body) else Err DataError)
      /\ (len body / 2 <= 255 -> parse_counted pad_length (counted pad_length body) = Some ssegs).

(* ---- class / instance / attribute paths of generic messages: always emitted *)
Definition C09_request : Prop :=
  forall c i a, 0 <= c < 4294967296 -> 0 <= i < 4294967296 ->
    match a with Some x => 0 < x < 4294967296 | None => True end ->
    exists out, request_path (LInt c) (LInt i) (option_map LInt a) = Ok out
                /\ parse_counted false out = Some (request_reading c i a).

(* ---- tag strings: for EVERY tag AST in the documented syntax (optional program scope, any
   number of nested members, any number of indices per level (the documented 0-3 included), every
   index and instance id below 2^32, names of either length parity), tag_request_path applied to its
   rendering emits the counted path that reads back as the AST's names and numbers
   (symbol-instance addressing included), or DataError when it needs more than 255 words *)
Definition C09_tag : Prop :=
  forall p inst use,
    wf_tagpath LOGICAL_LIMIT p = true -> wf_instance LOGICAL_LIMIT p inst use = true ->
    exists body, Nat.even (length body) = true
      /\ parse_padded_epath body = Some (tag_reading p inst use)
      /\ tag_request_path (render_tag p) inst use
         = (if len body / 2 <=? 255 then Ok (Some (counted false body)) else Err DataError)
      /\ (len body / 2 <= 255 -> parse_counted false (counted false body) = Some (tag_reading p inst use)).

(* ---- routes: hops with named ports or ANY CIP port number 1..65535 (above 14: port identifier
   15 + the 16-bit extended port number), slot links (int or decimal text) and IPv4 links of every
   length (link size byte + pad), optionally followed by further segments (the message-router path
   of Forward Open): emitted unless longer than 255 words, and what is emitted reads back as exactly
   those ports and link addresses *)
Definition C09_route : Prop :=
  forall hops extra extra_r pad_length,
    forallb (wf_hop 65535) hops = true -> denote_all extra = Some extra_r ->
    exists body, Nat.even (length body) = true
      /\ parse_padded_epath body = Some (map hop_reading hops ++ extra_r)
      /\ epath_encode padded_PADDED_EPATH (map hop_seg hops ++ extra) true pad_length
         = (if len body / 2 <=? 255 then Ok (counted pad_length body) else Err DataError)
      /\ (len body / 2 <= 255 ->
          parse_counted pad_length (counted pad_length body) = Some (map hop_reading hops ++ extra_r)).

Definition C09_full : Prop :=
  C09_logical /\ C09_epath /\ C09_epath_total /\ C09_request /\ C09_tag /\ C09_route.

Theorem C09_holds : C09_full.
Proof.
  split; [exact logical_ok|]. split; [exact epath_emitted_ok|]. split; [exact epath_total|].
  split; [exact request_path_ok|]. split; [exact tag_path_ok|exact route_total].
Qed.
Print Assumptions C09_holds.

(* outside the port numbers: a number that does not fit 16 bits, or a negative one, is refused
   with DataError (nothing is emitted); 0 (reserved, not a port number) is written as it is and the
   strict parser refuses the result *)
Theorem C09_port_range :
  (forall n link, 65536 <= n -> encode_seg true (Port (inl n) link) = Err DataError)
  /\ (forall n link, n < 0 -> encode_seg true (Port (inl n) link) = Err DataError)
  /\ (forall z, 0 <= z <= 255 ->
        encode_seg true (Port (inl 0) (LinkInt z)) = Ok [0; z] /\ parse_padded_epath [0; z] = None).
Proof.
  split; [intros; apply port_out_rejected; now right|].
  split; [intros; apply port_out_rejected; now left|exact port_zero_unreadable].
Qed.
Print Assumptions C09_port_range.

(* Program:Main.tag[1,256,65536].m[7] with symbol-instance addressing requested (ignored under
   program scope); arr[70000].x addressed by instance id 300; the route bp/3, enet/10.10.10.1
   then port 300 (extended port identifier) slot "7",
   followed by the message-router path *)
Definition ex_tag1 : tagpath :=
  {| tp_program := Some (txt "Main");
     tp_base := {| lv_name := txt "tag"; lv_idx := [txt "1"; txt "256"; txt "65536"] |};
     tp_members := [{| lv_name := txt "m"; lv_idx := [txt "7"] |}] |}.
Definition ex_tag2 : tagpath :=
  {| tp_program := None;
     tp_base := {| lv_name := txt "arr"; lv_idx := [txt "70000"] |};
     tp_members := [{| lv_name := txt "x"; lv_idx := [] |}] |}.
Definition ex_hops : list hop :=
  [{| hop_port := inr (txt "bp"); hop_to := HSlot 3 |};
   {| hop_port := inl 2; hop_to := HAddr (txt "10") (txt "10") (txt "10") (txt "1") |};
   {| hop_port := inl 300; hop_to := HSlotStr (txt "7") |}].
Definition ex_mr : list seg := [Logical (txt "class_id") (LBytes [2]); Logical (txt "instance_id") (LInt 1)].

Example C09_nonvacuous :
  wf_tagpath LOGICAL_LIMIT ex_tag1 = true /\ wf_instance LOGICAL_LIMIT ex_tag1 (Some 9) true = true
  /\ tag_request_path (render_tag ex_tag1) (Some 9) true
     = Ok (Some [19; 145; 12; 80; 114; 111; 103; 114; 97; 109; 58; 77; 97; 105; 110; 145; 3; 116; 97; 103; 0;
                 40; 1; 41; 0; 0; 1; 42; 0; 0; 0; 1; 0; 145; 1; 109; 0; 40; 7])
  /\ wf_tagpath LOGICAL_LIMIT ex_tag2 = true /\ wf_instance LOGICAL_LIMIT ex_tag2 (Some 300) true = true
  /\ tag_reading ex_tag2 (Some 300) true = [SLogical 0 107; SLogical 1 300; SLogical 2 70000; SSymbol (txt "x")]
  /\ tag_request_path (render_tag ex_tag2) (Some 300) true
     = Ok (Some [8; 32; 107; 37; 0; 44; 1; 42; 0; 112; 17; 1; 0; 145; 1; 120; 0])
  /\ forallb (wf_hop 65535) ex_hops = true
  /\ epath_encode padded_PADDED_EPATH (map hop_seg ex_hops ++ ex_mr) true true
     = Ok [11; 0; 1; 3; 18; 10; 49; 48; 46; 49; 48; 46; 49; 48; 46; 49; 15; 44; 1; 7; 32; 2; 36; 1]
  /\ parse_counted true [11; 0; 1; 3; 18; 10; 49; 48; 46; 49; 48; 46; 49; 48; 46; 49; 15; 44; 1; 7; 32; 2; 36; 1]
     = Some [SPort 1 [3]; SPort 2 (txt "10.10.10.1"); SPort 300 [7]; SLogical 0 2; SLogical 1 1].
Proof. vm_compute. repeat split. Qed.
