(* Props/C08.v — codec failures are DataError: never foreign, silent or non-terminating.
   Statements over the shared codec model (Model/Codec.v as of /repo bcb4254, after the codec fix
   wave; its primitives raise [Foreign] exactly where Python's do, its public wrappers sit where
   the code's do); each clause is a theorem of Proofs/CodecErr*.v, the guarded statement is put
   together from them here.  The side conditions and spec-side notions ([bad], [announced],
   [be_ok], ...) are in Proofs/CodecErrDefs.v.

   What the fix wave repaired is now PROVED at full strength (no guard): no exception but DataError
   escapes any encode (F22, DATE_AND_TIME); no value from fewer bytes than the type / the prefix
   announces (F17); BufferEmptyError only at the end of the buffer (STRINGN "", n_bytes(0)); the
   unbounded array terminates over every element type (F18) and decodes whole elements exactly.
   Two clauses are still falsified by the code: arrays of bit strings accept too few bits silently,
   and Array(<length type>, T) over an element type of no size runs `count` rounds (the one witness
   refutes both the termination clause and the clause on decode errors). *)
From Coq Require Import String.
From PV Require Import Base.Bytes Base.Res Base.Proto Model.Codec.
From PV Require Import Proofs.CodecErrDefs Proofs.CodecErrDec Proofs.CodecErrEnc Proofs.CodecErrArr Proofs.CodecErrAll.
Open Scope Z_scope.

(* encode: bytes or DataError, from every type and every value *)
Definition encode_total_full : Prop := forall t v, lib_enc (encode t v).
(* a value clearly outside the domain raises DataError *)
Definition encode_rejects_full : Prop := forall t v, bad t v = true -> encode t v = Err DataError.
(* decode: a value, DataError or BufferEmptyError — in particular the call returns ([decode] maps
   a loop that outruns its fuel to a foreign marker) *)
Definition decode_errors_full : Prop := forall t bs, lib_dec (decode t bs).
Definition decode_all_terminates_full : Prop :=
  forall t fuel bs, (length bs < fuel)%nat -> decode_fuel fuel t bs <> DOutOfFuel.
(* BufferEmptyError only when no bytes remain.  [be_ok] is a well-formedness condition on type
   TERMS, not on the code: every StructTag inside the type has its members inside struct_size and
   cannot be decoded from nothing (it has a member of positive size, or a bit member) — what the
   Logix driver builds from a template. *)
Definition buffer_empty_only_at_start_full : Prop :=
  forall t fuel bs rest, be_ok t = true -> decode_fuel fuel t bs = DEmpty rest -> rest = [].
(* no value from fewer bytes than the type's width / the head of the buffer announces *)
Definition no_short_read_full : Prop :=
  forall t bs v rest k, be_ok t = true -> decode t bs = Ok (v, rest) -> announced t bs = Some k -> k <= zlen bs.
(* an unbounded array over a buffer made of whole elements — chunks that each decode to a value
   wherever they stand, none empty — with an element type that reports the exhausted buffer,
   decodes exactly those elements and consumes the buffer *)
Definition decode_all_exact_full : Prop :=
  forall e (items : list (bytes * val)),
    is_bits e = false ->
    (forall b v, In (b, v) items -> b <> [] /\ forall fuel tail, decode_fuel fuel e (b ++ tail) = DOk v tail) ->
    (forall fuel, decode_fuel fuel e [] = DEmpty []) ->
    decode (TArrAll e) (concat (map fst items)) = Ok (VList (map snd items), []).

Definition C08_full : Prop :=
  encode_total_full /\ encode_rejects_full /\ decode_errors_full /\ decode_all_terminates_full
  /\ buffer_empty_only_at_start_full /\ no_short_read_full /\ decode_all_exact_full.

Theorem C08_encode_total_holds : encode_total_full.
Proof. exact encode_lib. Qed.
Print Assumptions C08_encode_total_holds.
Theorem C08_buffer_empty_holds : buffer_empty_only_at_start_full.
Proof. exact buffer_empty_at_end. Qed.
Print Assumptions C08_buffer_empty_holds.
Theorem C08_no_short_read_holds : no_short_read_full.
Proof. exact no_short_read. Qed.
Print Assumptions C08_no_short_read_holds.
Theorem C08_decode_all_exact_holds : decode_all_exact_full.
Proof. exact decode_all_exact_items. Qed.
Print Assumptions C08_decode_all_exact_holds.

(* BYTE[2].encode([True] * 8) == b"\xff": too few bits for a fixed array of bit strings, no error *)
Theorem C08_encode_rejects_refuted : ~ encode_rejects_full.
Proof. intros H. destruct w_bits_array as [Hb He]. specialize (H _ _ Hb). rewrite He in H. discriminate H. Qed.
Print Assumptions C08_encode_rejects_refuted.
(* Array(UDINT, Struct()).decode(b"\xff\xff\xff\xff") runs 4294967295 rounds on an exhausted buffer *)
Theorem C08_decode_all_terminates_refuted : ~ decode_all_terminates_full.
Proof. intros H. exact (H _ 5%nat [255; 255; 255; 255] (le_n _) (w_prefix_zero_width 5%nat)). Qed.
Print Assumptions C08_decode_all_terminates_refuted.
Theorem C08_decode_errors_refuted : ~ decode_errors_full.
Proof.
  intros H. exact (hang_not_lib _ _ (w_prefix_zero_width _) (H _ _)).
Qed.
Print Assumptions C08_decode_errors_refuted.

Theorem C08_full_refuted : ~ C08_full.
Proof. intros (_ & H & _). exact (C08_encode_rejects_refuted H). Qed.
Print Assumptions C08_full_refuted.

(* [silent t v]: an array of bit strings inside the value has too few bits or a partial element.
   [hprogress t]: every Array(<length type>, T) inside the type is over an element type whose
   successful decode consumes input; the buffer is shorter than the model's [count_limit] (2^20)
   when the type has such an array (the bound of the loop the model runs for one range(count)). *)
Definition C08_guard_rejects (t : ty) (v : val) : bool := silent t v.
Definition C08_guard_terminates (t : ty) : bool := negb (hprogress t).

Definition C08_guarded_statement : Prop :=
  (forall t v, C08_guard_rejects t v = false -> bad t v = true -> encode t v = Err DataError)
  /\ (forall time date, lib_enc (datetime_encode2 time date))
  /\ (forall cs v, lib_enc (stringn_encode_cs cs v))
  /\ (forall items, lib_enc (stringi_encode_args items))
  (* no foreign exception from any type, any fuel *)
  /\ (forall fuel t bs e, decode_fuel fuel t bs = DErr e -> e = DataError)
  /\ (forall t bs, C08_guard_terminates t = false -> (has_prefix t = true -> Z.of_nat (length bs) < count_limit) ->
        lib_dec (decode t bs))
  /\ (forall t fuel bs, C08_guard_terminates t = false -> (length bs < fuel)%nat ->
        (has_prefix t = true -> Z.of_nat (length bs) < count_limit) -> decode_fuel fuel t bs <> DOutOfFuel)
  (* types without a length-prefixed array need no condition: Array._decode_all always ends *)
  /\ (forall t fuel bs, has_prefix t = false -> (length bs < fuel)%nat -> decode_fuel fuel t bs <> DOutOfFuel)
  /\ (forall t w bs v rest, be_ok t = true -> width_of t = Some w -> decode t bs = Ok (v, rest) -> (w <= length bs)%nat)
  /\ (forall t k bs, total_leaf t = true -> length bs = (k * swidth t)%nat ->
        exists vs, length vs = k /\ decode (TArrAll t) bs = Ok (VList vs, [])).

Theorem C08_guarded : C08_guarded_statement.
Proof.
  unfold C08_guarded_statement, C08_guard_rejects, C08_guard_terminates. repeat apply conj.
  - intros t v Hg Hb. exact (encode_rejects_dataerror t v Hb Hg).
  - intros time date. apply wrap_all_lib.
  - intros cs v. apply wrap_all_lib.
  - intros items. apply wrap_all_lib.
  - exact decode_lib.
  - intros t bs Hg. apply decode_errors. now apply Bool.negb_false_iff.
  - intros t fuel bs Hg. apply decode_terminates. now apply Bool.negb_false_iff.
  - exact decode_all_terminates.
  - exact no_short_fixed_width.
  - exact decode_all_exact_fixed.
Qed.
Print Assumptions C08_guarded.

(* what the code does on the witnesses that make the two guards necessary *)
Example C08_deviations :
  (bad (TArrFixed 2 BYTE_ty) (VList (repeat (VBool true) 8)) = true /\ encode (TArrFixed 2 BYTE_ty) (VList (repeat (VBool true) 8)) = Ok [255])
  /\ (bad (TArrAll BYTE_ty) (VList (repeat (VBool true) 12)) = true /\ encode (TArrAll BYTE_ty) (VList (repeat (VBool true) 12)) = Ok [255])
  /\ (forall fuel, decode_fuel fuel (TArrPrefix false UDINT_ty (TStruct SPlain [])) [255; 255; 255; 255] = DOutOfFuel).
Proof. split; [exact w_bits_array|split; [split; reflexivity|exact w_prefix_zero_width]]. Qed.

(* the classes the fix wave repaired, as the model (and the code) now behave *)
Example C08_repaired :
  encode (TArrFixed 2 UINT_ty) VNone = Err DataError
  /\ encode (ty_named "DATE_AND_TIME") (VTuple [VInt 1; VInt 2]) = Ok [1; 0; 0; 0; 2; 0]
  /\ encode (ty_named "DATE_AND_TIME") (VInt 5) = Err DataError
  /\ encode (TStruct SPlain [(Some [97], UINT_ty); (Some [98], UINT_ty)]) (VList [VInt 1]) = Err DataError
  /\ encode (TNBytes 2) (VStr [97; 98]) = Err DataError
  /\ decode (TArrAll (TStruct SPlain [])) [] = Ok (VList [], [])
  /\ decode (TArrAll TPcccAscii) [97; 98] = Ok (VList [VStr [98; 97]], [])
  /\ decode STRINGN_ty [1; 0; 0; 0; 65] = Ok (VStr [], [65])
  /\ decode (TNBytes 0) [97; 98] = Ok (VBytes [], [97; 98])
  /\ decode STRING_ty [5; 0; 97; 98] = Err DataError
  /\ decode (TNBytes 4) [97; 98] = Err DataError
  /\ decode (TFixedStr 4 false 4 4) [4; 0; 0; 0; 97; 98] = Err DataError
  /\ decode (TStructTag [((Some [120], 0%nat), TInt true 4)] [] [] 8) [1; 0; 0; 0] = Err DataError
  /\ decode TPcccAscii [] = Err BufferEmpty.
Proof. repeat split; reflexivity. Qed.

(* a structure of an integer, a string, a padded StructTag with members out of order and a hidden
   bit host, in an unbounded array; a length-prefixed array of it: outside every guard *)
Definition ex_stag : ty :=
  TStructTag [((Some [104], 4%nat), TInt false 1); ((Some [120], 0%nat), TInt true 4)] [([98], (4%nat, 3%nat))] [[104]] 8.
Definition ex_elem : ty := TStruct SPlain [(Some [110], UINT_ty); (Some [115], STRING_ty); (Some [116], ex_stag)].
Example C08_nonvacuous :
  C08_guard_terminates (TArrPrefix false UINT_ty ex_elem) = false /\ be_ok (TArrAll ex_elem) = true
  /\ width_of ex_stag = Some 8%nat /\ strict (TArrFixed 3 (TStruct SPlain [(None, UINT_ty); (None, ex_stag)])) = true
  /\ decode (TArrAll ex_elem) [1; 0; 2; 0; 97; 98; 255; 255; 255; 255; 8; 0; 0; 0;  2; 0; 0; 0; 5; 0; 0; 0; 0; 7; 7; 7]
     = Ok (VList [VDict [(Some [110], VInt 1); (Some [115], VStr [97; 98]); (Some [116], VDict [(Some [120], VInt (-1)); (Some [98], VBool true)])];
                  VDict [(Some [110], VInt 2); (Some [115], VStr []); (Some [116], VDict [(Some [120], VInt 5); (Some [98], VBool false)])]], [])
  /\ decode (TArrPrefix false UINT_ty ex_elem) [1; 0;  1; 0; 2; 0; 97; 98; 255; 255; 255; 255; 8; 0; 0; 0;  9]
     = Ok (VList [VDict [(Some [110], VInt 1); (Some [115], VStr [97; 98]); (Some [116], VDict [(Some [120], VInt (-1)); (Some [98], VBool true)])]], [9])
  /\ decode (TArrAll ex_elem) [1; 0; 2; 0; 97; 98; 255; 255; 255] = Err DataError
  /\ decode ex_stag [1; 0; 0; 0] = Err DataError /\ decode ex_stag [] = Err BufferEmpty
  (* BufferEmptyError at the end of the buffer, after the length prefix: the reading of
     "where a value should start" recorded in harness/props/c08.py; consequence: an unbounded array
     drops a trailing element that is cut exactly at a component boundary *)
  /\ decode STRING_ty [5; 0] = Err BufferEmpty
  /\ decode (TArrAll ex_elem) [1; 0; 2; 0; 97; 98] = Ok (VList [], [])
  /\ (let v := VList [VInt 1; VStr [97]] in
      C08_guard_rejects ex_elem v = false /\ bad ex_elem v = true /\ encode ex_elem v = Err DataError)
  /\ (let v := VDict [(Some [110], VInt 7); (Some [115], VStr [256]); (Some [116], VDict [(Some [120], VInt 0); (Some [98], VBool true)])] in
      C08_guard_rejects ex_elem v = false /\ bad ex_elem v = true /\ encode ex_elem v = Err DataError)
  /\ bad (TArrFixed 2 UINT_ty) VNone = true /\ encode (TArrFixed 2 UINT_ty) VNone = Err DataError
  /\ C08_guard_rejects (TArrFixed 2 BYTE_ty) (VList [VBool true]) = false /\ encode (TArrFixed 2 BYTE_ty) (VList [VBool true]) = Err DataError.
Proof. vm_compute. repeat split. Qed.
