(* Props/C16.v — device identities decode faithfully.
   Statement + exact + Print Assumptions only.  Model: Model/Identity.v (ListIdentityObject,
   ModuleIdentityObject, IPAddress, Revision, the reply packets, list_identity, get_module_info,
   get_plc_info, the response loop of discover).  Independent side: Spec/IdentitySpec.v (what a device
   puts on the wire for an [ident], field by field, and the [view_*] the statement demands).
   VENDORS / PRODUCT_TYPES / KEYSWITCH and the type declarations are Gen/Vendors.v, Gen/Status.v,
   Gen/Types.v, regenerated from /repo on every run. *)
From Coq Require Import String.
From PV Require Import Base.Bytes Base.Res Base.Proto Base.PyStr Model.Identity Spec.IdentitySpec.
From PV Require Import Spec.RegistrySpec.
From PV Require Import Proofs.IdentityHex Proofs.IdentityP Proofs.IdentityRegistry.
From PV Require Gen.Vendors Gen.Status.
Open Scope Z_scope.

Definition C16_full : Prop :=
  (* EVERY identity a device may report: vendor / product type / product code 0..65535 (known or not),
     revisions 0..255, status word, serial 0..2^32-1, product name of any length 0..255 over Latin-1,
     IPv4 address, state; any echoed context, any session handle, any further attributes appended *)
  (forall i, fields_in_range i = true ->
     (* ListIdentity reply -> list_identity / _list_identity; the packet is a valid response *)
     (forall ctx, length ctx = 8%nat ->
        list_identity (spec_list_identity_reply ctx i) = Some (view_list i)
        /\ li_is_valid (ListIdentityResponsePacket (spec_list_identity_reply ctx i)) = true)
     (* Identity object in a SendRRData reply (fetched by UCMM or through Unconnected Send: same reply
        layout) -> get_module_info and get_plc_info (with the keyswitch text of the status bytes) *)
     /\ (forall ses ctx extra, length ctx = 8%nat ->
           get_module_info (spec_identity_object_reply ses ctx i extra) = Ok (view_module i)
           /\ get_plc_info (spec_identity_object_reply ses ctx i extra) = Ok (view_plc i))
     (* the two struct decoders themselves *)
     /\ (forall extra, ModuleIdentityObject_decode (spec_identity_object i ++ extra) = Ok (view_module i))
     /\ (forall len rest, ListIdentityObject_decode
                            (spec_u16le 12 ++ spec_u16le len ++ spec_list_identity_item i ++ rest) = Ok (view_list i)))
  (* the parsing used by discover: every answering device is reported, in order *)
  /\ (forall l : list (list Z * ident),
        Forall (fun p => length (fst p) = 8%nat /\ fields_in_range (snd p) = true) l ->
        broadcast_discover_responses (map (fun p => spec_list_identity_reply (fst p) (snd p)) l)
        = map (fun p => view_list (snd p)) l)
  (* what the view says about the serial: exactly 8 lower-case hex digits that read back as the
     number, and it is what Python's format(n, "08x") yields (all n < 2^32, by arithmetic) *)
  /\ (forall n, 0 <= n < 4294967296 ->
        length (hex8 n) = 8%nat /\ forallb lower_hex (hex8 n) = true /\ unhex (hex8 n) = Some n
        /\ fmt_08x n = hex8 n)
  (* ... and about the ids: the table's text, or "UNKNOWN" *)
  /\ (forall i, d_vendor (view_module i) = match tbl_find Gen.Vendors.vendors (i_vendor i) with Some n => n | None => zs_of_string "UNKNOWN"%string end
             /\ d_product_type (view_module i) = match tbl_find Gen.Status.product_types (i_product_type i) with Some n => n | None => zs_of_string "UNKNOWN"%string end)
  (* encoding an identity dictionary and decoding it again is the identity *)
  /\ (forall d, in_dom d = true ->
        exists b, ModuleIdentityObject_encode d = Ok b /\ ModuleIdentityObject_decode b = Ok d).

Theorem C16_holds : C16_full.
Proof.
  split; [exact identity_faithful_all|]. split; [exact discover_faithful|]. split; [exact serial_text_all|].
  split; [intros i; split; reflexivity|exact identity_encode_decode].
Qed.
Print Assumptions C16_holds.

(* ---- the documented registries (Spec/RegistrySpec.v: hand-maintained snapshot, NOT regenerated) are
   preserved by the tables of /repo: every documented vendor id / product type / keyswitch status pair
   still maps to its documented text.  spec ⊆ regenerated: additions are quiet; a deleted, renamed
   or renumbered entry breaks this obligation (and, through C16_holds, every decode path then shows it). *)
Theorem registry_preserved :
  (forall id name, In (id, name) spec_vendors -> tbl_find Gen.Vendors.vendors id = Some name)
  /\ (forall id name, In (id, name) spec_product_types -> tbl_find Gen.Status.product_types id = Some name)
  /\ (forall b0 sub b1 text, In (b0, sub) spec_keyswitch_table -> In (b1, text) sub -> spec_keyswitch b0 b1 = text)
  /\ (forall i, (forall name, In (i_vendor i, name) spec_vendors -> d_vendor (view_module i) = name)
             /\ (forall name, In (i_product_type i, name) spec_product_types -> d_product_type (view_module i) = name)).
Proof.
  split; [exact vendors_preserved|]. split; [exact product_types_preserved|].
  split; [exact keyswitch_preserved|exact registry_view].
Qed.
Print Assumptions registry_preserved.

Example registry_nonvacuous :
  (1000 <= length spec_vendors)%nat /\ (30 <= length spec_product_types)%nat
  /\ In (9876, zs_of_string "ODVA"%string) spec_vendors
  /\ In (1, zs_of_string "Rockwell Automation/Allen-Bradley"%string) spec_vendors.
Proof. exact spec_registry_inhabited. Qed.

(* non-vacuity: a ControlLogix-like identity (known vendor and product type, serial with leading zeros)
   is in range, its ListIdentity reply decodes to the expected dict, and that dict is in the encode domain *)
Definition ex_ident : ident :=
  {| i_vendor := 1; i_product_type := 14; i_product_code := 166; i_major := 32; i_minor := 11; i_status := 12384 (* 0x3060 *);
     i_serial := 12648430 (* 0x00C0FFEE *); i_name := zs_of_string "1756-L83E/B"%string; i_encap_version := 1; i_sin_family := 2;
     i_sin_port := 44818; i_ip := 3232235786 (* 192.168.1.10 *); i_state := 3 |}.
Example C16_nonvacuous :
  fields_in_range ex_ident = true
  /\ list_identity (spec_list_identity_reply (zs_of_string "_pycomm_"%string) ex_ident)
     = Some {| l_encap := 1; l_ip := zs_of_string "192.168.1.10"%string;
               l_id := {| d_vendor := zs_of_string "Rockwell Automation/Allen-Bradley"%string;
                          d_product_type := zs_of_string "Programmable Logic Controller"%string;
                          d_product_code := 166; d_major := 32; d_minor := 11; d_status := [96; 48];
                          d_serial := zs_of_string "00c0ffee"%string; d_product_name := zs_of_string "1756-L83E/B"%string |};
               l_state := 3 |}
  /\ p_keyswitch (view_plc ex_ident) = zs_of_string "REMOTE RUN"%string
  /\ in_dom (view_module ex_ident) = true
  /\ d_vendor (view_module {| i_vendor := 0; i_product_type := 65535; i_product_code := 0; i_major := 0; i_minor := 0;
                              i_status := 0; i_serial := 0; i_name := []; i_encap_version := 0; i_sin_family := 0;
                              i_sin_port := 0; i_ip := 0; i_state := 0 |}) = zs_of_string "UNKNOWN"%string.
Proof. vm_compute. repeat split. Qed.
