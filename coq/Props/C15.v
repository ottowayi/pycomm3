(* Props/C15.v — connection-path strings parse to the documented route.
   Statement + exact + Print Assumptions only.  Model: Model/ConnPath.v (parse_connection_path,
   parse_cip_route, CIPDriver.__init__) over Model/Path.v (PortSegment._encode, EPATH.encode).
   Independent oracle: Spec/ConnPathGrammar.v (route AST, [render], reference wire form from the CIP
   specification, total reference reader [ref_parse]).  [outcome s auto pl] = what a caller observes
   from parse_connection_path(s, auto) followed by PADDED_EPATH.encode(route, length=True,
   pad_length=pl): the exception, or (host, TCP port, route bytes). *)
From Coq Require Import String.
From PV Require Import Base.Bytes Base.Res Base.PyStr Model.ConnPath Spec.ConnPathGrammar
     Proofs.ConnPathRef Proofs.ConnPathRender Proofs.C15P.
Open Scope Z_scope.

(* "every path string in the documented grammar yields the stated host, TCP port and route":
   every CIP port number 1..65535 (by name or number), every link 0..255 or dotted quad, the
   shortcuts; [fits]: the route has a wire form (always, up to 25 hops: C15_side_conditions) *)
Definition C15_sound : Prop :=
  forall a sp auto pl hs,
    wf_route a = true -> wf_spelling sp a = true -> hops_of auto (r_shape a) = Some hs ->
    fits hs = true ->
    outcome (render sp a) auto pl = inr (r_host a, r_tcp a, route_wire pl hs).

Definition C15_rest : Prop :=
  (* all spellings of the same route: identical route bytes (or the same exception) *)
  (forall a sp1 sp2 auto pl, wf_route a = true -> wf_spelling sp1 a = true -> wf_spelling sp2 a = true ->
     outcome (render sp1 a) auto pl = outcome (render sp2 a) auto pl)
  (* which drivers enable the bare-address and address/slot shortcuts (regenerated class flags) *)
  /\ (auto_slot_of CIPDriver = false /\ auto_slot_of LogixDriver = true /\ auto_slot_of SLCDriver = true)
  (* every string the reference reader puts in a rejection class (odd number of route segments,
     unknown port name, link out of range / not a link, invalid TCP port) is rejected with
     RequestError or DataError, and never yields route bytes *)
  /\ (forall s auto pl, must_reject (ref_parse auto s) = true ->
        (outcome s auto pl = inl RequestError \/ outcome s auto pl = inl DataError)
        /\ forall h t b, outcome s auto pl <> inr (h, t, b))
  (* with the exception the property names: at parse time for segment-count and TCP-port errors *)
  /\ (forall s auto, v_route (ref_parse auto s) = RouteReject OddSegments ->
        parse_connection_path s auto = Err RequestError)
  /\ (forall s auto, v_tcp (ref_parse auto s) = TcpBad -> parse_connection_path s auto = Err RequestError)
  /\ (forall s auto pl c, v_route (ref_parse auto s) = RouteReject c -> c <> OddSegments -> rejected s auto pl)
  (* a route that cannot be encoded yields no Forward Open path either *)
  /\ (forall segs pl e, encode_route segs pl = Err e -> forward_open_path segs pl = Err DataError)
  (* no silent corruption anywhere: whatever string is accepted has the reference host, and the
     reference TCP port and route bytes wherever the reference defines them *)
  /\ (forall s auto pl h t b, outcome s auto pl = inr (h, t, b) ->
        h = v_host (ref_parse auto s)
        /\ match v_tcp (ref_parse auto s) with
           | TcpNone => t = None | TcpOk p => t = Some p | TcpBad => False | TcpLenient => True end
        /\ match v_route (ref_parse auto s) with
           | RouteOk hs => fits hs = true -> b = route_wire pl hs
           | RouteReject _ => False
           | RouteUnspec => True
           end)
  (* converse: what is accepted is in the grammar (widened by the zones the property is silent on) *)
  /\ (forall s auto pl, accepts s auto pl -> in_grammar auto s = true)
  /\ (forall s auto pl, accepts s auto pl ->
        in_grammar_strict auto s = true \/ silent (ref_parse auto s) = true).

Definition C15_full : Prop := C15_sound /\ C15_rest.

Lemma C15_rest_holds : C15_rest.
Proof.
  split; [exact spellings_agree|]. split; [exact driver_flags|].
  split; [intros s auto pl H; split; [exact (rejected_no_bytes s auto pl H)|exact (never_bytes_on_error s auto pl H)]|].
  split; [exact odd_segments_rejected|]. split; [exact bad_tcp_port_rejected|].
  split; [intros s auto pl c H _; exact (bad_hop_rejected s auto pl c H)|].
  split; [exact forward_open_never_bytes_on_error|]. split; [exact accepted_is_reference|].
  split; [exact accepts_in_grammar|exact accepts_in_grammar_strict_partial].
Qed.

Theorem C15_holds : C15_full.
Proof. split; [exact parse_sound|exact C15_rest_holds]. Qed.
Print Assumptions C15_holds.

(* regression witness of the repaired defect (fix a95af7d): "h/15/1" uses the extended port
   identifier 0F 0F 00 (before the fix the code emitted 0F 01) *)
Example C15_port_15 :
  outcome [104; 47; 49; 53; 47; 49] false false = inr ([104], None, [2; 15; 15; 0; 1]).
Proof. vm_compute. reflexivity. Qed.

(* "for every call, whatever happened before": [outcome] is a Gallina function of the path string
   and the two flags only, so the model has no history to quantify over and the clause needs no
   theorem; it is a fact about the CODE (no memoisation, no shared mutable route list), tied by the
   harness's history probes (re-parse after the earlier result was mutated in place; a second driver
   after the first stripped its stored route as LogixDriver._initialize_driver does for a Micro800) *)
Remark C15_no_history : forall s s' auto auto' pl pl',
  s = s' -> auto = auto' -> pl = pl' -> outcome s auto pl = outcome s' auto' pl'.
Proof. intros; subst; reflexivity. Qed.

(* the drivers store what the parse returned *)
Theorem C15_driver_init : forall d a sp hs,
  wf_route a = true -> wf_spelling sp a = true -> hops_of (auto_slot_of d) (r_shape a) = Some hs ->
  fits hs = true ->
  exists segs, driver_init d (render sp a)
               = Ok (mkCfg (r_host a) (match r_tcp a with Some p => p | None => TCP_DEFAULT end) segs)
               /\ forall pl, encode_route segs pl = Ok (route_wire pl hs).
Proof.
  intros d a sp hs Hwf Hsp Hh Hf. now apply driver_init_sound.
Qed.
Print Assumptions C15_driver_init.

(* the rejection classes spelled out on the fields of the string, each universally quantified *)
Theorem C15_rejection_classes :
  (forall s auto, Nat.odd (List.length (route_fields s)) = true ->
     (auto = true -> List.length (route_fields s) <> 1%nat) ->
     parse_connection_path s auto = Err RequestError)
  /\ (forall s auto pl, Nat.even (List.length (route_fields s)) = true ->
        some_pair (fun p _ => match lookup p doc_port_names with Some _ => false | None => negb (isdigit p) end)
                  (route_fields s) = true -> rejected s auto pl)
  /\ (forall s auto pl, Nat.even (List.length (route_fields s)) = true ->
        some_pair (fun _ l => isdigit l && numeral_ok l && (255 <? dval l)) (route_fields s) = true ->
        rejected s auto pl)
  /\ (forall s auto pl, Nat.even (List.length (route_fields s)) = true ->
        some_pair (fun _ l => negb (isdigit l) && negb (existsb is_colon l) && negb (strict_quad l))
                  (route_fields s) = true -> rejected s auto pl)
  /\ (forall s pl l c, route_fields s = [l] -> classify_link l = LinkBad c -> rejected s true pl)
  /\ (forall s auto p, tcp_fields s = [p] -> isdigit p = true -> (dval p <= 0 \/ 65535 <= dval p) ->
        parse_connection_path s auto = Err RequestError)
  /\ (forall s auto p, tcp_fields s = [p] ->
        (existsb (fun c => negb (lenient_char c)) p = true \/ existsb is_ascii_digit p = false) ->
        parse_connection_path s auto = Err RequestError)
  /\ (forall s auto p, tcp_fields s = [p] -> existsb (fun c => c =? 45) p = true ->
        parse_connection_path s auto = Err RequestError)
  /\ (forall s auto p q r, tcp_fields s = p :: q :: r -> parse_connection_path s auto = Err RequestError).
Proof.
  repeat split.
  - exact odd_number_of_segments_rejected.
  - exact unknown_port_name_rejected.
  - exact link_out_of_range_rejected.
  - exact malformed_link_rejected.
  - exact bad_slot_shortcut_rejected.
  - exact tcp_port_out_of_range_rejected.
  - exact tcp_port_non_numeric_rejected.
  - exact tcp_port_negative_rejected.
  - exact several_colons_rejected.
Qed.
Print Assumptions C15_rejection_classes.

(* side conditions of the statements above, discharged for what the property quantifies over:
   every route of at most 25 hops fits a wire form; every IPv4 address is a well-formed link *)
Theorem C15_side_conditions :
  (forall hs, forallb wf_hop hs = true -> (List.length hs <= 25)%nat -> fits hs = true)
  /\ (forall a b c d, 0 <= a <= 255 -> 0 <= b <= 255 -> 0 <= c <= 255 -> 0 <= d <= 255 ->
        wf_link (Addr (addr_of_octets a b c d)) = true).
Proof. split; [exact short_routes_fit|exact addr_of_octets_wf]. Qed.
Print Assumptions C15_side_conditions.

(* the grammar and the reference reader are one specification: every rendered string is read back *)
Theorem C15_render_read_back : forall a sp auto,
  wf_route a = true -> wf_spelling sp a = true ->
  ref_parse auto (render sp a)
  = mkVerdict (r_host a) (tcp_reading (r_tcp a))
              (match hops_of auto (r_shape a) with Some hs => RouteOk hs | None => RouteReject OddSegments end).
Proof. exact ref_parse_render. Qed.
Print Assumptions C15_render_read_back.

(* the strict converse fails only inside the silent zones, e.g. "h:+80" *)
Theorem C15_strict_converse_refuted :
  ~ (forall s auto pl, accepts s auto pl -> in_grammar_strict auto s = true).
Proof.
  intros H. specialize (H [104; 58; 43; 56; 48] false false).
  assert (Ha : accepts [104; 58; 43; 56; 48] false false).
  { exists [104], (Some 80), [0]. vm_compute. reflexivity. }
  specialize (H Ha). vm_compute in H. discriminate.
Qed.
Print Assumptions C15_strict_converse_refuted.

(* non-vacuity: "plc1:0044818\backplane,02/enet\10.11.12.13,bp/0" read by a CIPDriver, and the
   two shortcuts read by a LogixDriver; a rejected string of each class *)
Definition ex_route : route_ast :=
  mkRoute (s2t "plc1"%string) (Some 44818)
          (Explicit [mkHop 1 (Slot 2); mkHop 2 (Addr (s2t "10.11.12.13"%string)); mkHop 1 (Slot 0)]).
Definition ex_spelling : spelling :=
  mkSp 2 [mkHopSp 92 (ByName (s2t "backplane"%string)) 44 1; mkHopSp 47 (ByName (s2t "enet"%string)) 92 0;
          mkHopSp 44 (ByName (s2t "bp"%string)) 47 0] 47 0.
Example C15_nonvacuous :
  wf_route ex_route = true /\ wf_spelling ex_spelling ex_route = true
  /\ render ex_spelling ex_route = s2t "plc1:0044818\backplane,02/enet\10.11.12.13,bp/0"%string
  /\ outcome (render ex_spelling ex_route) false false
     = inr (s2t "plc1"%string, Some 44818,
            [9; 1; 2; 18; 11] ++ s2t "10.11.12.13"%string ++ [0; 1; 0])
  /\ outcome (s2t "10.20.30.100"%string) true true = inr (s2t "10.20.30.100"%string, None, [1; 0; 1; 0])
  /\ outcome (s2t "10.20.30.100/3"%string) true true = inr (s2t "10.20.30.100"%string, None, [1; 0; 1; 3])
  /\ outcome (s2t "10.20.30.100/3"%string) false true = inl RequestError
  /\ outcome (s2t "h/backplan/1"%string) false true = inl DataError
  /\ outcome (s2t "h/bp/256"%string) false true = inl DataError
  /\ outcome (s2t "h:65535/bp/1"%string) false true = inl RequestError
  /\ must_reject (ref_parse false (s2t "h/backplan/1"%string)) = true.
Proof. vm_compute. repeat split; reflexivity. Qed.
