(* Props/C03.v — "One result per request, in request order, with failures isolated".
   Statement + exact + Print Assumptions only.
   Models: Model/LogixParse.v (request parsing, ids by position), Model/LogixPlan.v (packets),
   Model/LogixResults.v (what building a packet can raise, _send_requests, fan-out of merged bit writes,
   result assembly of read/write, Tag.__bool__), Model/Path.v (tag_request_path).
   The peer ([peer]: replies by request id; any number of service replies per multi-service packet) is
   universally quantified; isolation is stated for peers whose reply to a service depends on that
   service request only ([peer_of f], [wpeer_of f g]). *)
From Coq Require Import String.
From PV Require Import Base.Bytes Base.Proto Base.Res Base.PyStr Gen.LogixParseGen.
From PV Require Import Model.LogixParse Model.LogixPlan Model.Path Model.LogixResults.
From PV Require Import Proofs.PlanP Proofs.LogixParseP Proofs.ResultsP Proofs.ResultsW.
Open Scope Z_scope.

Definition no_req : request := ReqOther TypeError.
Definition no_tag : tag := exc_tag no_req TypeError.

(* (T) A Tag is truthy exactly when its value is not None and its error is None *)
Definition C03_truthy : Prop :=
  forall t, truthy t = true <-> (val_is_none (t_value t) = false /\ t_error t = None).

(* (E) no exception: read and write return, for every configuration, tag database, peer, request list *)
Definition C03_no_exception : Prop :=
  (forall c db P reqs, exists r, run_read c db P reqs = Ok r)
  /\ (forall enc c db P tvs, exists r, run_write enc c db P tvs = Ok r).

(* (S) n = 1 -> a single Tag, otherwise a list of exactly n (n = 0 and duplicates included), any peer *)
Definition C03_shape : Prop :=
  (forall c db P reqs r, run_read c db P reqs = Ok r ->
     length (results_of r) = length reqs
     /\ (length reqs = 1%nat -> exists t, r = ROne t)
     /\ (length reqs <> 1%nat -> exists l, r = RList l /\ length l = length reqs))
  /\ (forall enc c db P tvs r, run_write enc c db P tvs = Ok r ->
     length (results_of r) = length tvs
     /\ (length tvs = 1%nat -> exists t, r = ROne t)
     /\ (length tvs <> 1%nat -> exists l, r = RList l /\ length l = length tvs)).

(* (N) the k-th result carries the k-th request's name: the request itself on a falsy result, the
   request without its {n} suffix otherwise (in particular whenever it is truthy) — any peer *)
Definition C03_names : Prop :=
  (forall c db P reqs r, run_read c db P reqs = Ok r -> forall k, (k < length reqs)%nat ->
     let t := nth k (results_of r) no_tag in let rq := nth k reqs no_req in
     (t_tag t = rq /\ truthy t = false) \/ (exists s, rq = ReqText s /\ t_tag t = ReqText (drop_count s)))
  /\ (forall enc c db P tvs r, run_write enc c db P tvs = Ok r -> forall k, (k < length tvs)%nat ->
     let t := nth k (results_of r) no_tag in let rq := fst (nth k tvs dflt_tv) in
     (t_tag t = rq /\ truthy t = false) \/ (exists s, rq = ReqText s /\ t_tag t = ReqText (drop_count s))).

(* (F) requests that cannot succeed yield a falsy Tag with a non-empty error *)
Definition C03_invalid_falsy : Prop :=
  (* unknown tags and members ARE parse failures *)
  (forall db m s base attrs,
     ends_with [c_rbrace] s && contains_chr c_lbrace s = false -> split_chr c_dot s = base :: attrs ->
     starts_with s_Program base = false -> lookup (strip_array base) db = None ->
     exists e, parse_tag_request_ex db m s = inr e /\ (e = PE_NoTag (strip_array base) \/ exists t, e = PE_Parse ValueError t))
  /\ (forall db m s base mem t,
     ends_with [c_rbrace] s && contains_chr c_lbrace s = false -> split_chr c_dot s = [base; mem] ->
     starts_with s_Program base = false -> isdigit mem = false ->
     lookup (strip_array base) db = Some t -> ti_struct t = true -> lookup (strip_array mem) (ti_members t) = None ->
     parse_tag_request_ex db m s = inr (PE_NoTag (strip_array mem)))
  (* read: a parse failure of request k, or a packet that cannot be built (an index that is not a number
     or not a UDINT, an element count that is not a UINT): Tag(request, None, None, error), any peer *)
  /\ (forall c db P reqs r, run_read c db P reqs = Ok r -> forall k, (k < length reqs)%nat ->
     let t := nth k (results_of r) no_tag in let rq := nth k reqs no_req in
     (forall e, parse_request_obj db RwRead rq = inr e ->
        t = mkTag rq VNone None (Some (perr_text e)) /\ truthy t = false /\ perr_text e <> [])
     /\ (forall p e, parse_request_obj db RwRead rq = inl p -> read_msg_len c p = Err e ->
        t = build_err_tag rq err_build e /\ truthy t = false))
  /\ (forall rq pre e, truthy (build_err_tag rq pre e) = false /\ t_tag (build_err_tag rq pre e) = rq
        /\ exists txt, t_error (build_err_tag rq pre e) = Some txt /\ txt <> [])
  (* a controller error status (index / count out of range, any injected status) for request k (read) *)
  /\ (forall c db f reqs r k p m, (k < length reqs)%nat ->
     run_read c db (peer_of f (parse_requested_tags db RwRead reqs)) reqs = Ok r ->
     parse_request_obj db RwRead (nth k reqs no_req) = inl p -> read_msg_len c p = Ok m -> rp_ok (f p) = false ->
     nth k (results_of r) no_tag = mkTag (ReqText (user_tag p)) VNone None (Some (rp_error (f p))))
  (* write: a parse failure; a value that cannot be encoded (wrong type, too short, ...); a packet that
     cannot be built (bad index / count, a bit of a non-elementary type, a bit number outside the type) — any peer *)
  /\ (forall enc c db P tvs r, run_write enc c db P tvs = Ok r -> forall k, (k < length tvs)%nat ->
     let t := nth k (results_of r) no_tag in let rq := fst (nth k tvs dflt_tv) in
     let v := snd (nth k tvs dflt_tv) in let multi := uses_multi c (length tvs) in
     (forall e, parse_request_obj db RwWrite rq = inr e ->
        t = mkTag rq VNone None (Some (perr_text e)) /\ truthy t = false /\ perr_text e <> [])
     /\ (forall p, parse_request_obj db RwWrite rq = inl p -> is_bit_write p = false -> encode_value enc p v = None ->
           t = mkTag rq VNone None (Some (enc_err_text multi)) /\ truthy t = false /\ enc_err_text multi <> [])
     /\ (forall p e, parse_request_obj db RwWrite rq = inl p -> is_bit_write p = true -> rmw_build c p = Err e ->
           t = build_err_tag rq (build_prefix multi) e /\ truthy t = false)
     /\ (forall p n p' e, parse_request_obj db RwWrite rq = inl p -> is_bit_write p = false ->
           encode_value enc p v = Some (n, p') -> write_msg_len c p' n = Err e ->
           t = build_err_tag rq (build_prefix multi) e /\ truthy t = false))
  (* ... in particular a BOOL-array write that does not start on a DWORD boundary cannot be encoded ... *)
  /\ (forall enc p v, uv_bytes v = None -> is_dword_name (tag_info p) = true ->
     or0 (bit p) mod dword_bits <> 0 -> encode_value enc p v = None)
  (* ... and a bit write to a non-elementary type, or of a bit number outside the type, cannot be built *)
  /\ (forall c p,
     (rmw_mask_size (tag_info p) = None -> exists e, rmw_build c p = Err e)
     /\ (forall z, rmw_mask_size (tag_info p) = Some z -> is_dword_name (tag_info p) = false -> z * 8 <= or0 (bit p) ->
           exists e, rmw_build c p = Err e))
  (* write: a controller error status for the service carrying the request *)
  /\ (forall enc f g c m tv p,
     (is_bit_write p = true -> rmw_build c p = Ok tt -> rp_ok (g (plc_tag p)) = false ->
        let t := write_outcome enc f g c m tv (inl p) in
        t_tag t = ReqText (user_tag p) /\ t_error t = Some (rp_error (g (plc_tag p))) /\ truthy t = false)
     /\ (forall n p' z, is_bit_write p = false -> encode_value enc p (snd tv) = Some (n, p') -> write_msg_len c p' n = Ok z ->
        rp_ok (f p' (snd tv)) = false ->
        let t := write_outcome enc f g c m tv (inl p) in
        t_tag t = ReqText (user_tag p) /\ t_error t = Some (rp_error (f p' (snd tv))) /\ truthy t = false)).

(* (I) against a peer that answers each service by itself, the result list is a MAP over the requests
   of a function of the single request (so the k-th result answers the k-th request and is the same
   whatever the other requests are), and equals the outcome of the request issued alone *)
Definition C03_isolation : Prop :=
  (forall c db f reqs r,
     run_read c db (peer_of f (parse_requested_tags db RwRead reqs)) reqs = Ok r ->
     results_of r = map (fun rq => read_outcome c f rq (parse_request_obj db RwRead rq)) reqs)
  /\ (forall c db f reqs r k r1, (k < length reqs)%nat ->
     run_read c db (peer_of f (parse_requested_tags db RwRead reqs)) reqs = Ok r ->
     run_read c db (peer_of f (parse_requested_tags db RwRead [nth k reqs no_req])) [nth k reqs no_req] = Ok r1 ->
     r1 = ROne (nth k (results_of r) no_tag))
  /\ (forall enc f g c db tvs r,
     run_write enc c db (wpeer_of enc f g c db tvs) tvs = Ok r ->
     results_of r = map (fun tv => write_outcome enc f g c (uses_multi c (length tvs)) tv (parse_request_obj db RwWrite (fst tv))) tvs)
  /\ (forall enc f g c db tvs k r r1, (k < length tvs)%nat ->
     run_write enc c db (wpeer_of enc f g c db tvs) tvs = Ok r ->
     run_write enc c db (wpeer_of enc f g c db [nth k tvs dflt_tv]) [nth k tvs dflt_tv] = Ok r1 ->
     exists t1, r1 = ROne t1 /\ same_outcome (nth k (results_of r) no_tag) t1).

Definition C03_full : Prop :=
  C03_truthy /\ C03_no_exception /\ C03_shape /\ C03_names /\ C03_invalid_falsy /\ C03_isolation.

Theorem C03_holds : C03_full.
Proof.
  split; [exact tag_truthy_iff|].
  split; [split; [exact read_no_exception | exact write_no_exception]|].
  split; [split; [exact read_result_shape | exact write_result_shape]|].
  split; [split; [exact read_result_names | exact write_result_names]|].
  split.
  { split; [exact unknown_tag_is_reported|]. split; [exact unknown_member_is_reported|].
    split; [exact read_parse_error_falsy|]. split; [exact build_err_tag_falsy|]. split; [exact read_controller_error_falsy|].
    split; [exact write_invalid_falsy|]. split; [exact misaligned_bool_write|]. split; [exact rmw_build_rejects|].
    exact write_outcome_controller_error. }
  split; [exact read_results_map|]. split; [exact read_isolation|].
  split; [exact write_results_map | exact write_isolation].
Qed.
Print Assumptions C03_holds.

(* ------------------------------------------------------------------ non-vacuity *)
Definition db0 : tagdb :=
  [ (zs_of_string "a"%string, TagInfo false (zs_of_string "DINT"%string) (Some 7) [] None 4 0 None []);
    (zs_of_string "arr"%string, TagInfo false (zs_of_string "DINT"%string) (Some 9) [10] None 4 0 None []);
    (zs_of_string "s"%string, TagInfo true (zs_of_string "udt"%string) (Some 11) [] None 8 1234 None
                        [(zs_of_string "m"%string, TagInfo false (zs_of_string "INT"%string) None [] None 2 0 None [])]) ].
Definition cfg0 : cfg := mkCfg 4000 false true.
Definition peer0 : peer := mkPeer (fun _ => mkReply true (VInt 5) (Some (zs_of_string "DINT"%string)) [])
                                  (map (fun _ => mkReply true (VInt 5) (Some (zs_of_string "DINT"%string)) []))
                                  (fun _ => None).
Definition rq (s : String.string) : request := ReqText (zs_of_string s).
Definition uv (k : Z) : uval := mkUval k false true None.
Definition enc0 (p : parsed) (u : uval) : option Z := Some 4.

(* the inputs on which the code used to raise (before 937b677 / 5870be8) now fail alone *)
Example C03_former_witnesses :
  (exists r, run_read cfg0 db0 peer0 [rq "a"%string; rq "a["%string; rq "arr{70000}"%string; rq "arr[-1]"%string] = Ok r
      /\ map truthy (results_of r) = [true; false; false; false])
  /\ (exists r, run_write enc0 cfg0 db0 peer0 [(rq "a"%string, uv 0); (rq "s.3"%string, uv 1); (rq "a.99"%string, uv 2); (rq "a.40"%string, uv 3); (rq "a.3"%string, uv 4)] = Ok r
      /\ map truthy (results_of r) = [true; false; false; false; true])
  /\ (exists r, run_write enc0 (mkCfg 4000 true true) db0 peer0 [(rq "a.1"%string, uv 0); (rq "a.2"%string, uv 1)] = Ok r
      /\ map truthy (results_of r) = [true; true]).
Proof. repeat split; eexists; split; vm_compute; reflexivity. Qed.

(* a mixed read (valid, unknown tag, element range, duplicate, controller error for one index) and a
   mixed write with two bit writes merged into one read-modify-write *)
Definition f0 (p : parsed) : reply :=
  if text_eqb (plc_tag p) (zs_of_string "arr[99]"%string) then mkReply false VNone None (zs_of_string "out of range"%string)
  else mkReply true (if elements p =? 1 then VInt 5 else VList [VInt 1; VInt 2]) (Some (zs_of_string "DINT"%string)) [].
Definition reqs0 := [rq "a"%string; rq "nosuch"%string; rq "arr[3]{2}"%string; rq "a"%string; rq "arr[99]"%string].
Example C03_nonvacuous_read :
  exists r, run_read cfg0 db0 (peer_of f0 (parse_requested_tags db0 RwRead reqs0)) reqs0 = Ok r
    /\ map truthy (results_of r) = [true; false; true; true; false]
    /\ map t_tag (results_of r) = [rq "a"%string; rq "nosuch"%string; rq "arr[3]"%string; rq "a"%string; rq "arr[99]"%string].
Proof. eexists. split; [vm_compute; reflexivity|]. split; vm_compute; reflexivity. Qed.

Definition tvs0 := [(rq "a"%string, uv 0); (rq "a.3"%string, uv 1); (rq "nosuch"%string, uv 2); (rq "a.5"%string, uv 3)].
Example C03_nonvacuous_write :
  let g0 := fun _ : text => mkReply true VNone None [] in
  let fw := fun (_ : parsed) (_ : uval) => mkReply true VNone None [] in
  fst (write_build enc0 cfg0 (combine (parse_requested_tags db0 RwWrite (map fst tvs0)) (map snd tvs0)))
    = [PMulti [0]; PRmw (-1) [1; 3]]
  /\ exists r, run_write enc0 cfg0 db0 (wpeer_of enc0 fw g0 cfg0 db0 tvs0) tvs0 = Ok r
       /\ map truthy (results_of r) = [true; true; false; true].
Proof. cbn zeta. split; [vm_compute; reflexivity|]. eexists. split; vm_compute; reflexivity. Qed.
