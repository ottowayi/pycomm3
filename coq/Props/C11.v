(* Props/C11.v — every emitted frame is a well-formed EtherNet/IP encapsulation message.
     model            Model/Encap.v (interpreting the regenerated Gen/EncapGen.v)
     independent spec Spec/EncapParser.v (strict parser [parse_frame]), Spec/EncapTrace.v (observer [trace_ok])
     vocabulary       Proofs/EncapP.v: [request k seq body] = the request object of class k with sequence
                      count seq and message body = the chunks body; [frame_of] = the frame the property
                      demands (command of the class; session; context; null address + unconnected data
                      item, or connection address holding the connection id + connected data item =
                      sequence count ++ message; RegisterSession body version 1 / flags 0; empty otherwise);
                      [common_len] = bytes after the header;
                      Proofs/EncapHistP.v: [op_ok] = the replies are well-formed (handle < 2^32, Forward
                      Open reply >= 4 bytes) and every message fits the 16-bit length field;
                      [obs_of_event] = what an observer at the socket / the target sees. *)
From PV Require Import Base.Bytes Base.Res Model.EncapDefs Gen.EncapGen Model.Encap
                       Spec.EncapParser Spec.EncapTrace Proofs.EncapP Proofs.EncapHistP.
Open Scope Z_scope.

Definition C11_full : Prop :=
  (* frame_ok: for EVERY payload (any list of byte strings; the only bound is the 16-bit length field),
     every request class, every session handle, connection id and context, the bytes build_request
     hands to the socket are accepted by the strict parser as exactly the demanded frame.
     [target] is whatever the driver holds in _target_cid: only SendUnitData reads it. *)
  (forall k seq body target cid sess ctx,
      0 <= seq < 65536 -> 0 <= sess < 4294967296 ->
      length ctx = 8%nat -> bytes_ok ctx = true -> all_bytes_ok body = true ->
      (k = KSendUnit -> target = PBytes cid /\ length cid = 4%nat /\ bytes_ok cid = true) ->
      (k = KRegister -> concat body = []) ->
      common_len k (concat body) < 65536 ->
      exists p1 f,
        build_request (request k seq body) target (PInt sess) (PBytes ctx) (PInt CFG_OPTION) = (p1, Ok f)
        /\ parse_frame f = RcOk (frame_of k seq cid (concat body) sess ctx))
  (* connected_starts_with_seq: the connected data item begins with the sequence count given at
     construction, followed by the message *)
  /\ (forall seq body cid sess ctx,
      0 <= seq < 65536 -> 0 <= sess < 4294967296 ->
      length ctx = 8%nat -> bytes_ok ctx = true -> all_bytes_ok body = true ->
      length cid = 4%nat -> bytes_ok cid = true -> 22 + zlen (concat body) < 65536 ->
      exists p1 f t d,
        build_request (request KSendUnit seq body) (PBytes cid) (PInt sess) (PBytes ctx) (PInt CFG_OPTION) = (p1, Ok f)
        /\ parse_frame f = RcOk {| f_cmd := CMD_UNITDATA; f_session := sess; f_context := ctx;
                                   f_body := BCpf t (AddrConn (le_dec cid)) ITEM_CONN_DATA d |}
        /\ firstn 2 d = le_enc 2 seq /\ le_dec (firstn 2 d) = seq /\ skipn 2 d = concat body)
  (* history: along ANY sequence of driver calls (open with any register reply | unconnected request |
     connected request behind with_forward_open with any Forward Open replies | close), every frame
     written is accepted by the strict parser, has the command of its operation, carries the handle of
     the last accepted RegisterSession reply (0 while there is none: before registration, after close),
     and every 0x70 frame carries the connection id of the last accepted Forward Open reply *)
  /\ (forall ops, forallb op_ok ops = true -> trace_ok (map obs_of_event (trace init_dstate ops)))
  (* assembled once: a request whose class's _setup_message sets the flag returns the same message,
     unchanged, when built again *)
  /\ (forall p p1 m, pc_setup (class_of (p_kind p)) <> SetupRegister ->
        build_message p = (p1, Ok m) -> build_message p1 = (p1, Ok m)).

Theorem C11_holds : C11_full.
Proof.
  split; [| split; [| split]].
  - exact frame_ok.
  - exact connected_starts_with_seq.
  - exact history_ok.
  - exact build_message_once_flagging.
Qed.
Print Assumptions C11_holds.

(* "assembled once" for EVERY request object is false: RegisterSessionRequestPacket._setup_message
   does not call the base method, the flag stays False and a second build appends protocol version
   and option flags again (the frame then built is rejected by the strict parser, rule 10).  The
   driver builds each RegisterSession request once (a fresh object per _register_session), so no
   emitted frame is affected; the guard is the class. *)
Definition C11_build_once_full : Prop :=
  forall p p1 m, build_message p = (p1, Ok m) -> build_message p1 = (p1, Ok m).

Theorem C11_build_once_full_refuted : ~ C11_build_once_full.
Proof.
  intros H.
  destruct (build_message register_request) as [p1 r1] eqn:E1.
  assert (r1 = Ok [1; 0; 0; 0]) as -> by (apply (f_equal snd) in E1; vm_compute in E1; congruence).
  pose proof (H _ _ _ E1) as E2.
  apply (f_equal fst) in E1. vm_compute in E1. subst p1. vm_compute in E2. discriminate E2.
Qed.
Print Assumptions C11_build_once_full_refuted.

Definition C11_build_once_guard (p : packet) : bool :=
  match pc_setup (class_of (p_kind p)) with SetupRegister => true | _ => false end.

Theorem C11_build_once_guarded : forall p p1 m,
  C11_build_once_guard p = false -> build_message p = (p1, Ok m) -> build_message p1 = (p1, Ok m).
Proof.
  intros p p1 m Hg. apply build_message_once_flagging. unfold C11_build_once_guard in Hg.
  destruct (pc_setup (class_of (p_kind p))); congruence.
Qed.
Print Assumptions C11_build_once_guarded.

Theorem C11_register_rebuilt :
  exists p1 p2 f1 f2,
    build_request register_request PNone (PInt 0) (PBytes CFG_CONTEXT) (PInt CFG_OPTION) = (p1, Ok f1)
    /\ build_request p1 PNone (PInt 0) (PBytes CFG_CONTEXT) (PInt CFG_OPTION) = (p2, Ok f2)
    /\ parse_frame f1 = RcOk (frame_of KRegister 0 [] [] 0 CFG_CONTEXT)
    /\ parse_frame f2 = RcErr 10
    /\ p_message p1 = [1; 0; 0; 0] /\ p_message p2 = [1; 0; 0; 0; 1; 0; 0; 0].
Proof. exact register_rebuilt_refuted. Qed.
Print Assumptions C11_register_rebuilt.

(* non-vacuity: the hypotheses are inhabited.  (1) the SendUnitData frame of sequence 5, body "abc",
   connection id 01 02 03 04, session 7 is byte for byte what the real class produces; (2) a history
   open (handle 77) / connected request with a refused Large Forward Open then an accepted standard
   one (connection id 0x44332211) / list identity / close / re-open (refused) satisfies op_ok, writes
   8 frames, and its 0x70 frame carries 77 and 0x44332211 *)
Example C11_nonvacuous :
  (exists p1, build_request (request KSendUnit 5 [[97; 98; 99]]) (PBytes [1; 2; 3; 4]) (PInt 7) (PBytes CFG_CONTEXT) (PInt CFG_OPTION)
     = (p1, Ok [112; 0; 25; 0; 7; 0; 0; 0; 0; 0; 0; 0; 95; 112; 121; 99; 111; 109; 109; 95; 0; 0; 0; 0;
                0; 0; 0; 0; 10; 0; 2; 0; 161; 0; 4; 0; 1; 2; 3; 4; 177; 0; 5; 0; 5; 0; 97; 98; 99]))
  /\ (let ops := [OOpen (Some 77);
                  OConnected (PInt 3) [PBytes [170; 187]] [([PBytes [91]], None); ([PBytes [84]], Some [17; 34; 51; 68; 85])];
                  OUnconnected KListIdentity []; OClose [PBytes [78]] true; OOpen None] in
      forallb op_ok ops = true
      /\ length (filter (fun e => match e with EvFrame _ _ => true | _ => false end) (trace init_dstate ops)) = 8%nat
      /\ exists f, In (EvFrame KSendUnit f) (trace init_dstate ops)
                   /\ parse_frame f = RcOk (frame_of KSendUnit 3 [17; 34; 51; 68] [170; 187] 77 CFG_CONTEXT)).
Proof.
  split.
  - eexists. vm_compute. reflexivity.
  - cbv zeta. split; [vm_compute; reflexivity |]. split; [vm_compute; reflexivity |].
    eexists. split.
    + vm_compute. do 5 right. left. reflexivity.
    + vm_compute. reflexivity.
Qed.
