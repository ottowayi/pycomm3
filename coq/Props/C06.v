(* Props/C06.v — data-type codecs round-trip every value.
   Statements over the codec model (Model/Codec.v; domains in Model/CodecDom.v); the guarded statement
   is assembled here from the theorems of Proofs/CodecRT*.v, the deviations and the non-vacuity
   examples are evaluated.  Elementary rows come from Gen/Types.v, Gen/CodecFacts.v. *)
From Coq Require Import String Permutation.
From PV Require Import Base.Bytes Base.Res Base.Proto Model.Codec Model.CodecDom.
From PV Require Import Proofs.CodecRT Proofs.CodecRTAll Proofs.CodecRTFloat.
Open Scope Z_scope.

(* Full strength: for every type the constructors are documented to build and every value its
   documentation accepts ([doc_dom]), the encoding decodes to the value (up to [norm]: REAL to
   binary32 precision, over-long input to a fixed array truncated, positional struct input read back
   as a dict) and the decoder consumes exactly the encoding, whatever data [rest] follows (nothing
   can follow a type documented to consume the whole buffer: [greedy]); and a structure encodes to
   the same bytes from a dict and from the positional sequence of its values. *)
Definition roundtrip_at (t : ty) (v : val) (rest : bytes) : Prop :=
  exists bs, encode t v = Ok bs /\ decode t (bs ++ rest) = Ok (norm t v, rest).

Definition struct_dict_positional_law : Prop :=
  forall ms kvs, map fst kvs = map fst ms -> keys_nodup (map fst ms) = true ->
    encode (TStruct SPlain ms) (VDict kvs) = encode (TStruct SPlain ms) (VList (map snd kvs)).

(* ... and a dict is read BY NAME: the bytes depend only on the values found under the member
   names, so the order of the dict and keys that name no member do not matter; a missing name is
   DataError *)
Definition struct_dict_by_name_law : Prop :=
  (forall ms kvs kvs', (forall m, In m ms -> dict_get kvs (fst m) = dict_get kvs' (fst m)) ->
     encode (TStruct SPlain ms) (VDict kvs) = encode (TStruct SPlain ms) (VDict kvs'))
  /\ (forall ms kvs kvs', Permutation kvs kvs' -> NoDup (map fst kvs) ->
       encode (TStruct SPlain ms) (VDict kvs) = encode (TStruct SPlain ms) (VDict kvs'))
  /\ (forall ms pre k x post, (forall m, In m ms -> fst m <> k) ->
       encode (TStruct SPlain ms) (VDict (pre ++ (k, x) :: post)) = encode (TStruct SPlain ms) (VDict (pre ++ post)))
  /\ (forall ms kvs m, In m ms -> ~ In (fst m) (map fst kvs) -> encode (TStruct SPlain ms) (VDict kvs) = Err DataError).

Definition C06_full : Prop :=
  (forall t v rest, doc_dom t v = true -> (doc_greedy t = true -> rest = []) -> roundtrip_at t v rest)
  /\ struct_dict_positional_law /\ struct_dict_by_name_law.

(* The code still falsifies it.  Witness: Array(UINT, UINT): encode writes no length prefix (as
   documented), so decoding the encoding of [1, 2] takes the first element for the count. *)
Definition ty_named (s : string) : ty := match ty_of_name (zs_of_string s) with Some t => t | None => TBool end.
Definition is_err {A} (r : res A) : bool := match r with Err _ => true | Ok _ => false end.
Definition rt_result (t : ty) (v : val) (rest : bytes) : res (val * bytes) :=
  match encode t v with Ok bs => decode t (bs ++ rest) | Err e => Err e end.

Definition UINT_by_UINT : ty := TArrPrefix false (ty_named "UINT") (ty_named "UINT").
Theorem C06_full_refuted : ~ C06_full.
Proof.
  intros [H _]. specialize (H UINT_by_UINT (VList [VInt 1; VInt 2]) [] eq_refl (fun _ => eq_refl)).
  destruct H as (bs & He & Hd). vm_compute in He. injection He as <-. vm_compute in Hd. discriminate Hd.
Qed.
Print Assumptions C06_full_refuted.

(* The remaining deviations, one witness per excluded class (each value is in the documented
   domain; each line is what the real implementation does, see known_findings/C06.jsonl). *)
Example dev_array_length_type :
  doc_dom UINT_by_UINT (VList [VInt 1; VInt 2]) = true
  /\ rt_result UINT_by_UINT (VList [VInt 1; VInt 2]) [] = Ok (VList [VInt 2], []).
Proof. split; reflexivity. Qed.
(* BYTE[1] given 16 bits: not truncated to the array length; the second byte is left in the stream *)
Example dev_bit_array_overlong :
  let v := VList (repeat (VBool true) 16) in
  doc_dom (TArrFixed 1 (ty_named "BYTE")) v = true
  /\ encode (TArrFixed 1 (ty_named "BYTE")) v = Ok [255; 255]
  /\ rt_result (TArrFixed 1 (ty_named "BYTE")) v [] = Ok (VList (repeat (VBool true) 8), [255]).
Proof. repeat split; reflexivity. Qed.
(* PCCC_STRING: odd lengths cannot be encoded; even ones over-read what follows *)
Example dev_pccc_string :
  doc_dom TPcccString (VStr [97; 98; 99]) = true /\ encode TPcccString (VStr [97; 98; 99]) = Err DataError
  /\ rt_result TPcccString (VStr [97; 98]) [120; 121] = Ok (VStr [97; 98; 121; 120], []).
Proof. repeat split; reflexivity. Qed.
(* ListIdentityObject has no _encode: what decode returns cannot be encoded *)
Example dev_list_identity :
  match ListIdentityObject_ty with
  | Some t =>
      match decode t (zeros 22 ++ [1; 0; 12; 0; 3; 0; 2; 1; 0; 0; 120; 86; 52; 18; 1; 97; 5]) with
      | Ok (v, _) => doc_dom t v = true /\ encode t v = Err DataError
      | Err _ => False
      end
  | None => False
  end.
Proof. vm_compute. split; reflexivity. Qed.

(* The guard: exactly the complement of the computable side conditions of the positive theorem:
   the type is outside [wf_ty] or the value outside [in_dom] (Model/CodecDom.v; every such class in
   the documented domain is one of the deviations above), or data follows a type whose decoder
   reads to the end of the buffer ([greedy] = [doc_greedy] plus PCCC_STRING). *)
Definition C06_guard (t : ty) (v : val) (rest : bytes) : bool :=
  negb (wf_ty t && in_dom t v) || (greedy t && match rest with [] => false | _ => true end).

Theorem C06_guarded :
  (forall t v rest, C06_guard t v rest = false -> roundtrip_at t v rest)
  /\ struct_dict_positional_law /\ struct_dict_by_name_law.
Proof.
  split; [|split; [exact struct_dict_positional|
                   exact (conj struct_dict_lookup (conj struct_dict_permutation (conj struct_dict_extra_key struct_dict_missing_key)))]].
  intros t v rest Hg. unfold C06_guard in Hg. apply Bool.orb_false_elim in Hg as [Hg Hr].
    apply Bool.negb_false_iff in Hg.
    apply andb_prop in Hg as [Hwf Hd].
    apply (roundtrip t v rest Hwf Hd). intros Hgr. rewrite Hgr in Hr. now destruct rest.
Qed.
Print Assumptions C06_guarded.

(* Array(<length type>, T), stated honestly: not decode (encode v) = v (no prefix is written), but the
   documented decode — count in the length type, then the elements — inverts prefix ++ encoding.
   The count here is the one that was written, length l (<= count_limit), and the element type is
   inside wf_ty (so it contains no further length-prefixed array): the loop runs length l times even
   over an element type that occupies no bytes.  A count read from FOREIGN bytes over such an
   element type (the code then loops `count` times over nothing; C08's
   dec:hang:length-prefixed-array-over-zero-width-element, known_findings/C06.jsonl class
   Array(length-type):zero-size-element-count-loop) is outside these hypotheses. *)
Theorem C06_length_prefixed :
  forall inst lsg lw e l rest,
    (0 < lw)%nat -> is_bits e = false -> wf_ty (TArrFixed (length l) e) = true ->
    in_dom (TArrFixed (length l) e) (VList l) = true ->
    int_in_range lsg lw (zlen l) = true -> zlen l <= count_limit ->
    exists p bs, encode (TInt lsg lw) (VInt (zlen l)) = Ok p
                 /\ encode (TArrPrefix inst (TInt lsg lw) e) (VList l) = Ok bs
                 /\ decode (TArrPrefix inst (TInt lsg lw) e) (p ++ bs ++ rest)
                    = Ok (norm (TArrFixed (length l) e) (VList l), rest).
Proof. exact roundtrip_prefixed. Qed.
Print Assumptions C06_length_prefixed.

(* STRING2's domain is every string of Unicode scalar values whose UTF-16 length fits the prefix *)
Definition STRING2_ty : ty := TStr false 2 Utf16.
Theorem C06_string2_domain :
  ty_named "STRING2" = STRING2_ty
  /\ forall s rest, forallb scalar_ok s = true -> in_urange 2 (code_units Utf16 s) = true ->
       C06_guard STRING2_ty (VStr s) rest = false.
Proof.
  split; [reflexivity|]. intros s rest Hs Hr. unfold C06_guard, STRING2_ty.
  assert (Hd : in_dom (TStr false 2 Utf16) (VStr s) = true).
  { cbn [in_dom]. unfold str_dom. rewrite (CodecRTBase.utf16_inverts s Hs). cbn [andb int_in_range]. exact Hr. }
  rewrite Hd. reflexivity.
Qed.
Print Assumptions C06_string2_domain.

(* DATE_AND_TIME.encode(time, date) (two positional arguments) is the same as encode((time, date)),
   for every time and date — date 0 included — and so round-trips as well *)
Theorem C06_datetime_call_forms :
  (forall t d, encode_args TDateTime [VInt t; VInt d] = encode TDateTime (VTuple [VInt t; VInt d]))
  /\ (forall t d rest, in_urange 4 t = true -> in_urange 2 d = true ->
        exists bs, encode_args TDateTime [VInt t; VInt d] = Ok bs
                   /\ decode TDateTime (bs ++ rest) = Ok (VTuple [VInt t; VInt d], rest)).
Proof. split; [exact datetime_call_forms|exact datetime_positional_roundtrip]. Qed.
Print Assumptions C06_datetime_call_forms.

(* REAL "to IEEE precision": the normal form of an in-domain REAL value is Flocq's binary32
   rounding (to nearest, ties to even) of the double, embedded back exactly.  This theorem alone
   depends on the stdlib real-number axioms (through Flocq). *)
Theorem C06_real_precision : forall b, real_precision_statement b.
Proof. exact real_precision. Qed.
Print Assumptions C06_real_precision.

Definition ex_fixed : ty :=   (* the classes the fix wave brought into the law *)
  TStruct SPlain [(Some [116], ty_named "DATE_AND_TIME"); (Some [119], ty_named "STRING2"); (Some [101], ty_named "STRINGN");
                  (Some [112], TArrFixed 2 (TNBytes 2)); (Some [122], TNBytes 0); (Some [98], TArrAll (ty_named "BYTE"))].
Definition ex_fixed_val : val :=
  VDict [(Some [116], VTuple [VInt 5; VInt 6]); (Some [119], VStr [97; 128512]); (Some [101], VStr []);
         (Some [112], VList [VBytes [1; 2]; VBytes [3; 4]]); (Some [122], VBytes []);
         (Some [98], VList (repeat (VBool true) 8 ++ repeat (VBool false) 8))].
Example C06_nonvacuous_fixed_classes :
  C06_guard ex_fixed ex_fixed_val [] = false /\ rt_result ex_fixed ex_fixed_val [] = Ok (ex_fixed_val, []).
Proof. vm_compute. split; reflexivity. Qed.

(* non-vacuity: a nested structure of arrays of strings with an unnamed member, encoded from a
   dict, followed by other data; an unbounded array; and the identity object *)
Definition ex_ty : ty :=
  TStruct SPlain [(Some [110], ty_named "UINT");
                  (None, ty_named "SINT");
                  (Some [115], TArrFixed 2 (ty_named "STRING"));
                  (Some [102], TFixedStr 4 false 4 3);
                  (Some [114], ty_named "REAL")].
Definition ex_val : val :=
  VDict [(Some [110], VInt 513); (None, VInt (-1)); (Some [115], VList [VStr [97; 98]; VStr []; VStr [99]]);
         (Some [102], VStr [120; 121; 122; 119]); (Some [114], VFloat 0x3fb999999999999a)].
(* a Logix template: DINT at 0, hidden SINT host at 4 carrying two BOOL members, a string at 8 *)
Definition ex_stag : ty :=
  TStructTag [((Some [120], 0%nat), ty_named "DINT"); ((Some [90; 104], 4%nat), ty_named "SINT");
              ((Some [115], 8%nat), TFixedStr 4 false 4 4)]
             [([98; 48], (4%nat, 0%nat)); ([98; 55], (4%nat, 7%nat))] [[90; 104]] 16.
Definition ex_stag_val : val :=
  VDict [(Some [120], VInt (-5)); (Some [115], VStr [97; 98]); (Some [98; 48], VBool true); (Some [98; 55], VBool true)].
Example C06_nonvacuous_structtag :
  C06_guard ex_stag ex_stag_val [1] = false
  /\ encode ex_stag ex_stag_val = Ok [251; 255; 255; 255; 129; 0; 0; 0; 2; 0; 0; 0; 97; 98; 0; 0]
  /\ decode ex_stag ([251; 255; 255; 255; 129; 0; 0; 0; 2; 0; 0; 0; 97; 98; 0; 0] ++ [1]) = Ok (ex_stag_val, [1]).
Proof. vm_compute. repeat split. Qed.

Example C06_nonvacuous :
  C06_guard ex_ty ex_val [7; 7] = false /\ doc_dom ex_ty ex_val = true
  /\ encode ex_ty ex_val = Ok [1; 2; 255; 2; 0; 97; 98; 0; 0; 3; 0; 0; 0; 120; 121; 122; 0; 205; 204; 204; 61]
  /\ decode ex_ty ([1; 2; 255; 2; 0; 97; 98; 0; 0; 3; 0; 0; 0; 120; 121; 122; 0; 205; 204; 204; 61] ++ [7; 7])
     = Ok (VDict [(Some [110], VInt 513); (Some [115], VList [VStr [97; 98]; VStr []]); (Some [102], VStr [120; 121; 122]);
                  (Some [114], VFloat 0x3fb99999a0000000)], [7; 7])
  /\ C06_guard (TArrAll ex_ty) (VList [ex_val; ex_val]) [] = false
  /\ match ModuleIdentityObject_ty with
     | Some t => match decode t [1; 0; 12; 0; 3; 0; 2; 1; 0; 0; 120; 86; 52; 18; 1; 97; 5] with
                 | Ok (v, rest) => C06_guard t v rest = false /\ norm t v = v
                 | Err _ => False
                 end
     | None => False
     end.
Proof. vm_compute. repeat split. Qed.
