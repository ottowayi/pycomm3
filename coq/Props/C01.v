(* Props/C01.v — tag reads return exactly what the controller holds.
   Client model: Model/LogixRead.v (request parsing,
   planner of Model/LogixPlan.v, messages, reply parsing, fragment reassembly, multi-service
   demultiplexing, bit / BOOL-range extraction), composed with the reference target
   (Spec/TargetCore.v dispatch + Multiple Service Packet, Spec/TargetLogix.v tag services);
   reference interpretation: Spec/Expect.v (ref_read / ref_type).

   C01_full is the property at full strength (every request that exists in the controller and can
   travel through the connection).  What is proved:
     C01_full_refuted   the full statement fails on `g{65536}` for an array of 65536 elements: the element
                        count of Read Tag is a UINT, the request cannot be built, its Tag is falsy.
     C01_guard          exactly that input class (the client's element count >= 65536).
     C01_partial      = read_correct_partial: C01's conclusion for every request that [request_ok]:
                        the client's parse of the string and the target's resolution of the client's
                        path agree with the place Expect.resolve assigns ([resolves], a per-request
                        condition decidable by computation) — for ALL projects with a sound layout,
                        memory images, fragment policies, connection sizes, numbers of requests,
                        single-packet / multi-service / fragmented plans, element types (atomic, REAL /
                        LREAL as bit patterns, arrays and {n} slices, integer bits, BOOL members, BOOL
                        arrays and ranges, strings, structures with hidden hosts at any nesting depth).
     C01_tags           end to end, string layer included, for read("Tag1", "Tag2", ...) of controller-scope
                        tags of any type (ReadResolve2.plain_request_ok proves [request_ok] for them).
     C01_single_segment end to end, string layer included, for every single-segment request on controller-scope
                        tags: name, name[i], name[i,j], name[i,j,k], ....bit, ...{n}; BOOL arrays name[i]{n}
                        (ReadResolve2.sreq_request_ok proves [request_ok] for them), any number of them in one call.
     C01_paths          end to end, string layer included, for every request shape
                        [Program:P.]tag[i..].member[j..]. ... [.bit][{n}] (Proofs/ReadResolve2.v proves [request_ok]
                        for them): member paths at any depth, BOOL / BOOL-array members, arrays of structures,
                        program-scoped tags — given as structured requests (a visible tag, template member names
                        spelled as the controller spells them, decimal fields) whose text is [item_text].
     C01_strings        THE HEADLINE ON STRINGS: C01_guarded_statement for every list of request strings that satisfy
                        the computable predicate [plain_request p s] (Proofs/ReadStrings.v), with no resolution
                        hypothesis.  The strings outside the predicate are listed, with an Example per class, next
                        to the theorem.
     C01_guarded_from_resolution : the guarded statement follows from [resolution_sound], which is neither proved nor
                        refuted.  The out_* examples are strings for which the reference has a value and the
                        client's read fails (a name spelled in another case, a decimal field longer than 4300
                        digits, a name of 256 characters, `x[i]` on a scalar DWORD); whether such a string also
                        satisfies [exists_in] is not examined.
     C01_resolution_grammar   Expect.parse_request inverted (Proofs/ReadResolve3.v): every string the reference reads is
                        a core rendered back; C01_resolution_sem / C01_resolution_strings: [resolution_sound] and the
                        guarded statement under the computable project-side condition [sem_ok] alone.
     C01_instance_paths symbol-instance addressing against symbolic addressing (Proofs/ReadInstance.v).
     C01_components     the component lemmas, each universally quantified. *)
From Coq Require Import String.
From PV Require Import Base.Bytes Base.Res Base.PyStr Spec.Project Spec.Expect Spec.TargetIface Spec.TargetCore Spec.TargetLogix.
From PV Require Import Model.LogixRead.
From PV Require Import Proofs.PathStr Proofs.ReadBits Proofs.ReadDecode Proofs.ReadTarget Proofs.ReadValue Proofs.ReadFrag
  Proofs.ReadPlan Proofs.ReadCorrect Proofs.ReadResolve Proofs.ReadResolve1 Proofs.ReadResolve2 Proofs.ReadStrings.
Open Scope list_scope.
Open Scope Z_scope.

(* the request goes through the connection: its path fits, one element fits a reply, the data size fits
   the UDINT offset of Read Tag Fragmented, the fuel of the model's fragment loop suffices *)
Definition travels (conn : Z) (fuel : nat) (q : preq) (path : bytes) : Prop :=
  Path.len path + 11 <= conn /\ ti_esize (pq_info q) + 10 <= conn
  /\ pq_elements q * ti_esize (pq_info q) < 4294967296
  /\ (Z.to_nat (pq_elements q * ti_esize (pq_info q)) < fuel)%nat.

(* a request that exists in the connected controller (spelled as the controller spells it) *)
Definition exists_in (p : project) (mem : Project.mem) (cfg : ccfg) (fuel : nat) (s : text) (r : request_ast) : Prop :=
  parse_request s = Some r /\ ref_read p mem r <> None
  /\ (exists q path, parse_tag_request (client_tags p) s = Ok q /\ read_path (c_use_ids cfg) q = Ok path
                     /\ travels (c_conn cfg) fuel q path).

Definition C01_conclusion p mem cfg fuel st reqs asts : Prop :=
  exists st' sent tags,
    run_read fuel cfg (client_tags p) st reqs = (st', sent, Done tags)
    /\ Forall2 (tag_correct p mem) asts tags.

Definition C01_full : Prop :=
  forall p mem pol basic cfg fuel st ms reqs asts,
    wf_project p = true -> wf_mem p mem = true -> layout_ok p = true -> 0 < po_bool_true pol < 256 ->
    quiet (mkLState p mem pol basic) ms st -> (c_micro800 cfg = false -> ms = true) -> c_conn cfg < 65536 ->
    Forall2 (exists_in p mem cfg fuel) reqs asts ->
    C01_conclusion p mem cfg fuel st reqs asts.

(* the excluded input class: the element count the client puts on the wire does not fit the UINT
   field of Read Tag (`tag{65536}` and up; BOOL arrays: more than 65535 DWORDs) *)
Definition C01_guard (p : project) (s : text) : bool :=
  match parse_tag_request (client_tags p) s with
  | Ok q => 65536 <=? pq_elements q
  | Err _ => false
  end.

Definition C01_guarded_statement : Prop :=
  forall p mem pol basic cfg fuel st ms reqs asts,
    wf_project p = true -> wf_mem p mem = true -> layout_ok p = true -> 0 < po_bool_true pol < 256 ->
    quiet (mkLState p mem pol basic) ms st -> (c_micro800 cfg = false -> ms = true) -> c_conn cfg < 65536 ->
    Forall2 (exists_in p mem cfg fuel) reqs asts -> Forall (fun s => C01_guard p s = false) reqs ->
    C01_conclusion p mem cfg fuel st reqs asts.

(* the unproved layer, stated: existence implies that client, target and reference address the same place *)
Definition resolution_sound : Prop :=
  forall p mem cfg fuel s r, wf_project p = true -> wf_mem p mem = true -> layout_ok p = true ->
    exists_in p mem cfg fuel s r -> C01_guard p s = false -> request_ok p mem cfg fuel s r.

Definition C01_partial : Prop :=
  forall p mem pol basic cfg fuel st ms reqs asts,
    layout_ok p = true -> 0 < po_bool_true pol < 256 ->
    (forall inst img, mem_get mem inst = Some img -> bytes_ok img = true) ->
    quiet (mkLState p mem pol basic) ms st -> (c_micro800 cfg = false -> ms = true) -> c_conn cfg < 65536 ->
    Forall2 (request_ok p mem cfg fuel) reqs asts ->
    exists st' sent tags,
      run_read fuel cfg (client_tags p) st reqs = (st', sent, Done tags)
      /\ Forall2 (tag_correct p mem) asts tags.

Theorem C01_partial_holds : C01_partial.
Proof.
  intros p mem pol basic cfg fuel st ms reqs asts Hlay Hbt Hmem Hq Hms Hconn HF.
  exact (read_correct_partial p mem pol basic cfg fuel Hlay Hbt Hmem st ms reqs asts Hq Hms Hconn HF).
Qed.
Print Assumptions C01_partial_holds.

Lemma wf_mem_bytes_ok p mem : wf_mem p mem = true -> forall inst img, mem_get mem inst = Some img -> bytes_ok img = true.
Proof.
  unfold wf_mem. intros H inst img Hg.
  apply andb_prop in H. destruct H as [H Hkeys]. apply andb_prop in H. destruct H as [Htags _].
  rewrite forallb_forall in Hkeys, Htags.
  assert (Hin : In (inst, img) mem).
  { clear -Hg. induction mem as [|[k v] m IH]; [discriminate|]. cbn in Hg. destruct (k =? inst) eqn:E.
    - injection Hg as ->. left. f_equal. lia.
    - right. auto. }
  specialize (Hkeys _ Hin). cbn [fst] in Hkeys.
  destruct (find_tag_inst (p_tags p) inst) as [g|] eqn:Eg; [|discriminate].
  assert (Hgin : In g (p_tags p) /\ g_inst g = inst).
  { clear -Eg. induction (p_tags p) as [|x l IH]; [discriminate|]. cbn in Eg. destruct (g_inst x =? inst) eqn:E.
    - injection Eg as ->. split; [left; reflexivity|lia].
    - destruct (IH Eg). split; [right; assumption|assumption]. }
  destruct Hgin as [Hgin Hgi]. specialize (Htags _ Hgin). rewrite Hgi, Hg in Htags.
  destruct (tag_size p g); [|discriminate]. apply andb_prop in Htags. tauto.
Qed.

Lemma guarded_requests_ok p mem cfg fuel (P : text -> Prop) reqs asts :
  (forall s r, P s -> exists_in p mem cfg fuel s r -> C01_guard p s = false -> request_ok p mem cfg fuel s r) ->
  Forall P reqs -> Forall2 (exists_in p mem cfg fuel) reqs asts -> Forall (fun s => C01_guard p s = false) reqs ->
  Forall2 (request_ok p mem cfg fuel) reqs asts.
Proof.
  intros Hone HP HF. induction HF as [|s r reqs asts H _ IH]; intros Hg; [constructor|].
  inversion HP; subst. inversion Hg; subst. constructor; auto.
Qed.

Lemma exists_in_fits p mem cfg fuel s r : exists_in p mem cfg fuel s r -> C01_guard p s = false ->
  exists q path, parse_tag_request (client_tags p) s = Ok q /\ read_path (c_use_ids cfg) q = Ok path
                 /\ fits (c_conn cfg) fuel q path.
Proof.
  intros (_ & _ & q & path & Hparse & Hrp & T1 & T2 & T3 & T4) Hgs. exists q, path. split; [exact Hparse|]. split; [exact Hrp|].
  unfold C01_guard in Hgs. rewrite Hparse in Hgs. apply Z.leb_gt in Hgs. repeat split; assumption.
Qed.

Theorem C01_guarded_from_resolution : resolution_sound -> C01_guarded_statement.
Proof.
  intros Hres p mem pol basic cfg fuel st ms reqs asts Hwf Hwm Hlay Hbt Hq Hms Hconn HF Hg.
  apply (C01_partial_holds p mem pol basic cfg fuel st ms reqs asts Hlay Hbt (wf_mem_bytes_ok p mem Hwm) Hq Hms Hconn).
  apply (guarded_requests_ok p mem cfg fuel (fun _ => True)); try assumption; [|apply Forall_forall; intros; exact I].
  intros s r _. exact (Hres p mem cfg fuel s r Hwf Hwm Hlay).
Qed.
Print Assumptions C01_guarded_from_resolution.

Lemma forall2_maps {A B C} (R : B -> C -> Prop) (f : A -> B) (g : A -> C) xs :
  Forall (fun x => R (f x) (g x)) xs -> Forall2 R (map f xs) (map g xs).
Proof. induction 1; constructor; assumption. Qed.

(* end to end (string layer included) for whole tags:
   read("Tag1", "Tag2", ...) of controller-scope tags of ANY type (atomic, BOOL, BOOL array, arrays (first
   element), structures, strings), any number of them, any plan, instance or symbolic addressing *)
Definition tag_ast (g : tagdef) : request_ast := mkReq None [mkSeg (g_name g) []] None None.

Definition C01_tags : Prop :=
  forall p mem pol basic cfg fuel st ms (gs : list tagdef),
    wf_project p = true -> wf_mem p mem = true -> layout_ok p = true -> upload_ok p = true -> 0 < po_bool_true pol < 256 ->
    quiet (mkLState p mem pol basic) ms st -> (c_micro800 cfg = false -> ms = true) -> c_conn cfg < 65536 ->
    Forall (fun g => In g (visible_tags p) /\ g_scope g = ScCtrl /\ plain_name (g_name g) = true
                     /\ ref_read p mem (tag_ast g) <> None
                     /\ (forall q path, parse_tag_request (client_tags p) (g_name g) = Ok q -> read_path (c_use_ids cfg) q = Ok path ->
                                        fits (c_conn cfg) fuel q path)) gs ->
    C01_conclusion p mem cfg fuel st (map g_name gs) (map tag_ast gs).

Theorem C01_tags_hold : C01_tags.
Proof.
  intros p mem pol basic cfg fuel st ms gs Hwf Hwm Hlay Hup Hbt Hq Hms Hconn HF.
  apply (C01_partial_holds p mem pol basic cfg fuel st ms (map g_name gs) (map tag_ast gs) Hlay Hbt (wf_mem_bytes_ok p mem Hwm) Hq Hms Hconn).
  apply forall2_maps. eapply Forall_impl; [|exact HF]. intros g (Hvis & Hsc & Hname & Href & Hfits).
  exact (plain_request_ok p mem cfg fuel g Hwf Hwm Hlay Hup Hvis Hsc Hname Href Hfits).
Qed.
Print Assumptions C01_tags_hold.

(* end to end for every single-segment request on
   controller-scope tags: "name", "name[i]", "name[i,j,k]", "....bit", "...{n}" on data tags (atomic, arrays,
   structures, strings), "name", "name[i]", "name{n}", "name[i]{n}" on BOOL arrays, whole BOOL tags.
   [sreq_ok] (Proofs/ReadResolve1.v): the tag is visible, the indices / bit / count are decimal fields, the
   request exists (ref_read <> None) and fits the connection. *)
Definition C01_single_segment : Prop :=
  forall p mem pol basic cfg fuel st ms (xs : list sreq),
    wf_project p = true -> wf_mem p mem = true -> layout_ok p = true -> upload_ok p = true -> 0 < po_bool_true pol < 256 ->
    quiet (mkLState p mem pol basic) ms st -> (c_micro800 cfg = false -> ms = true) -> c_conn cfg < 65536 ->
    Forall (sreq_ok p mem cfg fuel) xs ->
    C01_conclusion p mem cfg fuel st (map sreq_text xs) (map sreq_ast xs).

Theorem C01_single_segment_holds : C01_single_segment.
Proof.
  intros p mem pol basic cfg fuel st ms xs Hwf Hwm Hlay Hup Hbt Hq Hms Hconn HF.
  apply (C01_partial_holds p mem pol basic cfg fuel st ms (map sreq_text xs) (map sreq_ast xs) Hlay Hbt (wf_mem_bytes_ok p mem Hwm) Hq Hms Hconn).
  apply forall2_maps. eapply Forall_impl; [|exact HF]. intros x. exact (sreq_request_ok p mem cfg fuel x Hwf Hwm Hlay Hup).
Qed.
Print Assumptions C01_single_segment_holds.

(* end to end for every request shape:
   [Program:P.]tag[i..].member[j..]. ... [.bit][{n}] — structure-member paths at any depth (BOOL members, BOOL-array
   members, arrays of structures), program-scoped tags, and the single-segment requests above.
   [item_ok] (Proofs/ReadResolve2.v): the names are those of a visible tag and of template members, spelled as the
   controller spells them; indices / bit / count are decimal fields; the request exists (ref_read <> None), can be
   built (read_path succeeds) and fits the connection.  [dword_arrays]: BOOL arrays are arrays. *)
Definition C01_paths : Prop :=
  forall p mem pol basic cfg fuel st ms (xs : list ritem),
    wf_project p = true -> wf_mem p mem = true -> layout_ok p = true -> upload_ok p = true -> dword_arrays p = true ->
    0 < po_bool_true pol < 256 ->
    quiet (mkLState p mem pol basic) ms st -> (c_micro800 cfg = false -> ms = true) -> c_conn cfg < 65536 ->
    Forall (item_ok p mem cfg fuel) xs ->
    C01_conclusion p mem cfg fuel st (map item_text xs) (map item_ast xs).

Theorem C01_paths_hold : C01_paths.
Proof.
  intros p mem pol basic cfg fuel st ms xs Hwf Hwm Hlay Hup Hda Hbt Hq Hms Hconn HF.
  apply (C01_partial_holds p mem pol basic cfg fuel st ms (map item_text xs) (map item_ast xs) Hlay Hbt (wf_mem_bytes_ok p mem Hwm) Hq Hms Hconn).
  apply forall2_maps. eapply Forall_impl; [|exact HF]. intros x. exact (item_request_ok p mem cfg fuel x Hwf Hwm Hlay Hup Hda).
Qed.
Print Assumptions C01_paths_hold.

(* the structured requests are requests in the sense of C01_full: Expect.parse_request reads [item_text x] as
   [item_ast x], the request exists and travels, and it is outside the guard — so C01_paths is C01_guarded_statement
   restricted to the strings that are the text of a structured request *)
Theorem C01_paths_are_requests : forall p mem cfg fuel (x : ritem),
  wf_project p = true -> wf_mem p mem = true -> layout_ok p = true -> upload_ok p = true -> dword_arrays p = true ->
  item_ok p mem cfg fuel x -> item_wf x ->
  exists_in p mem cfg fuel (item_text x) (item_ast x) /\ C01_guard p (item_text x) = false.
Proof.
  intros p mem cfg fuel x Hwf Hwm Hlay Hup Hda Hok Hiwf.
  destruct (item_request_ok p mem cfg fuel x Hwf Hwm Hlay Hup Hda Hok) as (q & path & Hres & Hfits & _ & Href).
  destruct Hres as (pl & pb & l & _ & Hparse & Hrp & _).
  destruct Hfits as (F1 & F2 & F3 & F4 & F5).
  split.
  - split; [exact (item_parse_request p mem cfg fuel x Hok Hiwf)|]. split; [exact Href|].
    exists q, path. split; [exact Hparse|]. split; [exact Hrp|]. repeat split; assumption.
  - unfold C01_guard. rewrite Hparse. apply Z.leb_gt. exact F4.
Qed.
Print Assumptions C01_paths_are_requests.

(* the full statement is refuted by the UINT element count.
   An array of 65536 SINTs exists; `g{65536}` asks for all of it; the element count of Read Tag is a UINT:
   the request cannot be built and its Tag is falsy ("Failed to build request - DataError(...)"). *)
Definition big_proj : project := mkProject [] [mkTag (zs "g") 5 ScCtrl (BAtom 194) [65536] 0 false 0 0 0 67108864].
Definition big_mem : Project.mem := [(5, zeros 65536)].
Definition big_cfg : ccfg := mkCfg 4000 false true.
Definition big_req : text := zs "g{65536}".
Definition big_ast : request_ast := mkReq None [mkSeg (zs "g") []] None (Some 65536).
Definition big_st : tstate lstate := set_app (mkLState big_proj big_mem default_policy init_basic) (init_tstate init_lstate).

(* a request that parses but cannot be built (its path, or its element count) fails alone: no packet is planned for it *)
Lemma read_unbuildable {St} (peer : St -> bytes -> St * option bytes) fuel cfg tags st s q e :
  parse_tag_request tags s = Ok q -> build_one (c_use_ids cfg) q = Err e ->
  snd (read peer fuel cfg tags st [s]) = Done [err_tag s].
Proof.
  intros Hq He. unfold read. cbn [parse_requested]. rewrite Hq. cbn [build_paths]. rewrite He.
  cbn [build_paths plan_input map zget]. unfold LogixPlan.read_build_requests.
  cbn [length Nat.eqb negb andb LogixPlan.filter_map LogixPlan.read_build_single LogixPlan.r_err run_packets snd map rget].
  reflexivity.
Qed.

(* the fuel exceeds the 65536 data bytes *)
Lemma big_run : snd (run_read (Z.to_nat 70000) big_cfg (client_tags big_proj) big_st [big_req]) = Done [err_tag big_req].
Proof.
  assert (H : exists q e, parse_tag_request (client_tags big_proj) big_req = Ok q /\ build_one (c_use_ids big_cfg) q = Err e)
    by (eexists; eexists; split; [vm_compute; reflexivity|]; vm_compute; reflexivity).
  destruct H as (q & e & Hq & He). exact (read_unbuildable _ _ _ _ _ _ q e Hq He).
Qed.

Theorem C01_full_refuted : ~ C01_full.
Proof.
  intros H.
  destruct (H big_proj big_mem default_policy init_basic big_cfg (Z.to_nat 70000) big_st true [big_req] [big_ast])
    as (st' & sent & tags & Hrun & Htags).
  - vm_compute. reflexivity.
  - vm_compute. reflexivity.
  - vm_compute. reflexivity.
  - vm_compute. split; reflexivity.
  - repeat split; reflexivity.
  - reflexivity.
  - reflexivity.
  - constructor; [|constructor]. split; [vm_compute; reflexivity|]. split.
    + assert (Hs : (match ref_read big_proj big_mem big_ast with Some _ => true | None => false end) = true)
        by (vm_compute; reflexivity).
      destruct (ref_read big_proj big_mem big_ast); [discriminate|discriminate Hs].
    + eexists. eexists. split; [vm_compute; reflexivity|]. split; [vm_compute; reflexivity|].
      unfold travels. cbn [pq_elements pq_info ti_esize].
      split; [vm_compute; discriminate|]. split; [vm_compute; discriminate|]. split; [vm_compute; reflexivity|]. lia.
  - pose proof big_run as Hb. rewrite Hrun in Hb. cbn [snd] in Hb. injection Hb as ->.
    inversion Htags as [|a t la lt Hc _]; subst.
    destruct Hc as (v & tn & c & _ & _ & (He & _)). cbn in He. discriminate.
Qed.
Print Assumptions C01_full_refuted.

Definition C01_components : Prop :=
  (* integer bit: bool(value & 1 << bit) is bit [bit] of the two's-complement value, for every value and bit *)
  (forall v b, 0 <= b -> negb (Z.land v (Z.shiftl 1 b) =? 0) = Z.testbit v b)
  /\ (forall w u b, 0 <= b < 8 * Z.of_nat w -> Z.testbit (to_signed w u) b = Z.testbit u b)
  (* BOOL arrays: the DWORD count of _parse_tag_request covers the addressed bits and stays inside the array *)
  /\ (forall bit n words, 0 <= bit -> 1 <= n -> bit + n <= 32 * words ->
        let total := bit + n in
        let elements := total / 32 + (if total mod 32 =? 0 then 0 else 1) in
        1 <= elements <= words /\ bit + n <= 32 * elements /\ 32 * (elements - 1) < bit + n)
  (* ... and value[bit : bit + n] of the DWORDs read from element 0 are the addressed BOOLs *)
  /\ (forall (img : bytes) off bit n elements,
        0 <= off -> 0 <= bit -> 1 <= n -> bit + n <= 32 * elements -> off + 4 * elements <= Z.of_nat (length img) ->
        let d := firstn (Z.to_nat (4 * elements)) (skipn (Z.to_nat off) img) in
        let b0 := bit / 8 in
        let b1 := (bit + n - 1) / 8 in
        let d' := firstn (Z.to_nat (b1 - b0 + 1)) (skipn (Z.to_nat (off + b0)) img) in
        firstn (Z.to_nat n) (skipn (Z.to_nat bit) (bools_of_bytes d))
        = firstn (Z.to_nat n) (skipn (Z.to_nat (bit - 8 * b0)) (bools_of_bytes d')))
  (* reply decode . target image = reference value, for every element type of every project with a
     sound layout (induction on the template nesting): the type class consumes exactly the image *)
  /\ (forall p, layout_ok p = true -> forall f1 ty tc s,
        elem_tc f1 p ty = Some tc -> base_size p ty = Some s ->
        forall d rest, Path.len d = s -> bytes_ok d = true ->
          exists v', decode_tc tc (d ++ rest) = Ok (v', rest)
                     /\ forall f2 v, decode_val f2 p ty d = Some v -> pyeq v' v)
  (* fragment reassembly against the target, for every fragment-length policy; fuel > data size suffices *)
  /\ (forall app ms conn path pb q l img s tb full,
        path_wf path pb -> tag_cia pb -> resolve_path (ls_proj app) false pb = TgTag l ->
        mem_get (ls_mem app) (w_inst l) = Some img -> 0 <= pq_elements q < 65536 ->
        loc_esize (ls_proj app) l = Some s -> type_bytes (ls_proj app) l = Some tb -> tb_ok tb -> 1 <= s ->
        1 <= pq_elements q <= w_avail l -> s <= conn - 2 - 4 - Expect.blen tb ->
        2 + (1 + EncapParser.blen path + 6) <= conn -> pq_elements q * s < 4294967296 ->
        loc_bytes (ls_pol app) img l 0 (pq_elements q * s) = Some full -> (w_bit l <> None -> pq_elements q * s = 1) ->
        forall fuel st sent, quiet app ms st -> (Z.to_nat (pq_elements q * s) < fuel)%nat ->
        exists st' sent',
          frag_loop (target_peer conn) fuel st path q 0 true [] sent
          = (st', sent', Done (reply_opt (tb ++ full) (pq_info q) (pq_elements q))) /\ quiet app ms st')
  (* the transport as a whole: any number of requests the target serves, any plan *)
  /\ (forall app tags cfg st rs fuel ms,
        quiet app ms st -> (c_micro800 cfg = false -> ms = true) ->
        Forall (good app tags cfg) rs -> c_conn cfg < 65536 ->
        Forall (fun r => (Z.to_nat (rq_n r * rq_sz r) < fuel)%nat) rs ->
        exists st' sent,
          read (target_peer (c_conn cfg)) fuel cfg tags st (map rq_s rs)
          = (st', sent, Done (map (fun r => post_read (rq_q r) (res_of r)) rs)) /\ quiet app ms st').

Theorem C01_components_hold : C01_components.
Proof.
  split; [exact bit_extract|].
  split; [exact testbit_to_signed|].
  split; [exact dword_cover|].
  split; [exact bool_range|].
  split; [intros p Hl f1 ty tc s H1 H2; exact (decode_elem_spec p Hl f1 ty tc s H1 H2)|].
  split; [intros; eapply frag_read_ok; eassumption|].
  exact read_transport.
Qed.
Print Assumptions C01_components_hold.

(* non-vacuity: the hypotheses of C01_partial are inhabited.
   A project with a DINT tag, an INT[4] array and a BOOL[64] array; one call with four requests (one
   multi-service packet): a tag, an array slice, a BOOL-array element, an integer bit. *)
Definition ex_tag (n : text) (inst code : Z) (dims : list Z) : tagdef := mkTag n inst ScCtrl (BAtom code) dims 0 false 0 0 0 67108864.
Definition ex_proj : project := mkProject [] [ex_tag (zs "x") 7 196 []; ex_tag (zs "a") 9 195 [4]; ex_tag (zs "b") 11 211 [2]].
Definition ex_mem : Project.mem := [(7, [254; 255; 255; 255]); (9, [1; 0; 2; 0; 3; 0; 4; 128]); (11, [0; 0; 0; 0; 2; 0; 0; 0])].
Definition ex_cfg : ccfg := mkCfg 500 false true.
Definition ex_reqs : list text := [zs "x"; zs "a[1]{2}"; zs "b[33]"; zs "x.31"].

Definition ex_asts : list request_ast :=
  [mkReq None [mkSeg (zs "x") []] None None; mkReq None [mkSeg (zs "a") [1]] None (Some 2);
   mkReq None [mkSeg (zs "b") [33]] None None; mkReq None [mkSeg (zs "x") []] (Some 31) None].

Definition ex_sreqs : list sreq :=
  [mkSreq (ex_tag (zs "x") 7 196 []) [] [] None None;
   mkSreq (ex_tag (zs "a") 9 195 [4]) [zs "1"] [1] None (Some (zs "2", 2));
   mkSreq (ex_tag (zs "b") 11 211 [2]) [zs "33"] [33] None None;
   mkSreq (ex_tag (zs "x") 7 196 []) [] [] (Some (zs "31", 31)) None].

(* [item_ok] of a concrete request through ReadStrings.core_item_ok: the computable side conditions, the reference's
   parse, the client's request and its path are evaluated *)
Ltac item_fact p m cfg x :=
  let c := match x with
           | inl (mkSreq ?g ?ids ?idv ?bit ?cnt) => constr:((@None text, (g_name g, ids, idv), @nil ppart, bit, cnt))
           | inr (mkGreq ?g ?x1 ?more ?bit ?cnt) => constr:((prog_of (g_scope g), x1, more, bit, cnt))
           end in
  match c with
  | (?prog, ?x1, ?more, ?bit, ?cnt) =>
      eapply proj2, (core_item_ok p m cfg 100 _ _ prog x1 more bit cnt x);
      [ vm_compute; reflexivity | repeat constructor | vm_compute; first [exact I|reflexivity]
      | vm_compute; first [exact I|reflexivity] | vm_compute; reflexivity | vm_compute; reflexivity | reflexivity
      | vm_compute; reflexivity | vm_compute; discriminate
      | eexists; eexists; split; [vm_compute; reflexivity|]; split; [vm_compute; reflexivity|]; unfold fits; repeat split;
        first [vm_compute; reflexivity | vm_compute; lia | vm_compute; discriminate] ]
  end.

Lemma ex_sreqs_ok : Forall (sreq_ok ex_proj ex_mem ex_cfg 100) ex_sreqs.
Proof.
  unfold ex_sreqs. repeat (constructor; [match goal with |- sreq_ok ?p ?m ?cfg _ ?a => change (item_ok p m cfg 100 (inl a)); item_fact p m cfg (@inl sreq greq a) end|]).
  constructor.
Qed.

Example C01_nonvacuous_hyps : Forall2 (request_ok ex_proj ex_mem ex_cfg 100) ex_reqs ex_asts.
Proof.
  change ex_reqs with (map sreq_text ex_sreqs). change ex_asts with (map sreq_ast ex_sreqs).
  apply forall2_maps. eapply Forall_impl; [|exact ex_sreqs_ok]. intros x. apply sreq_request_ok; vm_compute; reflexivity.
Qed.

Lemma conclusion_values p mem cfg fuel st reqs asts (f : list rtag -> Prop) :
  C01_conclusion p mem cfg fuel st reqs asts ->
  (forall tags, snd (run_read fuel cfg (client_tags p) st reqs) = Done tags -> f tags) ->
  exists st' sent tags, run_read fuel cfg (client_tags p) st reqs = (st', sent, Done tags)
                        /\ Forall2 (tag_correct p mem) asts tags /\ f tags.
Proof.
  intros (st' & sent & tags & Hrun & Ht) Hf. exists st', sent, tags. split; [exact Hrun|]. split; [exact Ht|].
  apply Hf. rewrite Hrun. reflexivity.
Qed.

Example C01_nonvacuous :
  wf_project ex_proj = true /\ wf_mem ex_proj ex_mem = true /\ layout_ok ex_proj = true
  /\ (let st := set_app (mkLState ex_proj ex_mem default_policy init_basic) (init_tstate init_lstate) in
      exists st' sent tags, run_read 100 ex_cfg (client_tags ex_proj) st ex_reqs = (st', sent, Done tags)
                            /\ Forall2 (tag_correct ex_proj ex_mem) ex_asts tags
                            /\ map tg_value tags = [Some (RInt (-2)); Some (RList [RInt 2; RInt 3]); Some (RBool true); Some (RBool true)]).
Proof.
  split; [vm_compute; reflexivity|]. split; [vm_compute; reflexivity|]. split; [vm_compute; reflexivity|].
  cbv zeta. refine (conclusion_values ex_proj ex_mem ex_cfg 100%nat _ ex_reqs ex_asts (fun tags => map tg_value tags = _) _ _).
  - apply (C01_partial_holds ex_proj ex_mem default_policy init_basic ex_cfg 100%nat _ true ex_reqs ex_asts);
      [vm_compute; reflexivity|vm_compute; split; reflexivity|exact (wf_mem_bytes_ok ex_proj ex_mem ltac:(vm_compute; reflexivity))
      |repeat split; reflexivity|reflexivity|reflexivity|exact C01_nonvacuous_hyps].
  - intros tags Hc. vm_compute in Hc. injection Hc as <-. reflexivity.
Qed.

(* the hypotheses of C01_single_segment are inhabited by the same four requests *)
Example C01_single_nonvacuous :
  map sreq_text ex_sreqs = ex_reqs /\ map sreq_ast ex_sreqs = ex_asts
  /\ upload_ok ex_proj = true /\ Forall (sreq_ok ex_proj ex_mem ex_cfg 100) ex_sreqs.
Proof.
  split; [vm_compute; reflexivity|]. split; [vm_compute; reflexivity|]. split; [vm_compute; reflexivity|].
  exact ex_sreqs_ok.
Qed.

(* non-vacuity of C01_paths: a UDT with a hidden host member,
   BOOL members, an INT and a DINT[2]; an array of two of them, a program-scoped DINT; one call with five
   requests: members of array elements, a BOOL member, an integer bit of a program tag, a whole structure *)
Definition px_udt : template :=
  mkTemplate (zs "udtMix") (Some (zs "n1")) 672 17185 12 0
    [ mkMember (zs "ZZZZZZZZZZudtMix0") (BAtom C_SINT) 0 0 0 true;
      mkMember (zs "bRun") (BAtom C_BOOL) 0 0 0 false;
      mkMember (zs "bFault") (BAtom C_BOOL) 0 0 5 false;
      mkMember (zs "Count") (BAtom C_INT) 0 2 0 false;
      mkMember (zs "Vals") (BAtom C_DINT) 2 4 0 false ].
Definition px_prog : tagdef := mkTag (zs "Program:Main") 3 ScCtrl (BOpaque 104) [] 0 false 0 0 0 67108864.
Definition px_mix : tagdef := mkTag (zs "mix") 9 ScCtrl (BStruct 672) [2] 0 false 0 0 0 67108864.
Definition px_v : tagdef := mkTag (zs "v") 11 (ScProg (zs "Main")) (BAtom C_DINT) [] 0 false 0 0 0 67108864.
Definition px_proj : project := mkProject [px_udt] [px_prog; px_mix; px_v].
Definition px_mem : Project.mem :=
  [(9, [32; 0; 7; 0; 1; 0; 0; 0; 2; 0; 0; 0;   1; 0; 254; 255; 3; 0; 0; 0; 4; 0; 0; 128]); (11, [8; 0; 0; 0])].
Definition px_cfg : ccfg := mkCfg 500 false true.
Definition px_items : list ritem :=
  [ inr (mkGreq px_mix (zs "mix", [zs "1"], [1]) [(zs "Count", [], [])] None None);
    inr (mkGreq px_mix (zs "mix", [zs "0"], [0]) [(zs "Vals", [zs "1"], [1])] None None);
    inr (mkGreq px_mix (zs "mix", [zs "0"], [0]) [(zs "bFault", [], [])] None None);
    inr (mkGreq px_v (zs "v", [], []) [] (Some (zs "3", 3)) None);
    inl (mkSreq px_mix [zs "1"] [1] None None) ].

Example C01_paths_nonvacuous :
  wf_project px_proj = true /\ wf_mem px_proj px_mem = true /\ layout_ok px_proj = true /\ upload_ok px_proj = true
  /\ dword_arrays px_proj = true
  /\ map item_text px_items = [zs "mix[1].Count"; zs "mix[0].Vals[1]"; zs "mix[0].bFault"; zs "Program:Main.v.3"; zs "mix[1]"]
  /\ Forall (item_ok px_proj px_mem px_cfg 100) px_items
  /\ (let st := set_app (mkLState px_proj px_mem default_policy init_basic) (init_tstate init_lstate) in
      exists st' sent tags, run_read 100 px_cfg (client_tags px_proj) st (map item_text px_items) = (st', sent, Done tags)
        /\ Forall2 (tag_correct px_proj px_mem) (map item_ast px_items) tags
        /\ firstn 4 (map tg_value tags) = [Some (RInt (-2)); Some (RInt 2); Some (RBool true); Some (RBool true)]).
Proof.
  assert (Hit : Forall (item_ok px_proj px_mem px_cfg 100) px_items).
  { unfold px_items. repeat (constructor; [match goal with |- item_ok ?p ?m ?cfg _ ?x => item_fact p m cfg x end|]). constructor. }
  assert (H1 : wf_project px_proj = true) by (vm_compute; reflexivity).
  assert (H2 : wf_mem px_proj px_mem = true) by (vm_compute; reflexivity).
  assert (H3 : layout_ok px_proj = true) by (vm_compute; reflexivity).
  assert (H4 : upload_ok px_proj = true) by (vm_compute; reflexivity).
  assert (H5 : dword_arrays px_proj = true) by (vm_compute; reflexivity).
  split; [exact H1|]. split; [exact H2|]. split; [exact H3|]. split; [exact H4|]. split; [exact H5|].
  split; [vm_compute; reflexivity|]. split; [exact Hit|]. cbv zeta.
  refine (conclusion_values px_proj px_mem px_cfg 100%nat _ _ _ (fun tags => firstn 4 (map tg_value tags) = _) _ _).
  - apply (C01_paths_hold px_proj px_mem default_policy init_basic px_cfg 100%nat _ true px_items H1 H2 H3 H4 H5);
      [vm_compute; split; reflexivity|repeat split; reflexivity|reflexivity|reflexivity|exact Hit].
  - intros tags Hc. vm_compute in Hc. injection Hc as <-. reflexivity.
Qed.

(* THE HEADLINE ON REQUEST STRINGS.
   [plain_request p s] (Proofs/ReadStrings.v) is a computable predicate of the string and the project:
   the string splits into [Program:P.]tag[i..].member[j..]...[.bit][{n}]; rendering the pieces back gives the
   string itself; the tag is a visible tag and the members are template members, all named exactly as the
   controller names them; names are ASCII without . [ ] { }, 1..255 characters (a single controller-scope
   segment: also without ':'); no member segment is made only of digits; decimal fields have at most 4300
   digits, index values fit 32 bits, at most three per segment; array dimensions are at most 2^32; a BOOL tag
   carries no index / bit / count, a BOOL array no bit and no more indices than dimensions.
   For such strings C01_guarded_statement holds without any resolution hypothesis ([dword_arrays]: a project-level
   computable condition, BOOL arrays have a dimension).

   OUTSIDE the predicate, and why:
     (a) a name spelled in another case        the reference (like Logix) is case-insensitive, the driver's tag
                                               dict is not (README: names are case-sensitive): out_case
     (b) a decimal field of > 4300 digits      Python's int() refuses it, Expect.parse_nat reads it: out_digits
     (c) a name of >= 256 characters           the symbolic segment has a one-byte length (symbolic addressing;
                                               by symbol instance the read works): out_long_name
     (d) x[i] on a scalar DWORD                the client sends x[0], the target rejects the index: out_scalar_dword
     (e) a member segment made only of digits  both the driver and Expect.parse_request read it as a bit: not a
                                               member request at all
     (f) non-ASCII names                       outside the text domain of the model (Base/PyStr.v)
     (g) NOT KNOWN TO FAIL, only unproved: a single controller-scope segment whose name contains ':' (module tags
         read whole, `Rack:I`; their members `Rack:I.Data` are inside), array dimensions above 2^32. *)
Definition C01_strings : Prop :=
  forall p mem pol basic cfg fuel st ms reqs asts,
    wf_project p = true -> wf_mem p mem = true -> layout_ok p = true -> upload_ok p = true -> dword_arrays p = true ->
    0 < po_bool_true pol < 256 ->
    quiet (mkLState p mem pol basic) ms st -> (c_micro800 cfg = false -> ms = true) -> c_conn cfg < 65536 ->
    Forall (fun s => plain_request p s = true) reqs ->
    Forall2 (exists_in p mem cfg fuel) reqs asts -> Forall (fun s => C01_guard p s = false) reqs ->
    C01_conclusion p mem cfg fuel st reqs asts.

Theorem C01_strings_hold : C01_strings.
Proof.
  intros p mem pol basic cfg fuel st ms reqs asts Hwf Hwm Hlay Hup Hda Hbt Hq Hms Hconn Hplain HF Hg.
  apply (C01_partial_holds p mem pol basic cfg fuel st ms reqs asts Hlay Hbt (wf_mem_bytes_ok p mem Hwm) Hq Hms Hconn).
  apply (guarded_requests_ok p mem cfg fuel (fun s => plain_request p s = true)); try assumption.
  intros s r Hp Hex Hgs.
  destruct (plain_item p mem cfg fuel s r Hp (proj1 Hex) (proj1 (proj2 Hex)) (exists_in_fits p mem cfg fuel s r Hex Hgs)) as (x & <- & <- & Hx).
  exact (item_request_ok p mem cfg fuel x Hwf Hwm Hlay Hup Hda Hx).
Qed.
Print Assumptions C01_strings_hold.

Example C01_strings_nonvacuous :
  forallb (plain_request px_proj) (map item_text px_items) = true /\ forallb (plain_request ex_proj) ex_reqs = true.
Proof. split; vm_compute; reflexivity. Qed.

Definition out_st (p : project) (m : Project.mem) : tstate lstate := set_app (mkLState p m default_policy init_basic) (init_tstate init_lstate).
Definition has_value (p : project) (m : Project.mem) (s : text) : bool :=
  match parse_request s with Some r => match ref_read p m r with Some _ => true | None => false end | None => false end.
Definition client_fails (p : project) (m : Project.mem) (cfg : ccfg) (s : text) : bool :=
  match snd (run_read 5000 cfg (client_tags p) (out_st p m) [s]) with
  | Done [t] => tg_error t
  | _ => false
  end.
Definition outside (p : project) (m : Project.mem) (cfg : ccfg) (s : text) : bool :=
  negb (plain_request p s) && has_value p m s && client_fails p m cfg s.

(* (a) a name spelled in another case *)
Example out_case : outside ex_proj ex_mem ex_cfg (zs "X") = true.
Proof. vm_compute. reflexivity. Qed.
(* (b) a decimal field of more than 4300 digits: Python's int() refuses it *)
Definition long_index : text := zs "a[" ++ repeat 48 4300 ++ zs "1]".

(* `a[D]` for a decimal field D of more than 4300 digits with value 1: the three facts of [outside], each by the
   splitting lemmas on the string with D a variable (evaluating the parsers on the 4300 characters reverses
   the string several times) *)
Section LongIndex.
  Variable D : text.
  Hypothesis Hd : isdigit D = true.
  Hypothesis Hlong : 4300 < Path.len D.
  Hypothesis Hv : digits_val D 0 = Some 1.
  Let s : text := [97; 91] ++ D ++ [93].

  Lemma li_D_nosep c : (c < 48 \/ 57 < c) -> nosep c D = true.
  Proof. apply digit_nosep. exact Hd. Qed.

  Lemma li_nosep c : c = 46 \/ c = 123 \/ c = 125 -> nosep c s = true.
  Proof.
    intros Hc. unfold s. rewrite !nosep_app, li_D_nosep by lia. unfold nosep. cbn [forallb].
    replace (97 =? c) with false by lia. replace (91 =? c) with false by lia. replace (93 =? c) with false by lia. reflexivity.
  Qed.

  (* the reference reads the index *)
  Lemma li_parse_request : parse_request s = Some (mkReq None [mkSeg [97] [1]] None None).
  Proof.
    assert (Hseg : parse_seg s = Some (mkSeg [97] [1])).
    { unfold parse_seg, LBRACK, RBRACK, COMMA, s. change ([97; 91] ++ D ++ [93]) with ([97] ++ 91 :: (D ++ [93])).
      rewrite split2; [|reflexivity|rewrite nosep_app, li_D_nosep by lia; reflexivity].
      rewrite split_last_snoc. cbn [Z.eqb Pos.eqb nonempty andb]. rewrite contains_chr_nosep by (apply li_D_nosep; lia). cbn [negb].
      rewrite split_nosep by (apply li_D_nosep; lia). cbn [map all_some]. unfold parse_nat. rewrite Hd, Hv. reflexivity. }
    unfold parse_request, split_count. unfold s at 1. rewrite !app_assoc, split_last_snoc.
    unfold RBRACE, LBRACE. cbn [Z.eqb Pos.eqb].
    rewrite !contains_chr_nosep by (apply li_nosep; tauto). cbn [orb]. unfold DOT. rewrite split_nosep by (apply li_nosep; tauto).
    replace (starts_with txt_Program s) with false by reflexivity.
    cbn [split_last rev nonempty andb map all_some app]. rewrite Hseg. reflexivity.
  Qed.

  (* the client parses the request (the index is not looked at before the path is built) ... *)
  Lemma li_client_parse : exists info, parse_tag_request (client_tags ex_proj) s = Ok (mkPreq s s None 1 None info).
  Proof.
    assert (Hg : exists info, get_tag_info (client_tags ex_proj) s [] = Ok info /\ is_dw info = false).
    { eexists. unfold get_tag_info, strip_array. replace (find [91] s) with (Some 1%nat) by reflexivity.
      replace (firstn 1 s) with [97] by reflexivity. split; vm_compute; reflexivity. }
    destruct Hg as (info & Hg & Hnd). exists info.
    pose proof (parse_gen None s [] None None) as H. unfold g_text, g_body0, g_base in H. cbn [app join bit_txt cnt_txt] in H.
    rewrite !app_nil_r in H.
    rewrite H with (info := info); clear H; try exact I; try reflexivity; try exact Hg.
    - rewrite Hnd. reflexivity.
    - intros c Hc. cbn [forallb]. rewrite li_nosep by exact Hc. split; reflexivity.
    - discriminate.
  Qed.

  (* ... and int() refuses it there *)
  Lemma li_unbuildable info use : build_one use (mkPreq s s None 1 None info) = Err (Foreign ValueError).
  Proof.
    unfold build_one, read_path, Path.tag_request_path, Path.tag_segments. cbn [pq_plc]. rewrite split_nosep by (apply li_nosep; tauto).
    assert (Hf : Path.find_tag_index s = ([97], [D])).
    { unfold Path.find_tag_index. replace (contains_chr 91 s) with true by reflexivity.
      unfold s. rewrite !app_assoc, removelast_snoc. replace (find [91] ([97; 91] ++ D)) with (Some 1%nat) by reflexivity.
      cbn [firstn skipn app]. rewrite split_nosep by (apply li_D_nosep; lia). reflexivity. }
    rewrite Hf. cbn [Path.map_res]. rewrite py_int_full_long; [reflexivity|apply isdigit_all; exact Hd|exact Hlong].
  Qed.

  Lemma li_not_plain : plain_request ex_proj s = false.
  Proof.
    assert (Hc : struct_core s = Some (None, ([97], [D], [1]), [], None, None)).
    { assert (H1 : cnt_split s = (s, None)).
      { unfold cnt_split, s. rewrite app_assoc, ends_with_app_nosep by (discriminate || reflexivity). reflexivity. }
      assert (Hs : seg_split s = ([97], [D])).
      { unfold seg_split, s. change ([97; 91] ++ D ++ [93]) with ([97] ++ 91 :: (D ++ [93])).
        rewrite split2; [|reflexivity|rewrite nosep_app, li_D_nosep by lia; reflexivity].
        rewrite removelast_snoc, split_nosep by (apply li_D_nosep; lia). reflexivity. }
      unfold struct_core. rewrite H1. cbn [fst snd]. rewrite split_nosep by (apply li_nosep; tauto).
      unfold prog_split. replace (starts_with txt_Program_ s) with false by reflexivity.
      cbn [snd fst bit_split rev app map mk_parts opt_of]. rewrite Hs. unfold mk_part. cbn [snd fst vals]. rewrite Hv. reflexivity. }
    unfold plain_request. rewrite Hc.
    replace (core_item ex_proj (None, ([97], [D], [1]), [], None, None))
      with (Some (inl (mkSreq (ex_tag [97] 9 195 [4]) [D] [1] None None) : ritem)) by reflexivity.
    cbn [item_okb sr_ids forallb]. unfold okd at 1. replace (Path.len D <=? 4300) with false by lia.
    rewrite !andb_false_r. reflexivity.
  Qed.

  Lemma long_field_outside : outside ex_proj ex_mem ex_cfg s = true.
  Proof.
    destruct li_client_parse as (info & Hq). pose proof li_parse_request as Hr.
    unfold outside, has_value, client_fails, run_read.
    rewrite li_not_plain, Hr, (read_unbuildable _ _ _ _ _ _ _ _ Hq (li_unbuildable info _)). reflexivity.
  Qed.
End LongIndex.

Example out_digits : outside ex_proj ex_mem ex_cfg long_index = true.
Proof.
  unfold long_index. change (zs "1]") with ([49] ++ [93]). rewrite (app_assoc (repeat 48 4300)).
  apply long_field_outside; vm_compute; reflexivity.
Qed.
(* (c) a name of 256 characters: the symbolic segment has a one-byte length *)
Definition long_name : text := repeat 97 256.
Definition ln_proj : project := mkProject [] [ex_tag long_name 7 196 []].
Definition ln_mem : Project.mem := [(7, [1; 0; 0; 0])].
Example out_long_name : wf_project ln_proj = true /\ outside ln_proj ln_mem (mkCfg 4000 false false) long_name = true.
Proof. vm_compute. split; reflexivity. Qed.
(* (d) x[i] on a scalar DWORD *)
Definition sd_proj : project := mkProject [] [ex_tag (zs "d") 7 211 []].
Definition sd_mem : Project.mem := [(7, [8; 0; 0; 0])].
Example out_scalar_dword : wf_project sd_proj = true /\ dword_arrays sd_proj = false /\ outside sd_proj sd_mem ex_cfg (zs "d[3]") = true.
Proof. vm_compute. repeat split; reflexivity. Qed.

(* the reference grammar inverted (Proofs/ReadResolve3.v).
   [ref_core] follows Expect.parse_request keeping the text of the decimal fields.  Proved for EVERY string:
   a string the reference reads has a core with the reference's AST, and the string is that core rendered as
   [Program:P.]tag[i..].member[j..]...[.bit][{n}] — no hypothesis on the characters of the names, the number of
   segments, leading zeros, ....  So in C01_resolution_strings the string-level condition of [plain_request]
   ("rendering the pieces back gives the string itself") is gone: what is left, [sem_ok p s], is only about the
   PROJECT — the tag is visible and found under its exact spelling, members spelled as the templates spell them
   (out_case), decimal fields of <= 4300 digits (out_digits), names ASCII, 1..255 characters, without . [ ] { }
   (out_long_name; '}' can occur in a name the reference reads: "a}b{3}"), no member segment made of digits,
   index values < 2^32 and dimensions <= 2^32, BOOL / BOOL-array shapes (out_scalar_dword under [dword_arrays]),
   a single controller-scope segment without ':' — i.e. exactly [ReadStrings.item_okb].
   STILL SEPARATING THIS FROM [resolution_sound]: that [exists_in] + the negation of the out_* classes imply [sem_ok]
   (each conjunct of item_okb from existence) is not proved. *)
From PV Require Import Proofs.ReadResolve3 Proofs.ReadInstance.

Definition C01_resolution_grammar : Prop :=
  forall s r, parse_request s = Some r ->
    exists c, ref_core s = Some c /\ core_ast c = r /\ core_text c = s /\ core_vals c.

Theorem C01_resolution_grammar_holds : C01_resolution_grammar.
Proof.
  intros s r H. destruct (ref_core_complete s r H) as (c & Ec & Ea). destruct (ref_core_render s c Ec) as [Et Hv].
  exists c. repeat split; assumption.
Qed.
Print Assumptions C01_resolution_grammar_holds.

(* [resolution_sound] restricted by [sem_ok] only *)
Definition C01_resolution_sem : Prop :=
  forall p mem cfg fuel s r, wf_project p = true -> wf_mem p mem = true -> layout_ok p = true ->
    upload_ok p = true -> dword_arrays p = true -> sem_ok p s = true ->
    exists_in p mem cfg fuel s r -> C01_guard p s = false -> request_ok p mem cfg fuel s r.

Theorem C01_resolution_sem_holds : C01_resolution_sem.
Proof.
  intros p mem cfg fuel s r Hwf Hwm Hlay Hup Hda Hs Hex Hgs.
  exact (resolution_sem p mem cfg fuel s r Hwf Hwm Hlay Hup Hda Hs (proj1 Hex) (proj1 (proj2 Hex)) (exists_in_fits p mem cfg fuel s r Hex Hgs)).
Qed.
Print Assumptions C01_resolution_sem_holds.

Definition C01_resolution_strings : Prop :=
  forall p mem pol basic cfg fuel st ms reqs asts,
    wf_project p = true -> wf_mem p mem = true -> layout_ok p = true -> upload_ok p = true -> dword_arrays p = true ->
    0 < po_bool_true pol < 256 ->
    quiet (mkLState p mem pol basic) ms st -> (c_micro800 cfg = false -> ms = true) -> c_conn cfg < 65536 ->
    Forall (fun s => sem_ok p s = true) reqs ->
    Forall2 (exists_in p mem cfg fuel) reqs asts -> Forall (fun s => C01_guard p s = false) reqs ->
    C01_conclusion p mem cfg fuel st reqs asts.

Theorem C01_resolution_strings_hold : C01_resolution_strings.
Proof.
  intros p mem pol basic cfg fuel st ms reqs asts Hwf Hwm Hlay Hup Hda Hbt Hq Hms Hconn Hsem HF Hg.
  apply (C01_partial_holds p mem pol basic cfg fuel st ms reqs asts Hlay Hbt (wf_mem_bytes_ok p mem Hwm) Hq Hms Hconn).
  apply (guarded_requests_ok p mem cfg fuel (fun s => sem_ok p s = true)); try assumption.
  intros s r. exact (C01_resolution_sem_holds p mem cfg fuel s r Hwf Hwm Hlay Hup Hda).
Qed.
Print Assumptions C01_resolution_strings_hold.

(* non-vacuity: member paths with indexes at two levels, a bit and a count, leading zeros, a program-scoped
   tag with a bit, tag[i,j,k]-style single segments, tag{n} — all inside [sem_ok]; and one core spelled out *)
Definition rs_reqs : list text :=
  [zs "mix[1].Vals[0].31{1}"; zs "mix[0].Vals[01]"; zs "mix[1].Count.03"; zs "Program:Main.v.3"; zs "mix{2}"; zs "mix[0].Vals{2}"].
Example C01_resolution_nonvacuous :
  forallb (sem_ok px_proj) (rs_reqs ++ map item_text px_items) = true
  /\ forallb (sem_ok ex_proj) (ex_reqs ++ [zs "a[1]{3}"; zs "b[3]{40}"; zs "x.0"]) = true
  /\ ref_core (zs "mix[1].Vals[00].31{1}")
     = Some (None, (zs "mix", [zs "1"], [1]), [(zs "Vals", [zs "00"], [0])], Some (zs "31", 31), Some (zs "1", 1))
  /\ forallb (fun s => match parse_request s with Some _ => true | None => false end) rs_reqs = true.
Proof.
  split; [vm_compute; reflexivity|]. split; [vm_compute; reflexivity|]. split; [vm_compute; reflexivity|]. vm_compute; reflexivity.
Qed.

(* symbol-instance addressing and member paths
   (Proofs/ReadInstance.v).
   (1) reference target: the class 0x6B / instance pair stands for the tag with that symbol instance WHATEVER
       follows (element indexes, member names at any depth), in every scope (also after a Program:P segment),
       for every project whose instance ids and names are distinct (wf_project);
   (2) the same at the byte level for controller-scope tags: inst_seg_bytes ++ R and sym_seg_bytes name ++ R
       resolve alike, R = element segments then member parts;
   (3) the driver (packets/util.tag_request_path) opens with the instance pair exactly when [by_instance]:
       use_instance_ids and the request's tag info has a non-zero instance id and the first dotted part does
       not start with "Program:"; otherwise the path is the symbolic one;
   (4) THE EXCLUSIONS THE CODE MAKES: for every request with a member path, and every Program: scoped request,
       [by_instance] is false — _get_tag_info returns the member's entry of the data-type dict, which carries no
       instance id — so member requests are always addressed symbolically, use_instance_ids or not, and are
       covered by C01_paths for both settings.  The instance form is emitted only for single-segment
       controller-scope requests (C01_single_segment / ReadResolve1.path_single). *)
Definition C01_instance_paths : Prop :=
  (forall p g listing rest, wf_project p = true -> In g (p_tags p) -> (listing = false \/ rest <> []) ->
     resolve_in_scope p listing (g_scope g) (inst_psegs (g_inst g) ++ rest)
     = resolve_in_scope p listing (g_scope g) (PSym (g_name g) :: rest))
  /\ (forall p g idv more, wf_project p = true -> In g (p_tags p) -> g_scope g = ScCtrl ->
        starts_with txt_Program_ (g_name g) = false -> Path.len (g_name g) < 256 -> idx32 idv -> Forall ppart_ok more ->
        resolve_path p false (inst_seg_bytes (g_inst g) ++ rest_bytes idv more)
        = resolve_path p false (sym_seg_bytes (g_name g) ++ rest_bytes idv more))
  /\ (forall use q, by_instance use q = false -> read_path use q = read_path false q)
  /\ (forall p mem cfg fuel x,
        wf_project p = true -> wf_mem p mem = true -> layout_ok p = true -> upload_ok p = true -> dword_arrays p = true ->
        greq_ok p mem cfg fuel x ->
        exists q, parse_tag_request (client_tags p) (gq_text x) = Ok q
          /\ (gq_more x <> [] -> ti_inst (pq_info q) = None)
          /\ by_instance (c_use_ids cfg) q = false
          /\ read_path (c_use_ids cfg) q = read_path false q).

Theorem C01_instance_paths_hold : C01_instance_paths.
Proof.
  split; [exact instance_in_scope|].
  split; [intros p g idv more H1 H2 H3 H4 H5 H6 H7; exact (proj2 (proj2 (instance_path_resolves p g idv more H1 H2 H3 H4 H5 H6 H7)))|].
  split; [exact read_path_symbolic|exact greq_ok_symbolic].
Qed.
Print Assumptions C01_instance_paths_hold.

(* non-vacuity on px_proj: `mix` has symbol instance 9.  The instance pair followed by [1] and .Count reaches
   the same INT as the symbolic path; with use_instance_ids the driver still builds the symbolic path for
   "mix[1].Count" (and the instance path for "mix[1]") *)
Definition ip_member : ppart := (zs "Count", [], []).
Definition same_place (a b : target) : bool :=
  match a, b with
  | TgTag l1, TgTag l2 => (w_inst l1 =? 9) && (w_inst l2 =? 9) && (w_off l1 =? 14) && (w_off l2 =? 14)
  | _, _ => false
  end.
Definition ip_driver (s : text) (inst_form : bool) (expect : bytes) : bool :=
  match parse_tag_request (client_tags px_proj) s with
  | Ok q => Bool.eqb (by_instance true q) inst_form
            && match read_path true q with Ok b => text_eqb b expect | Err _ => false end
  | Err _ => false
  end.
Example C01_instance_nonvacuous :
  same_place (resolve_path px_proj false (inst_seg_bytes 9 ++ rest_bytes [1] [ip_member]))
             (resolve_path px_proj false (sym_seg_bytes (zs "mix") ++ rest_bytes [1] [ip_member])) = true
  /\ ip_driver (zs "mix[1].Count") false (8 :: sym_seg_bytes (zs "mix") ++ rest_bytes [1] [ip_member]) = true
  /\ ip_driver (zs "mix[1]") true (3 :: inst_seg_bytes 9 ++ rest_bytes [1] []) = true.
Proof.
  split; [vm_compute; reflexivity|]. split; vm_compute; reflexivity.
Qed.
