(* Props/C07.v — encodings are the CIP wire format.
   Statement over the codec model (Model/Codec.v) against the independent reference codec
   (Spec/Wire.v, Spec/WireFloat.v) + exact + Print Assumptions only.  Elementary rows and the type-code
   table come from Gen/Types.v, Gen/CodecFacts.v. *)
From Coq Require Import String.
From PV Require Import Base.Bytes Base.Res Base.Proto Gen.Types Model.Codec Spec.WireFloat Spec.Wire.
From PV Require Import Proofs.CodecWireDefs Proofs.CodecWireEnc Proofs.CodecWireDec Proofs.CodecWireCodes Proofs.CodecWireFloat.
Open Scope Z_scope.

(* Full strength.  For every type the reference defines ([wire_ty]: elementary types, strings,
   bit strings, byte blocks, fixed-capacity strings, arrays, structures, templates):
   - every value the reference encodes is encoded by the library to exactly the reference bytes;
   - every byte string is decoded to the value the reference decodes, leaving the same unread rest,
     and refused when the reference refuses it (truncated buffers included);
   - every documented CIP type code names a class of the documented width and layout. *)
Definition enc_law : Prop :=
  forall t v bs, wire_ty t = true -> spec_encode t v = Some bs -> encode t v = Ok bs.
Definition dec_law : Prop :=
  forall t bs, wire_ty t = true -> bytes_ok bs = true ->
  match spec_value (spec_decode t bs) with
  | Some (v, rest) => decode t bs = Ok (v, rest)
  | None => exists e, decode t bs = Err e
  end.
Definition codes_law : Prop := forall r, In r all_codes -> code_ok r = true.

Definition C07_full : Prop := enc_law /\ dec_law /\ codes_law.

(* The code falsifies it, on two input classes (after the codec repairs 44461bb..bcb4254 of /repo).
   Witness: BYTE[1].encode([True]*16) emits two bytes for an array of one element: an array of bit
   strings given more bits than its length is not truncated (every other element type is). *)
Definition ty_named (s : string) : ty := match ty_of_name (zs_of_string s) with Some t => t | None => TBool end.
Theorem C07_full_refuted : ~ C07_full.
Proof.
  intros (He & _ & _).
  specialize (He (TArrFixed 1 (TBits 1)) (VList (repeat (VBool true) 16)) [255] eq_refl eq_refl).
  vm_compute in He. discriminate He.
Qed.
Print Assumptions C07_full_refuted.

(* an empty output line, so that the axiom lists printed above are read as separate blocks *)
Goal True. Proof. idtac "". exact I. Qed.

(* The two remaining deviation classes, one witness each (known_findings/C07.jsonl). *)
Example dev_bit_array_overlong :
  let v := VList (repeat (VBool true) 16) in
  spec_encode (TArrFixed 1 (ty_named "BYTE")) v = Some [255] /\ encode (TArrFixed 1 (ty_named "BYTE")) v = Ok [255; 255]
  /\ enc_dev (TArrFixed 1 (ty_named "BYTE")) v = 2.
Proof. repeat split; reflexivity. Qed.
(* 3 UINTs for an unbounded array of pairs: the half element is dropped silently (BufferEmptyError
   raised by the second member ends the array) *)
Example dev_unbounded_array_mid_element :
  let t := TArrAll (TStruct SPlain [(Some [97], TInt false 2); (Some [98], TInt false 2)]) in
  spec_decode t [1; 0; 2; 0; 3; 0] = STrunc
  /\ decode t [1; 0; 2; 0; 3; 0] = Ok (VList [VDict [(Some [97], VInt 1); (Some [98], VInt 2)]], []).
Proof. split; reflexivity. Qed.

(* Classes that deviated before the repairs and now follow the reference (regression witnesses). *)
Example fixed_string2 :
  ty_named "STRING2" = TStr false 2 Utf16
  /\ decode (ty_named "STRING2") [3; 0; 97; 0; 98; 0; 99; 0] = Ok (VStr [97; 98; 99], [])
  /\ spec_decode (ty_named "STRING2") [3; 0; 97; 0; 98; 0; 99; 0] = SOk (VStr [97; 98; 99]) [].
Proof. repeat split; reflexivity. Qed.
Example fixed_stringn :
  decode TStringN [1; 0; 0; 0] = Ok (VStr [], []) /\ encode TStringN (VStr [233]) = Ok [1; 0; 1; 0; 233]
  /\ decode TStringN [1; 0; 1; 0; 233] = Ok (VStr [233], [])
  /\ spec_decode TStringN [2; 0; 2; 0; 61; 216; 0; 222] = SOk (VStr [128512]) []
  /\ decode TStringN [2; 0; 2; 0; 61; 216; 0; 222] = Ok (VStr [128512], []).
Proof. repeat split; reflexivity. Qed.
Example fixed_date_and_time :
  encode TDateTime (VTuple [VInt 1; VInt 2]) = Ok [1; 0; 0; 0; 2; 0]
  /\ encode (TArrFixed 1 TDateTime) (VList [VTuple [VInt 1; VInt 2]]) = Ok [1; 0; 0; 0; 2; 0].
Proof. split; reflexivity. Qed.
Example fixed_array_of_n_bytes :
  encode (TArrFixed 2 (TNBytes 1)) (VList [VBytes [97]; VBytes [98]]) = Ok [97; 98]
  /\ decode (TArrFixed 2 (TNBytes 1)) [97; 98] = Ok (VList [VBytes [97]; VBytes [98]], []).
Proof. split; reflexivity. Qed.
Example fixed_unbounded_bit_array :
  decode (TArrAll (TBits 1)) [1] = Ok (VList (VBool true :: repeat (VBool false) 7), []).
Proof. reflexivity. Qed.
Example fixed_structtag_member_order :
  let t := TStructTag [((Some [98], 4%nat), TInt true 4); ((Some [97], 0%nat), TInt true 4)] [] [] 8 in
  wire_ty t = true /\ decode t [1; 0; 0; 0; 2; 0; 0; 0] = Ok (VDict [(Some [98], VInt 2); (Some [97], VInt 1)], []).
Proof. split; reflexivity. Qed.
Example fixed_short_reads :
  decode (ty_named "STRING") [5; 0; 97] = Err DataError /\ decode (TNBytes 3) [1; 2] = Err DataError
  /\ decode (TFixedStr 4 false 4 4) [2; 0; 0; 0; 65; 66] = Err DataError
  /\ decode (TStructTag [((Some [120], 0%nat), TInt true 4)] [] [] 8) [1; 0; 0; 0] = Err DataError.
Proof. repeat split; reflexivity. Qed.

(* The guards: exactly the excluded input classes. *)
Definition C07_guard_enc (t : ty) (v : val) : bool := negb (enc_dev t v =? 0).
Definition is_trunc (r : sres) : bool := match r with STrunc => true | _ => false end.
Definition C07_guard_dec (t : ty) (bs : bytes) : bool := is_trunc (spec_decode t bs).

(* REAL: the model rounds / widens with integer arithmetic on the bit fields (Model/CodecFloat.v); the
   reference is Flocq's binary_normalize (Spec/WireFloat.v).  They agree on every bit pattern
   (Proofs/CodecWireFloat.v); the laws of Proofs/CodecWireEnc.v and CodecWireDec.v take that agreement
   as a hypothesis (those files do not load Flocq) and are given it below. *)
Definition float_agreement : Prop :=
  (forall b, sp_f64_ok b = true -> round32 b = spec_real32_of_64 b)
  /\ (forall u, 0 <= u < 2 ^ 32 -> widen32 u = spec_real64_of_32 u).
Theorem C07_float_agreement : float_agreement.
Proof. split; [exact round32_is_flocq|exact widen32_is_flocq]. Qed.

Definition C07_guarded_stmt : Prop :=
  (forall t v bs, wire_ty t = true -> C07_guard_enc t v = false -> spec_encode t v = Some bs -> encode t v = Ok bs)
  /\ (forall t bs, wire_ty t = true -> bytes_ok bs = true -> C07_guard_dec t bs = false ->
        match spec_decode t bs with
        | SOk v rest => decode t bs = Ok (v, rest)
        | SBad => decode t bs = Err DataError
        | SEnd => decode t bs = Err BufferEmpty
        | STrunc => False
        end)
  /\ codes_law
  /\ (forall a b bs, spec_encode TDateTime (VTuple [VInt a; VInt b]) = Some bs -> encode_args TDateTime [VInt a; VInt b] = Ok bs).

(* the type-code table holds without exception *)
Theorem type_codes : codes_law.
Proof. intros r Hin. pose proof type_codes_all as H. rewrite forallb_forall in H. exact (H r Hin). Qed.
Print Assumptions type_codes.

(* an empty output line, so that the axiom lists printed above are read as separate blocks *)
Goal True. Proof. idtac "". exact I. Qed.

Theorem C07_guarded : C07_guarded_stmt.
Proof.
  destruct C07_float_agreement as [Hr Hwd]. split; [|split; [|split]].
  - intros t v bs Hw Hg Hs. unfold C07_guard_enc in Hg. apply Bool.negb_false_iff in Hg. apply Z.eqb_eq in Hg.
    exact (encode_is_spec_gen Hr t v bs Hw Hs Hg).
  - intros t bs Hw Hok Hg. unfold C07_guard_dec in Hg. pose proof (decode_is_spec_gen Hwd t bs Hw Hok) as H.
    destruct (spec_decode t bs); try exact H. discriminate Hg.
  - exact type_codes.
  - exact datetime_args_is_spec.
Qed.
Print Assumptions C07_guarded.

(* an empty output line, so that the axiom lists printed above are read as separate blocks *)
Goal True. Proof. idtac "". exact I. Qed.

(* The laws one by one (the names of DESIGN.md section 7). *)
Theorem encode_is_spec :
  forall t v bs, wire_ty t = true -> C07_guard_enc t v = false -> spec_encode t v = Some bs -> encode t v = Ok bs.
Proof. exact (proj1 C07_guarded). Qed.
Print Assumptions encode_is_spec.

(* an empty output line, so that the axiom lists printed above are read as separate blocks *)
Goal True. Proof. idtac "". exact I. Qed.

Theorem decode_is_spec :
  forall t bs, wire_ty t = true -> bytes_ok bs = true -> C07_guard_dec t bs = false ->
  match spec_decode t bs with
  | SOk v rest => decode t bs = Ok (v, rest)
  | SBad => decode t bs = Err DataError
  | SEnd => decode t bs = Err BufferEmpty
  | STrunc => False
  end.
Proof. exact (proj1 (proj2 C07_guarded)). Qed.
Print Assumptions decode_is_spec.

(* an empty output line, so that the axiom lists printed above are read as separate blocks *)
Goal True. Proof. idtac "". exact I. Qed.

(* StructTag layout, spelled out: [size] bytes; byte j = the visible member covering j (0 in the
   padding) with the BOOL members of that byte set / cleared *)
Theorem C07_structtag_layout :
  forall ms bits priv size d ps bv,
  wire_ty (TStructTag ms bits priv size) = true ->
  stag_pieces (senc_sms ms) priv d = Some ps -> stag_bitvals bits d = Some bv ->
  enc_dev (TStructTag ms bits priv size) (VDict d) = 0 ->
  exists image, encode (TStructTag ms bits priv size) (VDict d) = Ok image /\ length image = size
                /\ forall j, (j < size)%nat -> nth j image 0 = bits_byte bv j (piece_byte ps j).
Proof. exact (structtag_layout_gen round32_is_flocq). Qed.
Print Assumptions C07_structtag_layout.

(* an empty output line, so that the axiom lists printed above are read as separate blocks *)
Goal True. Proof. idtac "". exact I. Qed.

(* non-vacuity: a structure of the kinds the property names (integers, REAL, strings incl. 2-byte
   characters, a fixed-capacity string, a bit string, arrays) and a template with padding, a hidden
   host and bit members, one of them over a visible member *)
Definition ex_ty : ty :=
  TStruct SPlain [(Some [110], ty_named "UINT"); (None, ty_named "SINT"); (Some [115], TArrFixed 2 (ty_named "STRING"));
                  (Some [102], TFixedStr 4 false 4 3); (Some [119], ty_named "WORD"); (Some [114], ty_named "LREAL");
                  (Some [117], ty_named "STRING2"); (Some [100], TDateTime)].
Definition ex_val : val :=
  VList [VInt 513; VInt (-1); VList [VStr [97; 98]; VStr []]; VStr [120; 121; 122; 119];
         VList (VBool true :: repeat (VBool false) 14 ++ [VBool true]); VFloat 0x3ff8000000000000;
         VStr [233; 8364]; VTuple [VInt 1; VInt 2]].
Definition ex_bytes : bytes :=
  [1; 2; 255; 2; 0; 97; 98; 0; 0; 3; 0; 0; 0; 120; 121; 122; 0; 1; 128; 0; 0; 0; 0; 0; 0; 248; 63;
   2; 0; 233; 0; 172; 32; 1; 0; 0; 0; 2; 0].
Definition ex_tag : ty :=
  TStructTag [((Some [97], 0%nat), TInt true 2); ((Some [90; 104], 4%nat), TInt true 1); ((Some [100], 8%nat), TInt true 4)]
             [([98; 48], (4%nat, 0%nat)); ([98; 55], (4%nat, 7%nat)); ([108; 111], (0%nat, 0%nat))] [[90; 104]] 12.
Definition ex_tag_val : val :=
  VDict [(Some [97], VInt 0x0102); (Some [100], VInt (-2)); (Some [98; 48], VBool true); (Some [98; 55], VBool true);
         (Some [108; 111], VBool true)].
Example C07_nonvacuous :
  wire_ty ex_ty = true /\ C07_guard_enc ex_ty ex_val = false
  /\ spec_encode ex_ty ex_val = Some ex_bytes /\ encode ex_ty ex_val = Ok ex_bytes
  /\ C07_guard_dec ex_ty (ex_bytes ++ [7]) = false
  /\ (exists v, spec_decode ex_ty (ex_bytes ++ [7]) = SOk v [7] /\ decode ex_ty (ex_bytes ++ [7]) = Ok (v, [7]))
  /\ wire_ty ex_tag = true /\ C07_guard_enc ex_tag ex_tag_val = false
  /\ spec_encode ex_tag ex_tag_val = Some [3; 1; 0; 0; 129; 0; 0; 0; 254; 255; 255; 255]
  /\ encode ex_tag ex_tag_val = Ok [3; 1; 0; 0; 129; 0; 0; 0; 254; 255; 255; 255]
  /\ decode ex_tag [3; 1; 0; 0; 129; 0; 0; 0; 254; 255; 255; 255; 9]
     = Ok (VDict [(Some [97], VInt 0x0103); (Some [100], VInt (-2)); (Some [98; 48], VBool true); (Some [98; 55], VBool true);
                  (Some [108; 111], VBool true)], [9]).
Proof. vm_compute. repeat split. eexists. split; reflexivity. Qed.
