(* Props/C12.v — reply frames survive any TCP segmentation; sends deliver everything or fail.
   The header size receive works with (Model/Sock.v header_size) is the regenerated Gen/Consts.v HEADER_SIZE. *)
From PV Require Import Base.Bytes Base.Res Model.Sock Proofs.SockP.
Open Scope Z_scope.

Definition C12_full : Prop :=
  (* receive returns exactly the frame for EVERY segmentation into non-empty chunks (down to one
     byte; chunks longer than the 256-byte read size are read piecewise), any body length *)
  (forall f cs tl fuel, well_formed_frame f -> concat cs = f -> Forall nonempty cs ->
     (length f + 1 <= fuel)%nat -> receive fuel (map Chunk cs) tl = Done (Ok f))
  (* if the peer closes, times out or errors after ANY strict prefix, however segmented, the call
     terminates with CommError: no hang (fuel is not exhausted), no partial frame *)
  /\ (forall f cs q rest tl fuel, well_formed_frame f -> concat cs ++ q = f -> q <> [] ->
        Forall nonempty cs -> stops rest -> (length f + 1 <= fuel)%nat ->
        receive fuel (map Chunk cs ++ rest) tl = Done (Err CommError))
  (* send hands every byte to the kernel, in order, for every pattern of partial sends *)
  /\ (forall msg accepts fuel, Forall (fun n => 0 < n)%nat accepts -> (length msg <= sum_nat accepts)%nat ->
        (length msg + 1 <= fuel)%nat -> send fuel msg (map Accept accepts) = (Done (Ok (length msg)), msg))
  (* and under ANY send script it terminates; success implies complete, failure is CommError and
     what reached the kernel is a prefix of the message *)
  /\ (forall msg script fuel, (length msg + 1 <= fuel)%nat ->
        exists r w, send fuel msg script = (Done r, w) /\ is_prefix w msg
                    /\ (forall n, r = Ok n -> n = length msg /\ w = msg)
                    /\ (forall e, r = Err e -> e = CommError)).

Theorem C12_holds : C12_full.
Proof.
  split; [|split; [|split]].
  - intros f cs tl fuel Hwf. exact (receive_any_segmentation f Hwf cs tl fuel).
  - intros f cs q rest tl fuel Hwf. exact (receive_peer_stops f Hwf cs q rest tl fuel).
  - exact send_all.
  - exact send_total.
Qed.
Print Assumptions C12_holds.

(* non-vacuity: a 26-byte frame (2-byte body) delivered as 1 + 2 + 23 bytes, and cut after 3 bytes *)
Definition ex_frame : bytes := [111; 0; 2; 0] ++ zeros 20 ++ [7; 9].
Example C12_nonvacuous :
  well_formed_frame ex_frame
  /\ receive 27 (map Chunk [[111]; [0; 2]; skipn 3 ex_frame]) RaiseTimeout = Done (Ok ex_frame)
  /\ receive 27 (map Chunk [[111]; [0; 2]] ++ [Closed]) RaiseTimeout = Done (Err CommError).
Proof. unfold well_formed_frame. vm_compute. repeat split; lia. Qed.
