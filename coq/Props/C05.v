(* Props/C05.v — uploaded tag list and type definitions mirror the controller.
   The statements; the proofs are in Proofs/Upload*.v.

   The client is the model of LogixDriver.get_tag_list (Model/LogixUpload.v, tied to /repo by the
   C05 correspondence: harness/props/c05.py); the controller is the reference target's handler
   (Spec/TargetLogix.logix_request) serving a project (Spec/Project.v); what an upload must show
   is Spec/Expect.abstract_view rendered as observations (Spec/UploadObs.v).

   Domain of the quantifier "all controller projects": Spec/Project.wf_project plus
   Proofs/UploadTop.upload_dom, which spells the Logix naming rules and field widths that
   well-formedness leaves open — symbols listed in ascending instance order; names that fit a reply;
   dimensions < 2^32; a ':' only in Program:/Routine:/Task:/Map:/Cxn: symbols and module I/O tags
   (colon_regular, opaque_marked); template names without NUL and ';'; a type named without ";"
   has a predefined-range id; structure sizes < 2^32 and definitions <= 65556 bytes; a visible
   LEN/DATA pair with DATA a SINT array has LEN a DINT (no_pseudo_string); distinct type names;
   a tag's scope spelled like its program symbol — and distinct full names of the visible tags.
   Outside these rules the code (= the model) and the reference differ:
   Proofs/UploadFilter.filter_differs_outside_rules. *)
From Coq Require Import String Permutation.
From PV Require Import Base.Bytes Base.PyStr Base.Res.
From PV Require Import Spec.Project Spec.Expect Spec.TargetLogix Spec.UploadObs Model.LogixUpload.
From PV Require Import Proofs.UploadDefs Proofs.UploadParse Proofs.UploadFilter Proofs.UploadTemplate Proofs.UploadBlob
  Proofs.UploadObsP Proofs.UploadJson Proofs.UploadMirror Proofs.UploadScope Proofs.UploadTop Proofs.UploadHistory
  Proofs.UploadFinal.
From PV Require Gen.Consts.
Open Scope Z_scope.

(* for EVERY page policy, read-fragment policy, template-fragment policy (pol), every reply capacity
   that lets one symbol through (cap), every firmware major (rev) and every fuel above the stated
   bound: get_tag_list("*") — what open() runs — returns, and what drv.tags, drv.data_types,
   info['programs'|'tasks'] then SAY is the abstract view of the project (tags and types up to the
   order of the name-keyed dictionaries); the names are distinct; tags_json is serialisable;
   and get_tag_list(None) shows the view of the controller scope *)
Definition C05_full : Prop :=
  forall (p : project) (pol : policy) (cap rev : Z) (fuel : nat),
    wf_project p = true -> upload_dom p cap -> NoDup (map full_name (visible_tags p)) ->
    (fuel_bound p <= fuel)%nat ->
    (exists r ov,
        upload_target cap rev fuel p pol ArgStar = Done r
        /\ obs_of_view (with_access rev) (abstract_view p) = Some ov
        /\ oview_equiv (obs_of_result (with_access rev) r) ov
        /\ NoDup (map tg_name (res_tags r))
        /\ Permutation (map tg_name (res_tags r)) (map full_name (visible_tags p))
        /\ serialisable (tags_json (res_tags r)) = true)
    /\ (exists r ov,
        upload_target cap rev fuel p pol ArgNone = Done r
        /\ obs_of_view (with_access rev) (abstract_view (controller_scope p)) = Some ov
        /\ oview_equiv (obs_of_result (with_access rev) r) ov
        /\ serialisable (tags_json (res_tags r)) = true).

Theorem C05_holds : C05_full.
Proof.
  intros p pol cap rev fuel Hwf Hdom Hfull Hfuel. split.
  - destruct (upload_mirrors_star p pol cap rev Hwf Hdom fuel Hfull Hfuel) as (r & ov & E & Eov & Heq).
    destruct (no_dup_no_invent p pol cap rev Hwf Hdom fuel Hfull Hfuel) as (r' & E' & Hnd & Hperm).
    rewrite E in E'. injection E' as <-.
    exists r, ov. repeat split; try assumption; try apply Heq. apply tags_json_serialisable.
  - destruct (upload_mirrors_none p pol cap rev Hwf Hdom fuel Hfull Hfuel) as (r & ov & E & Eov & Heq).
    exists r, ov. repeat split; try assumption; try apply Heq. apply tags_json_serialisable.
Qed.
Print Assumptions C05_holds.

(* The driver state is threaded from call to call; get_tag_list performs the resets the code performs:
   the template caches on every call; info['programs'|'tasks'] and _data_types for the scopes None and "*".
   So a later get_tag_list("*") / get_tag_list(None) — on a driver in ANY state u0, whatever it uploaded
   before, from whatever project — is the upload of a fresh driver, and mirrors the CURRENT project:
   tags, programs, tasks AND data_types (exactly the current definitions) *)
Theorem C05_reupload :
  forall p pol cap rev fuel u0,
    wf_project p = true -> upload_dom p cap -> NoDup (map full_name (visible_tags p)) -> (fuel_bound p <= fuel)%nat ->
    (snd (get_tag_list lstate (target_call cap) rev fuel u0 (target_state p pol) ArgStar) = upload_target cap rev fuel p pol ArgStar
     /\ snd (get_tag_list lstate (target_call cap) rev fuel u0 (target_state p pol) ArgNone) = upload_target cap rev fuel p pol ArgNone)
    /\ (exists r ov,
          snd (get_tag_list lstate (target_call cap) rev fuel u0 (target_state p pol) ArgStar) = Done r
          /\ obs_of_view (with_access rev) (abstract_view p) = Some ov
          /\ oview_equiv (obs_of_result (with_access rev) r) ov)
    /\ (exists r ov,
          snd (get_tag_list lstate (target_call cap) rev fuel u0 (target_state p pol) ArgNone) = Done r
          /\ obs_of_view (with_access rev) (abstract_view (controller_scope p)) = Some ov
          /\ oview_equiv (obs_of_result (with_access rev) r) ov).
Proof.
  intros p pol cap rev fuel u0 Hwf Hdom Hfull Hfuel. split; [split; apply upload_history; exact I|].
  split; rewrite upload_history by exact I; [apply upload_mirrors_star | apply upload_mirrors_none]; assumption.
Qed.
Print Assumptions C05_reupload.

(* get_tag_list(program=P) ADDS to what is there (by design: drv.tags then holds P's scope): same
   outcome, tags, programs, tasks and template cache as on a driver with an empty _data_types; its
   data_types is the earlier dictionary updated with P's definitions ([Rel], [dts_lookup]) *)
Theorem C05_history_program :
  forall St call rev D0 fuel u0 s pn, u_data_types u0 = D0 ->
    match get_tag_list St call rev fuel (fresh u0) s (ArgProgram pn), get_tag_list St call rev fuel u0 s (ArgProgram pn) with
    | (s1, Done r1), (s2, Done r2) => s1 = s2 /\ res_tags r2 = res_tags r1 /\ Rel D0 (res_state r1) (res_state r2)
    | (s1, Failed e1), (s2, Failed e2) => s1 = s2 /\ e1 = e2
    | (s1, OutOfFuel), (s2, OutOfFuel) => s1 = s2
    | _, _ => False
    end.
Proof. exact get_tag_list_history. Qed.
Print Assumptions C05_history_program.

(* paged symbol upload continuing from last instance + 1: against ANY peer that answers with a
   non-empty prefix — of any length — of the remaining symbols, every symbol once, in order *)
Theorem C05_pagination_independent :
  forall St call rev Inv prog all,
    paging_peer St call rev Inv prog all -> Forall wentry_ok all -> ascending all ->
    (forall start, 0 <= start < 4294967296 -> exists rq, symbols_request (with_access rev) prog start = Ok rq) ->
    forall fuel st, Inv st -> Forall (fun e => 0 <= we_inst e) all -> (length all < fuel)%nat ->
    exists st', get_instance_attribute_list St call rev fuel st prog 0 []
                = (st', Done (map (raw_of_wentry (with_access rev)) all)) /\ Inv st'.
Proof. exact pagination_independent. Qed.
Print Assumptions C05_pagination_independent.

(* fragmented template read by byte offset: against ANY peer that answers with a non-empty piece
   of what is asked for and exists, the definition bytes once, in order *)
Theorem C05_template_fragment_independent :
  forall St call Inv tid defsize blob,
    fragment_peer St call Inv tid defsize blob ->
    (forall off, 0 <= off -> off <= defsize * 4 - 21 -> off <= Z.of_nat (length blob) ->
                 exists rq, template_read_request tid defsize off = Ok rq) ->
    forall fuel st, Inv st -> 0 <= defsize * 4 - 21 ->
    (Z.to_nat (Z.min (defsize * 4 - 21) (Z.of_nat (length blob))) < fuel)%nat ->
    exists st', read_template St call fuel st tid defsize 0 []
                = (st', Done (firstn (Z.to_nat (Z.min (defsize * 4 - 21) (Z.of_nat (length blob)))) blob)) /\ Inv st'.
Proof. exact template_fragment_independent. Qed.
Print Assumptions C05_template_fragment_independent.

(* the filter keeps a symbol iff the reference calls it user-visible *)
Theorem C05_isolate_filter_exact :
  forall g, word_fields_ok g -> colon_regular (g_name g) = true -> opaque_marked g = true ->
            kept (classify (g_name g) (sym_type_word g)) = negb (hidden_symbol g).
Proof. exact isolate_filter_exact. Qed.
Print Assumptions C05_isolate_filter_exact.

(* struct flag, dimensions, type code / template id, BOOL bit position from the symbol type word,
   for all in-range fields; the product of the dimensions; the alias flag *)
Theorem C05_create_tag_fields :
  (forall g, word_fields_ok g ->
     let w := sym_type_word g in
     0 <= w /\
     match g_ty g with
     | BAtom c => sym_is_struct w = false /\ sym_dim w = nd g /\ sym_atomic_code w = c
                  /\ (c = C_BOOL -> sym_bit_position w = g_bitpos g)
                  /\ ((Z.land w SYSTEM_BIT =? 0) = negb (g_system g))
     | BStruct tid => sym_is_struct w = true /\ sym_dim w = nd g /\ sym_template_id w = tid
                      /\ ((Z.land w SYSTEM_BIT =? 0) = negb (g_system g))
     | BOpaque _ => True
     end)
  /\ (forall dims : list Z, (length dims <= 3)%nat ->
        total_elements (Z.of_nat (length dims)) (pad3 3 dims) = dims_count dims)
  /\ (forall g, 0 <= g_attr6 g -> sym_alias (g_attr6 g) = alias_flag g).
Proof. exact (conj create_tag_fields (conj total_elements_dims alias_flag_eq)). Qed.
Print Assumptions C05_create_tag_fields.

(* the 8-byte member record served by the target (info word, type word with or without the array
   bit, offset) decodes to the member's entry: elementary type by code, array length or BOOL bit
   number, offset; a structure member (bit 15) goes through _get_data_type (a parameter with the
   stated contract) *)
Theorem C05_member_info_decode :
  forall St gdt (I : ustate -> St -> Prop) (Good : Z -> datatype -> Prop)
         (Step : ustate -> ustate -> Prop) (Post : Z -> ustate -> Prop),
    (forall u, Step u u) -> (forall a b c, Step a b -> Step b c -> Step a c) ->
    (forall tid u u', Post tid u -> Step u u' -> Post tid u') ->
    forall ab m ms u s,
      gdt_contract St gdt I Good Step Post ms -> In m ms -> member_fields_ok m -> I u s ->
      exists s' u' info,
        parse_member_info St gdt u s (member_rec ab m) = (s', u', Done info)
        /\ info_good Good m info /\ I u' s' /\ Step u u' /\ (forall tid, m_ty m = BStruct tid -> Post tid u').
Proof. exact member_info_decode. Qed.
Print Assumptions C05_member_info_decode.

(* LEN/DATA structures are strings: the code's test on the uploaded members is the test on the
   project; capacity = length of DATA, character area = structure size - 4 *)
Theorem C05_string_detection :
  (forall Good t infos, tmpl_facts t -> Forall2 (info_good Good) (t_members t) infos ->
     string_length (member_loop (predefined_id (t_id t)) ml_init (map m_name (t_members t)) infos) = code_string_test t)
  /\ (forall t, no_pseudo_string t -> Forall (fun m => 0 <= m_arr m) (t_members t) ->
        option_map (fun a => (a, t_size t - 4, a)) (code_string_test t) = str_obs t).
Proof. exact (conj string_detection string_capacity). Qed.
Print Assumptions C05_string_detection.

(* the JSON view holds no type class and no _struct_members at any depth, whatever was uploaded.
   In the model tags_json is a FUNCTION of the uploaded tags (Model/LogixUpload.tags_json : list mtag ->
   pyval, built from copies): the driver state is neither an argument nor a result, so reading the view
   cannot change tags / data_types.  On the implementation this purity is checked, not assumed: the
   oracle reads tags_json twice and requires tags / data_types (type classes included) unchanged, still
   equal to the abstract view, and a structure-member read through the live target still correct; the
   correspondence compares the dictionaries AFTER the view was read *)
Theorem C05_tags_json_serialisable : forall tags, serialisable (tags_json tags) = true.
Proof. exact tags_json_serialisable. Qed.
Print Assumptions C05_tags_json_serialisable.

Definition ex_inner : template :=
  mkTemplate [73; 110; 110; 101; 114] (Some [110; 49]) 257 4660 4 0
             [mkMember [97] (BAtom C_DINT) 0 0 0 false].
Definition ex_outer : template :=
  mkTemplate [79; 117; 116; 101; 114] (Some [110; 50]) 258 22136 8 0
             [mkMember [90;90;90;90;90;90;90;90;90;90;79;48] (BAtom C_SINT) 0 0 0 true;
              mkMember [98; 48] (BAtom C_BOOL) 0 0 0 false;
              mkMember [110] (BStruct 257) 0 4 0 false].
(* "Program:P" (instance 1), the structure tag X (instance 2), P's DINT[2] tag Y (instance 3) *)
Definition ex_project : project :=
  mkProject [ex_inner; ex_outer]
            [mkTag (txt_Program ++ [80]) 1 ScCtrl (BOpaque 4200) [] 0 false 0 0 0 0;
             mkTag [88] 2 ScCtrl (BStruct 258) [] 0 false 0 0 0 67108864;
             mkTag [89] 3 (ScProg [80]) (BAtom C_DINT) [2] 0 false 2 0 0 67108864].

Example C05_nonvacuous :
  wf_project ex_project = true
  /\ (match upload_target 500 32 (fuel_bound ex_project) ex_project (mkPolicy [1] [] [7] 255 true) ArgStar,
            obs_of_view true (abstract_view ex_project) with
      | Done r, Some ov => oview_eqb (obs_of_result true r) ov && Nat.eqb (length (res_tags r)) 2
      | _, _ => false
      end = true).
Proof. vm_compute. split; reflexivity. Qed.

(* every hypothesis of C05_full holds of that project (nested structure, hidden host, packed BOOL,
   a program with a program-scoped array tag) *)
Example C05_hypotheses_inhabited :
  wf_project ex_project = true /\ upload_dom ex_project 500 /\ NoDup (map full_name (visible_tags ex_project)).
Proof.
  split; [vm_compute; reflexivity|]. split.
  - constructor.
    + lia.
    + reflexivity.
    + assert (Hother : forall g, starts_with txt_Program (g_name g) = false -> starts_with txt_Routine (g_name g) = false ->
                                 starts_with txt_Task (g_name g) = false ->
                                 Z.of_nat (length (g_name g)) + 38 <= 500 -> Forall (fun d => d < 4294967296) (g_dims g) ->
                                 colon_regular (g_name g) = true -> opaque_marked g = true -> tag_dom 500 g).
      { intros g H1 H2 H3 H4 H5 H6 H7. unfold tag_dom. rewrite H1, H2, H3. repeat split; try assumption; discriminate. }
      constructor; [|constructor; [|constructor; [|constructor]]].
      * unfold tag_dom. split; [cbn; lia|]. split; [constructor|]. split; [vm_compute; reflexivity|]. split; [vm_compute; reflexivity|].
        split; [|split; intros H; vm_compute in H; discriminate].
        intros _. split; [reflexivity|]. split; [vm_compute; discriminate|]. split; [vm_compute; reflexivity | cbn; lia].
      * apply Hother; [reflexivity | reflexivity | reflexivity | cbn; lia | constructor | reflexivity | reflexivity].
      * apply Hother; [reflexivity | reflexivity | reflexivity | cbn; lia | repeat constructor; lia | reflexivity | reflexivity].
    + repeat constructor; try (vm_compute; reflexivity); try (cbn; lia); try (vm_compute; discriminate);
        try (intros l d H; vm_compute in H; discriminate).
      intros l d H. vm_compute in H. injection H as <- <-. intros H. vm_compute in H. discriminate.
    + repeat constructor; cbn; intuition discriminate.
    + intros g pn Hg Hpn Hs. vm_compute in Hpn. destruct Hpn as [<- | []].
      cbn [p_tags ex_project] in Hg. destruct Hg as [<- | [<- | [<- | []]]]; vm_compute in Hs; try discriminate. reflexivity.
    + intros g pn Hg Hs. cbn [p_tags ex_project] in Hg. destruct Hg as [<- | [<- | [<- | []]]]; cbn in Hs; try discriminate.
      injection Hs as <-. vm_compute. left. reflexivity.
    + vm_compute. repeat constructor; intuition discriminate.
    + vm_compute. constructor.
  - vm_compute. repeat constructor; cbn; intuition discriminate.
Qed.

(* why upload_dom asks for no_pseudo_string: the code's test looks at DATA only.  A structure with
   visible members LEN : INT and DATA : SINT[8] is taken for a string of capacity 8 (and later read
   through FixedSizeString, whose UDINT length field then overlaps DATA), while the reference
   (Spec/Expect.string_shape: LEN must be a DINT) calls it a plain structure.
   Reproduced on the real driver; repair proposed in proposed_fixes/C05-string-detection-requires-dint-len.diff *)
Definition ex_pseudo_string : template :=
  mkTemplate [77; 115; 103] (Some [110; 53]) 801 77 12 0
             [mkMember txt_LEN (BAtom C_INT) 0 0 0 false; mkMember txt_DATA (BAtom C_SINT) 8 2 0 false].
Example C05_pseudo_string_differs :
  template_ok [] ex_pseudo_string = true
  /\ code_string_test ex_pseudo_string = Some 8 /\ string_shape ex_pseudo_string = None.
Proof. vm_compute. repeat split; reflexivity. Qed.
