(* Props/C14.v — generic messaging delivers the request verbatim and returns the answer.

   Model: Model/Generic.v (generic_message and the helpers built on it).  Independent oracle:
   the reference target's own parsers (Spec/EncapParser.v, Spec/MRParser.v) composed as the target
   composes them (Spec/GenericSpec.v spec_extract), its reply builders and its wall-clock object
   (Spec/TargetCore.v).  Lemmas: Proofs/GenericPath.v, GenericFrame.v, GenericDelivery.v,
   GenericReply.v, GenericTime.v.

   The three findings this vertical reproduced on the real code were repaired in /repo and the model
   follows the repaired code (known_findings/C14.jsonl, `fixed:` lines):
     1007c7c  the DEFAULT route_path=True appended the connection route on direct UCMM  [C14_default_route_delivered]
     960b320  an Unconnected Send without a route lacked the mandatory route fields     [C14_no_route_delivered]
     9084804  get_plc_time raised OverflowError beyond datetime.max                      [C14_time_holds]
   Outside the domain, by design: an EXPLICITLY given route on direct UCMM is appended to the request
   data (the library's Forward Open / Forward Close put their connection path there) — no route can
   be asked for without an Unconnected Send: [C14_explicit_ucmm_route_appended]. *)
From Coq Require Import String.
From PV Require Import Base.Bytes Base.Res Base.PyStr.
From PV Require Import Gen.GenericFacts Model.Path Model.Generic.
From PV Require Model.CodecPrim Model.Codec Model.Reply.
From PV Require Import Spec.EncapParser Spec.MRParser Spec.TargetIface Spec.TargetCore Spec.GenericSpec.
From PV Require Import Proofs.TargetCoreP Proofs.GenericPath Proofs.GenericFrame Proofs.GenericDelivery Proofs.GenericReply Proofs.GenericTime.
Open Scope Z_scope.

(* ================================================================ 1. delivery *)
(* For every driver with an open connection [drv_ok], every service code 0..127 (int or one byte),
   class / attribute ids below 2^16 and instance ids below 2^32 (int, or bytes of length 1/2(/4)),
   request data of ANY length up to 60000 bytes, in each of the three modes, with route_path given as
   True / False / str / segments / bytes resolving to no route or to a well-formed encoded route
   [wf_call] — a route being something only an Unconnected Send can carry [C14_domain]: the frame the
   model emits is accepted by the target's strict frame parser and what the target's message router
   is asked — transport, session, service, class, instance, attribute, data, and for an Unconnected
   Send priority, time-out ticks and the route path — is what the caller asked [asked]. *)
Definition C14_domain (d : drv) (a : gm_args) (svc : Z) (rt : bytes) : Prop :=
  wf_call d a svc rt /\ (a_connected a = false -> a_ucsend a = false -> rt = []).

Definition C14_full : Prop :=
  forall d a svc rt, C14_domain d a svc rt ->
    exists d' fr, gm_request d a = (d', Done fr) /\ spec_extract fr = Some (asked d a svc rt).

Theorem C14_holds : C14_full.
Proof.
  intros d a svc rt [W Hu]. apply delivered_verbatim; [exact W |].
  unfold delivery_guard. destruct (a_connected a) eqn:Hc; [reflexivity |].
  destruct (a_ucsend a) eqn:Hs; [reflexivity |]. rewrite (Hu eq_refl eq_refl). reflexivity.
Qed.
Print Assumptions C14_holds.

(* outside the domain, by design: an EXPLICITLY given route on direct UCMM is appended after the
   request data (the library's Forward Open / Forward Close calls put their connection path there) *)
Theorem C14_explicit_ucmm_route_appended : forall d a svc rt,
  wf_call d a svc rt -> a_connected a = false -> a_ucsend a = false -> route_wf rt = true ->
  exists d' fr, gm_request d a = (d', Done fr)
    /\ spec_extract fr = Some {| dl_mode := MUcmm; dl_session := d_session d; dl_service := svc;
                                 dl_class := lval_value (a_class a); dl_instance := lval_value (a_instance a);
                                 dl_attribute := att_value (a_attribute a); dl_data := a_data a ++ rt |}.
Proof. exact ucmm_route_appended. Qed.
Print Assumptions C14_explicit_ucmm_route_appended.

(* the default route_path=True on direct UCMM resolves to NO route (the connection's route is used
   only inside an Unconnected Send): such calls are in the domain and delivered *)
Theorem C14_default_route_delivered : forall d a svc rt,
  wf_call d a svc rt -> a_connected a = false -> a_ucsend a = false -> a_route a = default_route ->
  rt = [] /\ C14_domain d a svc rt
  /\ exists d' fr, gm_request d a = (d', Done fr) /\ spec_extract fr = Some (asked d a svc rt).
Proof.
  intros d a svc rt W Hc Hu Hr. destruct (wf_route _ _ _ _ W Hc) as [Hrt _].
  rewrite Hr, Hu in Hrt. change default_route with RTrue in Hrt. cbn [resolve_route] in Hrt. injection Hrt as <-.
  assert (D : C14_domain d a svc []) by (split; [exact W | reflexivity]).
  split; [reflexivity |]. split; [exact D |]. apply C14_holds; assumption.
Qed.
Print Assumptions C14_default_route_delivered.

(* an Unconnected Send asked for WITHOUT a route (route_path False / [] / b""): the embedded request is
   delivered through a wrapper whose route path is empty (size 0, reserved 0) *)
Theorem C14_no_route_delivered : forall d a svc,
  wf_call d a svc [] -> a_connected a = false -> a_ucsend a = true ->
  exists d' fr, gm_request d a = (d', Done fr) /\ spec_extract fr = Some (asked d a svc [])
    /\ dl_mode (asked d a svc []) = MUcsend 10 5 [].
Proof.
  intros d a svc W Hc Hu. destruct (delivered_ucsend d a svc [] W Hc Hu) as (d' & fr & H1 & H2).
  exists d', fr. split; [exact H1 |]. split; [exact H2 |]. unfold asked. rewrite Hc, Hu. reflexivity.
Qed.
Print Assumptions C14_no_route_delivered.

(* ---- witnesses *)
Definition d_ex (path : list seg) : drv :=
  {| d_session := 16777217; d_cid := [1; 0; 193; 0]; d_connected := true; d_context := driver_context;
     d_option := driver_option; d_seq := 1; d_cip_path := path; d_micro800 := false |}.
Definition a_ex (connected ucsend : bool) (r : route_arg) (data : bytes) : gm_args :=
  {| a_service := SInt 75; a_class := LInt 768; a_instance := LInt 1; a_attribute := None; a_data := data;
     a_dt := None; a_name := gm_default_name; a_connected := connected; a_ucsend := ucsend; a_route := r |}.
Definition bp (slot : Z) : seg := Port (inr (T "bp")) (LinkInt slot).

Ltac wf_concrete :=
  constructor;   (* one slot per field of wf_call: wf_drv, wf_conn, wf_svc, wf_cls, wf_ins, wf_att, wf_data, wf_route, wf_plain *)
  [ reflexivity
  | first [intros H; vm_compute in H; discriminate H | intros _; split; [reflexivity | vm_compute; split; discriminate]]
  | reflexivity | reflexivity | reflexivity | reflexivity
  | split; [reflexivity | vm_compute; discriminate]
  | first [intros H; vm_compute in H; discriminate H
          | intros _; split; [reflexivity | first [left; reflexivity | right; reflexivity]]]
  | first [intros H; vm_compute in H; discriminate H | intros _ H; vm_compute in H; discriminate H
          | intros _ _ [H _]; vm_compute in H; discriminate H] ].

Lemma done_witness {A} (o : outcome A) (P : A -> Prop) :
  match o with Done x => P x | _ => False end -> exists x, o = Done x /\ P x.
Proof. destruct o as [x| |]; [eauto|contradiction..]. Qed.

(* the former 960b320 witness: an Unconnected Send asked for without a route *)
Example wf_noroute : wf_call (d_ex [bp 2]) (a_ex false true RFalse [97; 98; 99]) 75 [].
Proof. wf_concrete. Qed.
Example noroute_now_delivered :
  exists fr, snd (gm_request (d_ex [bp 2]) (a_ex false true RFalse [97; 98; 99])) = Done fr
    /\ option_map (fun dl => (dl_mode dl, dl_data dl)) (spec_extract fr) = Some (MUcsend 10 5 [], [97; 98; 99]).
Proof. apply done_witness. vm_compute. reflexivity. Qed.

(* outside the domain: an explicit route on direct UCMM arrives as request data after "abc" *)
Example witness_explicit_route :
  exists fr, snd (gm_request (d_ex []) (a_ex false false (RStr (T "bp/3")) [97; 98; 99])) = Done fr
    /\ option_map dl_data (spec_extract fr) = Some [97; 98; 99; 1; 0; 1; 3].
Proof. apply done_witness. vm_compute. reflexivity. Qed.

(* the former F13 witness: generic_message(connected=False) with nothing else said — "abc" arrives alone *)
Example default_route_now_delivered :
  exists fr, snd (gm_request (d_ex [bp 2]) (a_ex false false default_route [97; 98; 99])) = Done fr
    /\ option_map dl_data (spec_extract fr) = Some [97; 98; 99].
Proof. apply done_witness. vm_compute. reflexivity. Qed.

(* LogixDriver.get_plc_info on a Micro800 inside open(): a plain Get_Attributes_All of the Identity object *)
Example micro800_plc_info :
  let d := {| d_session := 16777217; d_cid := []; d_connected := false; d_context := driver_context;
              d_option := driver_option; d_seq := 1; d_cip_path := [bp 0]; d_micro800 := true |} in
  exists a fr, snd (get_plc_info_request d) = Done (a, fr)
    /\ option_map (fun dl => (dl_mode dl, dl_service dl, dl_class dl, dl_instance dl, dl_data dl)) (spec_extract fr)
       = Some (MUcmm, 1, 1, 1, []).
Proof.
  cbv zeta. set (o := snd (get_plc_info_request _)).   (* the witnesses are the components of the evaluated outcome *)
  exists (match o with Done (a, _) => a | _ => a_ex false false RFalse [] end),
         (match o with Done (_, fr) => fr | _ => [] end).
  split; vm_compute; reflexivity.
Qed.

(* non-vacuity: the hypotheses are inhabited in every mode, with odd and even data, ids of every width,
   a backplane route and a two-hop route with an IP link *)
Example wf_connected : wf_call (d_ex [bp 2]) (a_ex true false default_route [1; 2; 3]) 75 [].
Proof. wf_concrete. Qed.
Example wf_ucmm_noroute : wf_call (d_ex [bp 2]) (a_ex false false RFalse [1; 2]) 75 [].
Proof. wf_concrete. Qed.
Example wf_ucmm_default : wf_call (d_ex [bp 2]) (a_ex false false default_route [1; 2]) 75 [].
Proof. wf_concrete. Qed.
Example wf_ucsend_slot : wf_call (d_ex [bp 2]) (a_ex false true default_route [1; 2; 3]) 75 [1; 0; 1; 2].
Proof. wf_concrete. Qed.
Example wf_ucsend_hops :
  wf_call (d_ex [])
    {| a_service := SBytes [14]; a_class := LBytes [1; 3]; a_instance := LInt 70000; a_attribute := Some (LInt 300);
       a_data := [9; 8; 7; 6]; a_dt := None; a_name := gm_default_name; a_connected := false; a_ucsend := true;
       a_route := RStr (T "bp/1/enet/10.0.0.5") |}
    14 [6; 0; 1; 1; 18; 8; 49; 48; 46; 48; 46; 48; 46; 53].
Proof. wf_concrete. Qed.
Example domain_examples :
  C14_domain (d_ex [bp 2]) (a_ex true false default_route [1; 2; 3]) 75 []
  /\ C14_domain (d_ex [bp 2]) (a_ex false false default_route [1; 2]) 75 []
  /\ C14_domain (d_ex [bp 2]) (a_ex false true default_route [1; 2; 3]) 75 [1; 0; 1; 2]
  /\ C14_domain (d_ex [bp 2]) (a_ex false true RFalse [97; 98; 99]) 75 [].
Proof.
  split; [split; [exact wf_connected | reflexivity] |].
  split; [split; [exact wf_ucmm_default | reflexivity] |].
  split; [split; [exact wf_ucsend_slot | intros _ H; discriminate H] |].
  split; [exact wf_noroute | reflexivity].
Qed.

(* ================================================================ 2. the answer is returned *)
(* On the reply frame the target builds for general status 0 (either transport): the Tag's value is
   the reply data unchanged when no data type is given, its decoding otherwise (a decoding failure
   gives a falsy Tag with a parse error). *)
Theorem C14_reply_returned : forall (a : gm_args) ses ctx toid seq svc data, blen ctx = 8 ->
  gm_response a (target_reply (a_connected a) ses ctx toid seq svc (mr_ok data))
  = Ok {| g_name := a_name a;
          g_value := match a_dt a with
                     | None => Some (GBytes data)
                     | Some t => match Codec.decode t data with Ok (v, _) => Some (GVal v) | Err _ => None end
                     end;
          g_type := a_dt a;
          g_error := match a_dt a with
                     | None => None
                     | Some t => match Codec.decode t data with Ok _ => None | Err _ => Some EParse end
                     end |}.
Proof. exact reply_returned_ok. Qed.
Print Assumptions C14_reply_returned.

(* A refused request (general status 1..255; over a connection not 6, which the connected response
   class accepts as a partial transfer): a falsy Tag whose error starts with the text of the status. *)
Theorem C14_reply_refused : forall (a : gm_args) ses ctx toid seq svc st ext data,
  blen ctx = 8 -> 0 < st < 256 -> zlen ext < 256 -> (a_connected a = true -> st <> 6) ->
  exists txt v,
    gm_response a (target_reply (a_connected a) ses ctx toid seq svc {| rp_status := st; rp_ext := ext; rp_data := data |})
    = Ok {| g_name := a_name a; g_value := v; g_type := a_dt a; g_error := Some (EText txt) |}
    /\ starts_with (Reply.get_service_status_z st) txt = true
    /\ gtag_truthy {| g_name := a_name a; g_value := v; g_type := a_dt a; g_error := Some (EText txt) |} = false.
Proof.
  intros a ses ctx toid seq svc st ext data H1 H2 H3 H4.
  destruct (reply_refused a ses ctx toid seq svc st ext data H1 H2 H3 H4) as (txt & v & Hr & Hs & _).
  exists txt, v. split; [exact Hr |]. split; [exact Hs |]. unfold gtag_truthy. cbn [g_value g_error]. destruct v; reflexivity.
Qed.
Print Assumptions C14_reply_refused.

Example reply_examples :
  gm_response (a_ex true false default_route []) (target_reply true 7 driver_context 9 1 75 (mr_ok [5; 6; 7]))
  = Ok {| g_name := gm_default_name; g_value := Some (GBytes [5; 6; 7]); g_type := None; g_error := None |}
  /\ option_map g_error (match gm_response (a_ex false false RFalse []) (target_reply false 7 driver_context 9 1 75 (mr_error 8 [])) with Ok t => Some t | Err _ => None end)
     = Some (Some (EText (T "Service not supported"))).
Proof. split; vm_compute; reflexivity. Qed.

(* ================================================================ 3. the time written is the time reported *)
(* every ULINT microsecond count: set_plc_time(us) makes the target's clock object hold us and
   get_plc_time reads us back from that object's reply (beyond datetime.max without the datetime /
   string renderings) *)
Definition C14_time_full : Prop :=
  forall d (b : basic_state) us,
    drv_ok d = true -> d_connected d = true -> 1 <= d_seq d <= 65535 -> 0 <= us < U64 ->
    clock_roundtrip d b us
    /\ exists dt, time_result us = Ok {| tt_microseconds := Some us; tt_datetime := dt; tt_error := None |}.

Theorem C14_time_holds : C14_time_full.
Proof.
  intros d b us Hd Hc Hs Hu. split; [apply time_roundtrip; assumption |]. eexists. reflexivity.
Qed.
Print Assumptions C14_time_holds.

Definition time_tag_of (us : Z) : res time_tag := Ok {| tt_microseconds := Some us; tt_datetime := true; tt_error := None |}.

Example time_beyond_datetime_max :
  time_result (2 ^ 63) = Ok {| tt_microseconds := Some (2 ^ 63); tt_datetime := false; tt_error := None |}.
Proof. reflexivity. Qed.

(* ================================================================ the pieces fit the target's state machine *)
(* a concrete run through [tstep] (the state of Proofs/TargetCoreP.v: session registered, Large
   Forward Open accepted): set_plc_time then get_plc_time, and an Unconnected Send with an odd and an
   even payload; the request events the target logs are the requests asked *)
Definition run2 (st : tstate basic_state) (f1 f2 : bytes) :=
  let '(st1, r1) := tstep basic_handler st f1 in
  let '(st2, r2) := tstep basic_handler st1 f2 in (st2, r1, r2).
Definition requests_logged (st : tstate basic_state) : list (transport * option Z * Z * bytes * bytes) :=
  flat_map (fun e => match e with EvRequest t sq r => [(t, sq, mr_service r, mr_path r, mr_data r)] | _ => [] end) (log_chrono st).

Definition new_requests (st0 st : tstate basic_state) := skipn (List.length (requests_logged st0)) (requests_logged st).

Definition e2e_time (us : Z) :=
  let d := d_ex [bp 0] in
  match set_plc_time_request d us with
  | (d1, Done (a1, f1)) =>
      match get_plc_time_request d1 with
      | (d2, Done (a2, f2)) =>
          match run2 ex_state2 f1 f2 with
          | (st2, Some r1, Some r2) =>
              Some (bs_clock_us (t_app st2),
                    option_map gtag_truthy (match set_plc_time_response a1 r1 with Ok t => Some t | Err _ => None end),
                    get_plc_time_response a2 r2, new_requests ex_state2 st2)
          | _ => None
          end
      | _ => None
      end
  | _ => None
  end.

Example end_to_end_time :
  let us := 1700000000123456 in
  e2e_time us
  = Some (us, Some true, time_tag_of us,
          [(TConnected 1063, Some 1, 4, [32; 139; 36; 1], [1; 0; 6; 0] ++ le_enc 8 us);
           (TConnected 1063, Some 2, 3, [32; 139; 36; 1], [1; 0; 11; 0])]).
Proof. vm_compute. reflexivity. Qed.

Definition e2e_ucsend :=
  let d := d_ex [bp 2] in
  match gm_request d (a_ex false true default_route [111; 100; 100]) with
  | (d1, Done f1) =>
      match gm_request d1 (a_ex false true (RStr (T "bp/5")) [101; 118; 101; 110]) with
      | (d2, Done f2) =>
          match run2 ex_state2 f1 f2 with
          | (st2, Some r1, Some r2) =>
              Some (option_map g_value (match gm_response (a_ex false true default_route []) r1 with Ok t => Some t | Err _ => None end),
                    new_requests ex_state2 st2)
          | _ => None
          end
      | _ => None
      end
  | _ => None
  end.

Example end_to_end_ucsend :
  e2e_ucsend
  = Some (Some (Some (GBytes [111; 100; 100])),
          [(TUnconnSend [1; 2], None, 75, [33; 0; 0; 3; 36; 1], [111; 100; 100]);
           (TUnconnSend [1; 5], None, 75, [33; 0; 0; 3; 36; 1], [101; 118; 101; 110])]).
Proof. vm_compute. reflexivity. Qed.
