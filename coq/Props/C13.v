(* Props/C13.v — replies are classified by their status words; bad replies cannot pass or crash.
   Statement + exact + Print Assumptions only.  Model: Model/Reply.v (what pycomm3 computes from the
   raw reply bytes); independent oracle: Spec/ReplyReader.v (the status words read from the wire
   layout); status tables, Services and MULTI_PACKET_SERVICES come from coq/Gen. *)
From PV Require Import Base.Bytes Base.Res Base.PyStr.
From PV Require Import Gen.Status.
From PV Require Import Model.Reply Spec.ReplyReader.
From PV Require Import Proofs.ReplyBase Proofs.ReplyValid Proofs.ReplyError Proofs.ReplyMulti Proofs.ReplyCalls Proofs.C13P.
Open Scope Z_scope.

(* 1. Classification — for ALL byte strings (so "too short to contain its status words is never
      success" is the -> direction): a connected reply is valid exactly when the encapsulation status
      is 0, the service byte carries the reply bit and the general status is 0, or 6 for the services
      that legitimately continue; an unconnected reply accepts status 0 only; session registration
      and plain responses: encapsulation status 0. *)
Definition C13_classification : Prop :=
  (forall raw, bytes_ok raw = true -> is_valid KUnit (parse_unit raw) = spec_success true unit_layout raw)
  /\ (forall raw, bytes_ok raw = true -> is_valid KRR (parse_rr raw) = spec_success false rr_layout raw)
  /\ (forall raw, bytes_ok raw = true -> is_valid KRegister (parse_register raw) = encap_zero raw)
  /\ (forall raw, bytes_ok raw = true -> is_valid KBase (parse_base raw) = encap_zero raw).

(* 2. Error text — every well-formed reply that is not a success (and the header-only
      encapsulation error) has a non-empty error text; when the encapsulation status is 0 the text
      names the CIP general status (table text or two-digit hex code) and the extended status the
      reply carries (1 or 2 words, any value) when the table has a text for it. *)
Definition C13_error_text : Prop :=
  (forall k raw, k = KUnit \/ k = KRR -> bytes_ok raw = true ->
     wf_cip_reply (layout_k k) raw = true -> spec_success (partial_k k) (layout_k k) raw = false ->
     exists t, error k (parse_k k raw) = ROk (Some t) /\ t <> []
       /\ (encap_status raw = Some 0 ->
           exists gs, byte_at (l_status (layout_k k)) raw = Some gs /\ gs <> 0
             /\ names_status service_status extend_codes gs (ext_value (ext_status (layout_k k) raw)) t = true))
  /\ (forall k raw, k = KUnit \/ k = KRR -> bytes_ok raw = true -> wf_header_only_error raw = true ->
        is_valid k (parse_k k raw) = false /\ exists t, error k (parse_k k raw) = ROk (Some t) /\ t <> []).

(* 3. Multi-service replies — the parse of a reply built from per-service replies gives them back,
      and each service reply is classified by its own status words. *)
Definition C13_multi : Prop :=
  (forall rs, rs <> [] -> multi_data_size rs < 65536 -> split_multi (multi_data rs) = ROk rs)
  /\ (forall hdr rs reqs, length hdr = 50%nat -> bytes_ok hdr = true -> u32_at 8 hdr = Some 0 ->
        (exists s, nth_error hdr 46 = Some s /\ 128 <= s) -> nth_error hdr 49 = Some 0 ->
        rs <> [] -> multi_data_size rs < 65536 -> bytes_ok (multi_data rs) = true ->
        parse_multi reqs (hdr ++ multi_data rs) = (parse_unit (hdr ++ multi_data rs), zip_sub rs reqs))
  /\ (forall v d, bytes_ok d = true -> is_valid KUnit (s_r (sub_response (SWrite v) d)) = sub_success d)
  /\ (forall dec d, bytes_ok d = true ->
        is_valid KUnit (s_r (sub_response (SRead dec) d)) = sub_success d && negb (is_err (parse_read_reply dec (skipn 4 d))))
  (* per-service errors: non-empty text naming the service's own status *)
  /\ (forall q d, bytes_ok d = true -> wf_sub_reply d = true -> sub_success d = false ->
        exists t, error KUnit (s_r (sub_response q d)) = ROk (Some t) /\ t <> []
          /\ exists gs, byte_at 2 d = Some gs /\ gs <> 0
               /\ names_status service_status extend_codes gs (ext_value (sub_ext_status d)) t = true).

(* 4. The public calls on ARBITRARY reply bytes. *)
(* 4a. nothing but a library exception escapes — any call, any replies, no side condition *)
Definition C13_library_only : Prop :=
  forall c replies, rm_is_library (run_call c replies) = true.
(* 4b. a truthy result is backed by status words that say success (for a service of a multi-service
       reply: its own words AND the enclosing encapsulation status) *)
Definition C13_success_backed : Prop :=
  (forall c k raw rest t, one_request c = true -> reply_kind c = Some k -> bytes_ok raw = true ->
     run_call c (raw :: rest) = ROk (OTags [t]) -> tag_truthy t = true ->
     spec_success (partial_k k) (layout_k k) raw = true)
  /\ (forall v raw rest t, bytes_ok raw = true -> run_call (CWrite v) (raw :: rest) = ROk (OTags [t]) ->
        tag_truthy t = spec_success true unit_layout raw)
  /\ (forall k raw rest t, k = KUnit \/ k = KRR -> bytes_ok raw = true -> run_call (CGeneric k None) (raw :: rest) = ROk (OTags [t]) ->
        tag_truthy t = spec_success (partial_k k) (layout_k k) raw)
  /\ (forall reqs raw rest tags i t, bytes_ok raw = true -> run_call (CMulti reqs) (raw :: rest) = ROk (OTags tags) ->
        nth_error tags i = Some t -> tag_truthy t = true -> multi_sub_success raw i = true)
  /\ (forall dec replies t, bytes_list_ok replies -> run_call (CReadFrag dec) replies = ROk (OTags [t]) -> tag_truthy t = true ->
        exists used rest, replies = used ++ rest /\ used <> [] /\ Forall (fun raw => spec_success true unit_layout raw = true) used)
  /\ (forall v n replies t, bytes_list_ok replies -> run_call (CWriteFrag v n) replies = ROk (OTags [t]) -> tag_truthy t = true ->
        (S n <= length replies)%nat /\ Forall (fun raw => spec_success true unit_layout raw = true) (firstn (S n) replies))
  /\ (forall replies, bytes_list_ok replies -> run_call COpen replies = ROk (OBool true) ->
        exists raw rest, replies = raw :: rest /\ encap_zero raw = true)
  /\ (forall f replies rest, bytes_list_ok replies -> with_forward_open f replies = ROk rest ->
        exists raw, In raw replies /\ spec_success false rr_layout raw = true).
(* 4c. a well-formed error reply (header-only encapsulation error included; for a multi-service
       request: an error reply without service data) gives falsy results with a non-empty error
       text — not an exception, not a success *)
Definition C13_wf_errors_falsy : Prop :=
  forall c k raw rest, reply_kind c = Some k -> bytes_ok raw = true -> wf_error_for c k raw = true ->
    all_falsy_with_text (run_call c (raw :: rest)).

Definition C13_full : Prop :=
  C13_classification /\ C13_error_text /\ C13_multi
  /\ C13_library_only /\ C13_success_backed /\ C13_wf_errors_falsy.

(* All of it holds, without a guard, on the code as it is now (after the fix commits aa378e8, 3c1cf16
   and 8164fd0; DESIGN.md F11 and relatives are gone). *)
Theorem C13_classification_holds : C13_classification.
Proof. split; [exact unit_valid_iff|split; [exact rr_valid_iff|split; [exact register_valid_iff|exact base_valid_iff]]]. Qed.
Theorem C13_error_text_holds : C13_error_text.
Proof. split; [exact error_text_k|exact header_only_error]. Qed.
Theorem C13_multi_holds : C13_multi.
Proof. split; [exact multi_demux|split; [exact multi_demux_frame|split; [exact sub_response_write_iff|split; [exact sub_response_read_iff|exact sub_error_text]]]]. Qed.
Theorem C13_library_only_holds : C13_library_only.
Proof. intros c replies. apply nf_library, calls_library_only. Qed.
Theorem C13_success_backed_holds : C13_success_backed.
Proof.
  split; [exact success_one_request|].
  split; [intros v raw rest t Hok Hr; cbn [run_call] in Hr; apply one_reply_inv in Hr; exact (write_truthy_iff v raw t Hok Hr)|].
  split; [intros k raw rest t Hk Hok Hr; cbn [run_call] in Hr; apply one_reply_inv in Hr; exact (generic_raw_truthy_iff k raw t Hk Hok Hr)|].
  split; [exact success_multi|].
  split; [intros dec replies t Hok Hr Ht; cbn [run_call] in Hr; apply tag_out_inv in Hr; exact (read_frag_truthy dec replies t Hok Hr Ht)|].
  split; [intros v n replies t Hok Hr Ht; cbn [run_call] in Hr; apply tag_out_inv in Hr; exact (write_frag_truthy v (S n) replies t Hok Hr Ht)|].
  split; [|exact with_forward_open_ok].
  intros replies Hok Hr. apply (open_true replies Hok). cbn [run_call] in Hr.
  destruct (open_call replies) as [b|]; [|discriminate Hr]. now injection Hr as ->.
Qed.
Print Assumptions C13_classification_holds.
Print Assumptions C13_error_text_holds.
Print Assumptions C13_multi_holds.
Print Assumptions C13_library_only_holds.
Print Assumptions C13_success_backed_holds.

Theorem C13_wf_errors_falsy_holds : C13_wf_errors_falsy.
Proof. exact wf_errors_falsy. Qed.
Print Assumptions C13_wf_errors_falsy_holds.

Theorem C13_holds : C13_full.
Proof.
  split; [exact C13_classification_holds|split; [exact C13_error_text_holds|split; [exact C13_multi_holds|]]].
  split; [exact C13_library_only_holds|split; [exact C13_success_backed_holds|exact C13_wf_errors_falsy_holds]].
Qed.
Print Assumptions C13_holds.

(* non-vacuity: a Read Tag success, a Read Tag error with extended status, a mixed multi-service
   reply, and the formerly failing replies go through the hypotheses with the expected results *)
Example C13_nonvacuous :
  run_call (CRead dint_dec) [w_read] = ROk (OTags [{| t_value := Some (VInt 42); t_error := None |}])
  /\ spec_success true unit_layout w_read = true
  /\ wf_error_for (CRead dint_dec) KUnit w_err = true
  /\ (exists e, run_call (CRead dint_dec) [w_err] = ROk (OTags [{| t_value := None; t_error := Some e |}])
                /\ names_status service_status extend_codes 255 (Some 8453) e = true)
  /\ (exists e, run_call (CMulti two_reads) [w_mixed]
                = ROk (OTags [{| t_value := Some (VInt 7); t_error := None |}; {| t_value := None; t_error := Some e |}])
                /\ names_status service_status extend_codes 5 (Some 0) e = true)
  /\ multi_sub_success w_mixed 0 = true /\ multi_sub_success w_mixed 1 = false
  /\ wf_error_for (CMulti two_reads) KUnit w_toperr = true
  /\ wf_error_for (CMulti two_reads) KUnit w_hdr = true
  /\ wf_error_for (CReadFrag dint_dec) KUnit w_hdr = true
  /\ wf_error_for (CMulti two_writes) KUnit w_ext2 = true.
Proof. vm_compute. repeat split; try reflexivity; eexists; split; reflexivity. Qed.

(* the formerly failing replies (corpus/C13), on the fixed code *)
Example C13_fixed_witnesses :
  run_call (CMulti two_reads) [w_count0]
  = ROk (OTags [{| t_value := None; t_error := Some no_reply_received |}; {| t_value := None; t_error := Some no_reply_received |}])
  /\ run_call (CReadFrag dint_dec) [w_hdr] = ROk (OTags [{| t_value := None; t_error := Some fragments_failed |}])
  /\ (exists e, run_call (CMulti two_reads) [w_toperr] = ROk (OTags [{| t_value := None; t_error := Some e |}; {| t_value := None; t_error := Some e |}])
                /\ names_status service_status extend_codes 8 None e = true)
  /\ (exists e, run_call (CMulti two_reads) [w_encap] = ROk (OTags [{| t_value := None; t_error := Some e |}; {| t_value := None; t_error := Some e |}]))
  /\ (exists e, run_call (CMulti two_writes) [w_ext2]
                = ROk (OTags [{| t_value := Some (VInt 1); t_error := Some e |}; {| t_value := Some (VInt 2); t_error := Some e |}])
                /\ names_status service_status extend_codes 5 None e = true).
Proof. repeat split; try (vm_compute; reflexivity); eexists; vm_compute; try split; reflexivity. Qed.
