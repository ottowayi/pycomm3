(* Props/C18.v — SLC addresses select the right file, element and bit; data round-trips.
   Statement + exact + Print Assumptions only.

   Model: Model/Slc.v (parse_tag, request bytes, reply parsing of pycomm3/slc_driver.py) over the
   regular expressions, the pattern method (fullmatch) and the PCCC tables regenerated into
   Gen/SlcTables.v, run by Model/Regex.v.
   Oracle: Spec/SlcTarget.v (address ADT, spellings, reference data table and PCCC target).
   File number / element 255 are covered (the 0xFF escape form of the address fields); digit runs
   of any length are covered by the rejection clause. *)
From Coq Require Import String.
From PV Require Import Base.Bytes Base.Res Base.PyStr Model.Regex Model.SlcVal Model.Slc Spec.SlcTarget.
From PV Require Import Proofs.RegexP Proofs.SlcParseP Proofs.SlcAddrP Proofs.SlcTargetP Proofs.SlcReqP.
Open Scope Z_scope.

Definition C18_full : Prop :=
  (* parse_addr: every well-formed address, in every spelling (word form, /b, Bf/n, {count}, letter
     case, leading zeros, optional I/O file number and word), parses to exactly its fields;
     for Bf/n: element = n / 16, bit = n mod 16 (render spells n = 16 * element + bit) *)
  (forall sp a, wf_addr a = true -> wf_spelling sp a = true ->
     exists name, parse_tag (render sp a) = PTag (addr_tag a name))
  (* request_addresses_exactly: the PCCC command of a read / write, read by the target's own parser,
     names the file number, file type, element and sub-element of the address, size = element
     size x count; a write carries mask 2^bit / 0xFFFF and exactly the words of the value *)
  /\ (forall c sp a tns, cfg_ok c -> wf_addr a = true -> wf_spelling sp a = true -> 0 <= tns < 65536 ->
        exists t req cmd, read_tag_request c tns (render sp a) = RqOk (t, req)
          /\ target_view req = Some cmd /\ cmd_names cmd c a 162 tns /\ pc_rest cmd = [])
  /\ (forall c sp a tns v dws, cfg_ok c -> wf_addr a = true -> wf_spelling sp a = true -> is_tc (a_ft a) = false ->
        0 <= tns < 65536 -> wwords a v = Some dws ->
        exists t req cmd, write_tag_request c tns (render sp a) v = RqOk (t, req)
          /\ target_view req = Some cmd /\ cmd_names cmd c a 171 tns
          /\ pc_rest cmd = le16 (wmask a) ++ words_to_bytes dws)
  (* a read returns what the reference interpretation of the address finds in the data table,
     for every prior table; the table is not changed *)
  /\ (forall c tbl sp a v tns pre, cfg_ok c -> table_ok tbl = true -> wf_addr a = true -> wf_spelling sp a = true ->
        0 <= tns < 65536 -> length pre = 46%nat -> ref_read tbl a = Some v ->
        exists t req rep, read_tag_request c tns (render sp a) = RqOk (t, req)
          /\ exec_mr tbl req = (tbl, rep) /\ ok_tag (read_tag_finish t (pre ++ rep)) v)
  (* write_then_read: after the write request the target's table IS the reference write; a read of
     the same address then returns the written value (a boolean for a bit) *)
  /\ (forall c tbl sp a v tns tns' pre pre' tbl', cfg_ok c -> table_ok tbl = true -> wf_addr a = true ->
        wf_spelling sp a = true -> is_tc (a_ft a) = false ->
        0 <= tns < 65536 -> 0 <= tns' < 65536 -> length pre = 46%nat -> length pre' = 46%nat ->
        ref_write tbl a v = Some tbl' ->
        exists t wreq wrep rreq rrep,
          write_tag_request c tns (render sp a) v = RqOk (t, wreq)
          /\ exec_mr tbl wreq = (tbl', wrep) /\ ok_tag (write_tag_finish t v (pre ++ wrep)) v
          /\ read_tag_request c tns' (render sp a) = RqOk (t, rreq)
          /\ exec_mr tbl' rreq = (tbl', rrep) /\ ok_tag (read_tag_finish t (pre' ++ rrep)) (norm a v))
  (* frame: the reference write leaves every other file alone and, in the addressed file, every
     word outside the addressed [count] consecutive elements; a bit write changes one bit *)
  /\ (forall tbl a v tbl', ref_write tbl a v = Some tbl' ->
        exists f f' i k,
          file_for tbl a = Some f /\ find_file tbl' (a_file a) = Some f' /\ same_but tbl tbl' (a_file a)
          /\ df_ft f' = df_ft f /\ df_ew f' = df_ew f /\ length (df_words f') = length (df_words f)
          /\ i = Z.to_nat (word_index f (a_elem a) (a_sub a))
          /\ k = (match a_bit a with Some _ => 1 | None => Z.to_nat (vwords (a_ft a) * a_count a) end)%nat
          /\ (i + k <= length (df_words f))%nat
          /\ (forall j, (j < i \/ i + k <= j)%nat -> nth j (df_words f') 0 = nth j (df_words f) 0)
          /\ (forall b, a_bit a = Some b -> forall j, 0 <= j -> j <> b ->
                Z.testbit (nth i (df_words f') 0) j = Z.testbit (nth i (df_words f) 0) j))
  (* reject: an address of the grammar's form (digit runs of ANY length) with a file, element or
     bit number outside the ranges (an I/O file number above 255 included), or with an unsupported
     file letter, does not parse ... *)
  /\ (forall r, raw_form r = true -> spec_in_range r = false -> parse_tag (render_raw r) = PNone)
  /\ (forall ch rest, ~ In (lower_c ch) supported_lower -> Forall body_char rest -> parse_tag (ch :: rest) = PNone)
  (* ... and read() / write() turn that into RequestError before anything is sent *)
  /\ (forall c tns s v, parse_tag s = PNone ->
        read_tag_request c tns s = RqErr RequestError /\ write_tag_request c tns s v = RqErr RequestError).


Theorem C18_holds : C18_full.
Proof.
  exact (conj parse_addr (conj request_names_read (conj request_names_write (conj read_correct (conj write_then_read
          (conj ref_write_frame (conj reject (conj reject_letter none_is_request_error)))))))).
Qed.
Print Assumptions C18_holds.

(* the addresses of the three repaired defects, on the model *)
Definition sp_plain : spelling :=
  {| sp_lower := false; sp_mn_lower := []; sp_pad_file := 0; sp_pad_elem := 0; sp_pad_sub := 0; sp_pad_bit := 0;
     sp_pad_count := 0; sp_flat_bit := false; sp_io_file := false; sp_io_word := false; sp_count1 := false |}.
Definition cfg0 : cfg := {| c_vid := [9; 16]; c_vsn := [9; 16; 25; 113] |}.
Example C18_repaired :
  parse_tag [78; 55; 58; 49; 48; 48; 48] = PNone                      (* N7:1000 *)
  /\ parse_tag [78; 55; 58; 48; 47; 49; 48; 48] = PNone               (* N7:0/100 *)
  /\ parse_tag [73; 50; 53; 54; 58; 48] = PNone                       (* I256:0 *)
  /\ parse_tag [120; 78; 55; 58; 48] = PNone                          (* xN7:0 *)
  /\ (exists t, read_tag_request cfg0 1 [78; 55; 58; 50; 53; 53] =    (* N7:255: element FF FF 00 *)
        RqOk (t, [75; 2; 32; 103; 36; 1; 7; 9; 16; 9; 16; 25; 113; 15; 0; 1; 0; 162; 2; 7; 137; 255; 255; 0; 0])).
Proof. repeat split; try (vm_compute; reflexivity). eexists. vm_compute. reflexivity. Qed.

(* non-vacuity: B3/17 (spelled "b003/017") addresses word 1, bit 1: the model's write request,
   executed by the target on a concrete table, sets exactly that bit; the read returns True *)
Definition ex_addr : addr := {| a_ft := FB; a_file := 3; a_elem := 1; a_sub := 0; a_bit := Some 1; a_count := 1 |}.
Definition ex_sp : spelling :=
  {| sp_lower := true; sp_mn_lower := []; sp_pad_file := 3; sp_pad_elem := 0; sp_pad_sub := 0; sp_pad_bit := 3;
     sp_pad_count := 0; sp_flat_bit := true; sp_io_file := false; sp_io_word := false; sp_count1 := false |}.
Definition ex_table : table :=
  [{| df_num := 7; df_ft := FN; df_ew := 1; df_words := [1; 2; 3] |};
   {| df_num := 3; df_ft := FB; df_ew := 1; df_words := [65535; 4; 0] |}].
Example C18_nonvacuous :
  wf_addr ex_addr = true /\ wf_spelling ex_sp ex_addr = true
  /\ render ex_sp ex_addr = [98; 48; 48; 51; 47; 48; 49; 55]
  /\ table_ok ex_table = true /\ cfg_ok cfg0
  /\ ref_write ex_table ex_addr (VInt 1) =
       Some [{| df_num := 7; df_ft := FN; df_ew := 1; df_words := [1; 2; 3] |};
             {| df_num := 3; df_ft := FB; df_ew := 1; df_words := [65535; 6; 0] |}]
  /\ (exists t req, write_tag_request cfg0 5 (render ex_sp ex_addr) (VInt 1) = RqOk (t, req)
        /\ fst (exec_mr ex_table req) =
             [{| df_num := 7; df_ft := FN; df_ew := 1; df_words := [1; 2; 3] |};
              {| df_num := 3; df_ft := FB; df_ew := 1; df_words := [65535; 6; 0] |}])
  /\ (exists t req, read_tag_request cfg0 6 (render ex_sp ex_addr) = RqOk (t, req)
        /\ tr_value (read_tag_finish t (repeat 0 46 ++ snd (exec_mr ex_table req))) = Some (VBool false)
        /\ ref_read ex_table ex_addr = Some (VBool false)).
Proof.
  split; [reflexivity|]. split; [reflexivity|]. split; [reflexivity|]. split; [reflexivity|].
  split; [exists 9, 16, 9, 16, 25, 113; split; reflexivity|]. split; [reflexivity|].
  (* each request is evaluated first: it determines the tag and the frame the next equation is about *)
  split; eexists; eexists.
  - split; [vm_compute; reflexivity|]. vm_compute. reflexivity.
  - split; [vm_compute; reflexivity|]. split; vm_compute; reflexivity.
Qed.

(* ==================================================================================================
   Extension: the data-file directory and the processor type (get_file_directory, _parse_file0,
   _read_whole_file_directory, _get_sys0_info).  Model: Model/SlcDir.v.  Oracle: Spec/SlcDirSpec.v
   (the file-0 image of a directory, written from the layout: header of the family's length, one
   row per file number = type code, 16-bit length, uninterpreted rest; 0x81 = unused number).
   ================================================================================================== *)
From PV Require Import Model.SlcDir Spec.SlcDirSpec Proofs.SlcDirP Proofs.SlcDirReadP.

(* round trip: for every catalog string (hence every family), every header of the family's length
   and every list of files with strictly increasing numbers >= 0, element counts >= 0 and lengths
   (elements x element size) below 65536, _parse_file0 returns exactly that directory: name =
   type letters + decimal number, elements, length, in file-number order.  Row level (any position
   >= 53 and any row size): reserved rows (0x81) take a file number, rows whose type byte is any
   other byte outside the type table are skipped WITHOUT taking a number. *)
Definition C18_dir_roundtrip_full : Prop :=
  (forall cat hdr fs,
     length hdr = fam_position (family_of_catalog cat) -> wf_files 0 fs ->
     parse_file0 (get_sys0_info cat) (encode_dir (family_of_catalog cat) hdr fs) = DOk (map conv (dir_view fs)))
  /\ (forall pos rs hdr rows,
        length hdr = pos -> (53 <= pos)%nat -> Forall (wf_row rs) rows ->
        parse_file0_at pos rs (encode_rows hdr rows) = DOk (map conv (number_rows 0 rows))).

Theorem C18_dir_roundtrip : C18_dir_roundtrip_full.
Proof. split; [exact dir_roundtrip|exact parse_file0_rows]. Qed.
Print Assumptions C18_dir_roundtrip.

Definition ex_files : list dfile :=
  [{| d_type := TO; d_num := 0; d_elements := 1 |}; {| d_type := TI; d_num := 1; d_elements := 2 |};
   {| d_type := TS; d_num := 2; d_elements := 83 |}; {| d_type := TB; d_num := 3; d_elements := 1 |};
   {| d_type := TT; d_num := 4; d_elements := 40 |}; {| d_type := TN; d_num := 7; d_elements := 32767 |};
   {| d_type := TST; d_num := 12; d_elements := 780 |}; {| d_type := TPLS; d_num := 255; d_elements := 0 |}].
Definition ex_cat : list Z := [49; 55; 54; 54; 45; 76; 51; 50].      (* 1766-L32 *)
Example C18_dir_nonvacuous :
  wf_files 0 ex_files /\ length (zeros 233) = fam_position (family_of_catalog ex_cat)
  /\ length (encode_dir (family_of_catalog ex_cat) (zeros 233) ex_files) = 2793%nat
  /\ parse_file0 (get_sys0_info ex_cat) (encode_dir (family_of_catalog ex_cat) (zeros 233) ex_files)
     = DOk [([79; 48], {| fe_elements := 1; fe_length := 2 |}); ([73; 49], {| fe_elements := 2; fe_length := 4 |});
            ([83; 50], {| fe_elements := 83; fe_length := 166 |}); ([66; 51], {| fe_elements := 1; fe_length := 2 |});
            ([84; 52], {| fe_elements := 40; fe_length := 240 |}); ([78; 55], {| fe_elements := 32767; fe_length := 65534 |});
            ([83; 84; 49; 50], {| fe_elements := 780; fe_length := 65520 |});
            ([80; 76; 83; 50; 53; 53], {| fe_elements := 0; fe_length := 0 |})]
  /\ Forall (wf_row 10) [RForeign 34 (zeros 9); RFile TN 5 (zeros 7); RForeign 0 (zeros 9); RReserved (zeros 9); RFile TF 2 (zeros 7)]
  /\ parse_file0_at 79 10 (encode_rows (zeros 79) [RForeign 34 (zeros 9); RFile TN 5 (zeros 7); RForeign 0 (zeros 9); RReserved (zeros 9); RFile TF 2 (zeros 7)])
     = DOk [([78; 48], {| fe_elements := 5; fe_length := 10 |}); ([70; 50], {| fe_elements := 2; fe_length := 8 |})].
Proof.
  split; [cbn; lia|]. split; [reflexivity|]. split; [vm_compute; reflexivity|]. split; [vm_compute; reflexivity|].
  split; [|vm_compute; reflexivity].
  repeat (constructor; [unfold wf_row, RESERVED_CODE; repeat split; try (vm_compute; reflexivity); try lia|]).
  constructor.
Qed.

(* the reads of _read_whole_file_directory tile the image: for every image, every size within it,
   every even chunk size that fits the one-byte size field (the code's is 0x50) the reads are
   contiguous in word offsets from 0 to the size, none is empty, and the data returned (= the
   concatenation of what the controller served) is the first [size] bytes of the image *)
Definition C18_dir_reads_tile_full : Prop :=
  (forall image chunk (sz : nat) fuel,
     0 < chunk <= 255 -> chunk mod 2 = 0 -> (sz <= length image)%nat -> Z.of_nat sz < 131072 -> (sz < fuel)%nat ->
     exists reads,
       read_loop fuel chunk (Z.of_nat sz) (serve_image image) [] 0 [] = ROk (firstn sz image) reads
       /\ tiles 0 reads (Z.of_nat sz)
       /\ served image reads = firstn sz image)
  /\ (forall image (sz : nat),
        (sz <= length image)%nat -> Z.of_nat sz < 131072 ->
        exists reads,
          read_whole_file_directory (S sz) (Z.of_nat sz) (serve_image image) = ROk (firstn sz image) reads
          /\ tiles 0 reads (Z.of_nat sz) /\ served image reads = firstn sz image).

Theorem C18_dir_reads_tile : C18_dir_reads_tile_full.
Proof. split; [exact dir_reads_tile|exact whole_directory_reads_tile]. Qed.
Print Assumptions C18_dir_reads_tile.

Example C18_dir_reads_nonvacuous :
  read_whole_file_directory 202 201 (serve_image (map Z.of_nat (seq 0 201)))
    = ROk (map Z.of_nat (seq 0 201)) [(80, 0); (80, 40); (41, 80)]
  /\ tiles 0 [(80, 0); (80, 40); (41, 80)] 201
  (* an odd chunk would NOT tile: offsets count words *)
  /\ read_loop 10 3 6 (serve_image [1; 2; 3; 4; 5; 6]) [] 0 [] = ROk [1; 2; 3; 3; 4; 5] [(3, 0); (3, 1)].
Proof. split; [vm_compute; reflexivity|]. split; [cbn; lia|vm_compute; reflexivity]. Qed.
