(* Base/BytesLemmas.v — little-endian encodings, two's complement and [bytes_ok]: what the definitions of
   Base/Bytes.v do, for every proof file; at the end [bval], the number a list of bits denotes. *)
From PV Require Import Base.Bytes.
From PV Require Export Base.ListLemmas.
From Coq Require Import ZifyBool.
Open Scope Z_scope.
Ltac Zify.zify_post_hook ::= Z.to_euclidean_division_equations.

Lemma pow256_pos w : 0 < pow256 w.
Proof. unfold pow256. apply Z.pow_pos_nonneg; lia. Qed.

Lemma pow256_S w : pow256 (S w) = 256 * pow256 w.
Proof. unfold pow256. rewrite Nat2Z.inj_succ, Z.pow_succ_r; lia. Qed.

Lemma pow256_0 : pow256 0 = 1.
Proof. reflexivity. Qed.

Lemma le_enc_length w z : length (le_enc w z) = w.
Proof. revert z; induction w as [|w IH]; intros z; cbn [le_enc length]; [reflexivity|]. now rewrite IH. Qed.

Lemma byte_ok_iff b : byte_ok b = true <-> 0 <= b < 256.
Proof. unfold byte_ok. lia. Qed.

Lemma bytes_ok_app a b : bytes_ok (a ++ b) = bytes_ok a && bytes_ok b.
Proof. unfold bytes_ok. apply forallb_app. Qed.

Lemma bytes_ok_cons a b : bytes_ok (a :: b) = byte_ok a && bytes_ok b.
Proof. reflexivity. Qed.

Lemma le_enc_ok w z : bytes_ok (le_enc w z) = true.
Proof.
  revert z; induction w as [|w IH]; intros z; cbn [le_enc]; [reflexivity|].
  rewrite bytes_ok_cons, IH, andb_true_r. apply byte_ok_iff.
  apply Z.mod_pos_bound; lia.
Qed.

Lemma le_dec_enc w z : le_dec (le_enc w z) = z mod pow256 w.
Proof.
  revert z; induction w as [|w IH]; intros z; cbn [le_enc le_dec].
  - rewrite pow256_0. now rewrite Z.mod_1_r.
  - rewrite IH, pow256_S. pose proof (pow256_pos w) as Hp.
    rewrite Z.rem_mul_r by lia. lia.
Qed.

Lemma le_dec_enc_id w z : 0 <= z < pow256 w -> le_dec (le_enc w z) = z.
Proof. intros H. rewrite le_dec_enc. apply Z.mod_small; exact H. Qed.

Lemma le_dec_range bs : bytes_ok bs = true -> 0 <= le_dec bs < pow256 (length bs).
Proof.
  induction bs as [|b r IH]; cbn [le_dec length]; intros H.
  - rewrite pow256_0; lia.
  - rewrite bytes_ok_cons in H. apply andb_true_iff in H as [Hb Hr].
    apply byte_ok_iff in Hb. specialize (IH Hr). rewrite pow256_S. lia.
Qed.

Lemma le_enc_dec bs : bytes_ok bs = true -> le_enc (length bs) (le_dec bs) = bs.
Proof.
  induction bs as [|b r IH]; cbn [le_dec length le_enc]; intros H; [reflexivity|].
  rewrite bytes_ok_cons in H. apply andb_true_iff in H as [Hb Hr].
  apply byte_ok_iff in Hb. specialize (IH Hr).
  f_equal.
  - lia.
  - replace ((b + 256 * le_dec r) / 256) with (le_dec r) by lia. exact IH.
Qed.

Lemma le_enc_mod w z : le_enc w (z mod pow256 w) = le_enc w z.
Proof.
  revert z; induction w as [|w IH]; intros z; cbn [le_enc]; [reflexivity|].
  rewrite pow256_S. pose proof (pow256_pos w) as Hp. f_equal.
  - rewrite Z.rem_mul_r by lia. lia.
  - rewrite <- (IH (z / 256)). f_equal.
    rewrite Z.rem_mul_r by lia. lia.
Qed.

Lemma le_enc_inj w a b :
  0 <= a < pow256 w -> 0 <= b < pow256 w -> le_enc w a = le_enc w b -> a = b.
Proof.
  intros Ha Hb H. rewrite <- (le_dec_enc_id w a Ha), <- (le_dec_enc_id w b Hb). now rewrite H.
Qed.

Lemma pow256_even w : (0 < w)%nat -> pow256 w mod 2 = 0.
Proof.
  destruct w as [|w]; [lia|]. intros _. rewrite pow256_S.
  replace (256 * pow256 w) with (128 * pow256 w * 2) by lia. apply Z.mod_mul; lia.
Qed.

Lemma to_of_signed w s : in_srange w s = true -> (0 < w)%nat -> to_signed w (of_signed w s) = s.
Proof.
  unfold in_srange, to_signed, of_signed. intros H Hw.
  pose proof (pow256_pos w) as Hp.
  pose proof (pow256_even w Hw) as Heven.
  destruct (s mod pow256 w <? pow256 w / 2) eqn:E.
  - assert (0 <= s \/ s < 0) as [Hs|Hs] by lia.
    + rewrite Z.mod_small by lia. reflexivity.
    + exfalso. assert (s mod pow256 w = s + pow256 w).
      { symmetry. apply Z.mod_unique with (q := -1); lia. } lia.
  - assert (0 <= s \/ s < 0) as [Hs|Hs] by lia.
    + exfalso. rewrite Z.mod_small in E by lia. lia.
    + assert (s mod pow256 w = s + pow256 w).
      { symmetry. apply Z.mod_unique with (q := -1); lia. } lia.
Qed.

Lemma of_signed_range w s : 0 <= of_signed w s < pow256 w.
Proof. unfold of_signed. apply Z.mod_pos_bound, pow256_pos. Qed.

Lemma to_signed_range w u : (0 < w)%nat -> 0 <= u < pow256 w -> in_srange w (to_signed w u) = true.
Proof.
  intros Hw Hu. unfold in_srange, to_signed.
  pose proof (pow256_even w Hw) as Heven.
  destruct (u <? pow256 w / 2) eqn:E; lia.
Qed.

Lemma of_to_signed w u : 0 <= u < pow256 w -> of_signed w (to_signed w u) = u.
Proof.
  intros Hu. unfold of_signed, to_signed. pose proof (pow256_pos w) as Hp.
  destruct (u <? pow256 w / 2) eqn:E.
  - apply Z.mod_small; lia.
  - symmetry. apply Z.mod_unique with (q := -1); lia.
Qed.

(* stream form: decoding a prefix leaves the rest untouched *)
Lemma firstn_app_exact {A} (a b : list A) : firstn (length a) (a ++ b) = a.
Proof. now apply firstn_app_length. Qed.

Lemma skipn_app_exact {A} (a b : list A) : skipn (length a) (a ++ b) = b.
Proof. now apply skipn_app_length. Qed.

Lemma zeros_length n : length (zeros n) = n.
Proof. induction n; cbn; congruence. Qed.

Lemma zeros_ok n : bytes_ok (zeros n) = true.
Proof. induction n; cbn; auto. Qed.

Lemma pow256_1 : pow256 1 = 256. Proof. reflexivity. Qed.
Lemma pow256_2 : pow256 2 = 65536. Proof. reflexivity. Qed.
Lemma pow256_4 : pow256 4 = 4294967296. Proof. reflexivity. Qed.

Lemma pow256_pow2 w : pow256 w = 2 ^ (8 * Z.of_nat w).
Proof. unfold pow256. change 256 with (2 ^ 8). rewrite <- Z.pow_mul_r by lia. reflexivity. Qed.

Lemma in_urange_iff w z : in_urange w z = true <-> 0 <= z < pow256 w.
Proof. unfold in_urange. lia. Qed.

Lemma le_enc_1 z : 0 <= z < 256 -> le_enc 1 z = [z].
Proof. intros H. cbn [le_enc]. now rewrite Z.mod_small. Qed.

Lemma le_enc_app_skipn w z r : skipn w (le_enc w z ++ r) = r.
Proof. rewrite <- (le_enc_length w z) at 1. apply skipn_app_exact. Qed.

Lemma le_dec_single x : le_dec [x] = x.
Proof. cbn [le_dec]. lia. Qed.

Lemma bytes_ok_firstn n bs : bytes_ok bs = true -> bytes_ok (firstn n bs) = true.
Proof. apply forallb_firstn. Qed.

Lemma bytes_ok_skipn n bs : bytes_ok bs = true -> bytes_ok (skipn n bs) = true.
Proof. apply forallb_skipn. Qed.

Lemma slice_app_prefix (a b : nat) (d q : bytes) : (b <= length d)%nat -> slice a b (d ++ q) = slice a b d.
Proof.
  intros H. unfold slice. rewrite skipn_app.
  rewrite firstn_app. rewrite skipn_length.
  replace (b - a - (length d - a))%nat with 0%nat by lia. cbn [firstn]. now rewrite app_nil_r.
Qed.

Lemma bytes_ok_In bs b : bytes_ok bs = true -> In b bs -> 0 <= b < 256.
Proof. intros H Hb. apply byte_ok_iff. exact (forallb_In _ _ _ H Hb). Qed.

Lemma bytes_ok_nth_error bs n b : bytes_ok bs = true -> nth_error bs n = Some b -> 0 <= b < 256.
Proof. intros H Hn. eapply bytes_ok_In, nth_error_In; eassumption. Qed.

Lemma zeros_repeat n : zeros n = repeat 0 n.
Proof. induction n; cbn; congruence. Qed.

Lemma zeros_app a b : zeros a ++ zeros b = zeros (a + b).
Proof. induction a; cbn; congruence. Qed.

Lemma land_pow2 x n : 0 <= n -> Z.land x (2 ^ n) = if Z.testbit x n then 2 ^ n else 0.
Proof.
  intros Hn. apply Z.bits_inj'. intros k Hk. rewrite Z.land_spec, Z.pow2_bits_eqb by exact Hn.
  destruct (Z.eqb_spec n k) as [<- | Hne].
  - rewrite andb_true_r. destruct (Z.testbit x n); symmetry; [apply Z.pow2_bits_true, Hn | apply Z.bits_0].
  - rewrite andb_false_r. destruct (Z.testbit x n); symmetry; [apply Z.pow2_bits_false; lia | apply Z.bits_0].
Qed.

(* the number a list of bits denotes, least significant first *)
Fixpoint bval (l : list bool) : Z :=
  match l with
  | [] => 0
  | b :: r => Z.b2z b + 2 * bval r
  end.

Lemma bval_range l : 0 <= bval l < 2 ^ Z.of_nat (length l).
Proof.
  induction l as [|b r IH]; cbn [bval length]; [cbn; lia|].
  rewrite Nat2Z.inj_succ, Z.pow_succ_r by lia. destruct b; cbn [Z.b2z]; lia.
Qed.

Lemma bval_app a b : bval (a ++ b) = bval a + 2 ^ Z.of_nat (length a) * bval b.
Proof.
  induction a as [|x a IH]; cbn [app bval length]; [change (Z.of_nat 0) with 0; rewrite Z.pow_0_r; lia|].
  rewrite IH, Nat2Z.inj_succ, Z.pow_succ_r by lia. ring.
Qed.
