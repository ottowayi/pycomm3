(* Base/ListLemmas.v — facts about the standard list functions that the standard library of
   Coq 8.16 does not have, stated once for every proof file. *)
From Coq Require Import List Bool Arith ZArith Lia.
Import ListNotations.

Lemma skipn_skipn {A} (a b : nat) (l : list A) : skipn a (skipn b l) = skipn (b + a) l.
Proof.
  revert l; induction b as [|b IH]; intros l; [reflexivity|].
  destruct l as [|x l]; [now rewrite !skipn_nil|]. apply IH.
Qed.

Lemma firstn_add {A} (a b : nat) (l : list A) : firstn (a + b) l = firstn a l ++ firstn b (skipn a l).
Proof.
  revert l; induction a as [|a IH]; intros l; [reflexivity|].
  destruct l as [|x l]; [cbn; now rewrite firstn_nil|]. cbn [Nat.add firstn skipn app]. now rewrite IH.
Qed.

Lemma firstn_app_length {A} (a b : list A) n : n = length a -> firstn n (a ++ b) = a.
Proof. intros ->. now rewrite firstn_app, Nat.sub_diag, firstn_all, app_nil_r. Qed.

Lemma skipn_app_length {A} (a b : list A) n : n = length a -> skipn n (a ++ b) = b.
Proof. intros ->. now rewrite skipn_app, Nat.sub_diag, skipn_all. Qed.

Lemma skipn_app_add {A} (a b : list A) m : skipn (length a + m) (a ++ b) = skipn m b.
Proof. induction a as [|x a IH]; [reflexivity|exact IH]. Qed.

Lemma skipn_nth_error {A} (l : list A) i x : nth_error l i = Some x -> skipn i l = x :: skipn (S i) l.
Proof.
  revert i; induction l as [|a l IH]; intros [|i] H; try discriminate.
  - now injection H as ->.
  - exact (IH i H).
Qed.

Lemma nth_error_skipn {A} n (l : list A) i : nth_error (skipn n l) i = nth_error l (n + i).
Proof. revert l; induction n as [|n IH]; intros [|x l]; cbn; auto. now destruct i. Qed.

Lemma nth_error_firstn {A} n (l : list A) i : i < n -> nth_error (firstn n l) i = nth_error l i.
Proof.
  revert l i; induction n as [|n IH]; intros l i H; [lia|].
  destruct l as [|x l]; [reflexivity|]. destruct i; [reflexivity|]. cbn. apply IH. lia.
Qed.

Lemma nth_skipn {A} n (l : list A) i d : nth i (skipn n l) d = nth (n + i) l d.
Proof. revert l; induction n as [|n IH]; intros [|x l]; cbn; auto. now destruct i. Qed.

Lemma nth_firstn {A} n (l : list A) i d : i < n -> nth i (firstn n l) d = nth i l d.
Proof.
  revert l i; induction n as [|n IH]; intros l i H; [lia|].
  destruct l as [|x l]; [reflexivity|]. destruct i; [reflexivity|]. cbn. apply IH. lia.
Qed.

Lemma nth_error_Some_lt {A} (l : list A) n x : nth_error l n = Some x -> n < length l.
Proof. intros H. apply nth_error_Some. congruence. Qed.

Lemma In_firstn {A} n (l : list A) x : In x (firstn n l) -> In x l.
Proof. intros H. rewrite <- (firstn_skipn n l). apply in_or_app. now left. Qed.

Lemma In_skipn {A} n (l : list A) x : In x (skipn n l) -> In x l.
Proof. intros H. rewrite <- (firstn_skipn n l). apply in_or_app. now right. Qed.

Lemma exists_last_snoc {A} (l : list A) : l <> [] -> exists i x, l = i ++ [x].
Proof. intros H. destruct (exists_last H) as (i & x & ->). eauto. Qed.

Lemma list_ind2 {A} (P : list A -> Prop) :
  P [] -> (forall a, P [a]) -> (forall a b r, P r -> P (a :: b :: r)) -> forall l, P l.
Proof. intros H0 H1 H2. fix IH 1. intros [|a [|b r]]; [exact H0|apply H1|apply H2, IH]. Qed.

Lemma forallb_In {A} (p : A -> bool) l x : forallb p l = true -> In x l -> p x = true.
Proof. intros H. now apply forallb_forall. Qed.

Lemma forallb_impl {A} (p q : A -> bool) l :
  (forall x, p x = true -> q x = true) -> forallb p l = true -> forallb q l = true.
Proof. rewrite !forallb_forall. auto. Qed.

Lemma forallb_snoc {A} (p : A -> bool) l x : forallb p (l ++ [x]) = forallb p l && p x.
Proof. rewrite forallb_app. cbn. now rewrite andb_true_r. Qed.

Lemma forallb_rev {A} (p : A -> bool) l : forallb p (rev l) = forallb p l.
Proof. induction l as [|x l IH]; [reflexivity|]. cbn [rev]. rewrite forallb_snoc, IH. apply andb_comm. Qed.

Lemma forallb_firstn {A} (p : A -> bool) n l : forallb p l = true -> forallb p (firstn n l) = true.
Proof. rewrite !forallb_forall. intros H x Hx. eapply H, In_firstn, Hx. Qed.

Lemma forallb_skipn {A} (p : A -> bool) n l : forallb p l = true -> forallb p (skipn n l) = true.
Proof. rewrite !forallb_forall. intros H x Hx. eapply H, In_skipn, Hx. Qed.

Lemma forallb_flat_map {A B} (p : B -> bool) (f : A -> list B) l :
  forallb p (flat_map f l) = forallb (fun x => forallb p (f x)) l.
Proof. induction l as [|x l IH]; [reflexivity|]. cbn. now rewrite forallb_app, IH. Qed.

Lemma existsb_false_In {A} (p : A -> bool) l x : existsb p l = false -> In x l -> p x = false.
Proof.
  intros H Hx. destruct (p x) eqn:E; [|reflexivity].
  assert (existsb p l = true) by (apply existsb_exists; eauto). congruence.
Qed.

Lemma filter_all {A} (p : A -> bool) l : forallb p l = true -> filter p l = l.
Proof.
  induction l as [|x l IH]; [reflexivity|]. cbn. intros H. apply andb_prop in H as [-> H]. now rewrite IH.
Qed.

Lemma filter_filter {A} (p q : A -> bool) l : filter p (filter q l) = filter (fun x => q x && p x) l.
Proof. induction l as [|x l IH]; [reflexivity|]. cbn. destruct (q x); cbn; [destruct (p x)|]; now rewrite IH. Qed.

Lemma filter_map_comm {A B} (p : B -> bool) (g : A -> B) l : filter p (map g l) = map g (filter (fun x => p (g x)) l).
Proof. induction l as [|x l IH]; [reflexivity|]. cbn. destruct (p (g x)); cbn; now rewrite IH. Qed.

Lemma filter_length_le {A} (p : A -> bool) l : length (filter p l) <= length l.
Proof. induction l as [|x l IH]; [reflexivity|]. cbn. destruct (p x); cbn; lia. Qed.

Lemma flat_map_map {A B C} (f : B -> list C) (g : A -> B) l : flat_map f (map g l) = flat_map (fun x => f (g x)) l.
Proof. induction l as [|x l IH]; [reflexivity|]. cbn. now rewrite IH. Qed.

Lemma in_map_fst {A B} (l : list (A * B)) a : In a (map fst l) -> exists b, In (a, b) l.
Proof. intros H. apply in_map_iff in H as ([a' b] & <- & H). eauto. Qed.

Lemma Forall2_length {A B} (R : A -> B -> Prop) la lb : Forall2 R la lb -> length la = length lb.
Proof. induction 1; cbn; congruence. Qed.

Lemma Forall2_In_l {A B} (R : A -> B -> Prop) la lb a : Forall2 R la lb -> In a la -> exists b, In b lb /\ R a b.
Proof.
  induction 1 as [|x y la lb Hxy _ IH]; intros Hin; [contradiction|].
  destruct Hin as [->|Hin]; [exists y; cbn; auto|]. destruct (IH Hin) as (b & Hb & Hr). exists b. cbn. auto.
Qed.

Lemma NoDup_map_filter {A B} (f : A -> B) (p : A -> bool) l : NoDup (map f l) -> NoDup (map f (filter p l)).
Proof.
  induction l as [|x l IH]; intros H; [constructor|].
  inversion H as [|y r Hn Hd]; subst. cbn [filter]. destruct (p x); [|auto]. constructor; [|auto].
  intros Hin. apply Hn. apply in_map_iff in Hin as (z & <- & Hz). apply in_map. now apply filter_In in Hz.
Qed.

Lemma NoDup_map_inj {A B} (f : A -> B) l a b : NoDup (map f l) -> In a l -> In b l -> f a = f b -> a = b.
Proof.
  induction l as [|x l IH]; intros Hnd Ha Hb E; [contradiction|].
  inversion Hnd as [|y r Hn Hd]; subst.
  destruct Ha as [->|Ha], Hb as [->|Hb]; auto; exfalso; apply Hn; [rewrite E|rewrite <- E]; now apply in_map.
Qed.

Lemma NoDup_snoc {A} (l : list A) x : NoDup l -> ~ In x l -> NoDup (l ++ [x]).
Proof.
  intros Hl Hx. apply NoDup_rev in Hl. rewrite <- (rev_involutive (l ++ [x])), rev_app_distr. apply NoDup_rev.
  constructor; [now rewrite <- in_rev|exact Hl].
Qed.

Lemma NoDup_app_intro {A} (a b : list A) :
  NoDup a -> NoDup b -> (forall x, In x a -> In x b -> False) -> NoDup (a ++ b).
Proof.
  induction a as [|x a IH]; intros Ha Hb Hd; [exact Hb|].
  inversion Ha as [|? ? Hn Ha']; subst. cbn [app]. constructor.
  - intros Hin. apply in_app_iff in Hin. destruct Hin as [Hin | Hin]; [contradiction|]. apply (Hd x); [left; reflexivity | exact Hin].
  - apply IH; [exact Ha' | exact Hb|]. intros y Hy Hy'. apply (Hd y); [right; exact Hy | exact Hy'].
Qed.

Lemma NoDup_app_inv {A} (l1 l2 : list A) : NoDup (l1 ++ l2) ->
  NoDup l1 /\ NoDup l2 /\ (forall x, In x l1 -> In x l2 -> False).
Proof.
  induction l1 as [|a l1 IH]; cbn; intros H.
  - split; [constructor|]. split; [exact H|]. intros x [].
  - inversion H as [|? ? Hn Hd]; subst. destruct (IH Hd) as [A1 [A2 A3]]. split; [|split; [exact A2|]].
    + constructor; [|exact A1]. intros Hi. apply Hn, in_or_app. now left.
    + intros x [<-|Hx] Hx2; [apply Hn, in_or_app; now right | eapply A3; eassumption].
Qed.

(* finite sweep over 0..n-1 lifted to a universally quantified statement *)
Fixpoint zrange (n : nat) : list Z := match n with O => [] | S k => zrange k ++ [Z.of_nat k] end.
Lemma zrange_in n i : (0 <= i < Z.of_nat n)%Z -> In i (zrange n).
Proof.
  induction n as [|k IH]; intros H; [lia|]. cbn. apply in_or_app.
  destruct (Z.eq_dec i (Z.of_nat k)) as [->|Hne]; [right; now left|left; apply IH; lia].
Qed.
Lemma forallb_zrange (P : Z -> bool) n : forallb P (zrange n) = true -> forall i, (0 <= i < Z.of_nat n)%Z -> P i = true.
Proof. intros H i Hi. rewrite forallb_forall in H. apply H, zrange_in, Hi. Qed.

Lemma Forall_zrange (P : Z -> Prop) n : Forall P (zrange n) -> forall i, (0 <= i < Z.of_nat n)%Z -> P i.
Proof. intros H i Hi. exact (proj1 (Forall_forall _ _) H i (zrange_in n i Hi)). Qed.
