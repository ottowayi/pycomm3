(* Base/PyStrLemmas.v — what the string primitives of Base/PyStr.v do, on the forms of input the proofs meet. *)
From PV Require Import Base.Bytes Base.Proto Base.Res Base.PyStr.
From PV Require Export Base.ListLemmas.
Open Scope Z_scope.

Lemma text_eqb_eq a b : text_eqb a b = true <-> a = b.
Proof.
  revert b; induction a as [|x a IH]; intros [|y b]; cbn [text_eqb]; try (split; congruence).
  rewrite andb_true_iff, IH, Z.eqb_eq. split; [intros [-> ->]; reflexivity|intros E; inversion E; auto].
Qed.

Lemma text_eqb_refl a : text_eqb a a = true.
Proof. now apply text_eqb_eq. Qed.

Lemma text_eqb_neq a b : a <> b -> text_eqb a b = false.
Proof. intros H. destruct (text_eqb a b) eqn:E; [|reflexivity]. now apply text_eqb_eq in E. Qed.

Lemma text_eqb_sym a b : text_eqb a b = text_eqb b a.
Proof.
  destruct (text_eqb b a) eqn:E.
  - apply text_eqb_eq in E as ->. apply text_eqb_refl.
  - apply text_eqb_neq. intros ->. now rewrite text_eqb_refl in E.
Qed.

Lemma zs_eqb_eq a b : zs_eqb a b = true <-> a = b.
Proof.
  revert b; induction a as [|x a IH]; intros [|y b]; cbn [zs_eqb]; try (split; congruence).
  rewrite andb_true_iff, IH, Z.eqb_eq. split; [intros [-> ->]; reflexivity|intros E; inversion E; auto].
Qed.

Lemma zs_eqb_refl a : zs_eqb a a = true.
Proof. now apply zs_eqb_eq. Qed.

Lemma starts_with_app p r : starts_with p (p ++ r) = true.
Proof. induction p as [|x p IH]; cbn [starts_with app]; [reflexivity|]. now rewrite Z.eqb_refl, IH. Qed.

Lemma contains_chr_app c a b : contains_chr c (a ++ b) = contains_chr c a || contains_chr c b.
Proof. apply existsb_app. Qed.
