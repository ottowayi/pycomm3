(* Proofs/CodecErrStrict.v — C08, decode side: fixed-width types are decoded from exactly their
   width and strings from what their prefix announces: no value from a short buffer. *)
From PV Require Import Base.Bytes Base.BytesLemmas Base.Res.
From PV Require Import Model.Codec.
From PV Require Import Proofs.CodecErrDefs Proofs.CodecErrBase.
From Coq Require Import ZifyBool.
Open Scope Z_scope.
Ltac Zify.zify_post_hook ::= Z.to_euclidean_division_equations.

(* a value consumed exactly [w] bytes; BufferEmptyError means the buffer was shorter than [w] and
   nothing is left; the decoder never runs out of fuel *)
Definition sshape (w : nat) (bs : bytes) (r : dres) : Prop :=
  match r with
  | DOk _ x => length bs = (w + length x)%nat
  | DEmpty x => x = [] /\ (length bs < w)%nat
  | DErr _ => True
  | DOutOfFuel => False
  end.
Definition Strict (w : nat) (dec : bytes -> dres) : Prop := forall bs, sshape w bs (dec bs).

Lemma sshape_wrap w bs r : sshape w bs r -> sshape w bs (dwrap r).
Proof. destruct r; cbn; auto. Qed.

Lemma sshape_bind w1 w2 w bs r f :
  sshape w1 bs r -> (forall v x, r = DOk v x -> sshape w2 x (f v x)) -> (w1 + w2)%nat = w -> sshape w bs (dbind r f).
Proof.
  intros H1 H2 <-. destruct r as [v x|e|x|]; cbn [dbind]; cbn in H1; auto.
  - specialize (H2 v x eq_refl). destruct (f v x); cbn in *; auto; [lia|]. destruct H2. split; [assumption|lia].
  - cbn. destruct H1. split; [assumption|lia].
Qed.

(* a continuation that returns a value and the rest it was given, or fails *)
Definition keeps_rest (k : bytes -> bytes -> dres) : Prop :=
  forall d r, match k d r with DOk _ x => x = r | DErr _ => True | _ => False end.

Lemma stream_read_strict w n bs k : n = Z.of_nat w -> keeps_rest k -> sshape w bs (stream_read n bs k).
Proof.
  intros -> Hk. destruct (stream_read_spec (Z.of_nat w) bs k) as [(-> & Hn0 & ->)|[(_ & _ & ->)|(d & x & -> & -> & _ & Hl)]].
  - cbn. split; [reflexivity|lia].
  - exact I.
  - specialize (Hk d x). destruct (k d x); cbn [sshape]; try contradiction; auto. subst. rewrite app_length. unfold zlen in Hl. lia.
Qed.

Lemma text_keeps_rest enc : keeps_rest (fun data r2 => match text_decode enc data with Ok s => DOk (VStr s) r2 | Err e => DErr e end).
Proof. intros d r. destruct (text_decode enc d); cbn; auto. Qed.

Lemma elem_decode_strict size unpack : Strict size (elem_decode size unpack).
Proof.
  intros bs. apply sshape_wrap, stream_read_strict; [reflexivity|]. intros d r. destruct (unpack d); cbn; auto.
Qed.
Lemma int_decode_strict sg w : Strict w (int_decode sg w).
Proof. apply elem_decode_strict. Qed.

Lemma bits_decode_strict w : Strict w (bits_decode w).
Proof.
  intros bs. apply sshape_wrap. eapply sshape_bind; [apply int_decode_strict| |apply Nat.add_0_r]. intros v x _. cbn. lia.
Qed.
Lemma ip_decode_strict : Strict 4 ip_decode.
Proof.
  intros bs. apply sshape_wrap, stream_read_strict; [reflexivity|].
  intros d r. destruct d as [|a [|b [|c [|d' [|? ?]]]]]; cbn; auto.
Qed.
Lemma datetime_decode_strict : Strict 6 datetime_decode.
Proof.
  intros bs. unfold datetime_decode. rewrite named_UDINT_decode, named_UINT_decode. apply sshape_wrap.
  apply (sshape_bind 4 2); [apply int_decode_strict| |reflexivity]. intros t r1 _.
  apply (sshape_bind 2 0); [apply int_decode_strict| |reflexivity]. intros d r2 _. cbn. lia.
Qed.
Lemma nbytes_decode_strict n : 0 <= n -> Strict (Z.to_nat n) (nbytes_decode n).
Proof. intros Hn bs. apply sshape_wrap, stream_read_strict; [lia|]. intros d r. reflexivity. Qed.
Lemma fixedstr_decode_strict size lsg lw : Strict (lw + size) (fixedstr_decode size lsg lw).
Proof.
  intros bs. unfold fixedstr_decode. rewrite fss_enc_latin1. apply sshape_wrap.
  eapply sshape_bind; [apply int_decode_strict| |reflexivity]. intros n r1 _.
  apply stream_read_strict; [reflexivity|]. intros d r. apply (text_keeps_rest Latin1 (slice_to (as_int n) d)).
Qed.
Lemma pccc_ascii_decode_strict : Strict 2 pccc_ascii_decode.
Proof.
  intros bs. unfold pccc_ascii_decode. rewrite pccc_ascii_enc_latin1. apply sshape_wrap, stream_read_strict; [reflexivity|].
  intros d r. destruct (slc_swap d); [apply text_keeps_rest|exact I].
Qed.

Lemma decode_n_strict w dec n : Strict w dec -> Strict (n * w) (decode_n dec n).
Proof.
  intros Hd. induction n as [|n IH]; intros bs; cbn [decode_n Nat.mul]; [cbn; lia|].
  eapply sshape_bind; [apply Hd| |reflexivity]. intros v r1 _.
  eapply sshape_bind; [apply IH| |apply Nat.add_0_r]. intros vs r2 _. destruct vs; cbn; auto; lia.
Qed.

Lemma array_flatten_strict b vs r : sshape 0 r (array_flatten b vs r).
Proof. unfold array_flatten. destruct b; [|cbn; lia]. destruct vs; cbn; auto. destruct (chain_vals l); cbn; auto. Qed.

Lemma struct_members_strict (D : ty -> bytes -> dres) (ms : list (key * ty)) :
  Forall (fun m => Strict (swidth (snd m)) (D (snd m))) ms ->
  forall acc, Strict (list_sum (map (fun m => swidth (snd m)) ms)) (struct_decode_members (map (fun m => (fst m, D (snd m))) ms) acc).
Proof.
  intros H. induction H as [|[k t] ms Hd _ IH]; intros acc bs; cbn [map struct_decode_members list_sum fold_right fst snd]; [cbn; lia|].
  eapply sshape_bind; [apply Hd| |reflexivity]. intros v r1 _. apply IH.
Qed.

(* no fuel is used; BufferEmptyError comes from a member that does not lie inside the image *)
Lemma stag_members_shape (D : ty -> bytes -> dres) raw (ms : list ((key * nat) * ty)) :
  Forall (fun m => Strict (swidth (snd m)) (D (snd m))) ms ->
  forall acc, match stag_decode_members (map (fun m => (fst m, D (snd m))) ms) acc raw with
              | DOk _ _ | DErr _ => True
              | DEmpty _ => Exists (fun m => (length raw < snd (fst m) + swidth (snd m))%nat) ms
              | DOutOfFuel => False
              end.
Proof.
  intros H. induction H as [|[[k off] t] ms Hd _ IH]; intros acc; cbn [map stag_decode_members fst snd]; [exact I|].
  cbn [snd] in Hd. pose proof (Hd (skipn off raw)) as H1.
  destruct (D t (skipn off raw)) as [v x|e|x|]; cbn [dbind]; cbn [sshape] in H1; auto.
  - specialize (IH (dict_set acc k v)). destruct (stag_decode_members _ _ raw); auto.
  - left. cbn [fst snd]. destruct H1 as [_ H1]. rewrite skipn_length in H1. lia.
Qed.

Lemma stag_bits_ok bits raw : forall acc d, stag_decode_bits bits raw acc = Ok d ->
  Forall (fun b : text * (nat * nat) => (fst (snd b) < length raw)%nat) bits.
Proof.
  induction bits as [|[name [off bit]] bits IH]; intros acc d; cbn [stag_decode_bits]; [constructor|].
  destruct (nth_error raw off) eqn:E; [|discriminate]. intros H. constructor.
  - cbn [fst snd]. apply nth_error_Some. congruence.
  - exact (IH _ _ H).
Qed.

Lemma structtag_strict (D : ty -> bytes -> dres) ms bits priv size :
  Forall (fun m => Strict (swidth (snd m)) (D (snd m)) /\ (snd (fst m) + swidth (snd m) <= size)%nat) ms ->
  (size = 0%nat \/ Exists (fun m => (0 < swidth (snd m))%nat) ms \/ bits <> []) ->
  Strict size (structtag_decode (map (fun m => (fst m, D (snd m))) ms) bits priv size).
Proof.
  intros Hms Hne bs. unfold structtag_decode. apply sshape_wrap.
  set (raw := firstn size bs).
  assert (Hraw : length raw = Nat.min size (length bs)) by apply firstn_length.
  destruct (negb (length raw =? 0)%nat && (length raw <? size)%nat) eqn:Eshort; [exact I|].
  assert (Hms' : Forall (fun m : (key * nat) * ty => Strict (swidth (snd m)) (D (snd m))) ms)
    by (eapply Forall_impl; [|exact Hms]; intros m [Hm _]; exact Hm).
  pose proof (stag_members_shape D raw ms Hms' []) as Hm.
  destruct (Nat.eq_dec (length raw) size) as [Hfull|Hpart].
  - destruct (stag_decode_members _ [] raw) as [v x|e|x|]; cbn; auto; [|exfalso].
    + destruct v; cbn; auto. destruct (stag_decode_bits bits raw d); cbn; auto. rewrite skipn_length. lia.
    + apply Exists_exists in Hm as (m & Hin & Hlt). rewrite Forall_forall in Hms. destruct (Hms m Hin) as [_ Hle]. lia.
  - assert (Hbs : bs = []) by (destruct bs; [reflexivity|cbn [length] in Hraw; lia]).
    subst bs raw. rewrite firstn_nil in *. rewrite skipn_nil.
    destruct (stag_decode_members _ [] []) as [v x|e|x|] eqn:Em; cbn; auto.
    + destruct v; cbn; auto. destruct (stag_decode_bits bits [] d) eqn:Eb; cbn; auto. exfalso.
      destruct Hne as [Hz|[Hx|Hb]]; [cbn [length] in Hpart; lia| |].
      * refine (stag_members_nil D ms _ _ _ _ Em).
        rewrite Exists_exists in Hx |- *. rewrite Forall_forall in Hms'. destruct Hx as (m & Hin & Hw). exists m. split; [exact Hin|].
        intros v r E. pose proof (Hms' m Hin []) as Hs. rewrite E in Hs. cbn in Hs. lia.
      * destruct (stag_bits_nil bits d Hb) as [e He]. congruence.
    + cbn [length] in *. split; [reflexivity|lia].
Qed.

Lemma strict_progress_width : forall t, strict t = true -> progress t = true -> (0 < swidth t)%nat.
Proof.
  induction t as [t Hl| | | | |] using ty_ind_nested; [destruct t; try discriminate Hl|..];
    cbn [strict progress swidth]; intros Hs Hp; try discriminate Hs; try lia.
  - destruct dbl; lia.
  - apply andb_prop in Hp as [Hn Hp]. specialize (IHt Hs Hp). destruct n; [discriminate|]. cbn [Nat.mul]. lia.
  - unfold list_sum. induction H as [|m ms Hm _ IH]; cbn [forallb existsb map fold_right] in *; [discriminate|].
    apply andb_prop in Hs as [Hs1 Hs2]. apply orb_prop in Hp as [Hp|Hp]; [specialize (Hm Hs1 Hp)|specialize (IH Hs2 Hp)]; lia.
Qed.

Theorem strict_decode : forall t, strict t = true -> forall fuel, Strict (swidth t) (decode_fuel fuel t).
Proof.
  induction t as [t Hl| | | | |] using ty_ind_nested; [destruct t; try discriminate Hl|..];
    intros Hs fuel; cbn [strict] in Hs; try discriminate Hs; cbn [decode_fuel swidth].
  - (* TBool *) apply elem_decode_strict.
  - (* TInt *) apply int_decode_strict.
  - (* TReal *) apply elem_decode_strict.
  - (* TDateTime *) apply datetime_decode_strict.
  - (* TNBytes *) apply nbytes_decode_strict. lia.
  - (* TBits *) apply bits_decode_strict.
  - (* TFixedStr *) apply fixedstr_decode_strict.
  - (* TIPAddr *) apply ip_decode_strict.
  - (* TPcccAscii *) apply pccc_ascii_decode_strict.
  - (* TArrFixed *) intros bs. apply sshape_wrap.
    eapply sshape_bind; [apply decode_n_strict, IHt, Hs| |apply Nat.add_0_r]. intros vs r _. apply array_flatten_strict.
  - (* TStruct *) intros bs. unfold struct_decode, struct_decode_inner. apply sshape_wrap.
    assert (Hm : Forall (fun m : key * ty => Strict (swidth (snd m)) (decode_fuel fuel (snd m))) ms).
    { rewrite forallb_forall in Hs. rewrite Forall_forall in H |- *. intros m Hin. apply (H m Hin), Hs, Hin. }
    eapply sshape_bind; [|intros v r _|apply Nat.add_0_r].
    + eapply sshape_bind; [apply (struct_members_strict _ _ Hm)| |apply Nat.add_0_r]. intros v r _. destruct v; cbn; auto; lia.
    + destruct k; [cbn; lia| |]; destruct v; cbn; auto; destruct (identity_post d); cbn; auto; lia.
  - (* TStructTag *) apply andb_prop in Hs as [Hs Hne]. rewrite forallb_forall in Hs. rewrite Forall_forall in H.
    apply structtag_strict.
    + rewrite Forall_forall. intros m Hin. specialize (Hs m Hin). apply andb_prop in Hs as [Hs1 Hs2].
      split; [apply (H m Hin), Hs1|now apply Nat.leb_le].
    + apply orb_prop in Hne as [Hne|Hne]; [apply orb_prop in Hne as [Hne|Hne]|].
      * left. now apply Nat.eqb_eq.
      * right; left. apply existsb_exists in Hne as (m & Hin & Hp). apply Exists_exists. exists m. split; [exact Hin|].
        specialize (Hs m Hin). apply andb_prop in Hs as [Hs _]. now apply strict_progress_width.
      * right; right. now destruct bits.
Qed.

Lemma strict_width_of : forall t, strict t = true -> width_of t = Some (swidth t).
Proof.
  induction t as [t Hl| | | | |] using ty_ind_nested; [destruct t; try discriminate Hl|..];
    intros Hs; cbn [strict] in Hs; try discriminate Hs; cbn [width_of swidth]; try reflexivity.
  - now rewrite Hs.
  - now rewrite (IHt Hs).
  - rewrite forallb_forall in Hs. induction H as [|m ms Hm _ IH]; [reflexivity|].
    cbn [map sum_widths list_sum fold_right]. rewrite (Hm (Hs m (or_introl eq_refl))).
    unfold list_sum in IH. rewrite IH; [reflexivity|]. intros x Hx. apply Hs. now right.
Qed.

Lemma strict_announced t bs : strict t = true -> announced t bs = Some (Z.of_nat (swidth t)).
Proof.
  intros Hs. pose proof (strict_width_of t Hs) as Hw.
  destruct t; cbn [strict] in Hs; try discriminate; unfold announced; rewrite Hw; reflexivity.
Qed.

Lemma int_decode_value sg w bs v r :
  int_decode sg w bs = DOk v r -> v = VInt (prefix_val sg w bs) /\ r = skipn w bs /\ (w <= length bs)%nat.
Proof.
  unfold int_decode, elem_decode. intros E. apply dwrap_ok in E.
  destruct (stream_read_spec (Z.of_nat w) bs (fun data rest => dres_of_res (unpack_int sg w data) rest))
    as [(_ & _ & Hr)|[(_ & _ & Hr)|(d & x & -> & Hr & _ & Hl)]]; rewrite Hr in E; try discriminate.
  assert (Hd : length d = w) by (unfold zlen in Hl; lia). clear Hl Hr. subst w.
  unfold unpack_int in E. rewrite Nat.eqb_refl in E. injection E as <- <-.
  unfold prefix_val. rewrite firstn_app_exact, skipn_app_exact, app_length. repeat split; lia.
Qed.

Lemma stream_read_ok_len n bs k v x : stream_read n bs k = DOk v x -> Z.max 0 n <= zlen bs.
Proof.
  intros E. destruct (stream_read_spec n bs k)
    as [(_ & _ & Hr)|[(_ & _ & Hr)|(d & r & -> & _ & _ & Hl)]]; try (rewrite Hr in E; discriminate).
  unfold zlen in *. rewrite app_length. lia.
Qed.

Lemma str_no_short lsg lw enc fuel bs v rest k :
  decode_fuel fuel (TStr lsg lw enc) bs = DOk v rest -> announced (TStr lsg lw enc) bs = Some k -> k <= zlen bs.
Proof.
  cbn [decode_fuel announced]. unfold str_decode. intros E Ha. apply dwrap_ok in E.
  apply dbind_ok_inv in E as (n & r1 & E1 & E). apply int_decode_value in E1 as (-> & -> & Hw).
  replace (lw <=? length bs)%nat with true in Ha by lia. injection Ha as <-.
  cbn [as_int] in E. rewrite enc_char_size_width in E.
  destruct (prefix_val lsg lw bs =? 0) eqn:Ez; [unfold zlen; lia|].
  apply stream_read_ok_len in E. unfold zlen in *. rewrite skipn_length in E. lia.
Qed.

Lemma stringn_no_short fuel bs v rest k :
  decode_fuel fuel TStringN bs = DOk v rest -> announced TStringN bs = Some k -> k <= zlen bs.
Proof.
  cbn [decode_fuel]. unfold announced, stringn_decode. rewrite named_UINT_decode. intros E Ha. apply dwrap_ok in E.
  apply dbind_ok_inv in E as (cs & r1 & E1 & E). apply int_decode_value in E1 as (-> & -> & Hw1).
  apply dbind_ok_inv in E as (cnt & r2 & E2 & E). apply int_decode_value in E2 as (-> & -> & Hw2).
  rewrite skipn_length in Hw2. replace (4 <=? length bs)%nat with true in Ha by lia.
  enough (4 + prefix_val false 2 bs * prefix_val false 2 (skipn 2 bs) <= zlen bs) by congruence.
  cbn [as_int] in E. destruct (stringn_enc _); [|discriminate].
  destruct (prefix_val false 2 (skipn 2 bs) =? 0) eqn:Ez; [apply Z.eqb_eq in Ez; rewrite Ez; unfold zlen; lia|].
  apply stream_read_ok_len in E. unfold zlen in *. rewrite !skipn_length in E. lia.
Qed.
