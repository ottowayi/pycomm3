(* Proofs/ReadBits.v — bit-level lemmas of the C01 vertical.
     bit_extract            bool(v & 1 << b) = testbit v b, for all v (negative too) and b >= 0
     testbit_to_signed      the two's-complement reading has the bits of the unsigned image
     le_dec_testbit         bit 8k+j of a little-endian integer is bit j of byte k
     bits_value_bools       BitArrayType._decode of w bytes = the bits of the bytes, LSB first
     bools_skipn / bools_firstn   the bit list of a byte string is 8 bits per byte
     dword_cover            ceil((bit + n)/32) DWORDs cover bits [bit, bit+n) and stay inside the array
     bool_range             value[bit : bit+n] of the DWORDs read from element 0 = the addressed BOOLs
   No axioms. *)
From Coq Require Import ZifyBool.
From PV Require Import Base.Bytes Base.BytesLemmas Base.PyStr Spec.Project Spec.Expect Model.LogixRead.
From PV Require Import Proofs.TargetLogixP.
Open Scope Z_scope.
(* The imported files add the division equations to lia's preprocessing (zify_post_hook; an Ltac redefinition is global
   and reaches every importer), which is slow on every call. Off in this file, where the few goals about / and mod call
   Z.to_euclidean_division_equations themselves; the last line sets it again for the files that import this one. *)
Ltac Zify.zify_post_hook ::= idtac.

Theorem bit_extract v b : 0 <= b -> negb (Z.land v (Z.shiftl 1 b) =? 0) = Z.testbit v b.
Proof.
  intros Hb. rewrite Z.shiftl_1_l, land_pow2 by assumption.
  destruct (Z.testbit v b); [|reflexivity].
  assert (0 < 2 ^ b) by (apply Z.pow_pos_nonneg; lia).
  destruct (2 ^ b =? 0) eqn:E; [lia|reflexivity].
Qed.

Lemma testbit_sub_pow v k b : 0 <= b < k -> Z.testbit (v - 2 ^ k) b = Z.testbit v b.
Proof.
  intros Hb.
  replace (v - 2 ^ k) with (v + (-1) * 2 ^ k) by lia.
  rewrite <- (Z.mod_pow2_bits_low (v + -1 * 2 ^ k) k b) by lia.
  rewrite Z.mod_add by (apply Z.pow_nonzero; lia).
  apply Z.mod_pow2_bits_low. lia.
Qed.

Theorem testbit_to_signed w u b : 0 <= b < 8 * Z.of_nat w -> Z.testbit (to_signed w u) b = Z.testbit u b.
Proof.
  intros Hb. unfold to_signed. destruct (u <? pow256 w / 2); [reflexivity|].
  rewrite pow256_pow2. apply testbit_sub_pow. lia.
Qed.

Lemma testbit_byte_add b r j : 0 <= b < 256 -> 0 <= j < 8 -> Z.testbit (b + 256 * r) j = Z.testbit b j.
Proof.
  intros Hb Hj.
  rewrite <- (Z.mod_pow2_bits_low (b + 256 * r) 8 j) by lia.
  replace (2 ^ 8) with 256 by reflexivity.
  replace (b + 256 * r) with (b + r * 256) by lia.
  rewrite Z.mod_add by lia. rewrite Z.mod_small by lia. reflexivity.
Qed.

Lemma testbit_byte_high b r j : 0 <= b < 256 -> 8 <= j -> Z.testbit (b + 256 * r) j = Z.testbit r (j - 8).
Proof.
  intros Hb Hj.
  replace j with ((j - 8) + 8) at 1 by lia.
  rewrite <- Z.div_pow2_bits by lia.
  replace (2 ^ 8) with 256 by reflexivity.
  replace (b + 256 * r) with (b + r * 256) by lia.
  rewrite Z.div_add by lia. rewrite Z.div_small by lia. reflexivity.
Qed.

Lemma le_dec_testbit bs : bytes_ok bs = true -> forall k j, (k < length bs)%nat -> 0 <= j < 8 ->
  Z.testbit (le_dec bs) (8 * Z.of_nat k + j) = Z.testbit (nth k bs 0) j.
Proof.
  induction bs as [|b r IH]; intros Hok k j Hk Hj; [cbn in Hk; lia|].
  rewrite bytes_ok_cons in Hok. apply andb_prop in Hok. destruct Hok as [Hb Hr].
  apply byte_ok_iff in Hb. cbn [le_dec].
  destruct k as [|k].
  - cbn [nth]. replace (8 * Z.of_nat 0 + j) with j by lia. apply testbit_byte_add; assumption.
  - cbn [nth]. rewrite testbit_byte_high by lia.
    replace (8 * Z.of_nat (S k) + j - 8) with (8 * Z.of_nat k + j) by lia.
    apply IH; [assumption|cbn in Hk; lia|assumption].
Qed.

Lemma bools_of_bytes_app a b : bools_of_bytes (a ++ b) = bools_of_bytes a ++ bools_of_bytes b.
Proof. unfold bools_of_bytes. apply flat_map_app. Qed.

Lemma nth_bools_of_bytes bs : forall k j, (k < length bs)%nat -> (j < 8)%nat ->
  nth (8 * k + j) (bools_of_bytes bs) false = Z.testbit (nth k bs 0) (Z.of_nat j).
Proof.
  induction bs as [|b r IH]; intros k j Hk Hj; [cbn in Hk; lia|].
  change (bools_of_bytes (b :: r)) with (bools_of_byte b ++ bools_of_bytes r).
  destruct k as [|k].
  - rewrite app_nth1 by (rewrite bools_of_byte_length; lia).
    replace (8 * 0 + j)%nat with j by lia. cbn [nth].
    unfold bools_of_byte.
    do 8 (destruct j as [|j]; [reflexivity|]). lia.
  - rewrite app_nth2 by (rewrite bools_of_byte_length; lia).
    rewrite bools_of_byte_length. replace (8 * S k + j - 8)%nat with (8 * k + j)%nat by lia.
    cbn [nth]. apply IH; [cbn in Hk; lia|assumption].
Qed.

(* BitArrayType._decode(w bytes): the list of the 8w bits, least significant first *)
Theorem bits_value_bools w d : bytes_ok d = true -> Z.of_nat (length d) = w ->
  bits_value w (le_dec d) = rbools d.
Proof.
  intros Hok Hl. unfold bits_value, rbools. f_equal.
  apply nth_ext with (d := RBool (Z.testbit (le_dec d) (Z.of_nat 0))) (d' := RBool false).
  - rewrite !map_length, seq_length, bools_of_bytes_length. lia.
  - intros n Hn. rewrite map_length, seq_length in Hn.
    rewrite (map_nth (fun i => RBool (Z.testbit (le_dec d) (Z.of_nat i))) _ 0%nat).
    rewrite (map_nth RBool _ false).
    rewrite seq_nth by lia. cbn [Nat.add]. f_equal.
    assert (Hn' : (n < 8 * length d)%nat) by lia.
    replace n with (8 * (n / 8) + n mod 8)%nat at 2 by (symmetry; apply Nat.div_mod_eq).
    rewrite nth_bools_of_bytes.
    + rewrite <- le_dec_testbit.
      * f_equal. pose proof (Nat.div_mod_eq n 8). lia.
      * assumption.
      * apply Nat.div_lt_upper_bound; lia.
      * pose proof (Nat.mod_upper_bound n 8). lia.
    + apply Nat.div_lt_upper_bound; lia.
    + apply Nat.mod_upper_bound. lia.
Qed.

(* the bit list is 8 bits per byte: dropping 8k bits = dropping k bytes *)
Lemma bools_skipn bs k : skipn (8 * k) (bools_of_bytes bs) = bools_of_bytes (skipn k bs).
Proof.
  revert bs; induction k as [|k IH]; intros bs; [reflexivity|].
  destruct bs as [|b r]; [reflexivity|].
  change (bools_of_bytes (b :: r)) with (bools_of_byte b ++ bools_of_bytes r).
  unfold bools_of_byte. cbn [map seq app].
  replace (8 * S k)%nat with (S (S (S (S (S (S (S (S (8 * k)))))))))%nat by lia.
  cbn [skipn]. apply IH.
Qed.

Lemma bools_firstn bs k : firstn (8 * k) (bools_of_bytes bs) = bools_of_bytes (firstn k bs).
Proof.
  revert bs; induction k as [|k IH]; intros bs; [reflexivity|].
  destruct bs as [|b r]; [reflexivity|].
  change (firstn (S k) (b :: r)) with (b :: firstn k r).
  change (bools_of_bytes (b :: r)) with (bools_of_byte b ++ bools_of_bytes r).
  change (bools_of_bytes (b :: firstn k r)) with (bools_of_byte b ++ bools_of_bytes (firstn k r)).
  unfold bools_of_byte. cbn [map seq app].
  replace (8 * S k)%nat with (S (S (S (S (S (S (S (S (8 * k)))))))))%nat by lia.
  cbn [firstn]. rewrite IH. reflexivity.
Qed.

Lemma bools_window (t : bytes) m r n : (r + n <= 8 * m)%nat ->
  firstn n (skipn r (bools_of_bytes (firstn m t))) = firstn n (skipn r (bools_of_bytes t)).
Proof. intros H. rewrite <- bools_firstn, skipn_firstn_comm, firstn_firstn. f_equal. lia. Qed.

(* elements = total // 32 + (1 if total % 32 else 0) with total = bit + n: the DWORDs read from
   element 0 cover the addressed bits and do not leave the array *)
Theorem dword_cover bit n words :
  0 <= bit -> 1 <= n -> bit + n <= 32 * words ->
  let total := bit + n in
  let elements := total / 32 + (if total mod 32 =? 0 then 0 else 1) in
  1 <= elements <= words /\ bit + n <= 32 * elements /\ 32 * (elements - 1) < bit + n.
Proof.
  intros Hb Hn Hw total elements. subst total elements.
  destruct ((bit + n) mod 32 =? 0) eqn:E; Z.to_euclidean_division_equations; lia.
Qed.

(* value[bit : bit + n] of the bit list of the first 4*elements bytes = the n BOOLs from bit [bit],
   as Spec/Expect.read_place computes them from the bytes b0 .. b1 only *)
Theorem bool_range (img : bytes) off bit n elements :
  0 <= off -> 0 <= bit -> 1 <= n -> bit + n <= 32 * elements ->
  off + 4 * elements <= Z.of_nat (length img) ->
  let d := firstn (Z.to_nat (4 * elements)) (skipn (Z.to_nat off) img) in
  let b0 := bit / 8 in
  let b1 := (bit + n - 1) / 8 in
  let d' := firstn (Z.to_nat (b1 - b0 + 1)) (skipn (Z.to_nat (off + b0)) img) in
  firstn (Z.to_nat n) (skipn (Z.to_nat bit) (bools_of_bytes d))
  = firstn (Z.to_nat n) (skipn (Z.to_nat (bit - 8 * b0)) (bools_of_bytes d')).
Proof.
  intros Ho Hb Hn Hc _ d b0 b1 d'. subst d d'.
  assert (H8 : 0 <= b0 /\ 8 * b0 <= bit /\ bit + n <= 8 * b1 + 8) by (subst b0 b1; Z.to_euclidean_division_equations; lia).
  set (t := skipn (Z.to_nat off) img).
  replace (skipn (Z.to_nat (off + b0)) img) with (skipn (Z.to_nat b0) t) by (unfold t; rewrite skipn_skipn; f_equal; lia).
  rewrite !bools_window by lia. rewrite <- bools_skipn, skipn_skipn. do 2 f_equal. lia.
Qed.

Print Assumptions bit_extract.
Print Assumptions bool_range.

Ltac Zify.zify_post_hook ::= Z.to_euclidean_division_equations.
