(* Proofs/ConnPathRef.v — C15: for EVERY string, what the model of parse_connection_path +
   PADDED_EPATH.encode does against the total reference reader [ref_parse]. *)
From Coq Require Import String.
From PV Require Import Proofs.PathStr Proofs.PathSeg.
From PV Require Import Base.Bytes Base.BytesLemmas Base.Res Base.PyStr Gen.PathTables Model.Path
     Model.ConnPath Spec.ConnPathGrammar Proofs.ConnPathStr Proofs.ConnPathEnc.
From Coq Require Import ZifyBool.
Ltac Zify.zify_post_hook ::= Z.to_euclidean_division_equations.
Open Scope Z_scope.

Definition host_nf (ip h : text) (cs : list text) : res (text * option Z) :=
  match cs with
  | [] => Ok (ip, None)
  | [b] => match int_of_text b with
           | Ok p => if (p <=? 0) || (65535 <=? p) then Err RequestError else Ok (h, Some p)
           | Err _ => Err RequestError
           end
  | _ => Err (Foreign ValueError)
  end.
Lemma parse_host_nf ip :
  parse_host ip = host_nf ip (fst (fields is_colon ip)) (snd (fields is_colon ip)).
Proof.
  unfold parse_host. rewrite contains_chr_fields, split_chr_fields.
  change (fun x => x =? 58) with is_colon. destruct (fields is_colon ip) as [h cs]. cbn [fst snd].
  destruct cs as [|b [|c r]]; reflexivity.
Qed.
Lemma fields_no_rest p s : snd (fields p s) = [] -> fst (fields p s) = s.
Proof.
  induction s as [|c r IH]; cbn [fields]; [reflexivity|].
  destruct (fields p r) as [f fs]. cbn [fst snd] in *. destruct (p c); cbn [fst snd]; [discriminate|].
  intros H. now rewrite IH.
Qed.

Definition route_fails (r : res (list seg)) : Prop :=
  (exists e, r = Err e) \/ (exists segs e, r = Ok segs /\ encode_segs true segs = Err e).

Lemma route_fails_cons p l r :
  route_fails (pair_up r)
  \/ ((exists e, port_of_text p = Err e)
      \/ (exists pt, port_of_text p = Ok pt /\ encode_seg true (Port pt (LinkStr l)) = Err DataError)) ->
  route_fails (pair_up (p :: l :: r)).
Proof.
  unfold route_fails. cbn [pair_up]. destruct (port_of_text p) as [pt|e0]; cbn [bind]; [|left; eauto].
  destruct (pair_up r) as [segs|e1]; cbn [bind]; [|left; eauto].
  intros H. right. exists (Port pt (LinkStr l) :: segs). cbn [encode_segs].
  destruct H as [[[e He]|(segs' & e & [= <-] & He)]|[[e He]|(pt' & [= <-] & He)]]; try discriminate; rewrite He.
  - destruct (encode_seg true (Port pt (LinkStr l))); cbn [bind]; eexists; split; reflexivity.
  - cbn [bind]. eexists; split; reflexivity.
Qed.

Lemma pair_up_encode fs : Nat.even (List.length fs) = true ->
  match classify_pairs fs with
  | RouteOk hs =>
      exists segs, pair_up fs = Ok segs /\ encode_segs true segs = Ok (hops_bytes hs)
                   /\ forallb wf_hop hs = true
  | RouteReject c => route_fails (pair_up fs)
  | RouteUnspec => True
  end.
Proof.
  induction fs as [| a | p l r IH] using list_ind2; intros Hev.
  - cbn. exists []. repeat split.
  - discriminate.
  - cbn [List.length Nat.even] in Hev. specialize (IH Hev). cbn [classify_pairs].
    destruct (classify_hop p l) as [h| |c] eqn:Eh;
      [destruct (classify_pairs r) as [hs| |c]|destruct (classify_pairs r) as [hs| |c]|];
      cbn [cons_verdict]; try exact I; try (apply route_fails_cons; now left).
    + destruct IH as [segs [IH0 [IH1 IH2]]]. destruct (hop_gen p l h Eh) as [pt [Hpt [H1 H2]]].
      cbn [pair_up]. rewrite Hpt, IH0. cbn [bind]. exists (Port pt (LinkStr l) :: segs). split; [reflexivity|].
      cbn [encode_segs]. rewrite H1, IH1. cbn [forallb]. rewrite H2, IH2. split; reflexivity.
    + apply route_fails_cons. right. exact (hop_bad p l c Eh).
Qed.

Lemma even_odd_len {A} (l : list A) : Nat.odd (List.length l) = negb (Nat.even (List.length l)).
Proof. symmetry. apply Nat.negb_even. Qed.

Definition route_result (pl : bool) (hs : list hop) : res (list Z) :=
  if fits hs then Ok (route_wire pl hs) else Err DataError.
Lemma encode_route_bytes segs pl hs :
  encode_segs true segs = Ok (hops_bytes hs) -> encode_route segs pl = route_result pl hs.
Proof.
  intros H. unfold encode_route, epath_encode, padded_PADDED_EPATH, route_result, fits, route_words, tlen.
  rewrite H. cbn [bind]. fold (len (hops_bytes hs)). pose proof (len_nonneg (hops_bytes hs)).
  destruct (len (hops_bytes hs) / 2 <=? 255) eqn:E; [rewrite USINT_small by lia|rewrite USINT_out by lia];
    reflexivity.
Qed.
Lemma encode_route_err segs pl e :
  encode_segs true segs = Err e -> encode_route segs pl = Err DataError.
Proof. intros H. unfold encode_route, epath_encode, padded_PADDED_EPATH. now rewrite H. Qed.

Lemma classify_link_not_odd l : classify_link l <> LinkBad OddSegments.
Proof.
  unfold classify_link. destruct (isdigit l).
  - destruct (negb (numeral_ok l)); [discriminate|]. destruct (dval l <=? 255); discriminate.
  - destruct (existsb is_colon l); [discriminate|]. destruct (strict_quad l); discriminate.
Qed.
Lemma classify_hop_not_odd p l : classify_hop p l <> HBad OddSegments.
Proof.
  unfold classify_hop. pose proof (classify_link_not_odd l) as H.
  destruct (classify_port p); destruct (classify_link l) as [k| |c]; try discriminate;
    intros E; injection E as ->; now apply H.
Qed.
Lemma classify_pairs_not_odd fs : Nat.even (List.length fs) = true ->
  classify_pairs fs <> RouteReject OddSegments.
Proof.
  induction fs as [| x | p l r IH] using list_ind2; intros Hev; try discriminate.
  cbn [List.length Nat.even] in Hev. specialize (IH Hev). cbn [classify_pairs].
  pose proof (classify_hop_not_odd p l) as Hh.
  destruct (classify_hop p l) as [h| |c]; destruct (classify_pairs r) as [hs| |c']; cbn [cons_verdict];
    try discriminate; intros E; injection E as ->; try (now apply Hh); now apply IH.
Qed.

Definition not_odd (c : rclass) : Prop := c <> OddSegments.

Lemma route_meets_reference fs auto :
  match classify_route auto fs with
  | RouteOk hs => exists segs, parse_cip_route_list fs auto = Ok segs
                               /\ encode_segs true segs = Ok (hops_bytes hs) /\ forallb wf_hop hs = true
  | RouteReject c => route_fails (parse_cip_route_list fs auto)
                     /\ (c = OddSegments -> exists e, parse_cip_route_list fs auto = Err e)
  | RouteUnspec => True
  end.
Proof.
  destruct fs as [|a [|b r]].
  - cbn [classify_route parse_cip_route_list wrap_request wrap_all]. destruct auto; eexists; repeat split.
  - (* one segment: with the shortcut, the pair ("bp", segment) *)
    destruct auto; cbn [classify_route parse_cip_route_list wrap_request wrap_all];
      [|split; [left|intros _]; now exists RequestError].
    pose proof (pair_up_encode [txt "bp"; a] eq_refl) as H. cbn [classify_pairs] in H. unfold classify_hop in H.
    change (classify_port (txt "bp")) with (PortOk 1) in H.
    change (pair_up [txt "bp"; a]) with (Ok [Port (inr (txt "bp")) (LinkStr a)] : res (list seg)) in H.
    destruct (classify_link a) as [[n|t]| |c] eqn:El; cbn [cons_verdict] in H; try exact I; [exact H|].
    split; [exact H|]. intros ->. now destruct (classify_link_not_odd a).
  - set (fs := a :: b :: r). change (classify_route auto fs) with
      (if Nat.odd (List.length fs) then RouteReject OddSegments else classify_pairs fs).
    change (parse_cip_route_list fs auto) with
      (wrap_request (if Nat.odd (List.length fs) then Err RequestError else pair_up fs)).
    destruct (Nat.odd (List.length fs)) eqn:Eo; [split; [left|intros _]; now exists RequestError|].
    assert (Hev : Nat.even (List.length fs) = true) by now rewrite <- Nat.negb_odd, Eo.
    pose proof (pair_up_encode fs Hev) as H. pose proof (classify_pairs_not_odd fs Hev) as Hno.
    destruct (classify_pairs fs) as [hs| |c]; [| exact I |split; [|congruence]].
    + destruct H as (segs & -> & H). now exists segs.
    + destruct H as [[e ->]|(segs & e & -> & He)]; [left; now exists RequestError|right; now exists segs, e].
Qed.

Lemma host_meets_reference hp h cs : fields is_colon hp = (h, cs) ->
  match classify_tcp cs with
  | TcpNone => host_nf hp h cs = Ok (h, None)
  | TcpOk p => host_nf hp h cs = Ok (h, Some p) /\ wf_tcp p = true
  | TcpBad => exists e, host_nf hp h cs = Err e
  | TcpLenient => forall h' t, host_nf hp h cs = Ok (h', t) -> h' = h
  end.
Proof.
  intros Ef. pose proof (fields_no_rest is_colon hp) as Hnr. rewrite Ef in Hnr. cbn [fst snd] in Hnr.
  destruct cs as [|p [|q r]]; cbn [classify_tcp host_nf].
  - now rewrite (Hnr eq_refl).
  - destruct (isdigit p) eqn:Hd.
    + rewrite (int_of_numeral p Hd). unfold wf_tcp.
      destruct ((1 <=? dval p) && (dval p <=? 65534)) eqn:E.
      * destruct (numeral_ok p); [|discriminate].
        replace ((dval p <=? 0) || (65535 <=? dval p)) with false by lia. split; [reflexivity|exact E].
      * destruct (numeral_ok p); [|eauto].
        replace ((dval p <=? 0) || (65535 <=? dval p)) with true by lia. eauto.
    + destruct (forallb lenient_char p && existsb is_ascii_digit p) eqn:E.
      * destruct (existsb (fun c => c =? 45) p) eqn:Em.
        -- destruct (int_of_text p) as [z|e] eqn:Ei; [|eauto].
           pose proof (proj2 (proj2 (int_ok_chars p z Ei)) Em). replace ((z <=? 0) || (65535 <=? z)) with true by lia. eauto.
        -- intros h' t. destruct (int_of_text p) as [z|e]; [|discriminate].
           destruct ((z <=? 0) || (65535 <=? z)); [discriminate|]. now intros [= <- _].
      * destruct (int_of_text p) as [z|e] eqn:Ei; [|eauto].
        destruct (int_ok_chars p z Ei) as (H1 & H2 & _). rewrite H1, H2 in E. discriminate.
  - eauto.
Qed.

Lemma ref_parse_eq auto s :
  ref_parse auto s =
  mkVerdict (fst (fields is_colon (fst (fields is_sep s))))
            (classify_tcp (snd (fields is_colon (fst (fields is_sep s)))))
            (classify_route auto (snd (fields is_sep s))).
Proof.
  unfold ref_parse. destruct (fields is_sep s) as [hp fs]. cbn [fst snd].
  destruct (fields is_colon hp) as [h cs]. reflexivity.
Qed.

(* every string: the host part [hn] and the route part [rn] of parse_connection_path against the
   verdict of the reference reader *)
Lemma model_vs_reference s auto :
  exists hn rn,
    parse_connection_path s auto
    = wrap_request (let* (host, port) := hn in let* segs := rn in Ok (host, port, segs))
    /\ match v_tcp (ref_parse auto s) with
       | TcpNone => hn = Ok (v_host (ref_parse auto s), None)
       | TcpOk p => hn = Ok (v_host (ref_parse auto s), Some p) /\ wf_tcp p = true
       | TcpBad => exists e, hn = Err e
       | TcpLenient => forall h' t, hn = Ok (h', t) -> h' = v_host (ref_parse auto s)
       end
    /\ match v_route (ref_parse auto s) with
       | RouteOk hs => exists segs, rn = Ok segs /\ encode_segs true segs = Ok (hops_bytes hs)
                                    /\ forallb wf_hop hs = true
       | RouteReject c => route_fails rn /\ (c = OddSegments -> exists e, rn = Err e)
       | RouteUnspec => True
       end.
Proof.
  unfold ref_parse, parse_connection_path. rewrite split_chr_fields, fields_normalise.
  destruct (fields is_sep s) as [hp fs]. cbn [fst snd]. rewrite parse_host_nf.
  destruct (fields is_colon hp) as [h cs] eqn:Ec. cbn [fst snd v_tcp v_host v_route].
  exists (host_nf hp h cs), (parse_cip_route_list fs auto).
  split; [reflexivity|]. split; [exact (host_meets_reference hp h cs Ec)|exact (route_meets_reference fs auto)].
Qed.

(* rejection, with the exception class the property names *)
Theorem bad_tcp_port_rejected s auto :
  v_tcp (ref_parse auto s) = TcpBad -> parse_connection_path s auto = Err RequestError.
Proof.
  intros H. destruct (model_vs_reference s auto) as (hn & rn & -> & Hh & _).
  rewrite H in Hh. now destruct Hh as [e ->].
Qed.

Theorem odd_segments_rejected s auto :
  v_route (ref_parse auto s) = RouteReject OddSegments -> parse_connection_path s auto = Err RequestError.
Proof.
  intros H. destruct (model_vs_reference s auto) as (hn & rn & -> & _ & Hr).
  rewrite H in Hr. destruct Hr as [_ Hr]. destruct (Hr eq_refl) as [e ->]. now destruct hn as [[h t]|].
Qed.

(* unknown port name / link out of range / not a link: RequestError when parsed (only if the TCP
   port or an over-long numeral is also at fault) or DataError when the route is encoded *)
Theorem bad_hop_rejected s auto pl c :
  v_route (ref_parse auto s) = RouteReject c ->
  parse_connection_path s auto = Err RequestError
  \/ (exists h t segs, parse_connection_path s auto = Ok (h, t, segs) /\ encode_route segs pl = Err DataError).
Proof.
  intros H. destruct (model_vs_reference s auto) as (hn & rn & -> & _ & Hr).
  rewrite H in Hr. destruct Hr as [[[e ->]|(segs & e & -> & He)] _]; destruct hn as [[h t]|]; auto.
  right. exists h, t, segs. split; [reflexivity|exact (encode_route_err _ pl e He)].
Qed.

Theorem rejected_no_bytes s auto pl :
  must_reject (ref_parse auto s) = true ->
  outcome s auto pl = inl RequestError \/ outcome s auto pl = inl DataError.
Proof.
  intros H. unfold must_reject in H.
  assert (Hcases : v_tcp (ref_parse auto s) = TcpBad \/ exists c, v_route (ref_parse auto s) = RouteReject c).
  { destruct (v_tcp (ref_parse auto s)); destruct (v_route (ref_parse auto s)); try discriminate; eauto. }
  unfold outcome. destruct Hcases as [Ht|[c Hc]].
  - rewrite (bad_tcp_port_rejected s auto Ht). now left.
  - destruct (bad_hop_rejected s auto pl c Hc) as [-> |[h [t [segs [-> ->]]]]]; auto.
Qed.

(* acceptance, in general: the outcome is a function of the reference reading alone *)
Definition accepted_outcome (h : text) (t : option Z) (pl : bool) (hs : list hop)
  : exn + (list Z * option Z * list Z) :=
  match route_result pl hs with Ok b => inr (h, t, b) | Err e => inl e end.
Definition tcp_value (t : tcp_verdict) : option (option Z) :=
  match t with TcpNone => Some None | TcpOk p => Some (Some p) | _ => None end.

Theorem outcome_of_reading s auto pl t hs :
  tcp_value (v_tcp (ref_parse auto s)) = Some t -> v_route (ref_parse auto s) = RouteOk hs ->
  outcome s auto pl = accepted_outcome (v_host (ref_parse auto s)) t pl hs /\ forallb wf_hop hs = true.
Proof.
  intros Ht Hr0. destruct (model_vs_reference s auto) as (hn & rn & Hp & Hh & Hr).
  rewrite Hr0 in Hr. destruct Hr as (segs & -> & He & Hw). split; [|exact Hw].
  assert (Hn : hn = Ok (v_host (ref_parse auto s), t)).
  { destruct (v_tcp (ref_parse auto s)) as [|p| |]; try discriminate; injection Ht as <-; tauto. }
  unfold outcome, accepted_outcome. rewrite Hp, Hn. cbn [bind wrap_request wrap_all].
  now rewrite (encode_route_bytes segs pl hs He).
Qed.

(* acceptance: a string of the grammar yields exactly its reference reading *)
Theorem grammar_accepted s auto pl h t hs :
  must_accept (ref_parse auto s) = Some (h, t, hs) ->
  outcome s auto pl = inr (h, t, route_wire pl hs).
Proof.
  unfold must_accept. intros H.
  destruct (v_tcp (ref_parse auto s)) as [|p| |] eqn:Et; try discriminate;
    destruct (v_route (ref_parse auto s)) as [hs'| |c] eqn:Er; try discriminate;
    destruct (fits hs') eqn:Ef; try discriminate; injection H as <- <- <-.
  - destruct (outcome_of_reading s auto pl None hs') as [Ho Hw]; [now rewrite Et|exact Er|].
    rewrite Ho. unfold accepted_outcome, route_result. now rewrite Ef.
  - destruct (outcome_of_reading s auto pl (Some p) hs') as [Ho Hw]; [now rewrite Et|exact Er|].
    rewrite Ho. unfold accepted_outcome, route_result. now rewrite Ef.
Qed.

(* no silent corruption, also in the zones where the property is silent: whatever is accepted
   has the reference host, and the reference TCP port / route bytes wherever those are defined *)
Theorem accepted_is_reference s auto pl h t b :
  outcome s auto pl = inr (h, t, b) ->
  let v := ref_parse auto s in
  h = v_host v
  /\ match v_tcp v with TcpNone => t = None | TcpOk p => t = Some p | TcpBad => False | TcpLenient => True end
  /\ match v_route v with
     | RouteOk hs => fits hs = true -> b = route_wire pl hs
     | RouteReject _ => False
     | RouteUnspec => True
     end.
Proof.
  intros H v. subst v. destruct (model_vs_reference s auto) as (hn & rn & Hp & Hh & Hr).
  unfold outcome in H. rewrite Hp in H.
  destruct hn as [[h' t']|e]; [|discriminate]. destruct rn as [segs|e]; [|discriminate].
  cbn [bind wrap_request wrap_all] in H.
  destruct (encode_route segs pl) as [b'|e] eqn:Ee; [|discriminate]. injection H as -> -> ->.
  rewrite <- and_assoc. split.
  - destruct (v_tcp (ref_parse auto s)) as [|p| |].
    + split; congruence.
    + destruct Hh as [Hh _]. split; congruence.
    + destruct Hh as [e He]. discriminate.
    + split; [now apply (Hh h t)|exact I].
  - destruct (v_route (ref_parse auto s)) as [hs| |c]; [|exact I|].
    + intros Hf. destruct Hr as (segs' & [= <-] & He & _).
      rewrite (encode_route_bytes segs pl hs He) in Ee. unfold route_result in Ee. rewrite Hf in Ee. congruence.
    + destruct Hr as [[[e He]|(segs' & e & [= <-] & He)] _]; [discriminate|].
      rewrite (encode_route_err _ pl e He) in Ee. discriminate.
Qed.
