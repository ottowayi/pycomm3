(* Proofs/ReadResolve1.v — decimal fields, the text name[i,j,k].bit{n} of a single-segment request and what the
   splitters of the client make of it; the element (member-id) segments of a request path and the target's reading of
   them; path_single: tag_request_path of name[i,j,k], by symbol instance or symbolically; the single-segment request
   records [sreq].  `[i]` on a scalar DWORD tag is outside [sreq_shape]: Expect.index_place gives it a place, the client
   sends name[0], which the target rejects. *)
From Coq Require Import ZifyBool String.
From PV Require Import Base.Bytes Base.BytesLemmas Base.Res Base.Proto Base.PyStr Base.PyStrLemmas.
From PV Require Import Gen.Consts Gen.PathTables Model.Path Model.Reply Model.LogixPlan Model.LogixRead.
From PV Require Import Spec.EncapParser Spec.MRParser Spec.TargetIface Spec.TargetCore Spec.Project Spec.Expect Spec.TargetLogix.
From PV Require Import Proofs.PathStr Proofs.TargetCoreP Proofs.TargetLogixP Proofs.ReadDecode Proofs.ReadTarget
  Proofs.ReadValue Proofs.ReadCorrect Proofs.ReadResolve.
Open Scope list_scope.
Open Scope Z_scope.
Ltac Zify.zify_post_hook ::= Z.to_euclidean_division_equations.

Definition num_ok (ds : text) (v : Z) : Prop :=
  isdigit ds = true /\ Path.len ds <= int_max_str_digits /\ digits_val ds 0 = Some v.

Lemma num_int ds v : num_ok ds v -> py_int_full ds = Ok v.
Proof. intros (H1 & H2 & H3). apply py_int_full_digits; assumption. Qed.

(* int() refuses a longer field *)
Lemma py_int_full_long s : all_digits s = true -> int_max_str_digits < Path.len s -> py_int_full s = Err (Foreign ValueError).
Proof.
  intros Hd Hl. unfold py_int_full. rewrite (strip_digits s Hd).
  destruct s as [|c r]; [reflexivity|].
  assert (Hc : is_ascii_digit c = true) by (apply andb_prop in Hd; tauto).
  replace (c =? 45) with false by (unfold is_ascii_digit in Hc; lia).
  replace (c =? 43) with false by (unfold is_ascii_digit in Hc; lia).
  unfold py_int_unsigned, count_digits. rewrite (filter_all _ _ Hd).
  replace (Path.len (c :: r) <=? int_max_str_digits) with false by lia. reflexivity.
Qed.

Lemma num_nonneg ds v : num_ok ds v -> 0 <= v.
Proof. intros (_ & _ & H). apply (digits_val_nonneg ds 0 v); [lia|exact H]. Qed.

Lemma digit_nosep c ds : isdigit ds = true -> (c < 48 \/ 57 < c) -> nosep c ds = true.
Proof.
  intros H Hc. destruct (isdigit_all ds H) as [Ha _]. unfold nosep, all_digits in *.
  apply (forallb_impl is_ascii_digit); [|exact Ha]. unfold is_ascii_digit. lia.
Qed.

Lemma num_nosep c ds v : num_ok ds v -> (c < 48 \/ 57 < c) -> nosep c ds = true.
Proof. intros (H & _) Hc. apply digit_nosep; assumption. Qed.

Definition idx_txt (ids : list text) : text :=
  match ids with [] => [] | _ => [91] ++ join [44] ids ++ [93] end.
Definition bit_txt (bit : option (text * Z)) : text := match bit with Some (b, _) => 46 :: b | None => [] end.
Definition cnt_txt (cnt : option (text * Z)) : text := match cnt with Some (c, _) => [123] ++ c ++ [125] | None => [] end.
Definition single_req (n : text) (ids : list text) (bit cnt : option (text * Z)) : text :=
  (n ++ idx_txt ids) ++ bit_txt bit ++ cnt_txt cnt.

Definition opt_ok (o : option (text * Z)) : Prop := match o with Some (t, v) => num_ok t v | None => True end.
Definition opt_val (o : option (text * Z)) : option Z := match o with Some (_, v) => Some v | None => None end.

Lemma ends_with_snoc c s : ends_with [c] (s ++ [c]) = true.
Proof. unfold ends_with. rewrite rev_app_distr. cbn. rewrite Z.eqb_refl. reflexivity. Qed.

Lemma ends_with_app_nosep c a b : b <> [] -> nosep c b = true -> ends_with [c] (a ++ b) = false.
Proof.
  intros Hne Hb. unfold ends_with. rewrite rev_app_distr. cbn [rev app].
  assert (Hr : nosep c (rev b) = true) by (unfold nosep; rewrite forallb_rev; exact Hb).
  destruct (rev b) as [|y r] eqn:E.
  - apply (f_equal (@rev _)) in E. rewrite rev_involutive in E. cbn in E. congruence.
  - cbn [app starts_with]. unfold nosep in Hr. cbn [forallb] in Hr. apply andb_prop in Hr. destruct Hr as [Hy _].
    replace (c =? y) with false by lia. reflexivity.
Qed.

Lemma split2 c a b : nosep c a = true -> nosep c b = true -> split_chr c (a ++ c :: b) = [a; b].
Proof. intros Ha Hb. change (a ++ c :: b) with (join [c] [a; b]). apply split_join; [exact Ha|cbn; rewrite Hb; reflexivity]. Qed.

Lemma rsplit1_nosep c b : nosep c b = true -> rsplit1_aux c b = None.
Proof.
  induction b as [|x b IH]; intros H; [reflexivity|]. unfold nosep in H. cbn [forallb] in H. apply andb_prop in H. destruct H as [Hx Hb].
  cbn [rsplit1_aux]. rewrite (IH Hb). replace (x =? c) with false by lia. reflexivity.
Qed.

Lemma rsplit1_app c a b : nosep c b = true -> rsplit1_aux c (a ++ c :: b) = Some (a, b).
Proof.
  intros Hb. induction a as [|x a IH].
  - cbn [app rsplit1_aux]. rewrite (rsplit1_nosep c b Hb), Z.eqb_refl. reflexivity.
  - cbn [app rsplit1_aux]. rewrite IH. reflexivity.
Qed.

Lemma idx_txt_nosep c l : forallb (nosep c) l = true -> c <> 91 -> c <> 93 -> c <> 44 -> nosep c (idx_txt l) = true.
Proof.
  intros Hl H1 H2 H3. unfold idx_txt. destruct l as [|i0 ir] eqn:E; [reflexivity|]. rewrite <- E in *.
  assert (S1 : forall x, x <> c -> nosep c [x] = true).
  { intros x Hx. unfold nosep. cbn [forallb]. replace (x =? c) with false by lia. reflexivity. }
  rewrite !nosep_app. rewrite nosep_join; [|apply S1; lia|exact Hl].
  rewrite !S1 by lia. reflexivity.
Qed.

Lemma plain_chars n : plain_name n = true -> forallb plain_char n = true.
Proof. unfold plain_name. intros H. apply andb_prop in H. destruct H as [H _]. apply andb_prop in H. tauto. Qed.

Lemma ids_nosep ids idv : Forall2 num_ok ids idv -> forall c, (c < 48 \/ 57 < c) -> forallb (nosep c) ids = true.
Proof.
  intros HF c Hc. induction HF as [|t v ts vs H HF IH]; [reflexivity|]. cbn [forallb].
  rewrite (num_nosep c t v H Hc), IH. reflexivity.
Qed.

Lemma map_res_ids ids idv : Forall2 num_ok ids idv -> map_res py_int_full ids = Ok idv.
Proof.
  induction 1 as [|t v ts vs H HF IH]; [reflexivity|].
  cbn [map_res]. rewrite (num_int t v H). cbn [bind]. rewrite IH. reflexivity.
Qed.

Lemma body0_nosep n ids idv : plain_name n = true -> Forall2 num_ok ids idv ->
  forall c, (c = 46 \/ c = 123 \/ c = 125 \/ c = 58) -> nosep c (n ++ idx_txt ids) = true.
Proof.
  intros Hn Hids c Hc. rewrite nosep_app. rewrite (plain_nosep c n (plain_chars n Hn)) by tauto. cbn [andb].
  apply idx_txt_nosep; [apply (ids_nosep ids idv Hids); lia|lia|lia|lia].
Qed.

Lemma body0_not_program n ids idv : plain_name n = true -> Forall2 num_ok ids idv ->
  starts_with txt_Program_ (n ++ idx_txt ids) = false.
Proof.
  intros Hn Hids. destruct (starts_with txt_Program_ (n ++ idx_txt ids)) eqn:E; [|reflexivity]. exfalso.
  apply starts_with_app in E. destruct E as [rest E].
  pose proof (body0_nosep n ids idv Hn Hids 58) as Hc. rewrite E in Hc. unfold nosep in Hc. rewrite forallb_app in Hc.
  specialize (Hc ltac:(tauto)). apply andb_prop in Hc. destruct Hc as [Hc _]. vm_compute in Hc. discriminate.
Qed.

Lemma find_tag_index_idx n ids : nosep 91 n = true -> forallb (nosep 44) ids = true ->
  find_tag_index (n ++ idx_txt ids) = (n, ids).
Proof.
  intros Hns H44. unfold find_tag_index, idx_txt. destruct ids as [|i0 ir].
  - rewrite app_nil_r. rewrite (contains_chr_nosep 91 n Hns). reflexivity.
  - rewrite contains_chr_app. cbn [app contains_chr existsb Z.eqb Pos.eqb orb]. rewrite orb_true_r.
    replace (n ++ 91 :: join [44] (i0 :: ir) ++ [93]) with ((n ++ 91 :: join [44] (i0 :: ir)) ++ [93])
      by (rewrite <- app_assoc; reflexivity).
    rewrite removelast_snoc. unfold find. rewrite find_from_nosep by exact Hns. cbn [Nat.add].
    rewrite firstn_app_exact.
    replace (skipn (S (length n)) (n ++ 91 :: join [44] (i0 :: ir))) with (join [44] (i0 :: ir)).
    + cbn [forallb] in H44. apply andb_prop in H44. destruct H44 as [H0 Hr].
      rewrite split_join by assumption. reflexivity.
    + change (n ++ 91 :: join [44] (i0 :: ir)) with (n ++ [91] ++ join [44] (i0 :: ir)). rewrite app_assoc.
      replace (S (length n)) with (length (n ++ [91])) by (rewrite app_length; cbn; lia).
      rewrite skipn_app_exact. reflexivity.
Qed.

Definition cnt_val (cnt : option (text * Z)) : Z := match cnt with Some (_, v) => v | None => 1 end.

Definition mem_seg_bytes (i : Z) : bytes :=
  if i <=? 255 then [40; i] else if i <=? 65535 then 41 :: 0 :: le_enc 2 i else 42 :: 0 :: le_enc 4 i.
Definition mems_bytes (idv : list Z) : bytes := concat (map mem_seg_bytes idv).
Definition idx32 (idv : list Z) : Prop := Forall (fun i => 0 <= i < 4294967296) idv.

Lemma encode_member_seg i : 0 <= i < 4294967296 ->
  encode_logical true (txt "member_id") (LInt i) = Ok (mem_seg_bytes i).
Proof.
  intros H. unfold encode_logical, encode_logical_with, mem_seg_bytes. rewrite logical_value_int by exact H.
  destruct (i <=? 255); [|destruct (i <=? 65535)]; reflexivity.
Qed.

Lemma encode_member_segs idv : idx32 idv -> encode_segs true (member_segs idv) = Ok (mems_bytes idv).
Proof.
  induction 1 as [|i r Hi Hr IH]; [reflexivity|].
  unfold member_segs in *. cbn [map encode_segs encode_seg]. rewrite (encode_member_seg i Hi). cbn [wrap_all bind].
  rewrite IH. reflexivity.
Qed.

Lemma mem_seg_len i : Path.len (mem_seg_bytes i) = 2 \/ Path.len (mem_seg_bytes i) = 4 \/ Path.len (mem_seg_bytes i) = 6.
Proof. unfold mem_seg_bytes. destruct (i <=? 255); [left; reflexivity|]. destruct (i <=? 65535); [right; left|right; right]; reflexivity. Qed.

Lemma mems_len idv : Z.even (Path.len (mems_bytes idv)) = true
  /\ 2 * Z.of_nat (length idv) <= Path.len (mems_bytes idv) <= 6 * Z.of_nat (length idv).
Proof.
  induction idv as [|i r IH]; [split; [reflexivity|cbn; lia]|].
  unfold mems_bytes in *. cbn [map concat]. unfold Path.len in *. rewrite app_length. cbn [length].
  destruct IH as [He Hb]. pose proof (mem_seg_len i) as Hl. unfold Path.len in Hl.
  rewrite Nat2Z.inj_add. split; [|lia].
  rewrite Z.even_add. rewrite He. destruct Hl as [->|[->| ->]]; reflexivity.
Qed.

Lemma pl_40 v r : parse_logical 40 (v :: r) = Some (2, v, r).
Proof. reflexivity. Qed.
Lemma pl_41 lo hi r : parse_logical 41 (0 :: lo :: hi :: r) = Some (2, u16 lo hi, r).
Proof. reflexivity. Qed.
Lemma pl_42 b0 b1 b2 b3 r : parse_logical 42 (0 :: b0 :: b1 :: b2 :: b3 :: r) = Some (2, u32 b0 b1 b2 b3, r).
Proof. reflexivity. Qed.

Lemma parse_logical_mem i rest : 0 <= i < 4294967296 ->
  exists b r, mem_seg_bytes i ++ rest = b :: r /\ (b =? 145) = false /\ parse_logical b r = Some (2, i, rest).
Proof.
  intros H. unfold mem_seg_bytes. destruct (i <=? 255) eqn:E1.
  - exists 40, (i :: rest). repeat split.
  - destruct (i <=? 65535) eqn:E2.
    + eexists 41, _. cbn [le_enc app]. split; [reflexivity|]. split; [reflexivity|]. rewrite pl_41, u16_enc by lia. reflexivity.
    + eexists 42, _. cbn [le_enc app]. split; [reflexivity|]. split; [reflexivity|]. rewrite pl_42, u32_enc by lia. reflexivity.
Qed.

Lemma parse_psegs_mems_app idv rest f : idx32 idv ->
  parse_psegs (length idv + f) (mems_bytes idv ++ rest)
  = match parse_psegs f rest with Some l => Some (map (PLog 2) idv ++ l) | None => None end.
Proof.
  induction 1 as [|i r Hi Hr IH].
  - cbn [length Nat.add mems_bytes map concat app]. destruct (parse_psegs f rest); reflexivity.
  - unfold mems_bytes in *. cbn [map concat length Nat.add]. rewrite <- app_assoc.
    destruct (parse_logical_mem i (concat (map mem_seg_bytes r) ++ rest) Hi) as (b & rr & -> & Hb & Hp).
    cbn [parse_psegs]. rewrite (pseg_log b rr Hb), Hp, IH. destruct (parse_psegs f rest); reflexivity.
Qed.

Lemma parse_psegs_mono f : forall f' bs l, parse_psegs f bs = Some l -> (f <= f')%nat -> parse_psegs f' bs = Some l.
Proof.
  induction f as [|f IH]; intros f' bs l H Hle; destruct bs as [|b r]; cbn [parse_psegs] in *;
    try discriminate; try (destruct f'; exact H).
  destruct f' as [|f']; [lia|]. cbn [parse_psegs]. destruct (parse_pseg b r) as [[s r']|]; [|discriminate].
  destruct (parse_psegs f r') as [l0|] eqn:E; [|discriminate]. rewrite (IH f' r' l0 E) by lia. exact H.
Qed.

Lemma parse_psegs_sym n f rest : 1 <= Path.len n < 256 ->
  parse_psegs (S f) (sym_seg_bytes n ++ rest)
  = match parse_psegs f rest with Some l => Some (PSym n :: l) | None => None end.
Proof.
  intros Hl. unfold sym_seg_bytes. cbn [app parse_psegs]. unfold parse_pseg. cbn [Z.eqb Pos.eqb].
  replace (Path.len n =? 0) with false by lia. rewrite <- app_assoc.
  assert (Htake : takez (Path.len n) (n ++ ((if odd_len n then [0] else []) ++ rest))
                  = Some (n, (if odd_len n then [0] else []) ++ rest)) by apply takez_app.
  rewrite Htake.
  assert (Hodd : Z.odd (Path.len n) = odd_len n) by (unfold Path.len, odd_len; apply Zodd_of_nat).
  rewrite Hodd. destruct (odd_len n); cbn [app]; reflexivity.
Qed.

Lemma parse_logicals_sym n f rest : parse_logicals (S f) (sym_seg_bytes n ++ rest) = None.
Proof. reflexivity. Qed.

Lemma parse_psegs_inst inst f rest : 0 < inst < 4294967296 ->
  parse_psegs (S (S f)) (inst_seg_bytes inst ++ rest)
  = match parse_psegs f rest with Some l => Some (PLog 0 107 :: PLog 1 inst :: l) | None => None end.
Proof.
  intros Hi. unfold inst_seg_bytes. destruct (inst <=? 255) eqn:E1.
  - cbn [app parse_psegs]. rewrite (pseg_log 32) by reflexivity. rewrite pl_32.
    rewrite (pseg_log 36) by reflexivity. rewrite pl_36. destruct (parse_psegs f rest); reflexivity.
  - destruct (inst <=? 65535) eqn:E2.
    + cbn [app le_enc parse_psegs]. rewrite (pseg_log 32) by reflexivity. rewrite pl_32.
      rewrite (pseg_log 37) by reflexivity. rewrite pl_37, u16_enc by lia. destruct (parse_psegs f rest); reflexivity.
    + cbn [app le_enc parse_psegs]. rewrite (pseg_log 32) by reflexivity. rewrite pl_32.
      rewrite (pseg_log 38) by reflexivity. rewrite pl_38, u32_enc by lia. destruct (parse_psegs f rest); reflexivity.
Qed.

Lemma parse_pseg_log b r lt v r' : parse_pseg b r = Some (PLog lt v, r') -> parse_logical b r = Some (lt, v, r').
Proof.
  unfold parse_pseg. destruct (b =? 145).
  - destruct r as [|n r1]; [discriminate|]. destruct (n =? 0); [discriminate|].
    destruct (takez n r1) as [[nm r2]|]; [|discriminate].
    destruct (Z.odd n); [destruct r2 as [|[| |] r3]|]; discriminate.
  - destruct (parse_logical b r) as [[[lt' v'] r'']|]; [|discriminate]. intros H. injection H as -> -> ->. reflexivity.
Qed.

Lemma parse_logicals_of_psegs f : forall bs l,
  parse_psegs f bs = Some (map (fun x => PLog (fst x) (snd x)) l) -> parse_logicals f bs = Some l.
Proof.
  induction f as [|f IH]; intros [|b r] l H; cbn [parse_psegs parse_logicals] in *; try discriminate;
    try (destruct l; [reflexivity|discriminate]).
  destruct (parse_pseg b r) as [[s r']|] eqn:Ep; [|discriminate].
  destruct (parse_psegs f r') as [l0|] eqn:E; [|discriminate].
  destruct l as [|[lt v] l']; [discriminate|]. cbn [map fst snd] in H. injection H as -> ->.
  rewrite (parse_pseg_log _ _ _ _ _ Ep), (IH r' l' E). reflexivity.
Qed.

Lemma inst_seg_len inst : Path.len (inst_seg_bytes inst) = 4 \/ Path.len (inst_seg_bytes inst) = 6 \/ Path.len (inst_seg_bytes inst) = 8.
Proof. unfold inst_seg_bytes. destruct (inst <=? 255); [left; reflexivity|]. destruct (inst <=? 65535); [right; left|right; right]; reflexivity. Qed.

Section SinglePath.
  Variables (n : text) (ids : list text) (idv : list Z).
  Hypothesis Hn : plain_name n = true.
  Hypothesis Hids : Forall2 num_ok ids idv.
  Hypothesis H32 : idx32 idv.
  Hypothesis Hlen3 : (length idv <= 3)%nat.
  Let body0 := n ++ idx_txt ids.

  Lemma tag_segments_body0 inst use_ids : 0 < inst ->
    tag_segments body0 (Some inst) use_ids
    = Ok (Some ((if use_ids then [Logical (txt "class_id") (LBytes class_symbol_object); Logical (txt "instance_id") (LInt inst)]
                 else [DataSym n]) ++ member_segs idv)).
  Proof.
    intros Hi. unfold tag_segments, body0. rewrite split_nosep by (apply (body0_nosep n ids idv Hn Hids); tauto).
    rewrite find_tag_index_idx by (first [apply plain_nosep; [exact (plain_chars n Hn)|tauto] | apply (ids_nosep ids idv Hids); lia]).
    change (txt "Program:") with txt_Program_. rewrite (body0_not_program n ids idv Hn Hids).
    replace (inst =? 0) with false by lia. rewrite (map_res_ids ids idv Hids). cbn [negb andb attr_segments bind].
    rewrite andb_true_r, app_nil_r. destruct use_ids; reflexivity.
  Qed.
  Definition first_bytes (inst : Z) (use_ids : bool) : bytes := if use_ids then inst_seg_bytes inst else sym_seg_bytes n.
  Definition first_psegs (inst : Z) (use_ids : bool) : list pseg := if use_ids then [PLog 0 107; PLog 1 inst] else [PSym n].

  Lemma sp_len_n : 1 <= Path.len n < 256.
  Proof.
    pose proof Hn as Hp. unfold plain_name in Hp. apply andb_prop in Hp. destruct Hp as [Hp Hlen]. apply andb_prop in Hp. destruct Hp as [_ Hne].
    destruct n; [discriminate|unfold Path.len in *; cbn [length] in *; lia].
  Qed.

  Lemma sp_first_len inst use_ids : 0 < inst ->
    Z.even (Path.len (first_bytes inst use_ids)) = true /\ 4 <= Path.len (first_bytes inst use_ids) <= 258.
  Proof.
    intros Hi. unfold first_bytes. destruct use_ids.
    - destruct (inst_seg_len inst) as [->|[->| ->]]; split; try reflexivity; lia.
    - split; [apply even_len_sym|]. pose proof sp_len_n. split; [apply sym_seg_len4; lia|].
      unfold sym_seg_bytes, Path.len in *. rewrite !app_length. cbn [length]. destruct (odd_len n); cbn [length]; lia.
  Qed.

  Lemma sp_encode inst (use_ids : bool) : 0 < inst < 4294967296 ->
    encode_segs true ((if use_ids then [Logical (txt "class_id") (LBytes class_symbol_object); Logical (txt "instance_id") (LInt inst)]
                       else [DataSym n]) ++ member_segs idv)
    = Ok (first_bytes inst use_ids ++ mems_bytes idv).
  Proof.
    intros Hi. unfold first_bytes. destruct use_ids.
    - cbn [app encode_segs encode_seg bind]. rewrite encode_class_seg. cbn [wrap_all bind]. rewrite (encode_inst_seg inst Hi).
      cbn [wrap_all bind]. rewrite (encode_member_segs idv H32). cbn [bind]. unfold inst_seg_bytes. rewrite <- app_assoc. reflexivity.
    - cbn [app encode_segs encode_seg bind]. unfold encode_data_sym. rewrite (utf8_encode_ascii n (plain_ascii n (plain_chars n Hn))). cbn [bind].
      change (Z.lor data_segment_type data_extended_symbol) with 145. pose proof sp_len_n.
      rewrite (USINT_small 145) by lia. cbn [bind]. rewrite (USINT_small (Path.len n)) by lia. cbn [bind wrap_all].
      rewrite (encode_member_segs idv H32). cbn [bind]. unfold sym_seg_bytes. reflexivity.
  Qed.

  Theorem path_single inst use_ids : 0 < inst < 4294967296 ->
    let pb := first_bytes inst use_ids ++ mems_bytes idv in
    tag_request_path body0 (Some inst) use_ids = Ok (Some ((Path.len pb / 2) :: pb))
    /\ path_wf ((Path.len pb / 2) :: pb) pb
    /\ parse_psegs (length pb) pb = Some (first_psegs inst use_ids ++ map (PLog 2) idv)
    /\ tag_cia pb /\ 4 <= EncapParser.blen pb.
  Proof.
    intros Hi pb.
    destruct (sp_first_len inst use_ids (proj1 Hi)) as [Hfe Hfl]. destruct (mems_len idv) as [Hme Hml].
    assert (Hpl : Path.len pb = Path.len (first_bytes inst use_ids) + Path.len (mems_bytes idv)).
    { unfold pb, Path.len. rewrite app_length. lia. }
    assert (Hpe : Z.even (Path.len pb) = true) by (rewrite Hpl, Z.even_add, Hfe, Hme; reflexivity).
    assert (Hl3 : Z.of_nat (length idv) <= 3) by lia.
    assert (Hps : parse_psegs (length pb) pb = Some (first_psegs inst use_ids ++ map (PLog 2) idv)).
    { pose proof (parse_psegs_mems_app idv [] 0 H32) as Hm. cbn [parse_psegs] in Hm. rewrite Nat.add_0_r, !app_nil_r in Hm.
      unfold pb, first_bytes, first_psegs. destruct use_ids.
      + apply (parse_psegs_mono (S (S (length idv)))).
        * rewrite (parse_psegs_inst inst (length idv) _ Hi), Hm. reflexivity.
        * unfold Path.len in *. rewrite app_length. unfold first_bytes in Hfl. lia.
      + apply (parse_psegs_mono (S (length idv))).
        * rewrite (parse_psegs_sym n (length idv) _ sp_len_n), Hm. reflexivity.
        * unfold Path.len in *. rewrite app_length. unfold first_bytes in Hfl. lia. }
    split; [|split; [|split; [exact Hps|split]]].
    - unfold tag_request_path. rewrite (tag_segments_body0 inst use_ids (proj1 Hi)). cbn [bind].
      unfold epath_encode. change padded_PADDED_EPATH with true. rewrite (sp_encode inst use_ids Hi). cbn [bind]. fold pb.
      rewrite (USINT_small (Path.len pb / 2)) by lia. reflexivity.
    - unfold path_wf. change (EncapParser.blen pb) with (Path.len pb). split; [reflexivity|]. split; [exact Hpe|lia].
    - unfold tag_cia, path_cia. destruct use_ids.
      + rewrite (parse_logicals_of_psegs _ _ ((0, 107) :: (1, inst) :: map (fun i => (2, i)) idv)).
        * destruct idv as [|i0 [|i1 ir]]; [right; exists inst, None; reflexivity|left; reflexivity|left; reflexivity].
        * cbn [map fst snd]. rewrite map_map. exact Hps.
      + left. destruct (length (sym_seg_bytes n ++ mems_bytes idv)) eqn:E; [|reflexivity].
        unfold sym_seg_bytes in E. cbn in E. discriminate.
    - change (EncapParser.blen pb) with (Path.len pb). lia.
  Qed.
End SinglePath.

Lemma resolve_segs_mems p l idv : forall acc, resolve_segs p l acc (map (PLog 2) idv) = apply_idx p l (rev acc ++ idv).
Proof.
  induction idv as [|i r IH]; intros acc; cbn [map resolve_segs].
  - rewrite app_nil_r. reflexivity.
  - rewrite IH. cbn [rev]. rewrite <- app_assoc. reflexivity.
Qed.

Lemma flat_index_len dims : forall idx acc k, flat_index dims idx acc = Some k -> length idx = length dims.
Proof.
  induction dims as [|d dr IH]; intros [|i ir] acc k H; cbn [flat_index] in H; try discriminate; [reflexivity|].
  destruct ((0 <=? i) && (i <? d)); [|discriminate]. cbn [length]. f_equal. exact (IH _ _ _ H).
Qed.

Lemma flat_index_bound dims : forallb (fun d => 0 <? d) dims = true -> forall idx acc k, 0 <= acc ->
  flat_index dims idx acc = Some k ->
  acc * dims_count dims <= k < (acc + 1) * dims_count dims /\ Forall2 (fun i d => 0 <= i < d) idx dims.
Proof.
  induction dims as [|d dr IH]; intros Hd [|i ir] acc k Ha H; cbn [flat_index] in H; try discriminate.
  - injection H as <-. unfold dims_count. cbn. split; [lia|constructor].
  - cbn [forallb] in Hd. apply andb_prop in Hd. destruct Hd as [Hd0 Hdr].
    destruct ((0 <=? i) && (i <? d)) eqn:E; [|discriminate].
    assert (Ha' : 0 <= acc * d + i) by nia.
    destruct (IH Hdr ir (acc * d + i) k Ha' H) as [Hb HF].
    pose proof (dims_count_pos dr Hdr) as Hc.
    unfold dims_count in *. cbn [fold_right]. split; [nia|constructor; [lia|exact HF]].
Qed.

Lemma tag_ok_dims p g : tag_ok p g = true ->
  (length (g_dims g) <= 3)%nat /\ forallb (fun d => 0 <? d) (g_dims g) = true.
Proof.
  unfold tag_ok. intros H. repeat (apply andb_prop in H; destruct H as [H ?]).
  split; [apply Nat.leb_le; assumption|assumption].
Qed.

Lemma sd_resolve_path p cfg g ids idv :
  wf_project p = true -> In g (visible_tags p) -> g_scope g = ScCtrl -> plain_name (g_name g) = true ->
  Forall2 num_ok ids idv -> forall l, tag_wloc g = ROk l -> idx32 idv -> (length idv <= 3)%nat ->
  resolve_path p false (first_bytes (g_name g) (g_inst g) (c_use_ids cfg) ++ mems_bytes idv) = of_rres (apply_idx p l idv).
Proof.
  intros Hwf Hvis Hsc Hname Hids l Hl H32 Hlen3.
  pose proof (pl_inst_range p g Hwf Hvis) as Hir.
  destruct (path_single (g_name g) ids idv Hname Hids H32 Hlen3 (g_inst g) (c_use_ids cfg) Hir) as (_ & _ & Hps & _ & _).
  unfold resolve_path. rewrite Hps. unfold first_psegs. destruct (c_use_ids cfg).
  - cbn [app]. unfold resolve_in_scope. rewrite (pl_find_inst p g Hwf Hvis), Hsc. cbn [scope_eqb]. rewrite Hl.
    rewrite resolve_segs_mems. cbn [rev app]. destruct (map (PLog 2) idv); reflexivity.
  - cbn [app]. change txt_Program with txt_Program_. rewrite (starts_with_program (g_name g) (plain_chars (g_name g) Hname)).
    unfold resolve_in_scope. rewrite <- Hsc, (pl_find_name p g Hwf Hvis), Hl.
    rewrite resolve_segs_mems. cbn [rev app]. destruct (map (PLog 2) idv); reflexivity.
Qed.

Lemma num_ok_zero : Forall2 num_ok [[48]] [0].
Proof. constructor; [|constructor]. unfold num_ok. repeat split; vm_compute; congruence. Qed.

Lemma cnt_val_n cnt : cnt_val cnt = cnt_n (opt_val cnt).
Proof. destruct cnt as [[c cv]|]; reflexivity. Qed.

Lemma index_dword p inst off dims av idv pl1 :
  index_place p (PlData inst off (BAtom C_DWORD) dims av) idv = Some pl1 -> (dims = [] -> idv = []) ->
  (idv = [] /\ pl1 = PlBools inst off (32 * dims_count dims) 0)
  \/ (exists kk i, dims = [kk] /\ idv = [i] /\ 0 <= i /\ pl1 = PlBools inst off (32 * kk) i).
Proof.
  unfold index_place. change (is_dword (BAtom C_DWORD)) with true. cbv iota. intros H Hl.
  destruct dims as [|kk [|k2 dr]]; destruct idv as [|i [|i2 ir]]; try discriminate; try discriminate (Hl eq_refl).
  - left. injection H as <-. split; reflexivity.
  - left. injection H as <-. split; [reflexivity|]. unfold dims_count. cbn [fold_right]. rewrite Z.mul_1_r. reflexivity.
  - destruct ((0 <=? i) && (i <? 32 * kk)) eqn:E; [|discriminate]. injection H as <-.
    right. exists kk, i. repeat split; try reflexivity. lia.
Qed.

Record sreq := mkSreq {
  sr_g : tagdef; sr_ids : list text; sr_idv : list Z; sr_bit : option (text * Z); sr_cnt : option (text * Z) }.
Definition sreq_text (x : sreq) : text := single_req (g_name (sr_g x)) (sr_ids x) (sr_bit x) (sr_cnt x).
Definition sreq_ast (x : sreq) : request_ast :=
  mkReq None [mkSeg (g_name (sr_g x)) (sr_idv x)] (opt_val (sr_bit x)) (opt_val (sr_cnt x)).

(* which decorations go with which tag type *)
Definition sreq_shape (x : sreq) : Prop :=
  match g_ty (sr_g x) with
  | BAtom c =>
      if c =? C_BOOL then sr_ids x = [] /\ sr_bit x = None /\ sr_cnt x = None
      else if c =? C_DWORD then sr_bit x = None /\ (length (sr_idv x) <= length (g_dims (sr_g x)))%nat
      else Forall (fun d => d <= 4294967296) (g_dims (sr_g x))
  | BStruct _ => Forall (fun d => d <= 4294967296) (g_dims (sr_g x))
  | BOpaque _ => False
  end.

Definition sreq_ok (p : project) (mem : Project.mem) (cfg : ccfg) (fuel : nat) (x : sreq) : Prop :=
  In (sr_g x) (visible_tags p) /\ g_scope (sr_g x) = ScCtrl /\ plain_name (g_name (sr_g x)) = true
  /\ Forall2 num_ok (sr_ids x) (sr_idv x) /\ opt_ok (sr_bit x) /\ opt_ok (sr_cnt x) /\ sreq_shape x
  /\ ref_read p mem (sreq_ast x) <> None
  /\ (forall q path, parse_tag_request (client_tags p) (sreq_text x) = Ok q -> read_path (c_use_ids cfg) q = Ok path ->
                     fits (c_conn cfg) fuel q path).
