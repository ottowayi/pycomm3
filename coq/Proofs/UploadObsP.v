(* Proofs/UploadObsP.v — C05: what the dictionary built for a template SAYS.
   * [Exp]: the observation the reference demands of a template id (relational form of
     Spec/UploadObs.odef_of: no fuel), nested definitions included;
   * [member_loop_spec]: internal_tags and attributes after the member loop;
   * [string_detection], [string_capacity]: the string test of the code, phrased on the project as
     [code_string_test], against Spec/Expect.string_shape — the capacity is the length of DATA, the
     character area is structure size - 4;
   * [obs_of_built]: the observation of [exp_datatype infos t] is the expected one, whenever the
     nested definitions have the expected observations. *)
From Coq Require Import ZifyBool String.
From PV Require Import Base.Bytes Base.BytesLemmas Base.Proto Base.PyStr Base.Res.
From PV Require Import Spec.Project Spec.Expect Spec.UploadObs Model.LogixUpload.
From PV Require Import Proofs.UploadDefs Proofs.UploadDict Proofs.UploadParse Proofs.UploadFilter Proofs.UploadTemplate Proofs.UploadBlob.
Open Scope string_scope.
Open Scope list_scope.
Open Scope Z_scope.

Definition mem_obs (m : Project.member) (ty : oty) : text * oty * Z * Z * option Z :=
  (m_name m, ty, m_arr m, m_off m, if is_bool_member m then Some (m_bit m) else None).

Definition str_obs (t : template) : option (Z * Z * Z) :=
  match string_shape t with
  | Some _ => let dl := data_length (map view_member (visible_members t)) in Some (dl, t_size t - 4, dl)
  | None => None
  end.

Section Expected.
  Variable ts : list template.

  Inductive Exp : Z -> odef -> Prop :=
  | Exp_def tid t ms :
      find_template ts tid = Some t ->
      Forall2 MemExp (visible_members t) ms ->
      Exp tid (MkODef (Some (display_name (t_name t))) (t_handle t) (t_size t) (template_defsize t)
                      (template_member_count t) (map m_name (visible_members t)) ms (str_obs t))
  with MemExp : Project.member -> text * oty * Z * Z * option Z -> Prop :=
  | ME_atom m c : m_ty m = BAtom c -> MemExp m (mem_obs m (inl c))
  | ME_struct m tid d : m_ty m = BStruct tid -> Exp tid d -> MemExp m (mem_obs m (inr d)).
End Expected.

Lemma member_step_fields pre st nm info :
  nm <> [] -> dict_get PyStr.text_eqb (ml_internal st) nm = None ->
  ml_internal (member_step pre st nm info) = ml_internal st ++ [(nm, info)]
  /\ ml_attributes (member_step pre st nm info)
     = ml_attributes st ++ (if private_member pre nm then [] else [nm]).
Proof.
  intros Hne Habs. unfold member_step. destruct nm as [|c nm']; [contradiction|].
  cbn [ml_internal ml_attributes]. rewrite dict_set_absent by exact Habs.
  split; [reflexivity|]. destruct (private_member pre (c :: nm')); [rewrite app_nil_r|]; reflexivity.
Qed.

Lemma member_loop_spec pre : forall names infos st,
  length names = length infos -> NoDup names -> Forall (fun n => n <> []) names ->
  (forall n, In n names -> dict_get PyStr.text_eqb (ml_internal st) n = None) ->
  ml_internal (member_loop pre st names infos) = ml_internal st ++ combine names infos
  /\ ml_attributes (member_loop pre st names infos)
     = ml_attributes st ++ filter (fun n => negb (private_member pre n)) names.
Proof.
  induction names as [|n names IH]; intros [|i infos] st Hlen Hnd Hne Habs; try discriminate.
  - cbn. rewrite !app_nil_r. auto.
  - cbn [member_loop combine filter].
    inversion Hnd as [|? ? Hnotin Hnd']; subst. inversion Hne as [|? ? Hn Hne']; subst.
    destruct (member_step_fields pre st n i Hn (Habs n (or_introl eq_refl))) as (E1 & E2).
    destruct (IH infos (member_step pre st n i) ltac:(cbn in Hlen; lia) Hnd' Hne') as (F1 & F2).
    { intros x Hx. rewrite E1, dict_get_app_other; [apply Habs; right; exact Hx|].
      apply text_eqb_neq. intros ->. contradiction. }
    rewrite F1, F2, E1, E2, <- !app_assoc. split; [reflexivity|].
    destruct (private_member pre n); reflexivity.
Qed.

(* both tests unfold to the same term: the two text_eqb are one fixpoint, T "..." computes to txt_... *)
Lemma private_member_host tid n : private_member (predefined_id tid) n = host_name tid n.
Proof. reflexivity. Qed.

Lemma atom_code_roundtrip : forallb (fun c => match atom_name c with Some n => atom_code_of_name n =? c | None => false end) ATOMS = true.
Proof. vm_compute. reflexivity. Qed.
Lemma atom_code_of_atom_name c n : In c ATOMS -> atom_name c = Some n -> atom_code_of_name n = c.
Proof.
  intros Hin En. pose proof atom_code_roundtrip as H. rewrite forallb_forall in H. specialize (H c Hin).
  rewrite En in H. lia.
Qed.

(* the code's string test looks at DATA only (a SINT array next to a member LEN); the reference
   also asks LEN to be a DINT scalar.  This excludes the structures on which they differ (and a
   DATA that is an array of structures): Props/C05.C05_pseudo_string_differs *)
Definition no_pseudo_string (t : template) : Prop :=
  forall l d, visible_members t = [l; d] -> m_name l = txt_LEN -> m_name d = txt_DATA -> m_arr d <> 0 ->
    match m_ty d with
    | BAtom c => c = C_SINT -> m_ty l = BAtom C_DINT /\ m_arr l = 0
    | _ => False
    end.

Record tmpl_facts (t : template) : Prop := {
  tf_nodup : NoDup (map m_name (t_members t));
  tf_nonempty : Forall (fun m => m_name m <> []) (t_members t);
  tf_hidden : Forall (fun m => m_hidden m = host_name (t_id t) (m_name m)) (t_members t);
  tf_fields : Forall member_fields_ok (t_members t);
  tf_arr : Forall (fun m => 0 <= m_arr m) (t_members t);
  tf_nopseudo : no_pseudo_string t
}.

Lemma dict_get_combine {I} (R : Project.member -> I -> Prop) : forall ms infos m,
  Forall2 R ms infos -> NoDup (map m_name ms) -> In m ms ->
  exists info, dict_get PyStr.text_eqb (combine (map m_name ms) infos) (m_name m) = Some info /\ R m info.
Proof.
  induction 1 as [|m0 i0 ms infos HR HF IH]; intros Hnd Hin; [destruct Hin|].
  cbn [map combine dict_get]. cbn [map] in Hnd. inversion Hnd as [|? ? Hnot Hnd']; subst.
  destruct Hin as [<- | Hin].
  - rewrite text_eqb_refl. eauto.
  - rewrite text_eqb_neq; [apply IH; assumption|].
    intros E. apply Hnot. rewrite E. apply in_map. exact Hin.
Qed.

Lemma visible_names_filter t :
  Forall (fun m => m_hidden m = host_name (t_id t) (m_name m)) (t_members t) ->
  filter (fun n => negb (private_member (predefined_id (t_id t)) n)) (map m_name (t_members t))
  = map m_name (visible_members t).
Proof.
  unfold visible_members. induction 1 as [|m ms Hm Hms IH]; [reflexivity|].
  cbn [map filter]. rewrite private_member_host, <- Hm, IH. destruct (m_hidden m); reflexivity.
Qed.

Lemma keep_visible t :
  NoDup (map m_name (t_members t)) ->
  forall m, In m (t_members t) -> in_attrs (map m_name (visible_members t)) (m_name m) = negb (m_hidden m).
Proof.
  intros Hnd m Hin. unfold in_attrs, visible_members. apply eq_true_iff_eq. rewrite existsb_exists. split.
  - intros (n' & (m' & <- & [Hm' Hv]%filter_In)%in_map_iff & E%text_eqb_eq).
    rewrite (NoDup_map_inj m_name _ m m' Hnd Hin Hm' E). exact Hv.
  - intros Hv. exists (m_name m). split; [apply in_map, filter_In; auto | apply text_eqb_refl].
Qed.

(* the member loop of a whole template: every member recorded, the visible names as attributes *)
Lemma member_loop_template Good t infos :
  tmpl_facts t -> Forall2 (info_good Good) (t_members t) infos ->
  let st := member_loop (predefined_id (t_id t)) ml_init (map m_name (t_members t)) infos in
  ml_internal st = combine (map m_name (t_members t)) infos /\ ml_attributes st = map m_name (visible_members t).
Proof.
  intros [Hnd Hne Hhid _ _ _] HF. rewrite <- (visible_names_filter t Hhid).
  apply (member_loop_spec _ _ _ ml_init); [|exact Hnd | rewrite Forall_map; exact Hne | reflexivity].
  rewrite map_length. eapply Forall2_length. exact HF.
Qed.

(* the test the code applies, phrased on the project: visible members LEN, DATA; DATA a SINT array *)
Definition code_string_test (t : template) : option Z :=
  match visible_members t with
  | [l; d] =>
      if PyStr.text_eqb (m_name l) txt_LEN && PyStr.text_eqb (m_name d) txt_DATA then
        match m_ty d with
        | BAtom c => if (c =? C_SINT) && negb (m_arr d =? 0) then Some (m_arr d) else None
        | _ => None
        end
      else None
  | _ => None
  end.

Lemma in_visible t m : In m (visible_members t) -> In m (t_members t).
Proof. unfold visible_members. intros H. apply filter_In in H. apply H. Qed.

Section Strings.
  Variable Good : Z -> datatype -> Prop.

  Theorem string_detection t infos :
    tmpl_facts t -> Forall2 (info_good Good) (t_members t) infos ->
    string_length (member_loop (predefined_id (t_id t)) ml_init (map m_name (t_members t)) infos) = code_string_test t.
  Proof.
    intros Hfacts HF. destruct (member_loop_template Good t infos Hfacts HF) as (Ei & Ea).
    destruct Hfacts as [Hnd _ _ Hok _ Hps].
    unfold string_length, code_string_test. rewrite Ei, Ea.
    destruct (visible_members t) as [|l [|d [|x r]]] eqn:Ev; try reflexivity.
    cbn [map]. change (T "LEN") with txt_LEN. change (T "DATA") with txt_DATA. change (T "SINT") with [83; 73; 78; 84].
    destruct (PyStr.text_eqb (m_name l) txt_LEN && PyStr.text_eqb (m_name d) txt_DATA) eqn:En; [|reflexivity].
    apply andb_prop in En as [El%text_eqb_eq Ed%text_eqb_eq].
    (* the entry recorded under "DATA" is the one built for d *)
    assert (Hd : In d (t_members t)) by (apply in_visible; rewrite Ev; right; left; reflexivity).
    destruct (dict_get_combine (info_good Good) (t_members t) infos d HF Hnd Hd) as (info & Eget & nested & Ee & Hn).
    rewrite Ed in Eget. rewrite Eget.
    destruct (proj1 (Forall_forall _ _) Hok d Hd) as (_ & _ & Hty). unfold exp_member in Ee.
    destruct (m_ty d) as [c|tid|w] eqn:Ety; [| |contradiction].
    - (* elementary: a BOOL has no array entry and is not a SINT; otherwise the entry is m_arr *)
      destruct Hty as [Hc Hb]. destruct (atom_facts c Hc) as (n & Enm & _ & _ & _ & _ & _ & Esint). rewrite Enm in Ee.
      injection Ee as <-. cbn [mm_dtname mm_array].
      change (T "SINT") with [83; 73; 78; 84] in Esint.
      destruct (c =? C_BOOL) eqn:Eb.
      + replace (c =? C_SINT) with false by (unfold C_BOOL, C_SINT in *; lia). reflexivity.
      + rewrite Esint. unfold member_info_word, is_bool_member. rewrite Ety, Eb. reflexivity.
    - (* a structure: never an array, by [no_pseudo_string] *)
      destruct (Hn tid eq_refl) as (d' & End & _). rewrite End in Ee. injection Ee as <-. cbn [mm_dtname mm_array].
      destruct (m_arr d =? 0) eqn:E0.
      + destruct (dt_name d'); [rewrite andb_false_r|]; reflexivity.
      + exfalso. specialize (Hps l d Ev El Ed ltac:(lia)). rewrite Ety in Hps. exact Hps.
  Qed.
End Strings.

(* capacity = DATA length, character area = structure size - 4: what Spec/Expect.string_shape demands *)
Theorem string_capacity t :
  no_pseudo_string t -> Forall (fun m => 0 <= m_arr m) (t_members t) ->
  option_map (fun a => (a, t_size t - 4, a)) (code_string_test t) = str_obs t.
Proof.
  intros Hps Harr. unfold code_string_test, str_obs, string_shape.
  destruct (visible_members t) as [|l [|d [|x r]]] eqn:Ev; try reflexivity.
  change Project.text_eqb with PyStr.text_eqb.
  destruct (PyStr.text_eqb (m_name l) txt_LEN && PyStr.text_eqb (m_name d) txt_DATA) eqn:En; [|reflexivity].
  apply andb_prop in En as [El%text_eqb_eq Ed%text_eqb_eq]. cbn [andb].
  assert (Hd : 0 <= m_arr d).
  { rewrite Forall_forall in Harr. apply Harr, in_visible. rewrite Ev. right; left; reflexivity. }
  specialize (Hps l d Ev El Ed).
  destruct (m_ty d) as [c|tid|w]; [|rewrite !andb_false_r; reflexivity..].
  rewrite <- andb_assoc.
  destruct ((c =? C_SINT) && negb (m_arr d =? 0)) eqn:Ec.
  - (* the code's test holds: LEN is a DINT scalar, so the reference sees a string too *)
    destruct Hps as [-> ->]; [lia..|].
    replace ((c =? C_SINT) && (0 <? m_arr d)) with true by lia.
    unfold data_length. cbn [map filter view_member vm_name]. rewrite El, Ed. reflexivity.
  - replace ((c =? C_SINT) && (0 <? m_arr d)) with false by lia. rewrite andb_false_r. reflexivity.
Qed.

Section Built.
  Variable ts : list template.
  Variable Good : Z -> datatype -> Prop.
  Hypothesis Good_exp : forall tid d, Good tid d -> Exp ts tid (odef_of_dt d).

  (* the observation entry odef_of_dt computes from one internal_tags entry *)
  Definition obs_entry (n : text) (m : LogixUpload.member) : text * oty * Z * Z * option Z :=
    (n, oty_of_dtype (mm_struct m) (mm_dtype m), match mm_array m with Some a => a | None => 0 end, mm_offset m, mm_bit m).

  Lemma entry_of_good m info :
    member_fields_ok m -> info_good Good m info -> MemExp ts m (obs_entry (m_name m) info).
  Proof.
    intros (Hi & Ho & Hty) (nested & Ee & Hn). unfold exp_member in Ee.
    destruct (m_ty m) as [c|tid|w] eqn:Ety; [| |contradiction].
    - destruct Hty as [Hc Hb]. destruct (atom_facts c Hc) as (n & En & _). rewrite En in Ee. injection Ee as <-.
      replace (obs_entry (m_name m) _) with (mem_obs m (inl c)); [apply ME_atom; exact Ety|].
      unfold obs_entry, oty_of_dtype, mem_obs, member_info_word, is_bool_member. cbn [mm_dtype mm_struct mm_array mm_offset mm_bit].
      rewrite Ety, (atom_code_of_atom_name c n Hc En).
      destruct (c =? C_BOOL) eqn:Eb; [rewrite (Hb ltac:(lia))|]; reflexivity.
    - destruct (Hn tid eq_refl) as (d & End & Hg). rewrite End in Ee. injection Ee as <-.
      replace (obs_entry (m_name m) _) with (mem_obs m (inr (odef_of_dt d))).
      + eapply ME_struct; [exact Ety | apply Good_exp; exact Hg].
      + unfold mem_obs, is_bool_member. rewrite Ety. reflexivity.
  Qed.

  Lemma members_obs (keep : text -> bool) : forall ms infos,
    Forall2 (info_good Good) ms infos -> Forall member_fields_ok ms ->
    (forall m, In m ms -> keep (m_name m) = negb (m_hidden m)) ->
    Forall2 (MemExp ts) (filter (fun m => negb (m_hidden m)) ms)
            (flat_map (fun nm : text * LogixUpload.member =>
                         let '(n, m) := nm in if keep n then [obs_entry n m] else [])
                      (combine (map m_name ms) infos)).
  Proof.
    induction 1 as [|m i ms infos Hg HF IH]; intros Hok Hkeep; [constructor|].
    inversion Hok as [|? ? Hm Hms]; subst.
    cbn [map combine flat_map filter]. rewrite (Hkeep m (or_introl eq_refl)).
    specialize (IH Hms (fun x Hx => Hkeep x (or_intror Hx))).
    destruct (negb (m_hidden m)); cbn [app]; [|exact IH].
    constructor; [apply entry_of_good; assumption | exact IH].
  Qed.

  Lemma odef_of_built name ta st :
    odef_of_dt (build_datatype name ta st)
    = MkODef name (ta_handle ta) (ta_size ta) (ta_defsize ta) (ta_count ta) (ml_attributes st)
             (flat_map (fun nm : text * LogixUpload.member =>
                          let '(n, m) := nm in if in_attrs (ml_attributes st) n then [obs_entry n m] else [])
                       (ml_internal st))
             (option_map (fun cap => (cap, ta_size ta - 4, cap)) (string_length st)).
  Proof. unfold build_datatype. destruct (string_length st); reflexivity. Qed.

  Theorem obs_of_built t infos :
    find_template ts (t_id t) = Some t -> tmpl_facts t ->
    Forall2 (info_good Good) (t_members t) infos ->
    Exp ts (t_id t) (odef_of_dt (exp_datatype infos t))
    /\ dt_name (exp_datatype infos t) = Some (display_name (t_name t)).
  Proof.
    intros Hfind Hfacts HF. split; [|unfold exp_datatype, build_datatype; destruct (string_length _); reflexivity].
    destruct (member_loop_template Good t infos Hfacts HF) as (Ei & Ea).
    unfold exp_datatype.
    rewrite odef_of_built, (string_detection Good t infos Hfacts HF), Ei, Ea.
    cbn [template_attrs_of ta_handle ta_size ta_defsize ta_count].
    rewrite (string_capacity t (tf_nopseudo t Hfacts) (tf_arr t Hfacts)).
    apply Exp_def; [exact Hfind|].
    exact (members_obs _ _ _ HF (tf_fields t Hfacts) (keep_visible t (tf_nodup t Hfacts))).
  Qed.
End Built.
