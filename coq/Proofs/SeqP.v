(* Proofs/SeqP.v — C17: arithmetic of the sequence counter and freshness over arbitrary histories. *)
From PV Require Import Base.Bytes Model.Seq.
From PV Require Import Gen.SeqGen.
From Coq Require Import ZifyBool.
Open Scope Z_scope.
Ltac Zify.zify_post_hook ::= Z.to_euclidean_division_equations.

(* --- generic in stop/start: one iteration of the translated generator body *)
Section Generic.
Variables stop start : Z.
Hypothesis Hss : start <= stop.
Let P := stop - start + 1.

Definition inv (v : Z) : Prop := start <= v <= stop + 1.
Definition pos (v : Z) : Z := (v - start) mod P.

Lemma step_inv v : inv v -> inv (snd (cycle_step stop start v)).
Proof.
  unfold inv, cycle_step. intros H. destruct (v >? stop) eqn:E; cbn [snd]; lia.
Qed.

Lemma step_yield v : inv v -> fst (cycle_step stop start v) = start + pos v.
Proof.
  unfold inv, cycle_step, pos, P. intros H. destruct (v >? stop) eqn:E; cbn [fst].
  - assert (v = stop + 1) by lia. subst v.
    replace (stop + 1 - start) with (1 * (stop - start + 1)) by lia.
    rewrite Z.mod_mul by lia. lia.
  - rewrite Z.mod_small by lia. lia.
Qed.

Lemma step_pos v : inv v -> pos (snd (cycle_step stop start v)) = (pos v + 1) mod P.
Proof.
  unfold inv, cycle_step, pos, P. intros H. destruct (v >? stop) eqn:E; cbn [snd].
  - assert (v = stop + 1) by lia. subst v.
    replace (stop + 1 - start) with (1 * (stop - start + 1)) by lia.
    rewrite Z.mod_mul by lia. replace (start + 1 - start) with 1 by lia. reflexivity.
  - replace (v + 1 - start) with ((v - start) + 1) by lia.
    rewrite <- Zplus_mod_idemp_l. reflexivity.
Qed.

Lemma yield_range v : inv v -> start <= fst (cycle_step stop start v) <= stop.
Proof.
  intros H. rewrite step_yield by exact H. unfold pos, P.
  assert (0 <= (v - start) mod (stop - start + 1) < stop - start + 1) by (apply Z.mod_pos_bound; lia). lia.
Qed.

Lemma pos_range v : 0 <= pos v < P.
Proof. unfold pos, P. apply Z.mod_pos_bound. lia. Qed.
End Generic.

(* --- instantiated with the constants CIPDriver.__init__ passes *)
Lemma consts_ok : SEQ_START <= SEQ_STOP /\ 2 <= PERIOD /\ 1 <= SEQ_START /\ SEQ_STOP < 65536.
Proof. vm_compute. repeat split; congruence. Qed.

Definition sinv := inv SEQ_STOP SEQ_START.
Definition spos := pos SEQ_STOP SEQ_START.

Lemma init_inv : sinv seq_init.
Proof. pose proof consts_ok as [H _]. unfold sinv, inv, seq_init, cycle_init. lia. Qed.

Lemma draw_inv v : sinv v -> sinv (snd (draw v)).
Proof. intros H. pose proof (proj1 consts_ok) as C. unfold sinv, draw in *. eauto using step_inv. Qed.
Lemma draw_yield v : sinv v -> fst (draw v) = SEQ_START + spos v.
Proof. intros H. exact (step_yield SEQ_STOP SEQ_START (proj1 consts_ok) v H). Qed.
Lemma draw_pos v : sinv v -> spos (snd (draw v)) = (spos v + 1) mod PERIOD.
Proof. intros H. exact (step_pos SEQ_STOP SEQ_START (proj1 consts_ok) v H). Qed.
Lemma spos_range v : 0 <= spos v < PERIOD.
Proof. exact (pos_range SEQ_STOP SEQ_START (proj1 consts_ok) v). Qed.

(* every count put on the wire fits the 16-bit field and is at least 1 *)
Lemma draw_range v : sinv v -> 1 <= fst (draw v) <= 65535.
Proof.
  intros H. pose proof (yield_range SEQ_STOP SEQ_START (proj1 consts_ok) v H) as R.
  pose proof consts_ok as (_ & _ & H1 & H2). unfold draw. lia.
Qed.

(* the state after g draws *)
Fixpoint skip (g : nat) (v : Z) : Z := match g with O => v | S g' => skip g' (snd (draw v)) end.
Lemma skip_inv g : forall v, sinv v -> sinv (skip g v).
Proof. induction g as [|g IH]; intros v H; cbn [skip]; [exact H|]. apply IH, draw_inv, H. Qed.
Lemma skip_pos g : forall v, sinv v -> spos (skip g v) = (spos v + Z.of_nat g) mod PERIOD.
Proof.
  induction g as [|g IH]; intros v H; cbn [skip].
  - pose proof (spos_range v). rewrite Z.add_0_r, Z.mod_small by lia. reflexivity.
  - rewrite IH by (apply draw_inv, H). rewrite draw_pos by exact H.
    rewrite Zplus_mod_idemp_l. f_equal. lia.
Qed.
Lemma skip_S g : forall v, skip (S g) v = snd (draw (skip g v)).
Proof. induction g as [|g IH]; intros v; [reflexivity|]. exact (IH (snd (draw v))). Qed.
Lemma nth_yield_skip k : forall v, nth_yield k v = fst (draw (skip k v)).
Proof. induction k as [|k IH]; intros v; [reflexivity|]. exact (IH (snd (draw v))). Qed.

(* k-th yielded value: start + (position + k) mod PERIOD *)
Lemma nth_yield_closed k v : sinv v -> nth_yield k v = SEQ_START + (spos v + Z.of_nat k) mod PERIOD.
Proof. intros Hv. rewrite nth_yield_skip, draw_yield, skip_pos by auto using skip_inv. reflexivity. Qed.

Lemma skip_closed g v : sinv v -> (0 < g)%nat ->
  skip g v = SEQ_START + (spos v + Z.of_nat g - 1) mod PERIOD + 1.
Proof.
  intros Hv Hg. destruct g as [|g]; [lia|].
  rewrite skip_S. change (snd (draw (skip g v))) with (fst (draw (skip g v)) + 1).
  rewrite <- nth_yield_skip, nth_yield_closed by exact Hv. do 3 f_equal. lia.
Qed.

Lemma mod_eq_iff a b m : 0 < m -> (a mod m = b mod m <-> (a - b) mod m = 0).
Proof.
  intros Hm. split; intros H.
  - rewrite Zminus_mod, H, Z.sub_diag. apply Z.mod_0_l. lia.
  - apply Z.mod_divide in H; [|lia]. destruct H as [q Hq].
    replace a with (b + q * m) by lia. apply Z.mod_add. lia.
Qed.

(* two draws give the same count exactly when their distance is a multiple of the period *)
Theorem cycle_equal_iff i j v : sinv v ->
  (nth_yield i v = nth_yield j v <-> (Z.of_nat i - Z.of_nat j) mod PERIOD = 0).
Proof.
  intros Hv. rewrite !nth_yield_closed by exact Hv. pose proof consts_ok as (_ & HP & _).
  replace (Z.of_nat i - Z.of_nat j) with (spos v + Z.of_nat i - (spos v + Z.of_nat j)) by lia.
  rewrite <- mod_eq_iff by lia. split; [apply Z.add_reg_l | intros ->; reflexivity].
Qed.

(* every event draws once: after [a] the counter has been stepped [length a] times *)
Lemma sent_counts_app a b : forall v, sent_counts (a ++ b) v = sent_counts a v ++ sent_counts b (skip (length a) v).
Proof.
  induction a as [|[|] a IH]; intros v; cbn [app sent_counts length skip]; [reflexivity| |f_equal]; apply IH.
Qed.
Lemma sent_counts_draws n : forall v, sent_counts (repeat Draw n) v = [].
Proof. induction n as [|n IH]; intros v; [reflexivity|]. apply IH. Qed.
Lemma gaps_aux_draws n r started : forall cur,
  gaps_aux (repeat Draw n ++ r) started cur = gaps_aux r started (cur + Z.of_nat n).
Proof.
  induction n as [|n IH]; intros cur; cbn [repeat app gaps_aux]; [f_equal; lia|].
  rewrite IH. f_equal. lia.
Qed.


(* main induction: with [cur] plain draws since the last send whose count had position [pp] *)
Lemma sent_counts_fresh h : forall v (prev : option Z) (cur : Z),
  sinv v -> 0 <= cur ->
  (match prev with
   | Some c => exists pp, c = SEQ_START + pp /\ 0 <= pp < PERIOD /\ spos v = (pp + 1 + cur) mod PERIOD
   | None => True end) ->
  has_repeat_from prev (sent_counts h v)
  = negb (forallb gap_ok (gaps_aux h (match prev with Some _ => true | None => false end) cur)).
Proof.
  pose proof consts_ok as (_ & HP & _).
  induction h as [|e r IH]; intros v prev cur Hv Hc Hp.
  - reflexivity.
  - destruct e; cbn [sent_counts gaps_aux].
    + (* Draw *)
      apply IH; [apply draw_inv, Hv | lia |].
      destruct prev as [c|]; [|exact I].
      destruct Hp as (pp & -> & Hpp & Hs). exists pp. repeat split; try lia.
      rewrite draw_pos by exact Hv. rewrite Hs, Zplus_mod_idemp_l. f_equal. lia.
    + (* DrawSend *)
      cbn [has_repeat_from].
      assert (Hnext : exists pp, fst (draw v) = SEQ_START + pp /\ 0 <= pp < PERIOD /\
                                 spos (snd (draw v)) = (pp + 1 + 0) mod PERIOD).
      { exists (spos v). pose proof (spos_range v). repeat split; try lia.
        - apply draw_yield, Hv.
        - rewrite draw_pos by exact Hv. f_equal. lia. }
      rewrite (IH (snd (draw v)) (Some (fst (draw v))) 0 (draw_inv v Hv) ltac:(lia) Hnext).
      destruct prev as [c|]; [| reflexivity].
      destruct Hp as (pp & -> & Hpp & Hs). cbn [forallb]. rewrite Bool.negb_andb. f_equal.
      rewrite draw_yield by exact Hv. rewrite Hs. unfold gap_ok. rewrite Bool.negb_involutive.
      assert (K : (pp + 1 + cur) mod PERIOD = pp <-> (cur + 1) mod PERIOD = 0).
      { rewrite <- (Z.mod_small pp PERIOD) at 2 by lia. rewrite mod_eq_iff by lia.
        replace (pp + 1 + cur - pp) with (cur + 1) by lia. reflexivity. }
      apply eq_iff_eq_true. rewrite !Z.eqb_eq, <- K.
      split; [apply Z.add_reg_l | intros ->; reflexivity].
Qed.

(* for EVERY history: a message repeats its predecessor's count exactly when the guard fires *)
Theorem repeat_iff_guard h : has_repeat (sent_counts h seq_init) = C17_guard h.
Proof.
  unfold has_repeat, C17_guard, gaps.
  apply (sent_counts_fresh h seq_init None 0 init_inv); [lia | exact I].
Qed.

Theorem fresh_guarded h : C17_guard h = false -> has_repeat (sent_counts h seq_init) = false.
Proof. intros H. rewrite repeat_iff_guard. exact H. Qed.

(* all sent counts are valid 16-bit values >= 1 *)
Lemma sent_counts_range h : forall v, sinv v -> Forall (fun c => 1 <= c <= 65535) (sent_counts h v).
Proof.
  induction h as [|e r IH]; intros v Hv; cbn [sent_counts]; [constructor|].
  destruct e; [apply IH, draw_inv, Hv|].
  constructor; [apply draw_range, Hv | apply IH, draw_inv, Hv].
Qed.

(* a history whose every gap is below PERIOD - 1 satisfies the guard: in particular any history in
   which each API call draws fewer than PERIOD - 1 counts between two sends *)
Lemma small_gaps_ok h : Forall (fun g => 0 <= g < PERIOD - 1) (gaps h) -> C17_guard h = false.
Proof.
  intros H. unfold C17_guard. apply Bool.negb_false_iff. apply forallb_forall. intros g Hg.
  rewrite Forall_forall in H. specialize (H g Hg). unfold gap_ok.
  pose proof consts_ok as (_ & HP & _). rewrite Z.mod_small by lia.
  apply Bool.negb_true_iff. lia.
Qed.

(* ---- sends in arbitrary order, by draw index *)
Lemma idx_repeat_iff idx : forall prev,
  has_repeat_from (option_map (fun p => nth_yield p seq_init) prev) (counts_of idx) = idx_repeat_from prev idx.
Proof.
  induction idx as [|i r IH]; intros prev; [reflexivity|].
  cbn [counts_of map has_repeat_from idx_repeat_from]. fold (counts_of r).
  rewrite <- (IH (Some i)). cbn [option_map]. f_equal.
  destruct prev as [p|]; cbn [option_map]; [|reflexivity].
  apply eq_iff_eq_true. rewrite !Z.eqb_eq. apply (cycle_equal_iff i p seq_init init_inv).
Qed.

Theorem repeat_iff_idx_guard idx : has_repeat (counts_of idx) = idx_guard idx.
Proof. exact (idx_repeat_iff idx None). Qed.

(* ---- window distinctness (stronger than "differs from the one before"): the counts of ANY set of
   messages whose draw indices lie within one period are pairwise distinct, and the period is exact:
   the count drawn PERIOD draws later is the same one. *)
Theorem window_injective i j :
  Z.abs (Z.of_nat i - Z.of_nat j) < PERIOD ->
  nth_yield i seq_init = nth_yield j seq_init -> i = j.
Proof.
  intros Hw E. apply (cycle_equal_iff i j seq_init init_inv) in E.
  pose proof consts_ok as (_ & HP & _).
  apply Z.mod_divide in E; [|lia]. destruct E as [q Hq].
  assert (q = 0) by nia. lia.
Qed.

Theorem window_NoDup idx :
  NoDup idx ->
  (forall i j, In i idx -> In j idx -> Z.abs (Z.of_nat i - Z.of_nat j) < PERIOD) ->
  NoDup (counts_of idx).
Proof.
  unfold counts_of. induction idx as [|a r IH]; intros Hnd Hw; cbn [map]; [constructor|].
  inversion Hnd as [|? ? Hna Hr]; subst. constructor.
  - intros Hin. apply in_map_iff in Hin. destruct Hin as [b [Eb Hb]].
    assert (b = a).
    { apply window_injective; [apply Hw; [right; exact Hb | left; reflexivity] | exact Eb]. }
    subst b. exact (Hna Hb).
  - apply IH; [exact Hr|]. intros i j Hi Hj. apply Hw; right; assumption.
Qed.

Theorem period_exact i : nth_yield (i + Z.to_nat PERIOD) seq_init = nth_yield i seq_init.
Proof.
  pose proof consts_ok as (_ & HP & _).
  apply (cycle_equal_iff _ _ seq_init init_inv).
  replace (Z.of_nat (i + Z.to_nat PERIOD) - Z.of_nat i) with (1 * PERIOD) by lia.
  apply Z.mod_mul. lia.
Qed.

(* the first PERIOD counts drawn on a connection are exactly SEQ_START .. SEQ_STOP in order *)
Theorem first_period_counts k : Z.of_nat k < PERIOD -> nth_yield k seq_init = SEQ_START + Z.of_nat k.
Proof.
  intros Hk. rewrite nth_yield_closed by exact init_inv.
  assert (E : spos seq_init = 0) by (vm_compute; reflexivity).
  rewrite E. rewrite Z.add_0_l, Z.mod_small by lia. reflexivity.
Qed.
