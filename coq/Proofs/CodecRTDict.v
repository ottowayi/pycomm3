(* Proofs/CodecRTDict.v — C06: the insertion-ordered dict that Struct._decode builds
   ({typ.name: typ.decode(stream) for typ in members}, then pop("") and pop(None)) is the list of
   the NAMED members with their values, when the named members have distinct names. *)
From PV Require Import Base.Bytes Base.ListLemmas Base.Res Model.Codec Model.CodecDom Proofs.CodecTy.
From Coq Require Import ZifyBool.
Open Scope Z_scope.

Lemma keyb_eq a b : keyb a b = true <-> a = b.
Proof.
  destruct a as [a|], b as [b|]; cbn [keyb]; split; intros H; try discriminate; try reflexivity.
  - f_equal. now apply text_eqb_eq.
  - injection H as ->. now apply text_eqb_eq.
Qed.

Lemma keyb_refl a : keyb a a = true.
Proof. now apply keyb_eq. Qed.

Lemma keyb_neq a b : keyb a b = false <-> a <> b.
Proof.
  split.
  - intros H E. apply keyb_eq in E. congruence.
  - intros H. destruct (keyb a b) eqn:E; [|reflexivity]. apply keyb_eq in E. contradiction.
Qed.

Definition has_key (d : list (key * val)) (k : key) : bool := existsb (fun kv => keyb (fst kv) k) d.

Lemma has_key_cons kv d k : has_key (kv :: d) k = keyb (fst kv) k || has_key d k.
Proof. reflexivity. Qed.

Lemma dict_set_fresh d k v : has_key d k = false -> dict_set d k v = d ++ [(k, v)].
Proof.
  induction d as [|[k' v'] d IH]; cbn [has_key existsb dict_set app fst]; [reflexivity|].
  intros H. apply orb_false_elim in H as [H1 H2]. rewrite H1. f_equal. now apply IH.
Qed.

Lemma has_key_app d1 d2 k : has_key (d1 ++ d2) k = has_key d1 k || has_key d2 k.
Proof. unfold has_key. now rewrite existsb_app. Qed.

Lemma dict_get_app_fresh d k v : has_key d k = false -> dict_get (d ++ [(k, v)]) k = Ok v.
Proof.
  induction d as [|[k' v'] d IH]; cbn [has_key existsb dict_get app fst].
  - intros _. now rewrite keyb_refl.
  - intros H. apply orb_false_elim in H as [H1 H2]. rewrite H1. now apply IH.
Qed.

(* the named part of a dict *)
Definition strip (d : list (key * val)) : list (key * val) := filter (fun kv => negb (unnamed (fst kv))) d.

Fixpoint dkeys_nodup (d : list (key * val)) : bool :=
  match d with
  | [] => true
  | kv :: r => negb (has_key r (fst kv)) && dkeys_nodup r
  end.

Lemma dict_pop_filter d k :
  dkeys_nodup d = true -> dict_pop d k = filter (fun kv => negb (keyb (fst kv) k)) d.
Proof.
  induction d as [|[k' v'] d IH]; cbn [dkeys_nodup dict_pop filter fst]; [reflexivity|].
  intros H. apply andb_prop in H as [H1 H2].
  destruct (keyb k' k) eqn:E; cbn [negb].
  - apply keyb_eq in E. subst k'. apply negb_true_iff in H1. symmetry. apply filter_all, forallb_forall.
    intros kv Hin. unfold has_key in H1. now rewrite (existsb_false_In _ _ _ H1 Hin).
  - f_equal. now apply IH.
Qed.

Lemma has_key_filter d k f : has_key (filter f d) k = true -> has_key d k = true.
Proof.
  unfold has_key. rewrite !existsb_exists. intros (kv & Hin & Hk). exists kv. split; [|exact Hk].
  now apply filter_In in Hin.
Qed.

Lemma dkeys_nodup_filter d f : dkeys_nodup d = true -> dkeys_nodup (filter f d) = true.
Proof.
  induction d as [|kv d IH]; cbn [filter dkeys_nodup]; [trivial|].
  intros H. apply andb_prop in H as [H1 H2]. destruct (f kv); cbn [dkeys_nodup]; [|now apply IH].
  rewrite (IH H2), andb_true_r. apply negb_true_iff. apply negb_true_iff in H1.
  destruct (has_key (filter f d) (fst kv)) eqn:E; [|reflexivity]. apply has_key_filter in E. congruence.
Qed.

Lemma unnamed_cases k : unnamed k = keyb k (Some []) || keyb k None.
Proof. destruct k as [[|c s]|]; reflexivity. Qed.

Lemma final_dict_strip d :
  dkeys_nodup d = true -> dict_pop (dict_pop d (Some [])) None = strip d.
Proof.
  intros H. rewrite (dict_pop_filter d _ H).
  rewrite dict_pop_filter by now apply dkeys_nodup_filter.
  rewrite filter_filter. apply filter_ext. intros [k v]. cbn [fst]. rewrite unnamed_cases.
  now destruct (keyb k (Some [])), (keyb k None).
Qed.

Lemma has_key_dict_set d k v k2 : has_key (dict_set d k v) k2 = has_key d k2 || keyb k k2.
Proof.
  induction d as [|[k' v'] d IH]; cbn [dict_set has_key existsb fst].
  - now rewrite orb_false_r.
  - destruct (keyb k' k) eqn:E; cbn [has_key existsb fst].
    + apply keyb_eq in E. subst k'. destruct (keyb k k2); cbn; [reflexivity|now rewrite orb_false_r].
    + fold (has_key (dict_set d k v) k2). rewrite IH. now rewrite orb_assoc.
Qed.

Lemma dkeys_nodup_dict_set d k v : dkeys_nodup d = true -> dkeys_nodup (dict_set d k v) = true.
Proof.
  induction d as [|[k' v'] d IH]; cbn [dict_set dkeys_nodup]; [reflexivity|].
  intros H. apply andb_prop in H as [H1 H2]. cbn [fst] in H1.
  destruct (keyb k' k) eqn:E; cbn [dkeys_nodup fst].
  - now rewrite H1, H2.
  - rewrite (IH H2), andb_true_r. rewrite has_key_dict_set. apply negb_true_iff in H1. rewrite H1. cbn [orb].
    apply negb_true_iff. destruct (keyb k k') eqn:E2; [|reflexivity].
    apply keyb_eq in E2. subst. now rewrite keyb_refl in E.
Qed.

Lemma strip_cons kv d : strip (kv :: d) = if negb (unnamed (fst kv)) then kv :: strip d else strip d.
Proof. reflexivity. Qed.

Lemma has_key_strip d k : unnamed k = false -> has_key (strip d) k = has_key d k.
Proof.
  intros Hk. induction d as [|[k' v'] d IH]; [reflexivity|].
  rewrite strip_cons, has_key_cons. cbn [fst]. destruct (unnamed k') eqn:E; cbn [negb].
  - rewrite IH. destruct (keyb k' k) eqn:E2; [|reflexivity]. apply keyb_eq in E2. subst. congruence.
  - rewrite has_key_cons. cbn [fst]. now rewrite IH.
Qed.

Lemma strip_dict_set d k v : strip (dict_set d k v) = if unnamed k then strip d else dict_set (strip d) k v.
Proof.
  induction d as [|[k' v'] d IH]; cbn [dict_set]; [rewrite strip_cons; cbn [fst]; now destruct (unnamed k)|].
  destruct (keyb k' k) eqn:E; rewrite !strip_cons; cbn [fst].
  - apply keyb_eq in E. subst k'. destruct (unnamed k); cbn [negb dict_set]; [reflexivity|now rewrite keyb_refl].
  - rewrite IH. destruct (unnamed k); [reflexivity|]. destruct (unnamed k'); cbn [negb dict_set]; [reflexivity|now rewrite E].
Qed.

Definition set_all (acc kvs : list (key * val)) : list (key * val) :=
  fold_left (fun a kv => dict_set a (fst kv) (snd kv)) kvs acc.

Lemma set_all_cons acc k v kvs : set_all acc ((k, v) :: kvs) = set_all (dict_set acc k v) kvs.
Proof. reflexivity. Qed.

Lemma set_all_app acc a b : set_all acc (a ++ b) = set_all (set_all acc a) b.
Proof. apply fold_left_app. Qed.

Lemma dkeys_nodup_set_all kvs : forall acc, dkeys_nodup acc = true -> dkeys_nodup (set_all acc kvs) = true.
Proof. induction kvs as [|[k v] kvs IH]; intros acc H; [exact H|]. apply IH. now apply dkeys_nodup_dict_set. Qed.

Lemma strip_set_all kvs : forall acc, strip (set_all acc kvs) = set_all (strip acc) (strip kvs).
Proof.
  induction kvs as [|[k v] kvs IH]; intros acc; [reflexivity|].
  rewrite set_all_cons, IH, strip_dict_set, strip_cons. cbn [fst]. now destruct (unnamed k).
Qed.

Lemma set_all_fresh kvs : forall acc,
  keys_nodup (map fst kvs) = true -> forallb (fun k => negb (has_key acc k)) (map fst kvs) = true ->
  set_all acc kvs = acc ++ kvs.
Proof.
  induction kvs as [|[k v] kvs IH]; intros acc Hnd Hf; [now rewrite app_nil_r|].
  cbn [map fst keys_nodup] in Hnd. apply andb_prop in Hnd as [Hn1 Hn2].
  cbn [map fst forallb] in Hf. apply andb_prop in Hf as [Hf1 Hf2]. apply negb_true_iff in Hf1, Hn1.
  rewrite set_all_cons, dict_set_fresh by exact Hf1. rewrite IH.
  - now rewrite <- app_assoc.
  - exact Hn2.
  - apply forallb_forall. intros k' Hin. rewrite forallb_forall in Hf2. specialize (Hf2 k' Hin).
    apply negb_true_iff in Hf2. rewrite has_key_app, Hf2. cbn [has_key existsb fst orb].
    apply negb_true_iff. rewrite orb_false_r. destruct (keyb k k') eqn:E; [|reflexivity].
    rewrite <- Hn1. symmetry. apply existsb_exists. eauto.
Qed.
