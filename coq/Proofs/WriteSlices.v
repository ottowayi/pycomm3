(* Proofs/WriteSlices.v — C02, the request kinds that address ONE element through an ARRAY type class:

     write_correct_element   `arr[i]`, `udts[i]`, `strs[i]`, `udt.arr[j]`, `udts[i].inner[k]` (no `{n}`): the
                             tag_info the driver holds is the ARRAY's (type_class = Array(n0, element)), the
                             value is one scalar / str / dict; encode_value wraps it as [value] and encodes one
                             element (write_correct_value / _string / _struct are stated for a
                             NON-array type class: scalar tags and scalar members);
     write_correct_slice1    the same place written as `...{1}` with a list (any length >= 1: the first item is
                             written, the rest ignored, by the code as by the reference); write_correct_array /
                             write_correct_slice are stated for 1 < n.

   Element types: the class Proofs/WriteStruct.ty_guard minus bit strings (integers, REAL, LREAL, strings on
   the standard layout, structures with packed BOOLs / BOOL[32k] members / nested structures); an element of a
   BOOL array is a different place (PlBools: write_correct_bool_element / _bool_slice1).
   The type field of the request is whatever packed_data_type gives for the tag_info, under the two
   hypotheses the target needs: it parses as a type the location matches (instances for elementary and
   structure elements follow the generic statement). *)
From Coq Require Import ZifyBool String.
From PV Require Import Base.Bytes Base.BytesLemmas Base.Res Base.Proto Base.PyStr Model.CodecFloat Model.Path Model.LogixPlan Model.LogixWrite.
From PV Require Import Spec.EncapParser Spec.MRParser Spec.TargetIface Spec.TargetCore Spec.Project Spec.Expect Spec.TargetLogix.
From PV Require Import Proofs.TargetCoreP Proofs.TargetLogixP Proofs.WriteBits Proofs.WriteMsg Proofs.WriteEnc Proofs.WriteCorrect Proofs.WriteFull Proofs.WriteBools Proofs.WriteStruct.
Open Scope Z_scope.
Ltac Zify.zify_post_hook ::= Z.to_euclidean_division_equations.

Definition stmt_element : Prop :=
  forall p m r inst off ty dims avail e x rv m_ref img id tag info n0 pt tyv ui seq path,
  ty_guard (depth_fuel p) p ty = true -> is_bits_ty ty = false -> wty_of (depth_fuel p) p ty = Some e ->
  resolve p r = Some (PlData inst off ty dims avail) -> r_bit r = None -> r_count r = None ->
  mem_get m inst = Some img ->
  ti_type info = WArray n0 e -> PyStr.text_eqb (ti_type_name info) n_DWORD = false ->
  packed_data_type info = Ok pt ->
  let l := mkWLoc inst off ty dims avail None in
  (forall rest, parse_wtype (pt ++ rest) = Some (tyv, rest)) -> type_matches p l tyv = true ->
  denotes x rv ->
  ref_write p m r rv = Some m_ref ->
  1 <= avail -> 0 <= seq < 65536 ->
  let q := mkParsed id false tag None 1 None info x in
  path_of tag info ui = Ok (Some path) ->
  exists data pk pk1,
    encode_value q = Ok (data, 1)
    /\ new_write_packet KWrite seq tag 1 info id ui 0 data = Ok pk
    /\ build_message pk = Ok pk1
    /\ k_message pk1 = le_enc 2 seq ++ [77] ++ path ++ write_data pt 1 data
    /\ svc_write p m img l (write_data pt 1 data) = (m_ref, mr_ok [], [EvApp 1 [inst; off; 77] data]).

Theorem write_correct_element : stmt_element.
Proof.
  intros p m r inst off ty dims avail e x rv m_ref img id tag info n0 pt tyv ui seq path
         Hg Hbits Hwt Hres Hbit Hcnt Hmem Hty _ Hpt l Hparse Htm Hx Hw Hav Hseq q Hpath.
  exact (write_correct_one p m r inst off ty dims avail e x rv m_ref img id tag info pt tyv ui seq path
           Hg Hwt Hres Hbit Hcnt Hmem (or_intror (conj Hbits (ex_intro _ n0 Hty))) Hpt Hparse Htm Hx Hw Hav Hseq Hpath).
Qed.

Definition stmt_slice1 : Prop :=
  forall p m r inst off ty dims avail e l_py vs m_ref img id tag info n0 pt tyv ui seq path,
  ty_guard (depth_fuel p) p ty = true -> is_bits_ty ty = false -> wty_of (depth_fuel p) p ty = Some e ->
  resolve p r = Some (PlData inst off ty dims avail) -> r_bit r = None -> r_count r = Some 1 ->
  mem_get m inst = Some img ->
  ti_type info = WArray n0 e -> PyStr.text_eqb (ti_type_name info) n_DWORD = false ->
  packed_data_type info = Ok pt ->
  let l := mkWLoc inst off ty dims avail None in
  (forall rest, parse_wtype (pt ++ rest) = Some (tyv, rest)) -> type_matches p l tyv = true ->
  Forall2 denotes l_py vs ->
  ref_write p m r (RList vs) = Some m_ref ->
  0 <= seq < 65536 ->
  let q := mkParsed id false tag None 1 None info (PList l_py) in
  path_of tag info ui = Ok (Some path) ->
  exists data pk pk1,
    encode_value q = Ok (data, 1)
    /\ new_write_packet KWrite seq tag 1 info id ui 0 data = Ok pk
    /\ build_message pk = Ok pk1
    /\ k_message pk1 = le_enc 2 seq ++ [77] ++ path ++ write_data pt 1 data
    /\ svc_write p m img l (write_data pt 1 data) = (m_ref, mr_ok [], [EvApp 1 [inst; off; 77] data]).

Theorem write_correct_slice1 : stmt_slice1.
Proof.
  intros p m r inst off ty dims avail e l_py vs m_ref img id tag info n0 pt tyv ui seq path
         Hg Hbits Hwt Hres Hbit Hcnt Hmem Hty _ Hpt l Hparse Htm H2 Hw Hseq q Hpath.
  exact (write_correct_many p m r inst off ty dims avail e l_py vs 1 m_ref img id tag info n0 pt tyv ui seq path
           Hg Hbits Hwt Hres Hbit Hcnt Hmem Hty Hpt Hparse Htm H2 Hw ltac:(lia) Hseq Hpath).
Qed.

(* an element of an array of integers / REALs / LREALs: tag_info of an atomic array *)
Corollary write_correct_element_atom p m r inst off c dims avail name x rv m_ref img id tag n0 tyh inst_id ui seq path :
  resolve p r = Some (PlData inst off (BAtom c) dims avail) -> r_bit r = None -> r_count r = None ->
  mem_get m inst = Some img ->
  atom_name c = Some name -> value_atom c = true ->
  denotes x rv -> ref_write p m r rv = Some m_ref -> 1 <= avail -> 0 <= seq < 65536 ->
  let info := mkInfo false name (WArray n0 (WElem name)) tyh inst_id in
  let q := mkParsed id false tag None 1 None info x in
  let l := mkWLoc inst off (BAtom c) dims avail None in
  path_of tag info ui = Ok (Some path) ->
  exists data pk pk1,
    encode_value q = Ok (data, 1)
    /\ new_write_packet KWrite seq tag 1 info id ui 0 data = Ok pk
    /\ build_message pk = Ok pk1
    /\ k_message pk1 = le_enc 2 seq ++ [77] ++ path ++ write_data (le_enc 2 c) 1 data
    /\ svc_write p m img l (write_data (le_enc 2 c) 1 data) = (m_ref, mr_ok [], [EvApp 1 [inst; off; 77] data]).
Proof.
  intros Hres Hbit Hcnt Hmem Hn Hv Hx Hw Hav Hseq info q l Hpath.
  destruct (atom_covered p c name Hn Hv) as (Hg & Hwt & Hb).
  destruct (atom_type_field p l c name (WArray n0 (WElem name)) tyh inst_id eq_refl Hn Hv) as (Hpt & Hparse & Htm).
  exact (write_correct_one p m r inst off _ dims avail _ x rv m_ref img id tag info _ _ ui seq path
           Hg Hwt Hres Hbit Hcnt Hmem (or_intror (conj Hb (ex_intro _ n0 eq_refl))) Hpt Hparse Htm Hx Hw Hav Hseq Hpath).
Qed.

(* an element of an array of structures / strings *)
Corollary write_correct_element_struct p m r inst off tid dims avail t e x rv m_ref img id tag n0 inst_id ui seq path :
  ty_guard (depth_fuel p) p (BStruct tid) = true -> wty_of (depth_fuel p) p (BStruct tid) = Some e ->
  resolve p r = Some (PlData inst off (BStruct tid) dims avail) -> r_bit r = None -> r_count r = None ->
  mem_get m inst = Some img ->
  find_template (p_templates p) tid = Some t -> 0 <= t_handle t < 65536 -> PyStr.text_eqb (t_name t) n_DWORD = false ->
  denotes x rv -> ref_write p m r rv = Some m_ref -> 1 <= avail -> 0 <= seq < 65536 ->
  let info := mkInfo true (t_name t) (WArray n0 e) (t_handle t) inst_id in
  let q := mkParsed id false tag None 1 None info x in
  let l := mkWLoc inst off (BStruct tid) dims avail None in
  path_of tag info ui = Ok (Some path) ->
  exists data pk pk1,
    encode_value q = Ok (data, 1)
    /\ new_write_packet KWrite seq tag 1 info id ui 0 data = Ok pk
    /\ build_message pk = Ok pk1
    /\ k_message pk1 = le_enc 2 seq ++ [77] ++ path ++ write_data (160 :: 2 :: le_enc 2 (t_handle t)) 1 data
    /\ svc_write p m img l (write_data (160 :: 2 :: le_enc 2 (t_handle t)) 1 data) = (m_ref, mr_ok [], [EvApp 1 [inst; off; 77] data]).
Proof.
  intros Hg Hwt Hres Hbit Hcnt Hmem Hft Hh _ Hx Hw Hav Hseq info q l Hpath.
  destruct (struct_type_field p l tid t (t_name t) (WArray n0 e) inst_id eq_refl Hft Hh) as (Hpt & Hparse & Htm).
  exact (write_correct_one p m r inst off _ dims avail e x rv m_ref img id tag info _ _ ui seq path
           Hg Hwt Hres Hbit Hcnt Hmem (or_intror (conj eq_refl (ex_intro _ n0 eq_refl))) Hpt Hparse Htm Hx Hw Hav Hseq Hpath).
Qed.

(* `{1}` instances *)
Corollary write_correct_slice1_atom p m r inst off c dims avail name l_py vs m_ref img id tag n0 tyh inst_id ui seq path :
  resolve p r = Some (PlData inst off (BAtom c) dims avail) -> r_bit r = None -> r_count r = Some 1 ->
  mem_get m inst = Some img ->
  atom_name c = Some name -> value_atom c = true ->
  Forall2 denotes l_py vs -> ref_write p m r (RList vs) = Some m_ref -> 0 <= seq < 65536 ->
  let info := mkInfo false name (WArray n0 (WElem name)) tyh inst_id in
  let q := mkParsed id false tag None 1 None info (PList l_py) in
  let l := mkWLoc inst off (BAtom c) dims avail None in
  path_of tag info ui = Ok (Some path) ->
  exists data pk pk1,
    encode_value q = Ok (data, 1)
    /\ new_write_packet KWrite seq tag 1 info id ui 0 data = Ok pk
    /\ build_message pk = Ok pk1
    /\ k_message pk1 = le_enc 2 seq ++ [77] ++ path ++ write_data (le_enc 2 c) 1 data
    /\ svc_write p m img l (write_data (le_enc 2 c) 1 data) = (m_ref, mr_ok [], [EvApp 1 [inst; off; 77] data]).
Proof.
  intros Hres Hbit Hcnt Hmem Hn Hv H2 Hw Hseq info q l Hpath.
  destruct (atom_covered p c name Hn Hv) as (Hg & Hwt & Hb).
  destruct (atom_type_field p l c name (WArray n0 (WElem name)) tyh inst_id eq_refl Hn Hv) as (Hpt & Hparse & Htm).
  exact (write_correct_many p m r inst off _ dims avail _ l_py vs 1 m_ref img id tag info n0 _ _ ui seq path
           Hg Hb Hwt Hres Hbit Hcnt Hmem eq_refl Hpt Hparse Htm H2 Hw ltac:(lia) Hseq Hpath).
Qed.

Corollary write_correct_slice1_struct p m r inst off tid dims avail t e l_py vs m_ref img id tag n0 inst_id ui seq path :
  ty_guard (depth_fuel p) p (BStruct tid) = true -> wty_of (depth_fuel p) p (BStruct tid) = Some e ->
  resolve p r = Some (PlData inst off (BStruct tid) dims avail) -> r_bit r = None -> r_count r = Some 1 ->
  mem_get m inst = Some img ->
  find_template (p_templates p) tid = Some t -> 0 <= t_handle t < 65536 -> PyStr.text_eqb (t_name t) n_DWORD = false ->
  Forall2 denotes l_py vs -> ref_write p m r (RList vs) = Some m_ref -> 0 <= seq < 65536 ->
  let info := mkInfo true (t_name t) (WArray n0 e) (t_handle t) inst_id in
  let q := mkParsed id false tag None 1 None info (PList l_py) in
  let l := mkWLoc inst off (BStruct tid) dims avail None in
  path_of tag info ui = Ok (Some path) ->
  exists data pk pk1,
    encode_value q = Ok (data, 1)
    /\ new_write_packet KWrite seq tag 1 info id ui 0 data = Ok pk
    /\ build_message pk = Ok pk1
    /\ k_message pk1 = le_enc 2 seq ++ [77] ++ path ++ write_data (160 :: 2 :: le_enc 2 (t_handle t)) 1 data
    /\ svc_write p m img l (write_data (160 :: 2 :: le_enc 2 (t_handle t)) 1 data) = (m_ref, mr_ok [], [EvApp 1 [inst; off; 77] data]).
Proof.
  intros Hg Hwt Hres Hbit Hcnt Hmem Hft Hh _ H2 Hw Hseq info q l Hpath.
  destruct (struct_type_field p l tid t (t_name t) (WArray n0 e) inst_id eq_refl Hft Hh) as (Hpt & Hparse & Htm).
  exact (write_correct_many p m r inst off _ dims avail e l_py vs 1 m_ref img id tag info n0 _ _ ui seq path
           Hg eq_refl Hwt Hres Hbit Hcnt Hmem eq_refl Hpt Hparse Htm H2 Hw ltac:(lia) Hseq Hpath).
Qed.

(* udtMix (hidden SINT host with two BOOLs, INT, DINT[2]; Proofs/WriteFull.ex_udt), a string type, a structure
   with a string member; tags: mix : udtMix, mixes : udtMix[3], us : udtS *)
Definition ex_str8 : template :=
  mkTemplate (zs "STR8") None 3000 4000 12 0
    [ mkMember (zs "LEN") (BAtom C_DINT) 0 0 0 false;
      mkMember (zs "DATA") (BAtom C_SINT) 8 4 0 false ].
Definition ex_udts : template :=
  mkTemplate (zs "udtS") None 3001 4001 16 0
    [ mkMember (zs "Name") (BStruct 3000) 0 0 0 false;
      mkMember (zs "N") (BAtom C_DINT) 0 12 0 false ].
Definition ex2_proj : project :=
  mkProject [ex_udt; ex_str8; ex_udts]
    [ mkTag (zs "mix") 9 ScCtrl (BStruct 672) [] 0 false 0 0 0 0;
      mkTag (zs "mixes") 11 ScCtrl (BStruct 672) [3] 0 false 0 0 0 0;
      mkTag (zs "us") 13 ScCtrl (BStruct 3001) [] 0 false 0 0 0 0 ].
Definition ex2_img9 : bytes := map (fun k => 200 + k) (map Z.of_nat (seq 0 12)).
Definition ex2_img11 : bytes := map (fun k => 100 + k) (map Z.of_nat (seq 0 36)).
Definition ex2_img13 : bytes := map Z.of_nat (seq 0 16).
Definition ex2_mem : mem := [(9, ex2_img9); (11, ex2_img11); (13, ex2_img13)].
Definition ex2_rv : rvalue :=
  RStruct [(zs "bRun", RBool true); (zs "bFault", RBool false); (zs "Count", RInt (-2)); (zs "Vals", RList [RInt 1; RInt (-1)])].
Definition ex2_ty : option wty := Eval vm_compute in wty_of (depth_fuel ex2_proj) ex2_proj (BStruct 672).
Definition ex2_enc : bytes := [1; 0; 254; 255; 1; 0; 0; 0; 255; 255; 255; 255].

Lemma ex2_denotes : denotes (py_of ex2_rv) ex2_rv.
Proof. cbv [py_of ex2_rv]. repeat (constructor; cbn [fst snd]). Qed.

(* `mixes[1]` := dict — an element of an array of structures; bytes 12..23 of instance 11 *)
Example ex_element_struct :
  let r := mkReq None [mkSeg (zs "mixes") [1]] None None in
  match ex2_ty with
  | None => False
  | Some e =>
    let info := mkInfo true (zs "udtMix") (WArray 3 e) 17185 (Some 11) in
    let q := mkParsed 0 false (zs "mixes[1]") None 1 None info (py_of ex2_rv) in
    wf_project ex2_proj = true /\ wf_mem ex2_proj ex2_mem = true
    /\ ty_guard (depth_fuel ex2_proj) ex2_proj (BStruct 672) = true
    /\ wty_of (depth_fuel ex2_proj) ex2_proj (BStruct 672) = Some e
    /\ resolve ex2_proj r = Some (PlData 11 12 (BStruct 672) [] 2)
    /\ ref_write ex2_proj ex2_mem r ex2_rv
       = Some [(9, ex2_img9); (11, firstn 12 ex2_img11 ++ ex2_enc ++ skipn 24 ex2_img11); (13, ex2_img13)]
    /\ encode_value q = Ok (ex2_enc, 1)
    /\ path_of (zs "mixes[1]") info false = Ok (Some [5; 145; 5; 109; 105; 120; 101; 115; 0; 40; 1])
    /\ svc_write ex2_proj ex2_mem ex2_img11 (mkWLoc 11 12 (BStruct 672) [] 2 None) (write_data (160 :: 2 :: le_enc 2 17185) 1 ex2_enc)
       = ([(9, ex2_img9); (11, firstn 12 ex2_img11 ++ ex2_enc ++ skipn 24 ex2_img11); (13, ex2_img13)], mr_ok [], [EvApp 1 [11; 12; 77] ex2_enc])
  end.
Proof. vm_compute. repeat split; reflexivity. Qed.

(* `mixes[2]{1}` := [dict, dict] — the first item is written, the second ignored *)
Example ex_slice1_struct :
  let r := mkReq None [mkSeg (zs "mixes") [2]] None (Some 1) in
  match ex2_ty with
  | None => False
  | Some e =>
    let info := mkInfo true (zs "udtMix") (WArray 3 e) 17185 (Some 11) in
    let q := mkParsed 0 false (zs "mixes[2]") None 1 None info (PList [py_of ex2_rv; PInt 5]) in
    resolve ex2_proj r = Some (PlData 11 24 (BStruct 672) [] 1)
    /\ ref_write ex2_proj ex2_mem r (RList [ex2_rv; RInt 5])
       = Some [(9, ex2_img9); (11, firstn 24 ex2_img11 ++ ex2_enc); (13, ex2_img13)]
    /\ encode_value q = Ok (ex2_enc, 1)
    /\ svc_write ex2_proj ex2_mem ex2_img11 (mkWLoc 11 24 (BStruct 672) [] 1 None) (write_data (160 :: 2 :: le_enc 2 17185) 1 ex2_enc)
       = ([(9, ex2_img9); (11, firstn 24 ex2_img11 ++ ex2_enc); (13, ex2_img13)], mr_ok [], [EvApp 1 [11; 24; 77] ex2_enc])
  end.
Proof. vm_compute. repeat split; reflexivity. Qed.

(* member paths.  `mix.Vals[1]` := 7: an element of an ARRAY MEMBER (tag_info = the member's Array(2, DINT));
   `mixes[1].Count` := -2 and `us.Name` := "ABC": scalar members (the places of write_correct_value / _string) *)
Example ex_member_paths :
  let r3 := mkReq None [mkSeg (zs "mix") []; mkSeg (zs "Vals") [1]] None None in
  let r4 := mkReq None [mkSeg (zs "mixes") [1]; mkSeg (zs "Count") []] None None in
  let r5 := mkReq None [mkSeg (zs "us") []; mkSeg (zs "Name") []] None None in
  let info3 := mkInfo false (zs "DINT") (WArray 2 (WElem (zs "DINT"))) 0 None in
  let q3 := mkParsed 0 false (zs "mix.Vals[1]") None 1 None info3 (PInt 7) in
  resolve ex2_proj r3 = Some (PlData 9 8 (BAtom C_DINT) [] 1)
  /\ ref_write ex2_proj ex2_mem r3 (RInt 7) = Some [(9, firstn 8 ex2_img9 ++ [7; 0; 0; 0]); (11, ex2_img11); (13, ex2_img13)]
  /\ encode_value q3 = Ok ([7; 0; 0; 0], 1)
  /\ path_of (zs "mix.Vals[1]") info3 false = Ok (Some [7; 145; 3; 109; 105; 120; 0; 145; 4; 86; 97; 108; 115; 40; 1])
  /\ svc_write ex2_proj ex2_mem ex2_img9 (mkWLoc 9 8 (BAtom C_DINT) [] 1 None) (write_data (le_enc 2 C_DINT) 1 [7; 0; 0; 0])
     = ([(9, firstn 8 ex2_img9 ++ [7; 0; 0; 0]); (11, ex2_img11); (13, ex2_img13)], mr_ok [], [EvApp 1 [9; 8; 77] [7; 0; 0; 0]])
  /\ resolve ex2_proj r4 = Some (PlData 11 14 (BAtom C_INT) [] 1)
  /\ ref_write ex2_proj ex2_mem r4 (RInt (-2))
     = Some [(9, ex2_img9); (11, firstn 14 ex2_img11 ++ [254; 255] ++ skipn 16 ex2_img11); (13, ex2_img13)]
  /\ resolve ex2_proj r5 = Some (PlData 13 0 (BStruct 3000) [] 1)
  /\ ref_write ex2_proj ex2_mem r5 (RStr [65; 66; 67])
     = Some [(9, ex2_img9); (11, ex2_img11); (13, [3; 0; 0; 0; 65; 66; 67; 0; 0; 0; 0; 0; 12; 13; 14; 15])].
Proof. vm_compute. repeat split; reflexivity. Qed.
