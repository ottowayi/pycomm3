(* Proofs/WritePlan.v — C02 `applied_once`: every request of a write call that parsed and encoded
   is served by exactly one packet of what LogixDriver.write sends — one Write Tag service (alone or
   embedded in one multi-service packet), or one fragmented transfer, or (bit writes) the one
   Read-Modify-Write of its merged group — and a request that failed is served by none.
   Rests on the planner theorems of Proofs/PlanP.v (write_multi_partition). *)
From Coq Require Import ZifyBool Permutation.
From PV Require Import Base.Bytes Base.ListLemmas Base.Res Base.PyStr Model.Path Model.LogixPlan Model.LogixWrite Proofs.PlanP.
Open Scope Z_scope.

Notation cnt := (count_occ Z.eq_dec).

Theorem write_single_partition conn reqs :
  plan_ids (filter_map (write_build_single conn) reqs) = map w_id (wvalid reqs).
Proof.
  unfold wvalid. induction reqs as [|w reqs IH]; [reflexivity|]. cbn [filter_map filter].
  unfold write_build_single at 1.
  destruct (w_err w); cbn [negb andb]; [exact IH|].
  destruct (w_bit w); cbn [orb].
  - cbn [map plan_ids flat_map packet_ids app]. fold (plan_ids (filter_map (write_build_single conn) reqs)). rewrite IH. reflexivity.
  - destruct (w_enc_err w); cbn [negb]; [exact IH|].
    destruct (w_val w + w_msg w >? conn); cbn [map plan_ids flat_map packet_ids app];
      fold (plan_ids (filter_map (write_build_single conn) reqs)); rewrite IH; reflexivity.
Qed.

Theorem write_plan_partition conn micro reqs :
  Permutation (plan_ids (write_build_requests conn micro reqs)) (map w_id (wvalid reqs)).
Proof.
  unfold write_build_requests. destruct (negb (length reqs =? 1)%nat && negb micro).
  - apply write_multi_partition.
  - rewrite write_single_partition. apply Permutation_refl.
Qed.

Definition w_valid (w : wreq) : bool := negb (w_err w) && (w_bit w || negb (w_enc_err w)).

(* applied_once over the planner: with distinct request ids (they are the positions in the call),
   a valid request occurs in exactly one packet of the plan, exactly once; an invalid one in none *)
Theorem applied_once_plan conn micro reqs w :
  NoDup (map w_id reqs) -> In w reqs ->
  cnt (plan_ids (write_build_requests conn micro reqs)) (w_id w) = if w_valid w then 1%nat else 0%nat.
Proof.
  intros Hnd Hin.
  pose proof (write_plan_partition conn micro reqs) as P.
  rewrite (proj1 (Permutation_count_occ Z.eq_dec _ _) P).
  pose proof (NoDup_map_filter w_id (fun w => negb (w_err w) && (w_bit w || negb (w_enc_err w))) reqs Hnd) as Hnd2.
  fold (wvalid reqs) in Hnd2.
  destruct (w_valid w) eqn:Hv.
  - apply (proj1 (NoDup_count_occ' Z.eq_dec _) Hnd2). apply in_map, filter_In. split; assumption.
  - apply count_occ_not_In. intros Hc. apply in_map_iff in Hc as [x [E Hx]]. apply filter_In in Hx as [Hx Hvx].
    rewrite (NoDup_map_inj w_id reqs x w Hnd Hx Hin E) in Hvx. unfold w_valid in Hv. congruence.
Qed.

Definition out_ids (o : outpkt) : list Z :=
  match o with OMulti _ ids _ => ids | OSingle i _ => [i] | OFrag i _ => [i] | ORmw _ ids _ => ids end.

Lemma materialise_ids cfg v bl plan : forall md d out,
  materialise cfg v bl plan md d = Ok out -> flat_map out_ids out = plan_ids plan.
Proof.
  induction plan as [|pk rest IH]; intros md d out H; cbn [materialise] in H.
  - injection H as <-. reflexivity.
  - destruct pk as [ids|id|id|rid ids].
    + destruct (members_of bl ids) as [ms|]; [|discriminate].
      destruct (multi_message (seq_at v md) ms) as [mm|]; [|discriminate].
      destruct (materialise cfg v bl rest (S md) d) as [r|] eqn:E; [|discriminate]. injection H as <-.
      cbn [flat_map out_ids plan_ids packet_ids]. fold (plan_ids rest). rewrite (IH _ _ _ E). reflexivity.
    + destruct (find_built bl id) as [[[q b] dn]|]; [|discriminate]. destruct b as [| | | |pw]; try discriminate.
      destruct (build_message pw) as [p'|]; [|discriminate].
      destruct (materialise cfg v bl rest md d) as [r|] eqn:E; [|discriminate]. injection H as <-.
      cbn [flat_map out_ids plan_ids packet_ids app]. fold (plan_ids rest). rewrite (IH _ _ _ E). reflexivity.
    + destruct (find_built bl id) as [[[q b] dn]|]; [|discriminate]. destruct b as [| | | |pw]; try discriminate.
      destruct (send_fragmented cfg v d pw (seq_at v (S dn))) as [[ms d']|]; [|discriminate].
      destruct (materialise cfg v bl rest md d') as [r|] eqn:E; [|discriminate]. injection H as <-.
      cbn [flat_map out_ids plan_ids packet_ids app]. fold (plan_ids rest). rewrite (IH _ _ _ E). reflexivity.
    + destruct (rmw_packet cfg v bl rid ids) as [pr|]; [|discriminate].
      destruct (materialise cfg v bl rest md d) as [r|] eqn:E; [|discriminate]. injection H as <-.
      cbn [flat_map out_ids plan_ids packet_ids]. fold (plan_ids rest). rewrite (IH _ _ _ E). reflexivity.
Qed.

Lemma build_all_reqs cfg multi v reqs : forall drawn seen bl n,
  build_all cfg multi v reqs drawn seen = Ok (bl, n) -> map (fun x => fst (fst x)) bl = reqs.
Proof.
  induction reqs as [|q rest IH]; intros drawn seen bl n H; cbn [build_all] in H.
  - injection H as <- _. reflexivity.
  - match type of H with context [build_one ?c ?j ?sq q] => destruct (build_one c j sq q) as [b|]; [|discriminate] end.
    match type of H with context [build_all cfg multi v rest ?d ?s] => destruct (build_all cfg multi v rest d s) as [[l n']|] eqn:E; [|discriminate] end.
    injection H as <- _. cbn [map fst]. rewrite (IH _ _ _ _ E). reflexivity.
Qed.

Lemma abstract_id q b : w_id (abstract_of q b) = q_id q.
Proof. destruct b; reflexivity. Qed.

(* the request was not served: parsing failed, or encode_value raised *)
Definition built_failed (b : built) : bool := match b with BErr | BEncErr | BBuildErr => true | _ => false end.
Lemma abstract_valid q b : w_valid (abstract_of q b) = negb (built_failed b).
Proof. destruct b; reflexivity. Qed.

(* applied_once: in what write() sends, each request that parsed and encoded is served exactly once
   (a bit write: by the single Read-Modify-Write of its merged group); a failed one never *)
Theorem applied_once cfg v reqs plan out failed :
  write_plan cfg v reqs = Ok (plan, out, failed) -> NoDup (map q_id reqs) ->
  length failed = length reqs
  /\ forall k q, nth_error reqs k = Some q ->
       exists fl, nth_error failed k = Some (q_id q, fl)
                  /\ cnt (flat_map out_ids out) (q_id q) = if fl then 0%nat else 1%nat.
Proof.
  unfold write_plan. intros H Hnd.
  destruct (build_all cfg (negb (length reqs =? 1)%nat && negb (c_micro800 cfg)) v reqs 0 []) as [[bl drawn]|] eqn:EB; [|discriminate].
  set (abs := map (fun x : wparsed * built * nat => abstract_of (fst (fst x)) (snd (fst x))) bl) in *.
  destruct (materialise cfg v bl (write_build_requests (c_conn cfg) (c_micro800 cfg) abs) drawn
              (drawn + count_multi (write_build_requests (c_conn cfg) (c_micro800 cfg) abs))) as [o|] eqn:EM; [|discriminate].
  injection H as <- <- <-.
  pose proof (build_all_reqs _ _ _ _ _ _ _ _ EB) as Hreqs.
  pose proof (materialise_ids _ _ _ _ _ _ _ EM) as Hids.
  assert (Hl : length bl = length reqs) by (rewrite <- Hreqs, map_length; reflexivity).
  split; [rewrite map_length; exact Hl|].
  intros k q Hk.
  assert (Hx : exists x, nth_error bl k = Some x /\ fst (fst x) = q).
  { rewrite <- Hreqs in Hk. rewrite nth_error_map in Hk. destruct (nth_error bl k) as [x|]; [|discriminate].
    exists x. cbn in Hk. injection Hk as <-. auto. }
  destruct Hx as (x & Hx & Hq).
  exists (built_failed (snd (fst x))). split.
  - rewrite nth_error_map, Hx. cbn [option_map]. rewrite Hq. destruct (snd (fst x)); reflexivity.
  - rewrite Hids.
    assert (Hw : In (abstract_of (fst (fst x)) (snd (fst x))) abs).
    { unfold abs. apply in_map_iff. exists x. split; [reflexivity|]. eapply nth_error_In; eassumption. }
    assert (Hndw : NoDup (map w_id abs)).
    { unfold abs. rewrite map_map. erewrite map_ext; [|intros a; apply abstract_id].
      rewrite <- (map_map (fun x => fst (fst x)) q_id), Hreqs. exact Hnd. }
    pose proof (applied_once_plan (c_conn cfg) (c_micro800 cfg) abs _ Hndw Hw) as A.
    rewrite abstract_id, Hq, abstract_valid in A. rewrite A. destruct (built_failed (snd (fst x))); reflexivity.
Qed.
