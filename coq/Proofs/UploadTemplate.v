(* Proofs/UploadTemplate.v — C05, template definitions in the upload model:
   * [template_fragment_independent]: against ANY peer that answers a template read at byte offset
     o with a non-empty piece — of any length — of what was asked for and exists (status 6 while
     more remains), _read_template returns the definition bytes exactly once, in order: the result
     does not depend on the fragmentation points.  Unbounded, by induction;
   * elementary type facts of the DataTypes table (finite, by computation, lifted). *)
From Coq Require Import ZifyBool String.
From PV Require Import Base.Bytes Base.BytesLemmas Base.Proto Base.PyStr Base.PyStrLemmas Base.Res.
From PV Require Import Spec.Project Spec.Expect Model.LogixUpload.
From PV Require Gen.Consts Model.EnumMapDefs Model.EnumMap Gen.Tables Gen.Types.
Open Scope string_scope.
Open Scope list_scope.
Open Scope Z_scope.

Lemma piece_at (blob : bytes) off k :
  0 <= off -> 0 <= k -> off + k <= Z.of_nat (length blob) ->
  firstn (Z.to_nat off) blob ++ firstn (Z.to_nat k) (skipn (Z.to_nat off) blob) = firstn (Z.to_nat (off + k)) blob
  /\ Z.of_nat (length (firstn (Z.to_nat k) (skipn (Z.to_nat off) blob))) = k.
Proof.
  intros Ho Hk Hl. rewrite <- firstn_add, <- Z2Nat.inj_add, firstn_length, skipn_length by assumption.
  split; [reflexivity | lia].
Qed.

Section Fragments.
  Variable St : Type.
  Variable call : St -> ureq -> St * option urep.
  Variable Inv : St -> Prop.
  Variable tid defsize : Z.
  Variable blob : bytes.                 (* the definition bytes as the peer holds them *)

  Let want : Z := defsize * 4 - 21.      (* what the driver asks for in total *)
  Let L : Z := Z.of_nat (length blob).
  Definition avail (off : Z) : Z := Z.min (want - off) (L - off).

  (* the peer: any non-empty piece of what is asked for and exists, status 6 while more remains *)
  Definition fragment_peer : Prop :=
    forall st off rq, Inv st -> 0 <= off -> off <= want -> off <= L ->
      template_read_request tid defsize off = Ok rq ->
      exists k st' v,
        call st rq = (st', Some (mkRep v (if k <? avail off then Consts.INSUFFICIENT_PACKETS else Consts.SUCCESS)
                                       (firstn (Z.to_nat k) (skipn (Z.to_nat off) blob)) false))
        /\ Inv st' /\ 0 <= k <= avail off /\ (0 < avail off -> 1 <= k).

  Hypothesis peer : fragment_peer.
  Hypothesis req_ok : forall off, 0 <= off -> off <= want -> off <= L ->
                      exists rq, template_read_request tid defsize off = Ok rq.

  Let M : Z := Z.min want L.

  Lemma read_from : forall fuel st off,
    Inv st -> 0 <= off <= M -> (Z.to_nat (M - off) < fuel)%nat ->
    exists st', read_template St call fuel st tid defsize off (firstn (Z.to_nat off) blob)
                = (st', Done (firstn (Z.to_nat M) blob)) /\ Inv st'.
  Proof.
    induction fuel as [|fuel IH]; intros st off Hinv [Hoff HM] Hf; [lia|].
    assert (Hw : off <= want) by (unfold M in HM; lia). assert (Hl : off <= L) by (unfold M in HM; lia).
    assert (Hav : avail off = M - off) by (unfold avail, M; lia).
    cbn [read_template].
    destruct (req_ok off Hoff Hw Hl) as (rq & Erq). rewrite Erq.
    destruct (peer st off rq Hinv Hoff Hw Hl Erq) as (k & st' & v & Ecall & Hinv' & Hk & Hk1).
    rewrite Ecall. cbn [p_status p_data p_error_raises]. rewrite Hav in *. clear Ecall Erq Hav Hw Hl.
    destruct (piece_at blob off k) as [-> Elen]; [lia | lia | unfold M, L; lia |].
    destruct (Z.ltb_spec k (M - off)) as [Hlt | Hge].
    - change (Consts.INSUFFICIENT_PACKETS =? Consts.SUCCESS) with false.
      change (Consts.INSUFFICIENT_PACKETS =? Consts.INSUFFICIENT_PACKETS) with true.
      cbn [orb negb]. cbv iota. rewrite Elen.
      apply IH; [exact Hinv' | lia | lia].
    - change (Consts.SUCCESS =? Consts.SUCCESS) with true. cbn [orb negb]. cbv iota.
      exists st'. replace (off + k) with M by lia. auto.
  Qed.

  (* the definition bytes, whatever the fragmentation points *)
  Theorem template_fragment_independent : forall fuel st,
    Inv st -> 0 <= want -> (Z.to_nat (Z.min want L) < fuel)%nat ->
    exists st', read_template St call fuel st tid defsize 0 []
                = (st', Done (firstn (Z.to_nat (Z.min want L)) blob)) /\ Inv st'.
  Proof.
    intros fuel st Hinv Hw Hf.
    apply (read_from fuel st 0 Hinv); unfold M, L in *; lia.
  Qed.
End Fragments.

Definition ATOMS : list Z :=
  [C_BOOL; C_SINT; C_INT; C_DINT; C_LINT; C_USINT; C_UINT; C_UDINT; C_ULINT; C_REAL; C_LREAL;
   C_BYTE; C_WORD; C_DWORD; C_LWORD].

Lemma atom_size_in c s : atom_size c = Some s -> In c ATOMS.
Proof.
  unfold atom_size, ATOMS. intros H.
  repeat match type of H with (if ?b then _ else _) = _ => destruct b eqn:? end; try discriminate;
    repeat match goal with E : _ || _ = true |- _ => apply orb_prop in E; destruct E end;
    repeat match goal with E : (c =? _) = true |- _ => apply Z.eqb_eq in E; subst c end;
    cbn; tauto.
Qed.

Lemma atoms_range c : In c ATOMS -> 193 <= c <= 212.
Proof.
  intros Hc. apply (proj1 (forallb_forall (fun c => (193 <=? c) && (c <=? 212)) ATOMS) eq_refl) in Hc. lia.
Qed.

(* no key of the table is an integer above 255: words with bit 15 (structures) and array-flagged
   words are never codes *)
Definition small_int_keys (d : EnumMap.pydict) : bool :=
  forallb (fun kv => match fst kv with EnumMapDefs.KInt c => c <? 256 | _ => true end) d.
Lemma datatypes_keys_small : small_int_keys (EnumMap.merged Types.type_codes Tables.tbl_DataTypes) = true.
Proof. vm_compute. reflexivity. Qed.

Lemma lookup_big_none d z : small_int_keys d = true -> 256 <= z -> EnumMap.lookup d (EnumMapDefs.KInt z) = None.
Proof.
  induction d as [|[k v] d IH]; intros H Hz; [reflexivity|].
  cbn [small_int_keys forallb fst] in H. apply andb_prop in H. destruct H as [Hk H].
  cbn [EnumMap.lookup]. rewrite (IH H Hz).
  destruct k; cbn [EnumMap.key_eqb]; try reflexivity.
  destruct (z0 =? z) eqn:E; [lia | reflexivity].
Qed.

Lemma datatypes_get_code_big z : 256 <= z -> datatypes_get_code z = None.
Proof.
  intros Hz. unfold datatypes_get_code, EnumMap.get. cbn [EnumMap.norm_key].
  rewrite (lookup_big_none _ z datatypes_keys_small Hz). reflexivity.
Qed.

(* DataTypes.get(code) is the reference's name of the type and the class has the same name: two
   lookups per elementary type, by evaluation.  DataTypes.get_type is these two in a row, and the
   array-flagged word is above every code. *)
Definition atom_row_ok (c : Z) : bool :=
  match atom_name c with
  | Some n =>
      match datatypes_get_code c, datatypes_get_name (Some n) with
      | Some n1, Some k1 =>
          (0 <=? c) && PyStr.text_eqb n1 n && PyStr.text_eqb k1 n
          && Bool.eqb (PyStr.text_eqb n (T "BOOL")) (c =? C_BOOL) && Bool.eqb (PyStr.text_eqb n (T "SINT")) (c =? C_SINT)
      | _, _ => false
      end
  | None => false
  end.
(* the merged dictionary evaluated once, so that each lookup scans a list that is already there *)
Definition datatypes_dict : EnumMap.pydict := Eval vm_compute in EnumMap.merged Types.type_codes Tables.tbl_DataTypes.
Lemma datatypes_dict_eq : EnumMap.merged Types.type_codes Tables.tbl_DataTypes = datatypes_dict.
Proof. vm_compute. reflexivity. Qed.

Lemma atom_rows_ok : forallb atom_row_ok ATOMS = true.
Proof.
  unfold atom_row_ok, datatypes_get_code, datatypes_get_name, EnumMap.get. rewrite datatypes_dict_eq.
  vm_compute. reflexivity.
Qed.

Lemma atom_facts c : In c ATOMS ->
  exists n, atom_name c = Some n /\ datatypes_get_code c = Some n /\ datatypes_get_name (Some n) = Some n
            /\ datatypes_get_code (c + 8192) = None /\ datatypes_get_type c = Some n
            /\ PyStr.text_eqb n (T "BOOL") = (c =? C_BOOL) /\ PyStr.text_eqb n (T "SINT") = (c =? C_SINT).
Proof.
  intros Hin. pose proof atom_rows_ok as H. rewrite forallb_forall in H. specialize (H c Hin).
  unfold atom_row_ok in H. unfold datatypes_get_type.
  destruct (atom_name c) as [n|]; [|discriminate]. exists n.
  destruct (datatypes_get_code c) as [n1|]; [|discriminate].
  destruct (datatypes_get_name (Some n)) as [k1|] eqn:Ek; [|discriminate].
  apply andb_prop in H as [H Hs]. apply andb_prop in H as [H Hb]. apply andb_prop in H as [H Hk].
  apply andb_prop in H as [Hc Hn]. apply text_eqb_eq in Hn, Hk. apply eqb_prop in Hb, Hs. subst n1 k1.
  rewrite Ek, datatypes_get_code_big by lia. auto 10.
Qed.
