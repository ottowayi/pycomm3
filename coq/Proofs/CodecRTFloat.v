(* Proofs/CodecRTFloat.v — C06: "REAL to IEEE precision".  The normal form of a REAL value in the
   round-trip theorem, [widen32 (round32 b)] (integer arithmetic on bit patterns, Model/CodecFloat.v),
   IS the IEEE-754 binary32 rounding of the double (Flocq's [binary_normalize 24 128 mode_NE], to
   nearest, ties to even) embedded back exactly into binary64.  The agreement of the integer
   arithmetic with Flocq is Proofs/CodecWireFloat.v (property C07's vertical); this file only
   restates it for the domain and normal form of C06.  Importing Flocq brings the stdlib
   real-number axioms into Print Assumptions (this theorem only). *)
From PV Require Import Base.Bytes Model.Codec Model.CodecDom Spec.WireFloat.
From PV Require Import Proofs.CodecWireBase Proofs.CodecWireFloat.
From Coq Require Import ZifyBool.
Open Scope Z_scope.

Ltac Zify.zify_post_hook ::= Z.to_euclidean_division_equations.

Definition real_precision_statement (b : Z) : Prop :=
  real_dom false b = true ->
  exists s, spec_real32_of_64 b = Some s /\ real_norm false b = spec_real64_of_32 s.

Theorem real_precision : forall b, real_precision_statement b.
Proof.
  intros b Hd. unfold real_dom in Hd.
  apply andb_prop in Hd as [Hd H3]. apply andb_prop in Hd as [H1 H2]. unfold b64_ok in H1.
  assert (Hok : sp_f64_ok b = true).
  { unfold sp_f64_ok. rewrite sp_is_nan64_model by lia. rewrite H1. cbn [andb]. exact H2. }
  destruct (round32 b) as [s|] eqn:Er; [|discriminate H3].
  exists s. split.
  - rewrite <- (round32_is_flocq b Hok). exact Er.
  - unfold real_norm. rewrite Er. apply widen32_is_flocq. unfold in_urange in H3. change (pow256 4) with (2 ^ 32) in H3. lia.
Qed.
