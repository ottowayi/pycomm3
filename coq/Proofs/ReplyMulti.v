(* Proofs/ReplyMulti.v — multi-service replies: the parse of a reply built from per-service replies
   gives them back (multi_demux); each service reply is classified by its own status words, and a
   well-formed non-success one gets an error text naming its own status; for ARBITRARY reply bytes
   a valid sub-response is backed by status words the Spec reads at the same place (offset table
   entry i, service byte, general status byte). *)
From Coq Require Import String ZifyBool.
From PV Require Import Base.Bytes Base.BytesLemmas Base.PyStr.
From PV Require Import Gen.Status Gen.Consts.
From PV Require Import Model.EnumMapDefs Model.Reply Spec.ReplyReader.
From PV Require Import Proofs.ReplyBase Proofs.ReplyValid Proofs.ReplyError.
Open Scope Z_scope.
Ltac Zify.zify_post_hook ::= Z.to_euclidean_division_equations.

Fixpoint offs_of (o : Z) (rs : list bytes) : list Z :=
  match rs with [] => [] | r :: rest => o :: offs_of (o + Z.of_nat (length r)) rest end.

Lemma le_enc2 o : le_enc 2 o = [o mod 256; (o / 256) mod 256].
Proof. reflexivity. Qed.

Lemma decode_offsets_built o rs : 0 <= o -> o + Z.of_nat (length (concat rs)) < 65536 ->
  decode_offsets (multi_offsets o rs) = ROk (offs_of o rs).
Proof.
  revert o; induction rs as [|r rest IH]; intros o Ho Hs; [reflexivity|].
  cbn [multi_offsets offs_of]. rewrite le_enc2. cbn [app decode_offsets].
  cbn [concat] in Hs. rewrite app_length in Hs.
  rewrite IH by lia. rewrite uint_value. do 2 f_equal. lia.
Qed.

Lemma multi_offsets_length o rs : length (multi_offsets o rs) = (2 * length rs)%nat.
Proof. revert o; induction rs as [|r rest IH]; intros o; [reflexivity|]. cbn [multi_offsets length]. rewrite app_length, IH. cbn. lia. Qed.

Lemma slice_app_mid (pre r post : bytes) :
  slice (length pre) (length pre + length r) (pre ++ r ++ post) = r.
Proof.
  unfold slice. rewrite skipn_app, Nat.sub_diag, skipn_all. cbn [app skipn].
  replace (length pre + length r - length pre)%nat with (length r) by lia. apply firstn_app_exact.
Qed.

Lemma reply_slices_cons2 data o o' r :
  reply_slices data (o :: o' :: r) = slice (Z.to_nat o) (Z.to_nat o') data :: reply_slices data (o' :: r).
Proof. reflexivity. Qed.

Lemma reply_slices_built pre rs : rs <> [] ->
  reply_slices (pre ++ concat rs) (offs_of (Z.of_nat (length pre)) rs) = rs.
Proof.
  revert pre; induction rs as [|r rest IH]; intros pre Hne; [congruence|].
  destruct rest as [|r' rest'].
  - cbn [offs_of reply_slices concat]. rewrite Nat2Z.id, app_nil_r. now rewrite skipn_app_exact.
  - cbn [offs_of]. cbn [offs_of] in IH. rewrite reply_slices_cons2.
    rewrite Nat2Z.id. replace (Z.to_nat (Z.of_nat (length pre) + Z.of_nat (length r))) with (length pre + length r)%nat by lia.
    cbn [concat]. rewrite slice_app_mid. f_equal.
    specialize (IH (pre ++ r)). rewrite app_length, Nat2Z.inj_add in IH.
    rewrite <- app_assoc in IH. apply IH. discriminate.
Qed.

Theorem multi_demux rs : rs <> [] -> multi_data_size rs < 65536 ->
  split_multi (multi_data rs) = ROk rs.
Proof.
  intros Hne Hsz. unfold multi_data_size in Hsz. unfold split_multi, multi_data.
  set (n := length rs) in *. assert (Hn : (0 < n)%nat) by (destruct rs; [congruence|cbn; lia]).
  rewrite decode_elem_full by (rewrite UINT_eq; cbn [ety_size]; rewrite !app_length, le_enc_length; lia).
  rewrite UINT_eq. cbn [ety_size ety_signed]. unfold elem_value. cbn [ety_signed].
  rewrite le_enc2. cbn [app firstn le_dec].
  replace (Z.of_nat n mod 256 + 256 * ((Z.of_nat n / 256) mod 256 + 256 * 0)) with (Z.of_nat n) by lia.
  rewrite Nat2Z.id.
  assert (Hod : slice 2 (2 + 2 * n) (Z.of_nat n mod 256 :: (Z.of_nat n / 256) mod 256 :: multi_offsets (2 + 2 * Z.of_nat n) rs ++ concat rs)
                = multi_offsets (2 + 2 * Z.of_nat n) rs).
  { unfold slice. cbn [skipn]. replace (2 + 2 * n - 2)%nat with (length (multi_offsets (2 + 2 * Z.of_nat n) rs)) by (rewrite multi_offsets_length; lia).
    apply firstn_app_exact. }
  rewrite Hod. rewrite decode_offsets_built by lia.
  f_equal.
  pose proof (reply_slices_built ([Z.of_nat n mod 256; (Z.of_nat n / 256) mod 256] ++ multi_offsets (2 + 2 * Z.of_nat n) rs) rs Hne) as H.
  rewrite app_length, multi_offsets_length in H. cbn [length] in H.
  replace (Z.of_nat (2 + 2 * length rs)) with (2 + 2 * Z.of_nat n) in H by (unfold n; lia).
  rewrite <- app_assoc in H. exact H.
Qed.

Lemma no_additional_status_spec raw : no_additional_status raw = match nth_error raw 49 with Some b => b =? 0 | None => false end.
Proof. unfold no_additional_status. rewrite slice1. now destruct (nth_error raw 49). Qed.

(* the same through the whole frame: 50 leading bytes (encapsulation header with status 0, CPF
   items, reply service with the reply bit, general status) followed by the reply data *)
Theorem multi_demux_frame hdr rs reqs : length hdr = 50%nat -> bytes_ok hdr = true ->
  u32_at 8 hdr = Some 0 -> (exists s, nth_error hdr 46 = Some s /\ 128 <= s) -> nth_error hdr 49 = Some 0 ->
  rs <> [] -> multi_data_size rs < 65536 -> bytes_ok (multi_data rs) = true ->
  parse_multi reqs (hdr ++ multi_data rs) = (parse_unit (hdr ++ multi_data rs), zip_sub rs reqs).
Proof.
  intros Hl Hok He (s & Hs & Hs128) H49 Hne Hsz Hokd.
  set (raw := hdr ++ multi_data rs).
  assert (Hokr : bytes_ok raw = true) by (unfold raw; rewrite bytes_ok_app, Hok, Hokd; reflexivity).
  assert (H46 : nth_error raw 46 = Some s) by (unfold raw; rewrite nth_error_app1; [exact Hs|lia]).
  assert (exists g, nth_error raw 48 = Some g) as [g H48].
  { destruct (nth_error raw 48) eqn:E; [eauto|]. apply nth_error_None in E. unfold raw in E. rewrite app_length in E. lia. }
  assert (He' : u32_at 8 raw = Some 0).
  { unfold u32_at, byte_at in He |- *. unfold raw. rewrite !nth_error_app1 by lia. exact He. }
  assert (Hna : no_additional_status raw = true) by (rewrite no_additional_status_spec; unfold raw; rewrite nth_error_app1 by lia; now rewrite H49).
  unfold parse_multi, parse_unit. rewrite (parse_cip_complete 46 48 50 raw 0 s g Hokr He' H46 Hs128 H48), Hna.
  cbn [r_error r_command_status r_data is_some opt_is orb negb]. change (to_signed 4 0 =? SUCCESS) with true. cbn [negb].
  replace (skipn 50 raw) with (multi_data rs) by (unfold raw; rewrite <- Hl; now rewrite skipn_app_exact).
  pose proof (multi_demux rs Hne Hsz) as Hm.
  assert (Hcons : exists a q, multi_data rs = a :: q) by (unfold multi_data; rewrite le_enc2; cbn [app]; eauto).
  destruct Hcons as (a & q & Hc). rewrite Hc in *. unfold bytes in *. rewrite Hm. reflexivity.
Qed.

Lemma byte_at_padded i d : byte_at (46 + i) (padding46 ++ d) = byte_at i d.
Proof. unfold byte_at. rewrite nth_error_app2 by (cbn; lia). f_equal. cbn. lia. Qed.

Lemma encap_status_padded d : encap_status (padding46 ++ d) = Some 0.
Proof. reflexivity. Qed.

Lemma spec_success_padded d : spec_success true unit_layout (padding46 ++ d) = sub_success d.
Proof.
  unfold spec_success, status_ok, status_words, reply_bit, sub_success, sub_words_ok. rewrite encap_status_padded.
  cbn [l_svc l_status unit_layout]. rewrite (byte_at_padded 0 d : byte_at 46 _ = _), (byte_at_padded 2 d : byte_at 48 _ = _).
  destruct (byte_at 0 d) as [s|]; [|reflexivity]. destruct (byte_at 2 d) as [g|]; [|reflexivity].
  cbn [Z.eqb andb]. destruct (128 <=? s); [now rewrite andb_true_r|now rewrite andb_false_r].
Qed.

Lemma padded_ok d : bytes_ok d = true -> bytes_ok (padding46 ++ d) = true.
Proof. intros H. unfold padding46. now rewrite bytes_ok_app, zeros_ok, H. Qed.

Lemma read_tag_valid dec raw : is_valid KUnit (g_r (parse_read_tag dec raw)) = true -> is_valid KUnit (parse_unit raw) = true.
Proof.
  unfold parse_read_tag. destruct (is_valid KUnit (parse_unit raw)) eqn:E; [reflexivity|]. cbn [g_r]. now rewrite E.
Qed.

Lemma padded_valid d : bytes_ok d = true -> is_valid KUnit (parse_unit (padding46 ++ d)) = sub_success d.
Proof. intros Hok. now rewrite (unit_valid_iff _ (padded_ok d Hok)), spec_success_padded. Qed.

Theorem sub_response_valid q d : bytes_ok d = true ->
  is_valid KUnit (s_r (sub_response q d)) = true -> sub_success d = true.
Proof.
  intros Hok H. rewrite <- (padded_valid d Hok).
  destruct q as [dec|v]; cbn [sub_response s_r] in H; [now apply read_tag_valid in H|exact H].
Qed.
(* a write (or any untyped) sub-response: exactly the service reply's own status words *)
Theorem sub_response_write_iff v d : bytes_ok d = true ->
  is_valid KUnit (s_r (sub_response (SWrite v) d)) = sub_success d.
Proof. exact (padded_valid d). Qed.
(* a read sub-response: the status words say success AND the value decodes *)
Theorem sub_response_read_iff dec d : bytes_ok d = true ->
  is_valid KUnit (s_r (sub_response (SRead dec) d)) =
  sub_success d && negb (is_err (parse_read_reply dec (skipn 4 d))).
Proof.
  intros Hok. pose proof (padded_valid d Hok) as Hv. cbn [sub_response s_r]. unfold parse_read_tag. rewrite Hv.
  destruct (sub_success d); [|exact Hv].
  assert (Hd : r_data (parse_unit (padding46 ++ d)) = Some (skipn 4 d)).
  { unfold parse_unit in *. rewrite parse_cip_data by exact (padded_ok d Hok).
    cbn [is_valid] in Hv. apply andb_true_iff in Hv as [_ Hv]. destruct (r_service_status _); [reflexivity|discriminate]. }
  rewrite Hd. destruct (parse_read_reply dec (skipn 4 d)) as [v|x m]; cbn [g_r is_err negb andb]; [exact Hv | apply set_error_invalid].
Qed.

Lemma wf_padded d : wf_cip_reply unit_layout (padding46 ++ d) = wf_sub_reply d.
Proof.
  unfold wf_cip_reply, wf_sub_reply, reply_bit. rewrite encap_status_padded. cbn [l_extsize l_svc l_data unit_layout].
  replace (byte_at 49 (padding46 ++ d)) with (byte_at 3 d) by (symmetry; apply (byte_at_padded 3)).
  replace (byte_at 46 (padding46 ++ d)) with (byte_at 0 d) by (symmetry; apply (byte_at_padded 0)).
  destruct (byte_at 0 d) as [s|]; destruct (byte_at 3 d) as [n|]; try reflexivity.
  rewrite app_length. change (length padding46) with 46%nat. f_equal. lia.
Qed.

Lemma ext_status_padded d : ext_status unit_layout (padding46 ++ d) = sub_ext_status d.
Proof. (* the padding is 46 literal bytes: both readers reduce to the same reads of d *) reflexivity. Qed.

Theorem sub_error_text q d : bytes_ok d = true -> wf_sub_reply d = true -> sub_success d = false ->
  exists t, error KUnit (s_r (sub_response q d)) = ROk (Some t) /\ t <> []
    /\ exists gs, byte_at 2 d = Some gs /\ gs <> 0
         /\ names_status service_status extend_codes gs (ext_value (sub_ext_status d)) t = true.
Proof.
  intros Hok Hwf Hns.
  assert (Hr : s_r (sub_response q d) = parse_unit (padding46 ++ d)).
  { destruct q as [dec|v]; cbn [sub_response s_r]; [|reflexivity].
    unfold parse_read_tag. now rewrite (padded_valid d Hok), Hns. }
  rewrite <- wf_padded in Hwf. rewrite <- spec_success_padded in Hns.
  destruct (error_text_unit _ (padded_ok d Hok) Hwf Hns) as (t & He & Hne & Hnames).
  destruct (Hnames (encap_status_padded d)) as (gs & Hgs & Hg0 & Hn).
  rewrite Hr. exists t. split; [exact He|]. split; [exact Hne|].
  exists gs. rewrite (byte_at_padded 2 d : byte_at 48 _ = _) in Hgs. rewrite ext_status_padded in Hn. auto.
Qed.

Lemma nth_error_slice a b (l : bytes) j x : nth_error (slice a b l) j = Some x -> nth_error l (a + j) = Some x.
Proof.
  unfold slice. intros H. pose proof (nth_error_Some_lt _ _ _ H) as Hj. rewrite firstn_length in Hj.
  rewrite nth_error_firstn in H by lia. now rewrite nth_error_skipn in H.
Qed.

Lemma decode_offsets_nth od : forall offs, decode_offsets od = ROk offs ->
  forall i o, nth_error offs i = Some o -> u16_at (2 * i) od = Some o.
Proof.
  induction od as [|a|a b r IH] using list_ind2; intros offs H i o Hi; cbn [decode_offsets] in H.
  - injection H as <-. destruct i; discriminate.
  - discriminate.
  - destruct (decode_offsets r) as [l|x m] eqn:E; [|discriminate]. injection H as <-.
    destruct i as [|i].
    + cbn [nth_error] in Hi. injection Hi as <-. now rewrite uint_value.
    + cbn [nth_error] in Hi.
      pose proof (IH l eq_refl i o Hi) as H2.
      unfold u16_at, byte_at in *. replace (2 * S i)%nat with (S (S (2 * i))) by lia.
      replace (S (S (2 * i)) + 1)%nat with (S (S (2 * i + 1))) by lia. exact H2.
Qed.

Lemma reply_slices_nth data offs : forall i d, nth_error (reply_slices data offs) i = Some d ->
  exists o, nth_error offs i = Some o /\ forall j x, nth_error d j = Some x -> nth_error data (Z.to_nat o + j) = Some x.
Proof.
  induction offs as [|o r IH]; intros i d H; [destruct i; discriminate|].
  cbn [reply_slices] in H. destruct r as [|o' r'].
  - destruct i as [|i]; [|destruct i; discriminate]. cbn [nth_error] in H. injection H as <-.
    exists o. split; [reflexivity|]. intros j x Hj. now rewrite nth_error_skipn in Hj.
  - destruct i as [|i].
    + cbn [nth_error] in H. injection H as <-. exists o. split; [reflexivity|]. intros j x Hj. now apply nth_error_slice in Hj.
    + cbn [nth_error] in H. destruct (IH i d H) as (o2 & Ho & Hj). exists o2. split; [exact Ho|exact Hj].
Qed.

Lemma zip_sub_nth ds qs i s : nth_error (zip_sub ds qs) i = Some s ->
  exists d q, nth_error ds i = Some d /\ nth_error qs i = Some q /\ s = sub_response q d.
Proof.
  revert qs i; induction ds as [|d ds IH]; intros qs i H; [destruct i; discriminate|].
  destruct qs as [|q qs]; [destruct i; discriminate|]. cbn [zip_sub] in H.
  destruct i as [|i]; [injection H as <-; exists d, q; auto|]. cbn [nth_error] in *. now apply IH.
Qed.

Lemma u16_at_shift k i raw : u16_at i (skipn k raw) = u16_at (k + i) raw.
Proof. unfold u16_at, byte_at. rewrite !nth_error_skipn. now rewrite Nat.add_assoc. Qed.

Lemma parse_multi_subs reqs raw : bytes_ok raw = true -> snd (parse_multi reqs raw) <> [] ->
  encap_zero raw = true
  /\ exists ds, split_multi (skipn 50 raw) = ROk ds /\ snd (parse_multi reqs raw) = zip_sub ds reqs.
Proof.
  intros Hok. unfold parse_multi. destruct (_ || _ || _) eqn:Eg; [now intros []|].
  apply orb_false_iff in Eg as [Eg _]. apply orb_false_iff in Eg as [_ Ecs]. apply negb_false_iff in Ecs.
  unfold parse_unit in *. destruct (parse_cip_spec 46 48 50 raw Hok) as (_ & _ & _ & P4 & _).
  rewrite P4, (command_status_zero raw Hok) in Ecs.
  rewrite parse_cip_data by exact Hok. destruct (is_some _); [|now intros []].
  destruct (skipn 50 raw) as [|x q]; [now intros []|].
  destruct (split_multi (x :: q)) as [ds|]; [|now intros []]. eauto.
Qed.

Lemma split_multi_nth data ds i d : bytes_ok data = true -> split_multi data = ROk ds -> nth_error ds i = Some d ->
  bytes_ok d = true
  /\ exists num o, u16_at 0 data = Some num /\ Z.of_nat i < num /\ u16_at (2 + 2 * i) data = Some o
       /\ forall j x, nth_error d j = Some x -> nth_error data (Z.to_nat o + j) = Some x.
Proof.
  intros Hok Es Hd. unfold split_multi in Es.
  destruct (decode_elem UINT_t data) as [num|] eqn:En; [|discriminate].
  destruct (decode_offsets _) as [offs|] eqn:Eo; [|discriminate]. injection Es as <-.
  destruct (reply_slices_nth data offs i d Hd) as (o & Ho & Hj).
  split.
  { apply forallb_forall. intros x Hx. apply In_nth_error in Hx as [j Hx].
    apply byte_ok_iff, (bytes_ok_nth_error data _ x Hok (Hj j x Hx)). }
  exists num, o. split; [exact (decode_u16 data num En)|].
  pose proof (decode_offsets_nth _ _ Eo i o Ho) as Hu. unfold u16_at, byte_at in Hu |- *.
  destruct (nth_error _ (2 * i)) as [a|] eqn:Ea; [|discriminate]. destruct (nth_error _ (2 * i + 1)) as [b|] eqn:Eb; [|discriminate].
  pose proof (nth_error_Some_lt _ _ _ Eb) as Hlen. unfold slice in Hlen. rewrite firstn_length in Hlen.
  apply nth_error_slice in Ea, Eb. split; [lia|]. split; [|exact Hj].
  replace (2 + 2 * i + 1)%nat with (2 + (2 * i + 1))%nat by lia. now rewrite Ea, Eb.
Qed.

(* the words a valid sub-response was computed from are the words the Spec reads, and service
   replies are split only under encapsulation status 0 *)
Theorem multi_sub_words_of_valid reqs raw r subs i s : bytes_ok raw = true ->
  parse_multi reqs raw = (r, subs) -> nth_error subs i = Some s -> is_valid KUnit (s_r s) = true ->
  multi_sub_success raw i = true.
Proof.
  intros Hok Hp Hi Hv.
  destruct (parse_multi_subs reqs raw Hok) as (Hen & ds & Es & Hsubs).
  { rewrite Hp. cbn [snd]. intros ->. destruct i; discriminate. }
  rewrite Hp in Hsubs. cbn [snd] in Hsubs. subst subs.
  destruct (zip_sub_nth _ _ _ _ Hi) as (d & q & Hd & _ & ->).
  destruct (split_multi_nth _ ds i d (bytes_ok_skipn 50 raw Hok) Es Hd) as (Hokd & num & o & Hnum & Hlt & Ho & Hj).
  pose proof (sub_response_valid q d Hokd Hv) as Hss. unfold sub_success, byte_at in Hss.
  destruct (nth_error d 0) as [sv|] eqn:E0; [|discriminate]. destruct (nth_error d 2) as [g|] eqn:E2; [|discriminate].
  apply Hj in E0, E2. rewrite nth_error_skipn in E0, E2. rewrite u16_at_shift in Hnum, Ho.
  unfold encap_zero in Hen. unfold multi_sub_success, multi_sub_words, multi_count, multi_offset, multi_base, byte_at.
  destruct (encap_status raw) as [e|]; [|discriminate]. rewrite Hen.
  replace (50 + 0)%nat with 50%nat in Hnum by lia. rewrite Hnum.
  replace (50 + 2 + 2 * i)%nat with (50 + (2 + 2 * i))%nat by lia. rewrite Ho.
  replace (Z.of_nat i <? num) with true by lia.
  replace (50 + Z.to_nat o)%nat with (50 + (Z.to_nat o + 0))%nat by lia. rewrite E0.
  replace (50 + (Z.to_nat o + 0) + 2)%nat with (50 + (Z.to_nat o + 2))%nat by lia. rewrite E2.
  exact Hss.
Qed.
