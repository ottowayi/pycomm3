(* Proofs/ConnPathRender.v — C15: the reference reader reads back every spelling [render] writes. *)
From Coq Require Import String.
From PV Require Import Proofs.PathStr.
From PV Require Import Base.Bytes Base.ListLemmas Base.PyStr Spec.ConnPathGrammar
     Proofs.ConnPathStr Proofs.ConnPathEnc Proofs.ConnPathRef.
From Coq Require Import ZifyBool.
Ltac Zify.zify_post_hook ::= Z.to_euclidean_division_equations.
Open Scope Z_scope.

Fixpoint hop_fields (ss : list hop_sp) (hs : list hop) : list text :=
  match ss, hs with
  | s :: ss', h :: hs' =>
      render_port (sp_port s) (h_port h) :: render_link (sp_lzeros s) (h_link h) :: hop_fields ss' hs'
  | _, _ => []
  end.

Lemma decimal_none p z n : (forall c, is_ascii_digit c = true -> p c = false) -> none_of p (decimal z n) = true.
Proof.
  intros Hp. apply digits_none; [exact Hp|]. pose proof (decimal_isdigit z n) as H.
  now apply isdigit_forallb in H.
Qed.

Lemma render_port_none s n : wf_port_sp s n = true -> none_of is_sep (render_port s n) = true.
Proof.
  destruct s as [a|z]; cbn [wf_port_sp render_port].
  - destruct (lookup a doc_port_names) as [k|] eqn:E; [|discriminate]. intros _. now apply doc_name in E.
  - intros _. apply decimal_none. exact digit_not_sep.
Qed.
Lemma quad_chars_none p t : strict_quad t = true ->
  (forall c, is_ascii_digit c || is_dot c = true -> p c = false) -> none_of p t = true.
Proof.
  intros Hq Hp. destruct (quad_props t Hq) as [Hc _]. unfold none_of. revert Hc. apply forallb_impl.
  intros c Hc. now rewrite (Hp c Hc).
Qed.
Lemma render_link_none z l : wf_link l = true -> none_of is_sep (render_link z l) = true.
Proof.
  destruct l as [n|t]; cbn [wf_link render_link]; intros H.
  - apply decimal_none. exact digit_not_sep.
  - apply (quad_chars_none is_sep t H). intros c.
    unfold is_ascii_digit, is_dot, is_sep, DOT, SLASH, BACKSLASH, COMMA. lia.
Qed.

Lemma lookup_digits_none t : isdigit t = true -> lookup t doc_port_names = None.
Proof.
  intros H. destruct (lookup t doc_port_names) as [k|] eqn:E; [|reflexivity].
  apply doc_name in E as (_ & E & _). congruence.
Qed.

Lemma classify_port_render s n : wf_port_sp s n = true -> 1 <= n <= PMAX ->
  classify_port (render_port s n) = PortOk n.
Proof.
  destruct s as [a|z]; cbn [wf_port_sp render_port]; intros H Hn; unfold classify_port.
  - destruct (lookup a doc_port_names) as [k|]; [|discriminate]. f_equal. lia.
  - rewrite (lookup_digits_none _ (decimal_isdigit z n)), (decimal_isdigit z n), (decimal_dval z n) by lia.
    rewrite H. replace ((1 <=? n) && (n <=? PMAX)) with true by lia. reflexivity.
Qed.

Lemma quad_not_digits t : strict_quad t = true -> isdigit t = false.
Proof.
  unfold strict_quad. intros H. destruct (isdigit t) eqn:Hd; [|reflexivity]. exfalso.
  apply isdigit_forallb in Hd as [_ Hd].
  assert (Hn : none_of is_dot t = true).
  { apply digits_none; [|exact Hd]. intros c. unfold is_ascii_digit, is_dot, DOT. lia. }
  rewrite (fields_none is_dot t Hn) in H. discriminate.
Qed.
Lemma none_existsb p t : none_of p t = true -> existsb p t = false.
Proof.
  induction t as [|c r IH]; cbn [none_of forallb existsb]; [reflexivity|].
  intros H. apply andb_prop in H as [H1 H2]. fold (none_of p r) in H2. rewrite (IH H2).
  now destruct (p c).
Qed.

Lemma classify_link_render z l : wf_link l = true -> wf_link_sp z l = true ->
  classify_link (render_link z l) = LinkOk l.
Proof.
  destruct l as [n|t]; cbn [wf_link wf_link_sp render_link]; intros H Hs; unfold classify_link.
  - rewrite (decimal_isdigit z n), Hs, (decimal_dval z n) by lia. cbn [negb].
    replace (n <=? 255) with true by lia. reflexivity.
  - rewrite (quad_not_digits t H), H.
    rewrite (none_existsb is_colon t); [reflexivity|]. apply (quad_chars_none is_colon t H).
    intros c. unfold is_ascii_digit, is_dot, is_colon, DOT, COLON. lia.
Qed.

Lemma hop_fields_ok ss : forall hs, wf_hop_sps ss hs = true -> forallb wf_hop hs = true ->
  (forall pre, none_of is_sep pre = true -> fields is_sep (pre ++ render_hops ss hs) = (pre, hop_fields ss hs))
  /\ classify_pairs (hop_fields ss hs) = RouteOk hs
  /\ List.length (hop_fields ss hs) = (2 * List.length hs)%nat.
Proof.
  induction ss as [|s ss IH]; intros [|h hs] Hsp Hwf; cbn [wf_hop_sps] in Hsp; try discriminate.
  - repeat split. intros pre Hpre. cbn [render_hops hop_fields]. rewrite app_nil_r. now apply fields_none.
  - cbn [forallb] in Hwf. apply andb_prop in Hwf as [Hh Hwf]. apply andb_prop in Hsp as [Hs Hsp].
    unfold wf_hop_sp in Hs. apply andb_prop in Hs as [Hs Hls]. apply andb_prop in Hs as [Hs Hps].
    apply andb_prop in Hs as [Hs1 Hs2]. unfold wf_hop in Hh. apply andb_prop in Hh as [Hh Hl].
    destruct (IH hs Hsp Hwf) as (IHf & IHc & IHl).
    cbn [render_hops hop_fields classify_pairs List.length]. repeat split.
    + intros pre Hpre. unfold render_hop. rewrite <- !app_assoc. cbn [app].
      rewrite (fields_app_sep is_sep pre _ _ Hpre Hs1).
      rewrite (fields_app_sep is_sep _ _ _ (render_port_none _ _ Hps) Hs2).
      now rewrite (IHf _ (render_link_none _ _ Hl)).
    + unfold classify_hop. rewrite (classify_port_render _ _ Hps) by lia.
      rewrite (classify_link_render _ _ Hl Hls), IHc. cbn [cons_verdict]. now destruct h.
    + rewrite IHl. lia.
Qed.

Lemma host_none_sep h : forallb host_char h = true -> none_of is_sep h = true.
Proof. apply forallb_impl. intros c. unfold host_char. now destruct (is_sep c). Qed.
Lemma host_none_colon h : forallb host_char h = true -> none_of is_colon h = true.
Proof. apply forallb_impl. intros c. unfold host_char. destruct (is_colon c); [now rewrite andb_false_r|reflexivity]. Qed.

Lemma none_of_app p a b : none_of p (a ++ b) = none_of p a && none_of p b.
Proof. apply forallb_app. Qed.

Lemma hostport_none_sep sp a : forallb host_char (r_host a) = true ->
  none_of is_sep (render_hostport sp a) = true.
Proof.
  intros H. unfold render_hostport. rewrite none_of_app, (host_none_sep _ H).
  destruct (r_tcp a) as [p|]; [|reflexivity]. rewrite none_of_app.
  rewrite (decimal_none is_sep _ _ digit_not_sep). reflexivity.
Qed.

Lemma hostport_fields sp a : forallb host_char (r_host a) = true ->
  fields is_colon (render_hostport sp a)
  = (r_host a, match r_tcp a with Some p => [decimal (sp_tcp_zeros sp) p] | None => [] end).
Proof.
  intros H. unfold render_hostport. destruct (r_tcp a) as [p|].
  - cbn [app]. rewrite (fields_app_sep is_colon _ COLON _ (host_none_colon _ H) eq_refl).
    now rewrite (fields_none is_colon _ (decimal_none is_colon _ _ digit_not_colon)).
  - rewrite app_nil_r. apply fields_none. now apply host_none_colon.
Qed.

Definition tcp_reading (t : option Z) : tcp_verdict :=
  match t with Some p => TcpOk p | None => TcpNone end.

(* every spelling of every well-formed route is read back as that route: the reference reader
   recognises exactly what [render] writes (so the grammar and the reader are one specification) *)
Theorem ref_parse_render a sp auto :
  wf_route a = true -> wf_spelling sp a = true ->
  ref_parse auto (render sp a)
  = mkVerdict (r_host a) (tcp_reading (r_tcp a))
              (match hops_of auto (r_shape a) with
               | Some hs => RouteOk hs
               | None => RouteReject OddSegments
               end).
Proof.
  unfold wf_route, wf_spelling. intros Hwf Hsp.
  apply andb_prop in Hwf as [Hwf Hshape]. apply andb_prop in Hwf as [Hhost Htcp].
  apply andb_prop in Hsp as [Hsptcp Hsp].
  assert (Ht : classify_tcp (match r_tcp a with Some p => [decimal (sp_tcp_zeros sp) p] | None => [] end)
               = tcp_reading (r_tcp a)).
  { destruct (r_tcp a) as [p|]; [|reflexivity]. cbn [classify_tcp tcp_reading].
    rewrite (decimal_isdigit _ p). unfold wf_tcp in Htcp.
    rewrite (decimal_dval _ p) by lia. unfold wf_tcp. now rewrite Htcp, Hsptcp. }
  pose proof (hostport_none_sep sp a Hhost) as Hns.
  rewrite ref_parse_eq. unfold render. destruct (r_shape a) as [hs|n]; cbn [hops_of wf_shape] in *.
  - destruct (hop_fields_ok _ _ Hsp Hshape) as (Hf & Hc & Hl).
    rewrite (Hf _ Hns). cbn [fst snd]. rewrite (hostport_fields sp a Hhost). cbn [fst snd]. rewrite Ht. f_equal.
    destruct hs as [|h hs].
    + destruct (sp_hops sp); cbn [wf_hop_sps] in Hsp; [|discriminate]. reflexivity.
    + destruct (sp_hops sp) as [|s ss]; cbn [wf_hop_sps] in Hsp; [discriminate|].
      cbn [hop_fields] in *. cbn [classify_route].
      set (fs := render_port (sp_port s) (h_port h) :: render_link (sp_lzeros s) (h_link h) :: hop_fields ss hs) in *.
      rewrite even_odd_len, Hl. replace (Nat.even (2 * List.length (h :: hs))) with true; [exact Hc|].
      symmetry. apply Nat.even_spec. now exists (List.length (h :: hs)).
  - apply andb_prop in Hsp as [Hsep Hnum]. cbn [app].
    rewrite (fields_app_sep is_sep _ _ _ Hns Hsep), (fields_none is_sep _ (decimal_none is_sep _ _ digit_not_sep)).
    cbn [fst snd]. rewrite (hostport_fields sp a Hhost). cbn [fst snd]. rewrite Ht. f_equal.
    cbn [classify_route]. destruct auto; [|reflexivity].
    assert (Hl : classify_link (render_link (sp_slot_zeros sp) (Slot n)) = LinkOk (Slot n)).
    { apply classify_link_render; [exact Hshape|exact Hnum]. }
    cbn [render_link] in Hl. now rewrite Hl.
Qed.
