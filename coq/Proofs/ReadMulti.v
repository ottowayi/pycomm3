(* Proofs/ReadMulti.v — one Multiple Service Packet of reads against the reference target.
     served                   what the target holds for one parsed request (path resolves, data exists)
     single_read_ok           a plain Read Tag whose reply fits: the result is parse_read_reply on the data
     parse_multi_built        the target's splitter recovers the embedded messages the client packed
     multi_run_reads          every embedded Read Tag is answered completely when the sum of the reply
                              sizes is within the capacity; the target keeps 4 bytes per later item in reserve,
                              which every reply is long enough to cover (sum_need_tail)
     peer_multi               the target's answer to the packed request: request split, each read served, replies packed
     multi_read_ok            the whole exchange: request packed, split, served, reply packed by the
                              target, demultiplexed by the client (C13 multi_demux, 46-byte padding),
                              each embedded reply parsed as if it had been sent alone *)
From Coq Require Import ZifyBool.
From PV Require Import Base.Bytes Base.BytesLemmas Base.Res Base.PyStr.
From PV Require Import Gen.Consts Model.Path Model.Reply Model.LogixRead.
From PV Require Import Spec.EncapParser Spec.MRParser Spec.TargetIface Spec.TargetCore Spec.Project Spec.Expect Spec.TargetLogix
  Spec.ReplyReader.
From PV Require Import Proofs.PathStr Proofs.TargetCoreP Proofs.TargetLogixP Proofs.ReplyMulti Proofs.ReadBits Proofs.ReadDecode Proofs.ReadTarget
  Proofs.ReadValue Proofs.ReadFrag.
Open Scope Z_scope.
(* The imported files add the division equations to lia's preprocessing (zify_post_hook; an Ltac redefinition is global
   and reaches every importer), which is slow on every call. Off in this file, where the few goals about / and mod call
   Z.to_euclidean_division_equations themselves; the last line sets it again for the files that import this one. *)
Ltac Zify.zify_post_hook ::= idtac.

Definition served (app : lstate) (q : preq) (path tb d : bytes) (s : Z) : Prop :=
  exists pb l img,
    path_wf path pb /\ tag_cia pb /\ 4 <= EncapParser.blen pb
    /\ resolve_path (ls_proj app) false pb = TgTag l /\ mem_get (ls_mem app) (w_inst l) = Some img
    /\ 0 <= pq_elements q < 65536 /\ loc_esize (ls_proj app) l = Some s /\ type_bytes (ls_proj app) l = Some tb
    /\ tb_ok tb /\ Expect.blen tb <= 4 /\ 1 <= s /\ 1 <= pq_elements q <= w_avail l
    /\ loc_bytes (ls_pol app) img l 0 (pq_elements q * s) = Some d
    /\ (w_bit l <> None -> pq_elements q * s = 1).

Theorem single_read_ok app ms conn st q path tb d s :
  quiet app ms st -> served app q path tb d s ->
  pq_elements q * s + (2 + (1 + Path.len path + 2)) <= conn ->
  exists st', send (target_peer conn) st (76 :: path ++ le_enc 2 (pq_elements q))
              = (st', Done (unit_prefix ++ 204 :: 0 :: 0 :: 0 :: tb ++ d)) /\ quiet app ms st'.
Proof.
  intros Hq (pb & l & img & Hpw & Hcia & Hpb4 & Hres & Hmem & Hn & Hs & Htb & _ & Htb4 & Hs1 & Hav & Hd & _) Hfit.
  assert (Hpl : Path.len path = 1 + EncapParser.blen pb).
  { destruct Hpw as (-> & _). unfold Path.len, EncapParser.blen. cbn [length]. lia. }
  destruct (peer_read app ms st conn path pb (pq_elements q) l img s tb d Hq Hpw Hcia Hres Hmem Hn Hs Htb Hs1 Hav) as (st' & Hp & Hq');
    [lia|exact Hd|unfold EncapParser.blen, Path.len in *; lia|].
  exists st'. split; [|exact Hq']. apply send_some. exact Hp.
Qed.

Lemma multi_path_val : multi_path = Ok [2; 32; 2; 36; 1].
Proof. vm_compute. reflexivity. Qed.

Fixpoint offs_list (o : Z) (ms : list bytes) : list Z :=
  match ms with [] => [] | m :: r => o :: offs_list (o + Path.len m) r end.

Lemma req_offsets_ok : forall ms o, 0 <= o -> o + Path.len (concat ms) < 65536 ->
  req_offsets o ms = Ok (flat_map (le_enc 2) (offs_list o ms)).
Proof.
  induction ms as [|m r IH]; intros o Ho Hlt; [reflexivity|].
  cbn [req_offsets offs_list flat_map concat] in *. rewrite len_app_z in Hlt.
  rewrite UINT_ok by (unfold Path.len in *; lia).
  cbn [bind]. rewrite IH by (unfold Path.len in *; lia). reflexivity.
Qed.

Lemma rd_offsets_built : forall (l : list Z) rest, Forall (fun o => 0 <= o < 65536) l ->
  rd_offsets (length l) (flat_map (le_enc 2) l ++ rest) = Some l.
Proof.
  induction l as [|o l IH]; intros rest HF; [reflexivity|].
  inversion HF as [|x y Ho HF']; subst. cbn [length rd_offsets flat_map le_enc app].
  rewrite IH by assumption. rewrite u16_enc by lia. reflexivity.
Qed.

Lemma cut_slices_built : forall ms cur, ms <> [] -> Forall (fun m => m <> []) ms ->
  cut_slices cur (match ms with [] => [] | m :: r => offs_list (cur + Path.len m) r end) (concat ms) = Some ms.
Proof.
  induction ms as [|m r IH]; intros cur Hne HF; [congruence|].
  inversion HF as [|x y Hm HF']; subst.
  destruct r as [|m2 r2].
  - cbn [offs_list concat cut_slices]. rewrite app_nil_r. destruct m; [congruence|reflexivity].
  - cbn [offs_list concat cut_slices].
    assert (0 < Path.len m) by (destruct m; [congruence|unfold Path.len; cbn [length]; lia]).
    replace (cur + Path.len m <=? cur) with false by lia.
    replace (cur + Path.len m - cur) with (EncapParser.blen m) by (unfold EncapParser.blen, Path.len; lia).
    rewrite takez_app.
    specialize (IH (cur + Path.len m) ltac:(discriminate) HF'). cbn [offs_list concat] in IH. rewrite IH. reflexivity.
Qed.

Lemma offs_list_length o ms : length (offs_list o ms) = length ms.
Proof. revert o; induction ms as [|m r IH]; intros o; [reflexivity|]. cbn. rewrite IH. reflexivity. Qed.

Lemma offsets_length (l : list Z) : length (flat_map (le_enc 2) l) = (2 * length l)%nat.
Proof. induction l as [|x l IH]; [reflexivity|]. cbn [flat_map length]. rewrite app_length, le_enc_length, IH. lia. Qed.

Lemma offs_list_bound : forall ms o, 0 <= o -> o + Path.len (concat ms) < 65536 -> Forall (fun x => 0 <= x < 65536) (offs_list o ms).
Proof.
  induction ms as [|m r IH]; intros o Ho Hlt; [constructor|].
  cbn [offs_list concat] in *. rewrite len_app_z in Hlt. constructor; [unfold Path.len in *; lia|].
  apply IH; unfold Path.len in *; lia.
Qed.

Theorem parse_multi_built ms : ms <> [] -> Forall (fun m => m <> []) ms ->
  2 + 2 * Z.of_nat (length ms) + Path.len (concat ms) < 65536 ->
  parse_multi (le_enc 2 (Z.of_nat (length ms)) ++ flat_map (le_enc 2) (offs_list (2 + Z.of_nat (length ms) * 2) ms) ++ concat ms)
  = RcOk ms.
Proof.
  intros Hne HF Hlt. unfold bytes in *. remember (Z.of_nat (length ms)) as N eqn:EN.
  assert (HN : 1 <= N < 65536) by (destruct ms; [congruence|cbn [length] in *; unfold Path.len in *; lia]).
  change (le_enc 2 N) with [N mod 256; (N / 256) mod 256]. cbn [app]. unfold parse_multi. rewrite u16_enc by lia.
  replace (N =? 0) with false by lia.
  assert (HL : Z.to_nat N = length (offs_list (2 + N * 2) ms)) by (rewrite offs_list_length; unfold bytes in *; lia). rewrite HL.
  rewrite rd_offsets_built by (apply offs_list_bound; lia).
  destruct ms as [|m r]; [congruence|]. cbn [offs_list].
  replace (2 + N * 2 =? 2 + 2 * N) with true by lia. cbn [negb].
  assert (Hskip : skipn (Z.to_nat (2 * N)) (flat_map (le_enc 2) (2 + N * 2 :: offs_list (2 + N * 2 + Path.len m) r) ++ concat (m :: r))
                  = concat (m :: r)).
  { apply skipn_app_length. rewrite offsets_length. cbn [length] in *. rewrite offs_list_length. unfold bytes in *. lia. }
  rewrite Hskip.
  pose proof (cut_slices_built (m :: r) (2 + N * 2) Hne HF) as Hcut. cbn [offs_list] in Hcut. rewrite Hcut. reflexivity.
Qed.

Definition item := (preq * bytes * bytes * bytes * Z)%type.      (* request, path, type field, data, element size *)
Definition it_q (it : item) : preq := let '(q, _, _, _, _) := it in q.
Definition it_msg (it : item) : bytes := let '(q, path, _, _, _) := it in 76 :: path ++ le_enc 2 (pq_elements q).
Definition it_reply (it : item) : bytes := let '(_, _, tb, d, _) := it in 204 :: 0 :: 0 :: 0 :: tb ++ d.
Definition it_need (it : item) : Z := let '(q, _, tb, _, s) := it in 4 + Expect.blen tb + pq_elements q * s.
Definition it_served (app : lstate) (it : item) : Prop := let '(q, path, tb, d, s) := it in served app q path tb d s.
Definition sum_need (items : list item) : Z := fold_right (fun it a => it_need it + a) 0 items.

Lemma it_need_ge app it : it_served app it -> Path.len (it_reply it) <= it_need it /\ 4 <= it_need it.
Proof.
  destruct it as [[[[q path] tb] d] s].
  intros (pb & l & img & _ & _ & _ & _ & _ & Hn & _ & _ & _ & _ & Hs1 & Hav & Hd & _).
  pose proof (loc_bytes_len _ _ _ _ _ _ Hd) as Hl. cbn [it_reply it_need]. unfold Path.len, Expect.blen in *. cbn [length]. rewrite app_length. nia.
Qed.

Lemma multi_one_read app ms st tr cap seq it :
  quiet app ms st -> it_served app it -> it_need it <= cap ->
  exists st', multi_one logix_handler tr cap seq st (it_msg it) = (st', it_reply it) /\ quiet app ms st'.
Proof.
  destruct it as [[[[q path] tb] d] s]. cbn [it_served it_need it_msg it_reply].
  intros Hq (pb & l & img & Hpw & Hcia & Hpb4 & Hres & Hmem & Hn & Hs & Htb & _ & Htb4 & Hs1 & Hav & Hd & _) Hcap.
  unfold multi_one. rewrite (parse_mr_msg 76 path pb (le_enc 2 (pq_elements q)) Hpw) by lia.
  set (rq := {| mr_service := 76; mr_path := pb; mr_data := le_enc 2 (pq_elements q) |}).
  change (is_multi_request rq) with false. cbv iota.
  pose proof (tag_service_read app l cap pb (pq_elements q) img s tb d Hmem Hn Hs Htb Hs1 Hav ltac:(lia) Hd) as Hsvc. fold rq in Hsvc.
  destruct (dispatch_one_tag app ms st tr cap seq rq l _ _ Hq Hcia Hres Hsvc) as (st1 & Hd1 & Hq1).
  rewrite Hd1. cbn [mr_service rq]. rewrite reply_bytes. unfold fit.
  pose proof (loc_bytes_len _ _ _ _ _ _ Hd) as Hld.
  assert (Hfit : EncapParser.blen (reply_service 76 :: 0 :: 0 :: 0 :: tb ++ d) <= cap).
  { unfold EncapParser.blen, Expect.blen in *. cbn [length]. rewrite app_length. nia. }
  replace (EncapParser.blen (reply_service 76 :: 0 :: 0 :: 0 :: tb ++ d) <=? cap) with true by lia.
  eexists. split; [reflexivity|]. apply quiet_logs. exact Hq1.
Qed.

Lemma sum_need_tail app items : Forall (it_served app) items -> 4 * Z.of_nat (length items) <= sum_need items.
Proof.
  induction 1 as [|it r Hit _ IH]; [cbn; lia|]. cbn [sum_need fold_right length] in *.
  destruct (it_need_ge app it Hit). fold (sum_need r). lia.
Qed.

Theorem multi_run_reads app ms tr seq : forall items st left later acc,
  quiet app ms st -> Forall (it_served app) items -> later = Z.of_nat (length items) -> sum_need items <= left ->
  exists st', multi_run logix_handler tr seq left later (map it_msg items) st acc
              = (st', rev_append acc [] ++ map it_reply items) /\ quiet app ms st'.
Proof.
  induction items as [|it r IH]; intros st left later acc Hq HF Hlater Hsum.
  - cbn. rewrite app_nil_r. eauto.
  - inversion HF as [|x y Hit HF']; subst. cbn [map multi_run].
    cbn [sum_need fold_right] in Hsum. fold (sum_need r) in Hsum.
    pose proof (sum_need_tail app r HF') as Htail. destruct (it_need_ge app it Hit) as [Hrl Hn4].
    destruct (multi_one_read app ms st tr (left - 4 * (Z.of_nat (length (it :: r)) - 1)) seq it Hq Hit) as (st1 & H1 & Hq1).
    { cbn [length]. lia. }
    rewrite H1.
    destruct (IH st1 (left - EncapParser.blen (it_reply it)) (Z.of_nat (length (it :: r)) - 1) (it_reply it :: acc) Hq1 HF') as (st' & H2 & Hq').
    { cbn [length]. lia. }
    { unfold EncapParser.blen, Path.len in *. lia. }
    rewrite H2. exists st'. split; [|exact Hq']. rewrite !rev_append_rev, !app_nil_r. cbn [rev]. rewrite <- app_assoc. reflexivity.
Qed.

Lemma offsets_of_multi : forall reps cur, offsets_of cur reps = multi_offsets cur reps.
Proof. induction reps as [|b r IH]; intros cur; [reflexivity|]. cbn. rewrite IH. reflexivity. Qed.

Lemma any_error_replies items : any_error (map it_reply items) = false.
Proof.
  induction items as [|[[[[q path] tb] d] s] r IH]; [reflexivity|]. cbn [map any_error existsb it_reply] in *.
  unfold any_error in IH. rewrite IH. reflexivity.
Qed.

Lemma concat_len_replies app items : Forall (it_served app) items -> Path.len (concat (map it_reply items)) <= sum_need items.
Proof.
  induction 1 as [|it r Hit _ IH]; [cbn; lia|]. cbn [map concat sum_need fold_right]. fold (sum_need r).
  rewrite len_app_z. destruct (it_need_ge app it Hit). lia.
Qed.

Lemma multi_message_ok (msgs : list bytes) : 2 + 2 * Z.of_nat (length msgs) + Path.len (concat msgs) < 65536 ->
  multi_message msgs = Ok (10 :: [2; 32; 2; 36; 1] ++ le_enc 2 (Z.of_nat (length msgs))
                              ++ flat_map (le_enc 2) (offs_list (2 + Z.of_nat (length msgs) * 2) msgs) ++ concat msgs).
Proof.
  intros Hlt. unfold multi_message. rewrite multi_path_val. cbn [bind].
  rewrite UINT_ok by (unfold Path.len in *; lia).
  cbn [bind]. rewrite req_offsets_ok by (unfold Path.len in *; lia). reflexivity.
Qed.

Lemma it_msgs_nonempty items : Forall (fun m : bytes => m <> []) (map it_msg items).
Proof. induction items as [|[[[[q path] tb] d] s] r IH]; constructor; [discriminate|exact IH]. Qed.

Theorem peer_multi app conn st (items : list item) :
  quiet app true st -> items <> [] -> Forall (it_served app) items ->
  sum_need items <= conn - 8 - 2 * Z.of_nat (length items) ->
  2 + (8 + 2 * Z.of_nat (length items) + Path.len (concat (map it_msg items))) <= conn -> conn < 65536 ->
  exists msg st',
    multi_message (map it_msg items) = Ok msg
    /\ target_peer conn st msg = (st', Some (138 :: 0 :: 0 :: 0 :: multi_data (map it_reply items)))
    /\ quiet app true st'.
Proof.
  intros Hq Hne HF Hsum Hreq Hconn.
  assert (HN1 : 1 <= Z.of_nat (length items)) by (destruct items; [congruence|cbn [length]; lia]).
  set (msgs := map it_msg items) in *. set (reps := map it_reply items).
  assert (HN : length msgs = length items /\ length reps = length items) by (split; apply map_length).
  destruct HN as [HlenN Hrn]. rewrite <- HlenN in Hsum, Hreq, HN1. set (N := Z.of_nat (length msgs)) in *.
  set (data := le_enc 2 N ++ flat_map (le_enc 2) (offs_list (2 + N * 2) msgs) ++ concat msgs).
  exists (10 :: [2; 32; 2; 36; 1] ++ data).
  rewrite multi_message_ok by (unfold bytes, Path.len in *; lia). fold N data.
  enough (exists st', target_peer conn st (10 :: [2; 32; 2; 36; 1] ++ data) = (st', Some (138 :: 0 :: 0 :: 0 :: multi_data reps))
                      /\ quiet app true st') as (st' & Hp & Hq') by eauto.
  assert (Hpm : parse_multi data = RcOk msgs).
  { apply parse_multi_built; [destruct items; [congruence|discriminate]|apply it_msgs_nonempty|unfold bytes, Path.len in *; lia]. }
  assert (Hdl : EncapParser.blen data = 2 + 2 * N + Path.len (concat msgs)).
  { unfold data, EncapParser.blen, Path.len. rewrite !app_length, le_enc_length, offsets_length, offs_list_length. unfold N, bytes in *. lia. }
  unfold target_peer.
  replace (conn <? _) with false by (cbn [List.app]; rewrite !blen_cons, Hdl; unfold bytes, Path.len in *; lia).
  rewrite (parse_mr_msg 10 [2; 32; 2; 36; 1] [32; 2; 36; 1] data) by (repeat split; try reflexivity; lia).
  set (rq := {| mr_service := 10; mr_path := [32; 2; 36; 1]; mr_data := data |}).
  unfold dispatch. change (is_multi_request rq) with true. cbv iota.
  unfold multi_service, with_injection.
  set (st1 := logs [EvRequest (TConnected 0) (Some 0) rq] st).
  assert (Hq1 : quiet app true st1) by (apply quiet_logs; exact Hq).
  rewrite (proj1 Hq1). cbn [take_injection].
  set (st2 := set_inject [] st1).
  assert (Hq2 : quiet app true st2) by (apply quiet_set_inject; exact Hq1).
  rewrite (proj2 (proj2 Hq2)). cbn [negb mr_data rq]. rewrite Hpm.
  replace (zlen msgs) with N by reflexivity.
  destruct (multi_run_reads app true (TConnected 0) (Some 0) items st2 (conn - 2 - 6 - 2 * N) N []) as (st3 & Hrun & Hq3);
    [exact Hq2|exact HF|unfold N; rewrite HlenN; reflexivity|lia|].
  fold msgs reps in Hrun. rewrite Hrun. cbn [rev_append List.app].
  unfold finish_reply, fit. rewrite (any_error_replies items : any_error reps = false).
  assert (Hbytes : mr_bytes 10 {| rp_status := 0; rp_ext := []; rp_data := le_enc 2 N ++ offsets_of (2 + 2 * N) reps ++ concat reps |}
                   = 138 :: 0 :: 0 :: 0 :: multi_data reps).
  { unfold mr_bytes, multi_data. cbn [rp_status rp_ext rp_data flat_map List.app].
    rewrite offsets_of_multi, Hrn, <- HlenN. reflexivity. }
  cbn [mr_service rq]. rewrite Hbytes.
  replace (EncapParser.blen (138 :: 0 :: 0 :: 0 :: multi_data reps) <=? conn - 2) with true.
  - eexists. split; [reflexivity|]. apply quiet_logs. exact Hq3.
  - pose proof (concat_len_replies app items HF) as Hcl. fold reps in Hcl.
    unfold multi_data, EncapParser.blen, Path.len in *. cbn [length]. rewrite !app_length, le_enc_length, multi_offsets_length, Hrn.
    unfold N, bytes in *. lia.
Qed.

Lemma multi_datas_reply (reps : list bytes) : reps <> [] -> multi_data_size reps < 65536 ->
  multi_datas (unit_prefix ++ 138 :: 0 :: 0 :: 0 :: multi_data reps) = reps.
Proof.
  intros Hne Hsz.
  assert (Henv : forall data, let raw := unit_prefix ++ 138 :: 0 :: 0 :: 0 :: data in
            is_some (r_error (parse_unit raw)) = false /\ opt_is (r_command_status (parse_unit raw)) SUCCESS = true
            /\ Reply.r_data (parse_unit raw) = Some data /\ slice 49 50 raw = [0])
    by (intros data; vm_compute; repeat split; reflexivity).
  destruct (Henv (multi_data reps)) as (E1 & E2 & E3 & E4).
  unfold multi_datas. rewrite E1, E2, E3, E4, (multi_demux reps Hne Hsz). cbn [orb negb].
  unfold multi_data. rewrite le_enc2. reflexivity.
Qed.

Lemma multi_results_replies : forall items ids, length ids = length items ->
  multi_results (map it_reply items) (combine ids (map it_q items))
  = combine ids (map (fun it => let '(q, _, tb, d, _) := it in reply_opt (tb ++ d) (pq_info q) (pq_elements q)) items).
Proof.
  induction items as [|[[[[q path] tb] d] s] r IH]; intros [|i ids] Hids; try discriminate; [reflexivity|].
  cbn [map combine multi_results it_q it_reply]. rewrite read_response_204, IH by (auto; injection Hids; auto). reflexivity.
Qed.

Theorem multi_read_ok app conn st (items : list item) (ids : list Z) :
  quiet app true st -> items <> [] -> Forall (it_served app) items -> length ids = length items ->
  sum_need items <= conn - 8 - 2 * Z.of_nat (length items) ->
  2 + (8 + 2 * Z.of_nat (length items) + Path.len (concat (map it_msg items))) <= conn -> conn < 65536 ->
  exists msg st',
    multi_message (map it_msg items) = Ok msg
    /\ send (target_peer conn) st msg = (st', Done (unit_prefix ++ 138 :: 0 :: 0 :: 0 :: multi_data (map it_reply items)))
    /\ quiet app true st'
    /\ multi_results (multi_datas (unit_prefix ++ 138 :: 0 :: 0 :: 0 :: multi_data (map it_reply items)))
                     (combine ids (map it_q items))
       = combine ids (map (fun it => let '(q, _, tb, d, _) := it in reply_opt (tb ++ d) (pq_info q) (pq_elements q)) items).
Proof.
  intros Hq Hne HF Hids Hsum Hreq Hconn.
  destruct (peer_multi app conn st items Hq Hne HF Hsum Hreq Hconn) as (msg & st' & Hmsg & Hpeer & Hq').
  exists msg, st'. split; [exact Hmsg|]. split; [apply send_some; exact Hpeer|]. split; [exact Hq'|].
  rewrite multi_datas_reply; [apply multi_results_replies; exact Hids|destruct items; [congruence|discriminate]|].
  unfold multi_data_size. rewrite map_length. pose proof (concat_len_replies app items HF). unfold Path.len in *. lia.
Qed.

Ltac Zify.zify_post_hook ::= Z.to_euclidean_division_equations.
