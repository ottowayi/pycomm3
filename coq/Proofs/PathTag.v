(* Proofs/PathTag.v — tag strings and routes: tag_request_path applied to the rendering of a tag
   AST builds exactly the segments the AST means (induction on the member list, string lemmas),
   hops built as PortSegment objects mean what they say; both then go through Proofs/PathSeg.v. *)
From Coq Require Import String.
From PV Require Import Base.Bytes Base.BytesLemmas Base.Res Base.PyStr Gen.PathTables Model.Path
     Spec.EPathParser Proofs.PathStr Proofs.PathSeg.
From Coq Require Import ZifyBool.
Open Scope Z_scope.
Ltac Zify.zify_post_hook ::= Z.to_euclidean_division_equations.

Lemma name_chars n : forallb name_char n = true ->
  nosep 46 n = true /\ nosep 91 n = true /\ nosep 58 n = true /\ ascii_ok n = true.
Proof.
  intros H. repeat split; (eapply forallb_impl; [|exact H]); intros c Hc; unfold name_char in Hc; lia.
Qed.

Lemma digits_nosep c d : all_digits d = true -> (c < 48 \/ 57 < c) -> nosep c d = true.
Proof.
  intros H Hc. eapply forallb_impl; [|exact H]. intros a Ha. unfold is_ascii_digit in Ha. lia.
Qed.

Definition wf_idx_digits (idx : list digits) : Prop :=
  forallb (fun d => isdigit d && (len d <=? 4300)) idx = true.

Lemma wf_index_digits limit idx : forallb (wf_index limit) idx = true -> wf_idx_digits idx.
Proof.
  unfold wf_idx_digits. apply forallb_impl. intros d H. unfold wf_index, digits_ok in H.
  apply andb_true_iff in H as [H _]. exact H.
Qed.

Lemma idx_all_digits idx : wf_idx_digits idx -> forallb all_digits idx = true.
Proof.
  apply forallb_impl. intros d H. apply andb_true_iff in H as [H _]. now apply isdigit_all in H.
Qed.

Lemma render_idx_nosep c idx : wf_idx_digits idx -> c <> 91 -> c <> 93 -> c <> 44 -> (c < 48 \/ 57 < c) ->
  nosep c (render_idx idx) = true.
Proof.
  intros H H1 H2 H3 H4. destruct idx as [|d ds]; [reflexivity|]. unfold render_idx.
  rewrite !nosep_app. cbn [nosep forallb].
  rewrite nosep_join; [lia|cbn [nosep forallb]; lia|].
  eapply forallb_impl; [|exact (idx_all_digits _ H)]. intros a Ha. now apply digits_nosep.
Qed.

Lemma find_tag_index_bracket name body c :
  nosep 91 name = true -> find_tag_index (name ++ 91 :: body ++ [c]) = (name, split_chr 44 body).
Proof.
  intros Hn. unfold find_tag_index. rewrite contains_chr_app_cons.
  change (name ++ 91 :: body ++ [c]) with (name ++ (91 :: body) ++ [c]). rewrite app_assoc, removelast_snoc.
  unfold find. rewrite find_from_nosep by exact Hn. cbn [Nat.add].
  now rewrite firstn_app_exact, <- Nat.add_1_r, skipn_app_add.
Qed.

Lemma find_tag_index_level name idx :
  nosep 91 name = true -> wf_idx_digits idx -> find_tag_index (name ++ render_idx idx) = (name, idx).
Proof.
  intros Hn Hi. destruct idx as [|d ds].
  - cbn [render_idx]. rewrite app_nil_r. unfold find_tag_index. now rewrite contains_chr_nosep.
  - unfold render_idx. cbn [app]. rewrite (find_tag_index_bracket _ _ _ Hn). f_equal.
    pose proof (idx_all_digits _ Hi) as Hd. cbn [forallb] in Hd. apply andb_true_iff in Hd as [Hd Hds].
    apply split_join.
    + apply digits_nosep; [exact Hd|lia].
    + eapply forallb_impl; [|exact Hds]. intros a Ha. apply digits_nosep; [exact Ha|lia].
Qed.

Lemma dval_spec d : isdigit d = true -> digits_val d 0 = Some (dval d) /\ 0 <= dval d.
Proof. intros H. destruct (isdigit_val d H) as (v & Hv & Hp). unfold dval. now rewrite Hv. Qed.

Lemma map_res_int idx : wf_idx_digits idx -> map_res py_int_full idx = Ok (map dval idx).
Proof.
  unfold wf_idx_digits. induction idx as [|d ds IH]; cbn [forallb map_res map]; [reflexivity|].
  intros H. apply andb_true_iff in H as [Hd Hds]. apply andb_true_iff in Hd as [Hd Hl].
  destruct (dval_spec d Hd) as [Hv _].
  rewrite (py_int_full_digits d (dval d) Hd) by (unfold int_max_str_digits; lia || exact Hv).
  cbn [bind]. now rewrite (IH Hds).
Qed.

Definition level_segs (l : level) : list seg := DataSym (lv_name l) :: member_segs (map dval (lv_idx l)).

Lemma wf_level_facts limit l : wf_level limit l = true ->
  forallb name_char (lv_name l) = true /\ 1 <= len (lv_name l) <= 255 /\ forallb (wf_index limit) (lv_idx l) = true.
Proof.
  unfold wf_level, wf_name. intros H. apply andb_true_iff in H as [H Hi].
  apply andb_true_iff in H as [H H3]. apply andb_true_iff in H as [H1 H2]. repeat split; try assumption; lia.
Qed.

Lemma attr_segments_levels limit levels : forallb (wf_level limit) levels = true ->
  attr_segments (map render_level levels) = Ok (flat_map level_segs levels).
Proof.
  induction levels as [|l ls IH]; cbn [forallb map attr_segments flat_map]; [reflexivity|].
  intros H. apply andb_true_iff in H as [Hl Hls]. destruct (wf_level_facts _ _ Hl) as (Hn & _ & Hi).
  destruct (name_chars _ Hn) as (_ & H91 & _ & _). pose proof (wf_index_digits _ _ Hi) as Hd.
  replace (find_tag_index (render_level l)) with (lv_name l, lv_idx l)
    by (symmetry; apply (find_tag_index_level _ _ H91 Hd)).
  rewrite (map_res_int _ Hd). cbn [bind]. rewrite (IH Hls). reflexivity.
Qed.

Lemma render_level_nosep limit c l : wf_level limit l = true -> (c = 46 \/ c = 58) -> nosep c (render_level l) = true.
Proof.
  intros H Hc. destruct (wf_level_facts _ _ H) as (Hn & _ & Hi). destruct (name_chars _ Hn) as (H46 & _ & H58 & _).
  unfold render_level. rewrite nosep_app. rewrite render_idx_nosep by (try exact (wf_index_digits _ _ Hi); lia).
  destruct Hc as [-> | ->]; [now rewrite H46|now rewrite H58].
Qed.

Lemma not_program s : nosep 58 s = true -> starts_with program_prefix s = false.
Proof.
  intros H. destruct (starts_with program_prefix s) eqn:E; [|reflexivity].
  apply starts_with_app in E as [r ->]. rewrite nosep_app in H. apply andb_true_iff in H as [H _].
  vm_compute in H. discriminate.
Qed.

(* the segments tag_request_path builds for a tag AST *)
Definition tag_segs (p : tagpath) (inst : option Z) (use : bool) : list seg :=
  match tp_program p with
  | Some n => DataSym (program_prefix ++ n) :: flat_map level_segs (tp_base p :: tp_members p)
  | None =>
      (match instance_used p inst use with
       | Some i => [Logical (txt "class_id") (LBytes class_symbol_object); Logical (txt "instance_id") (LInt i)]
                   ++ member_segs (map dval (lv_idx (tp_base p)))
       | None => level_segs (tp_base p)
       end) ++ flat_map level_segs (tp_members p)
  end.

Lemma tag_segments_render limit p inst use : wf_tagpath limit p = true ->
  tag_segments (render_tag p) inst use = Ok (Some (tag_segs p inst use)).
Proof.
  unfold wf_tagpath. intros H. apply andb_true_iff in H as [H Hm]. apply andb_true_iff in H as [Hp Hb].
  assert (Hall : forallb (wf_level limit) (tp_base p :: tp_members p) = true) by (cbn [forallb]; now rewrite Hb, Hm).
  assert (Hsplit46 : forallb (nosep 46) (map render_level (tp_members p)) = true).
  { clear -Hm. induction (tp_members p) as [|l ls IH]; cbn [map forallb] in *; [reflexivity|].
    apply andb_true_iff in Hm as [Hl Hls]. rewrite (render_level_nosep limit 46 l Hl) by lia. now apply IH. }
  unfold render_tag, tag_segments, tag_segs, instance_used.
  destruct (tp_program p) as [n|] eqn:Ep.
  - (* program scope *)
    apply andb_true_iff in Hp as [Hn Hl]. unfold wf_name in Hn.
    apply andb_true_iff in Hn as [Hn _]. apply andb_true_iff in Hn as [Hn _].
    destruct (name_chars _ Hn) as (H46 & H91 & _ & _).
    cbn [app map]. rewrite split_join.
    2:{ rewrite nosep_app, H46. reflexivity. }
    2:{ cbn [forallb]. rewrite (render_level_nosep limit 46 _ Hb) by lia. exact Hsplit46. }
    assert (Hno : contains_chr 91 (program_prefix ++ n) = false).
    { apply contains_chr_nosep. rewrite nosep_app, H91. reflexivity. }
    unfold find_tag_index. rewrite Hno. cbn [map_res bind].
    change (txt "Program:") with program_prefix. rewrite PyStrLemmas.starts_with_app.
    change (render_level (tp_base p) :: map render_level (tp_members p)) with (map render_level (tp_base p :: tp_members p)).
    rewrite (attr_segments_levels limit (tp_base p :: tp_members p) Hall). cbn [bind negb].
    destruct inst as [i|]; [rewrite andb_false_r; cbn [andb]|]; reflexivity.
  - (* controller scope *)
    cbn [app map]. rewrite split_join.
    2:{ apply (render_level_nosep limit 46 _ Hb). lia. }
    2:{ exact Hsplit46. }
    destruct (wf_level_facts _ _ Hb) as (Hn & _ & Hi). destruct (name_chars _ Hn) as (_ & H91 & _ & _).
    pose proof (wf_index_digits _ _ Hi) as Hd.
    replace (find_tag_index (render_level (tp_base p))) with (lv_name (tp_base p), lv_idx (tp_base p))
      by (symmetry; apply (find_tag_index_level _ _ H91 Hd)).
    change (txt "Program:") with program_prefix.
    rewrite (not_program (render_level (tp_base p))) by (apply (render_level_nosep limit 58 _ Hb); lia).
    rewrite (map_res_int _ Hd). cbn [bind].
    rewrite (attr_segments_levels limit (tp_members p) Hm). cbn [bind negb andb].
    destruct inst as [i|]; [|reflexivity]. rewrite andb_true_r.
    destruct (use && negb (i =? 0)); reflexivity.
Qed.

Lemma denote_all_app a b : denote_all (a ++ b) =
  match denote_all a, denote_all b with Some x, Some y => Some (x ++ y) | _, _ => None end.
Proof.
  induction a as [|s a IH]; cbn [app denote_all].
  - destruct (denote_all b); reflexivity.
  - rewrite IH. destruct (denote s); [|reflexivity]. destruct (denote_all a); [|reflexivity].
    destruct (denote_all b); reflexivity.
Qed.

(* [segs] read as [ss], and none of them carries a 4-byte value when every number is below 2^16 *)
Definition reads (limit : Z) (segs : list seg) (ss : list sseg) : Prop :=
  denote_all segs = Some ss /\ (limit <= 65536 -> existsb is32 segs = false).

Lemma reads_app limit a x b y : reads limit a x -> reads limit b y -> reads limit (a ++ b) (x ++ y).
Proof.
  intros [Ha Ga] [Hb Gb]. split; [now rewrite denote_all_app, Ha, Hb|].
  intros L. now rewrite existsb_app, Ga, Gb.
Qed.

Lemma reads_members limit idx : limit <= LOGICAL_LIMIT -> forallb (wf_index limit) idx = true ->
  reads limit (member_segs (map dval idx)) (map (fun ds => SLogical 2 (dval ds)) idx).
Proof.
  intros Hlim. induction idx as [|d ds IH]; cbn [forallb map member_segs]; [now split|].
  intros H. apply andb_true_iff in H as [Hd Hds]. unfold wf_index, digits_ok in Hd.
  apply andb_true_iff in Hd as [Hd Hv]. apply andb_true_iff in Hd as [Hd _].
  destruct (dval_spec d Hd) as [_ Hpos].
  apply (reads_app limit [_] [_]); [|exact (IH Hds)]. split; cbn [denote_all existsb is32]; [|lia].
  now rewrite (denote_logical_int (txt "member_id") 2 (dval d) eq_refl) by lia.
Qed.

Lemma reads_levels limit ls : limit <= LOGICAL_LIMIT -> forallb (wf_level limit) ls = true ->
  reads limit (flat_map level_segs ls) (flat_map level_reading ls).
Proof.
  intros Hlim. induction ls as [|l ls IH]; cbn [forallb flat_map]; [now split|].
  intros H. apply andb_true_iff in H as [Hl Hls]. apply reads_app; [|exact (IH Hls)].
  destruct (wf_level_facts _ _ Hl) as (Hn & Hlen & Hi). destruct (name_chars _ Hn) as (_ & _ & _ & Ha).
  apply (reads_app limit [_] [_]); [|exact (reads_members limit _ Hlim Hi)]. split; [|reflexivity].
  cbn [denote_all denote]. rewrite Ha. cbn [andb].
  now replace ((1 <=? len (lv_name l)) && (len (lv_name l) <=? 255)) with true by lia.
Qed.

Lemma reads_tag_segs limit p inst use :
  limit <= LOGICAL_LIMIT -> wf_tagpath limit p = true -> wf_instance limit p inst use = true ->
  reads limit (tag_segs p inst use) (tag_reading p inst use).
Proof.
  intros Hlim H Hinst. unfold wf_tagpath in H. apply andb_true_iff in H as [H Hm]. apply andb_true_iff in H as [Hp Hb].
  assert (Hall : forallb (wf_level limit) (tp_base p :: tp_members p) = true) by (cbn [forallb]; now rewrite Hb, Hm).
  unfold tag_segs, tag_reading, wf_instance, instance_used in *.
  destruct (tp_program p) as [n|]; [|destruct inst as [i|]; [destruct (use && negb (i =? 0))|]].
  - apply andb_true_iff in Hp as [Hn Hl]. unfold wf_name in Hn.
    apply andb_true_iff in Hn as [Hn _]. apply andb_true_iff in Hn as [Hn Hl1].
    destruct (name_chars _ Hn) as (_ & _ & _ & Ha).
    apply (reads_app limit [_] [_]); [|exact (reads_levels limit _ Hlim Hall)]. split; [|reflexivity].
    cbn [denote_all denote]. rewrite ascii_ok_app, Ha, len_app. change (ascii_ok program_prefix) with true.
    change (len program_prefix) with 8. pose proof (len_nonneg n). cbn [andb].
    now replace ((1 <=? 8 + len n) && (8 + len n <=? 255)) with true by lia.
  - destruct (wf_level_facts _ _ Hb) as (_ & _ & Hi).
    rewrite <- app_assoc. apply (reads_app limit [_; _] [_; _]);
      [|exact (reads_app _ _ _ _ _ (reads_members limit _ Hlim Hi) (reads_levels limit _ Hlim Hm))].
    split; cbn [denote_all existsb is32]; [|change (len class_symbol_object =? 4) with false; lia].
    now rewrite (denote_logical_int (txt "instance_id") 1 i eq_refl) by lia.
  - exact (reads_levels limit _ Hlim Hall).
  - exact (reads_levels limit _ Hlim Hall).
Qed.

Lemma guard_split f32 l :
  (table_f32 = f32 \/ existsb is32 l = false) -> existsb (seg_guard f32) l = false.
Proof.
  induction l as [|s l IH]; cbn [existsb]; [reflexivity|]. intros Hg. unfold seg_guard at 1.
  destruct Hg as [Hg|Hg].
  - replace (negb (table_f32 =? f32)) with false by lia. cbn [andb orb]. apply IH. now left.
  - apply orb_false_iff in Hg as [H1 H2]. rewrite H1, andb_false_r. cbn [orb]. apply IH. now right.
Qed.

Theorem tag_path_ok_gen f32 limit p inst use :
  f32 = 2 \/ f32 = 3 -> limit <= LOGICAL_LIMIT -> (table_f32 = f32 \/ limit <= 65536) ->
  wf_tagpath limit p = true -> wf_instance limit p inst use = true ->
  exists body, Nat.even (length body) = true
    /\ parse_padded_epath_with f32 body = Some (tag_reading p inst use)
    /\ tag_request_path (render_tag p) inst use
       = (if len body / 2 <=? 255 then Ok (Some (len body / 2 :: body)) else Err DataError)
    /\ (len body / 2 <= 255 -> parse_counted_with f32 false (len body / 2 :: body) = Some (tag_reading p inst use)).
Proof.
  intros Hf Hlim Hg Hwf Hinst. destruct (reads_tag_segs limit p inst use Hlim Hwf Hinst) as [Hd H32].
  destruct (epath_counted_ok f32 Hf (tag_segs p inst use) (tag_reading p inst use) false Hd)
    as (body & He & Hev & Hp & Henc & Hc); [apply guard_split; tauto|].
  exists body. split; [exact Hev|]. split; [exact Hp|]. split; [|exact Hc].
  unfold tag_request_path. rewrite (tag_segments_render limit p inst use Hwf). cbn [bind].
  change padded_PADDED_EPATH with true. rewrite Henc. cbn [app].
  destruct (len body / 2 <=? 255); reflexivity.
Qed.

Lemma isdigit_with_dot a r : isdigit (a ++ 46 :: r) = false.
Proof.
  unfold isdigit. destruct (a ++ 46 :: r) eqn:E; [reflexivity|]. rewrite <- E.
  rewrite forallb_app. cbn [forallb]. change (is_ascii_digit 46) with false. now rewrite andb_false_r.
Qed.

Lemma spec_octet_digits o : spec_octet o = true -> all_digits o = true.
Proof. intros H. change (spec_octet o) with (octet_ok o) in H. now apply octet_ok_facts in H. Qed.

Lemma dotted_quad_addr a b c d :
  spec_octet a = true -> spec_octet b = true -> spec_octet c = true -> spec_octet d = true ->
  dotted_quad (addr_text a b c d) = true.
Proof.
  intros Ha Hb Hc Hd. unfold dotted_quad, addr_text.
  change (a ++ [46] ++ b ++ [46] ++ c ++ [46] ++ d) with (join [46] [a; b; c; d]).
  rewrite split_join.
  - now rewrite Ha, Hb, Hc, Hd.
  - apply digits_nosep; [now apply spec_octet_digits|lia].
  - cbn [forallb]. rewrite !digits_nosep; try reflexivity; try lia; now apply spec_octet_digits.
Qed.

Lemma denote_hop pmax h : pmax <= 65535 -> wf_hop pmax h = true -> denote (hop_seg h) = Some (hop_reading h).
Proof.
  intros Hpm H. unfold wf_hop in H. apply andb_true_iff in H as [Hp Hl].
  unfold hop_seg, hop_reading. cbn [denote].
  assert (Eport : denote_port (hop_port h) = Some (match hop_port h with
            | inl n => n | inr name => match assoc_text name spec_port_names with Some k => k | None => 0 end end)).
  { destruct (hop_port h) as [n|name]; cbn [denote_port].
    - now replace ((1 <=? n) && (n <=? 65535)) with true by lia.
    - destruct (assoc_text name spec_port_names); [reflexivity|discriminate]. }
  rewrite Eport. destruct (hop_to h) as [z|ds|a b c d]; cbn [denote_link].
  - now rewrite Hl.
  - unfold digits_ok in Hl. apply andb_true_iff in Hl as [Hl Hv]. apply andb_true_iff in Hl as [Hd Hl].
    rewrite Hd. destruct (dval_spec ds Hd) as [-> _]. now replace ((dval ds <=? 255) && (len ds <=? 4300)) with true by lia.
  - apply andb_true_iff in Hl as [Hl Hd]. apply andb_true_iff in Hl as [Hl Hc]. apply andb_true_iff in Hl as [Ha Hb].
    replace (isdigit (addr_text a b c d)) with false by (symmetry; apply (isdigit_with_dot a (b ++ [46] ++ c ++ [46] ++ d))).
    now rewrite dotted_quad_addr.
Qed.

Lemma denote_hops pmax hops : pmax <= 65535 -> forallb (wf_hop pmax) hops = true ->
  denote_all (map hop_seg hops) = Some (map hop_reading hops).
Proof.
  intros Hpm. induction hops as [|h hs IH]; cbn [forallb map denote_all]; [reflexivity|].
  intros H. apply andb_true_iff in H as [Hh Hhs]. now rewrite (denote_hop pmax h Hpm Hh), (IH Hhs).
Qed.

Lemma hops_guard f32 hops : existsb (seg_guard f32) (map hop_seg hops) = false.
Proof.
  induction hops as [|h hs IH]; cbn [map existsb]; [reflexivity|]. rewrite IH, orb_false_r.
  unfold seg_guard, hop_seg. cbn [is32]. apply andb_false_r.
Qed.

(* a port number that is negative or does not fit 16 bits is refused: nothing is emitted *)
Lemma port_out_rejected n link : n < 0 \/ 65536 <= n -> encode_seg true (Port (inl n) link) = Err DataError.
Proof.
  intros H. unfold encode_seg, encode_port, encode_port_with. cbn [bind].
  destruct (port_link_bytes link) as [lb|e]; [|reflexivity]. cbn [bind].
  destruct (14 <? n) eqn:E; [now rewrite UINT_big by lia|]. cbn [bind].
  assert (Hn : Z.lor n 16 < 0 /\ n < 0) by (split; [apply Z.lor_neg; left|]; lia).
  destruct (1 <? len lb).
  - destruct (USINT_encode (len lb)) as [l|e]; [|reflexivity]. cbn [bind]. now rewrite USINT_out by now left.
  - cbn [bind]. now rewrite USINT_out by now left.
Qed.

(* port 0 (reserved, not a port number) is written as it is; the strict parser refuses it *)
Lemma port_zero_unreadable z : 0 <= z <= 255 ->
  encode_seg true (Port (inl 0) (LinkInt z)) = Ok [0; z] /\ parse_padded_epath [0; z] = None.
Proof.
  intros Hz. split.
  - apply (encode_port_wire (inl 0) 0 (LinkInt z) [z]); [reflexivity|lia| |unfold len; cbn [length]; lia].
    cbn [port_link_bytes]. apply USINT_small. lia.
  - unfold parse_padded_epath, parse_padded_epath_with. destruct (bytes_ok [0; z] && Nat.even (length [0; z])); reflexivity.
Qed.
