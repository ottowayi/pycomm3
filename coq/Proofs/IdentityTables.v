(* Proofs/IdentityTables.v — the status_info tables as the identity code uses them.
   Model: VENDORS / PRODUCT_TYPES are the dict merges {**_T, **{v: k for k, v in _T.items()}} (the
   LAST binding of a key wins, in both directions); Spec: the text the regenerated table lists for
   the id, else "UNKNOWN".  They agree because the regenerated tables have unique ids ([nodup_keys],
   checked by computation on Gen/Vendors.v and Gen/Status.v: finite, regenerated on every run). *)
From Coq Require Import String ZifyBool.
From PV Require Import Base.Bytes Base.Res Base.Proto Base.PyStr Base.PyStrLemmas Model.Identity Spec.IdentitySpec.
From PV Require Import Proofs.IdentityPrim.
From PV Require Gen.Vendors Gen.Status.
Open Scope Z_scope.
Ltac Zify.zify_post_hook ::= Z.to_euclidean_division_equations.

Definition has_key {A} (t : list (Z * A)) (k : Z) : bool := existsb (fun p => fst p =? k) t.
Fixpoint nodup_keys {A} (t : list (Z * A)) : bool :=
  match t with
  | [] => true
  | p :: r => negb (has_key r (fst p)) && nodup_keys r
  end.

Lemma ilookup_absent {A} (t : list (Z * A)) k : has_key t k = false -> ilookup t k = None.
Proof.
  induction t as [|[k' v] r IH]; cbn [has_key existsb ilookup fst]; intros H; [reflexivity|].
  apply orb_false_iff in H as [Hk Hr]. unfold has_key in IH. rewrite (IH Hr), Hk. reflexivity.
Qed.
Lemma tbl_find_absent {A} (t : list (Z * A)) k : has_key t k = false -> tbl_find t k = None.
Proof.
  induction t as [|[k' v] r IH]; cbn [has_key existsb tbl_find fst]; intros H; [reflexivity|].
  apply orb_false_iff in H as [Hk Hr]. unfold has_key in IH. rewrite Hk. apply IH, Hr.
Qed.

(* last-binding-wins and first-binding-wins lookups agree on tables with unique keys *)
Lemma ilookup_tbl_find {A} (t : list (Z * A)) k : nodup_keys t = true -> ilookup t k = tbl_find t k.
Proof.
  induction t as [|[k' v] r IH]; cbn [nodup_keys ilookup tbl_find fst]; intros H; [reflexivity|].
  apply andb_true_iff in H as [Hn Hr]. rewrite (IH Hr).
  destruct (k' =? k) eqn:E.
  - assert (k' = k) by lia. subst k'. apply negb_true_iff in Hn. rewrite (tbl_find_absent r k Hn). reflexivity.
  - destruct (tbl_find r k); reflexivity.
Qed.

Lemma in_has_key {A} (t : list (Z * A)) k v : In (k, v) t -> has_key t k = true.
Proof.
  unfold has_key. intros H. apply existsb_exists. exists (k, v). split; [assumption|cbn [fst]; lia].
Qed.

Lemma in_tbl_find {A} (t : list (Z * A)) k v : nodup_keys t = true -> In (k, v) t -> tbl_find t k = Some v.
Proof.
  induction t as [|[k' v'] r IH]; cbn [nodup_keys tbl_find fst In]; intros H Hin; [contradiction|].
  apply andb_true_iff in H as [Hn Hr]. destruct Hin as [E|Hin].
  - inversion E; subst. rewrite Z.eqb_refl. reflexivity.
  - destruct (k' =? k) eqn:E.
    + assert (k' = k) by lia. subst k'. apply negb_true_iff in Hn. rewrite (in_has_key r k v Hin) in Hn. discriminate.
    + apply IH; assumption.
Qed.

Lemma tbl_find_in {A} (t : list (Z * A)) k v : tbl_find t k = Some v -> In (k, v) t.
Proof.
  induction t as [|[k' v'] r IH]; cbn [tbl_find In]; intros H; [discriminate|].
  destruct (k' =? k) eqn:E.
  - left. inversion H; subst. f_equal. lia.
  - right. apply IH, H.
Qed.

Lemma table_get_name_spec t i : nodup_keys t = true -> table_get_name t i = name_or_unknown t i.
Proof.
  intros H. unfold table_get_name, name_or_unknown, merged_lookup. rewrite (ilookup_tbl_find t i H).
  assert (G : forall o : option (list Z),
             match option_map MStr o with Some (MStr n) => n | _ => UNKNOWN end
             = match o with Some n => n | None => unknown end) by (intros [?|]; reflexivity).
  apply G.
Qed.

(* The regenerated tables list their ids in strictly ascending order: one pass shows it, where
   [nodup_keys] itself compares every pair. *)
Fixpoint ascending {A} (lo : Z) (t : list (Z * A)) : bool :=
  match t with
  | [] => true
  | p :: r => (lo <? fst p) && ascending (fst p) r
  end.
Lemma ascending_above {A} (t : list (Z * A)) lo k : ascending lo t = true -> has_key t k = true -> lo < k.
Proof.
  revert lo; induction t as [|p r IH]; cbn [ascending has_key existsb]; intros lo H Hk; [discriminate|].
  apply andb_true_iff in H as [Hlo Hr]. apply orb_true_iff in Hk as [Hk|Hk]; [lia|].
  specialize (IH _ Hr Hk). lia.
Qed.
Lemma ascending_nodup {A} (t : list (Z * A)) lo : ascending lo t = true -> nodup_keys t = true.
Proof.
  revert lo; induction t as [|p r IH]; cbn [ascending nodup_keys]; intros lo H; [reflexivity|].
  apply andb_true_iff in H as [_ Hr]. rewrite (IH _ Hr), andb_true_r.
  destruct (has_key r (fst p)) eqn:E; [|reflexivity]. pose proof (ascending_above r _ _ Hr E). lia.
Qed.

Lemma vendors_nodup : nodup_keys Gen.Vendors.vendors = true.
Proof. apply (ascending_nodup _ (-1)). vm_compute. reflexivity. Qed.
Lemma product_types_nodup : nodup_keys Gen.Status.product_types = true.
Proof. apply (ascending_nodup _ (-1)). vm_compute. reflexivity. Qed.

Lemma VENDORS_get_spec i : VENDORS_get i = name_or_unknown Gen.Vendors.vendors i.
Proof. apply table_get_name_spec, vendors_nodup. Qed.
Lemma PRODUCT_TYPES_get_spec i : PRODUCT_TYPES_get i = name_or_unknown Gen.Status.product_types i.
Proof. apply table_get_name_spec, product_types_nodup. Qed.

Definition known_name (t : list (Z * list Z)) (n : list Z) : bool := existsb (fun p => text_eqb (snd p) n) t.

Lemma rlookup_in t n k : rlookup t n = Some k -> In (k, n) t.
Proof.
  induction t as [|[k' v] r IH]; cbn [rlookup In]; intros H; [discriminate|].
  destruct (rlookup r n) as [k''|] eqn:E.
  - right. apply IH. exact H.
  - destruct (text_eqb v n) eqn:Ev; [|discriminate].
    apply text_eqb_eq in Ev. inversion H; subst. now left.
Qed.

Lemma known_rlookup t n : known_name t n = true -> exists k, rlookup t n = Some k.
Proof.
  induction t as [|[k' v] r IH]; cbn [known_name existsb rlookup snd]; intros H; [discriminate|].
  destruct (rlookup r n) as [k''|] eqn:E; [eexists; reflexivity|].
  apply orb_true_iff in H as [H|H].
  - rewrite H. eexists; reflexivity.
  - destruct (IH H) as [k Hk]. discriminate.
Qed.

(* a name of the table maps to an id that maps back to that name *)
Lemma getitem_get t n :
  nodup_keys t = true -> known_name t n = true ->
  exists k, table_getitem t n = Ok k /\ In (k, n) t /\ name_or_unknown t k = n.
Proof.
  intros Hnd Hk. destruct (known_rlookup t n Hk) as [k Hr].
  exists k. unfold table_getitem, merged_lookup. rewrite Hr. cbn [option_map].
  pose proof (rlookup_in t n k Hr) as Hin.
  split; [reflexivity|]. split; [assumption|].
  unfold name_or_unknown. rewrite (in_tbl_find t k n Hnd Hin). reflexivity.
Qed.

Definition keys_u16 (t : list (Z * list Z)) : bool := forallb (fun p => in16 (fst p)) t.
Lemma vendors_u16 : keys_u16 Gen.Vendors.vendors = true.
Proof. vm_compute. reflexivity. Qed.
Lemma product_types_u16 : keys_u16 Gen.Status.product_types = true.
Proof. vm_compute. reflexivity. Qed.
Lemma keys_u16_in t k n : keys_u16 t = true -> In (k, n) t -> 0 <= k < 65536.
Proof.
  unfold keys_u16. rewrite forallb_forall. intros H Hin. specialize (H _ Hin). cbn [fst] in H.
  unfold in16 in H. lia.
Qed.

Lemma keyswitch_nodup : nodup_keys Gen.Status.keyswitch = true.
Proof. vm_compute. reflexivity. Qed.
Lemma keyswitch_sub_nodup b0 sub : tbl_find Gen.Status.keyswitch b0 = Some sub -> nodup_keys sub = true.
Proof.
  intros E. apply tbl_find_in in E. revert E.
  apply (proj1 (forallb_forall (fun p => nodup_keys (snd p)) _)). vm_compute. reflexivity.
Qed.

Lemma keyswitch_spec b0 b1 : keyswitch_text [b0; b1] = Ok (spec_keyswitch b0 b1).
Proof.
  unfold keyswitch_text, spec_keyswitch. cbn [bytes_index nth_error bind].
  rewrite (ilookup_tbl_find _ b0 keyswitch_nodup).
  destruct (tbl_find Gen.Status.keyswitch b0) as [sub|] eqn:E; [|reflexivity].
  rewrite (ilookup_tbl_find sub b1 (keyswitch_sub_nodup _ _ E)). destruct (tbl_find sub b1); reflexivity.
Qed.
