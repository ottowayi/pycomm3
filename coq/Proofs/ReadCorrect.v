(* Proofs/ReadCorrect.v — the composition: LogixDriver.read against the reference target returns what
   Spec/Expect.ref_read says.
     agree            the interface between the addressing layers: the place Expect.resolve assigns to a
                      request, the location the target resolves the client's path to, and the client's
                      parsed request (bit, element count, BOOL-array arithmetic, tag info) describe the same thing
     answered         then the target serves the request, and parse_read_reply + read()'s post-processing of
                      the served data is the reference value (integers exactly, REAL / LREAL bit patterns,
                      strings, structures as dicts of their visible members, {n} lists, {1} unwrapped) with the
                      documented type string
     agree_value      agree implies answered: agree_data, agree_bit, agree_bools for the three kinds of place
     read_correct_partial   for every project with a sound layout, memory image, fragment policy,
                      connection size, request list: every request that [resolves] (see below) gets a
                      truthy Tag carrying the reference value — single-packet, multi-packet and
                      fragmented plans alike.
   What is NOT proved here is that [resolves] holds for every request string that exists in the
   project (the string layer: _parse_tag_request / tag_request_path on the rendered request vs the
   target's path parser); it is a hypothesis per request, decidable by computation for any concrete
   request, and exercised by the correspondence on every generated request.
   No axioms. *)
From Coq Require Import ZifyBool String.
From PV Require Import Base.Bytes Base.BytesLemmas Base.Res Base.Proto Base.PyStr.
From PV Require Import Gen.Consts Model.Path Model.Reply Model.LogixPlan Model.LogixRead.
From PV Require Import Spec.EncapParser Spec.MRParser Spec.TargetIface Spec.TargetCore Spec.Project Spec.Expect Spec.TargetLogix.
From PV Require Import Proofs.TargetCoreP Proofs.TargetLogixP Proofs.ReadBits Proofs.ReadDecode Proofs.ReadTarget
  Proofs.ReadValue Proofs.ReadFrag Proofs.ReadMulti Proofs.ReadPlan.
Open Scope list_scope.
Open Scope Z_scope.
(* The imported files add the division equations to lia's preprocessing (zify_post_hook; an Ltac redefinition is global
   and reaches every importer), which is slow on every call. Off in this file, where the few goals about / and mod call
   Z.to_euclidean_division_equations themselves; the last line sets it again for the files that import this one. *)
Ltac Zify.zify_post_hook ::= idtac.

Definition type_text (tn : text) (c : Z) : text :=
  let n := client_type_name tn in
  if 1 <? c then n ++ [91] ++ print_int c ++ [93] else n.

Definition info_for (p : project) (ty : base_ty) (s : Z) (i : tinfo) : Prop :=
  (exists f1, elem_tc f1 p ty = Some (info_elem i))
  /\ ti_esize i = s
  /\ (exists tn, ty_name p ty = Some tn /\ ti_dtname i = client_type_name tn)
  /\ match ty with
     | BStruct tid => ti_struct i = true /\ exists t, find_template (p_templates p) tid = Some t
                                                 /\ ti_attrs i = map m_name (visible_members t)
     | _ => ti_struct i = false
     end.

Definition dword_elements (start n : Z) : Z := (start + n) / 32 + (if (start + n) mod 32 =? 0 then 0 else 1).

Definition agree (p : project) (pl : place) (bit cnt : option Z) (l : wloc) (q : preq) : Prop :=
  match pl with
  | PlData inst off ty _ avail =>
      is_dword ty = false /\ w_inst l = inst /\ w_off l = off /\ w_ty l = ty /\ w_bit l = None /\ w_avail l = avail
      /\ 1 <= avail /\ 0 <= off
      /\ pq_bit q = bit /\ pq_bools q = None /\ pq_elements q = cnt_n cnt
      /\ (exists s, base_size p ty = Some s /\ info_for p ty s (pq_info q))
      /\ (info_is_arr (pq_info q) = false -> cnt = None \/ cnt = Some 1)
      /\ text_eqb (ti_dtname (pq_info q)) txt_DWORD = false
  | PlBit inst off b =>
      w_inst l = inst /\ w_off l = off /\ w_bit l = Some b /\ w_ty l = BAtom C_BOOL /\ 1 <= w_avail l
      /\ pq_bit q = None /\ pq_bools q = None /\ pq_elements q = 1
      /\ ti_class (pq_info q) = KAtom 193 /\ ti_dtname (pq_info q) = txt_BOOL /\ ti_esize (pq_info q) = 1
  | PlBools inst off nbits start =>
      w_inst l = inst /\ w_off l = off /\ w_ty l = BAtom C_DWORD /\ w_bit l = None /\ nbits = 32 * w_avail l
      /\ 0 <= off /\ 0 <= start
      /\ (pq_bit q = Some start \/ (pq_bit q = None /\ start = 0))
      /\ pq_bools q = bools_of_cnt cnt
      /\ pq_elements q = dword_elements start (cnt_n cnt)
      /\ (exists f1, elem_tc f1 p (BAtom C_DWORD) = Some (info_elem (pq_info q)))
      /\ (info_is_arr (pq_info q) = false -> w_avail l = 1)
      /\ ti_dtname (pq_info q) = txt_DWORD /\ ti_esize (pq_info q) = 4
  end.

(* what the client and the target do with the request string [s] *)
Definition resolves (p : project) (tags : tagdb) (use_ids : bool) (s : text) (r : request_ast) (q : preq) (path : bytes) : Prop :=
  exists pl pb l,
    resolve p r = Some pl
    /\ parse_tag_request tags s = Ok q /\ read_path use_ids q = Ok path
    /\ path_wf path pb /\ tag_cia pb /\ 4 <= EncapParser.blen pb
    /\ resolve_path p false pb = TgTag l
    /\ agree p pl (r_bit r) (r_count r) l q.

(* the type Expect.ref_type names, as a function of the resolved place *)
Definition place_type (p : project) (pl : place) (bit cnt : option Z) : option (text * Z) :=
  let c := match cnt with Some n => n | None => 0 end in
  match pl with
  | PlData _ _ ty _ _ =>
      match bit with
      | Some _ => Some (zs "BOOL", 0)
      | None => match ty_name p ty with Some n => Some (n, c) | None => None end
      end
  | PlBit _ _ _ => Some (zs "BOOL", 0)
  | PlBools _ _ _ _ => Some (zs "BOOL", c)
  end.

Lemma ref_type_place p r pl : resolve p r = Some pl -> ref_type p r = place_type p pl (r_bit r) (r_count r).
Proof. intros H. unfold ref_type, place_type. rewrite H. destruct pl; reflexivity. Qed.

Definition good_tag (t : rtag) (v : rvalue) (ty : text) : Prop :=
  tg_error t = false /\ tg_type t = Some ty /\ exists v', tg_value t = Some v' /\ pyeq v' v.

Lemma base_size_pos p ty s : layout_ok p = true -> base_size p ty = Some s -> 0 < s.
Proof.
  intros Hlay. destruct ty as [c|tid|w]; cbn [base_size]; [|destruct (find_template _ tid) as [t|] eqn:Hft|]; try discriminate.
  - intros H. destruct (atom_size_cases c s H) as [|[|[|]]]; lia.
  - intros [= <-]. destruct (find_template_in _ _ _ Hft) as [Hin _]. apply (sc_lay p t (forallb_In _ _ _ Hlay Hin)).
Qed.

Lemma type_field_of p l s : base_size p (w_ty l) = Some s ->
  exists tb, type_field p (w_ty l) tb /\ type_bytes p l = Some tb /\ Expect.blen tb <= 4.
Proof.
  unfold type_bytes. destruct (w_ty l) as [c|tid|w]; cbn [base_size type_field]; try discriminate.
  - intros H. eexists. split; [split; [reflexivity|pose proof (atom_size_codes c s H); lia]|]. split; [reflexivity|cbn; lia].
  - destruct (find_template _ tid) as [t|]; [|discriminate]. intros _. eexists. split; [eauto|]. split; [reflexivity|cbn; lia].
Qed.

Lemma type_string_text dt tn cnt : dt = client_type_name tn -> text_eqb dt txt_DWORD = false ->
  type_string dt (cnt_n cnt) = type_text tn (match cnt with Some n => n | None => 0 end).
Proof. intros -> Hnd. unfold type_string, type_text. rewrite Hnd. destruct cnt; reflexivity. Qed.

Section Agree.
  Variables (p : project) (mem : Project.mem) (pol : policy) (basic : basic_state).
  Let app := mkLState p mem pol basic.
  Hypothesis Hlay : layout_ok p = true.
  Hypothesis Hbt : 0 < po_bool_true pol < 256.
  Variables (l : wloc) (q : preq) (path pb img : bytes).
  Hypothesis Hpw : path_wf path pb.
  Hypothesis Hcia : tag_cia pb.
  Hypothesis Hpb4 : 4 <= EncapParser.blen pb.
  Hypothesis Hres : resolve_path p false pb = TgTag l.
  Hypothesis Hmem : mem_get mem (w_inst l) = Some img.
  Hypothesis Hoki : bytes_ok img = true.
  Hypothesis Hn16 : pq_elements q < 65536.

  (* the target serves [q] from the location [l], and the Tag read() makes of that carries [vref] *)
  Definition answered (cnt : option Z) (vref : rvalue) (ty : text * Z) : Prop :=
    exists tb d s,
      served app q path tb d s /\ ti_esize (pq_info q) = s
      /\ good_tag (post_read q (reply_opt (tb ++ d) (pq_info q) (pq_elements q))) (unwrap1 cnt vref) (type_text (fst ty) (snd ty)).

  Lemma served_here tb d s :
    type_field p (w_ty l) tb -> type_bytes p l = Some tb -> Expect.blen tb <= 4 -> loc_esize p l = Some s -> 1 <= s ->
    1 <= pq_elements q <= w_avail l -> loc_bytes pol img l 0 (pq_elements q * s) = Some d ->
    (w_bit l <> None -> pq_elements q * s = 1) -> served app q path tb d s.
  Proof.
    intros Htf Htb Htb4 Hs Hs1 Hav Hd Hbit. exists pb, l, img.
    pose proof (type_field_tb_ok _ _ _ Htf). assert (0 <= pq_elements q < 65536) by lia. tauto.
  Qed.

  Lemma agree_data inst off ty dims avail bit cnt vref tyc :
    agree p (PlData inst off ty dims avail) bit cnt l q ->
    read_place p img (PlData inst off ty dims avail) bit cnt = Some vref ->
    place_type p (PlData inst off ty dims avail) bit cnt = Some tyc -> answered cnt vref tyc.
  Proof.
    intros (Hnd & _ & Ho & Hwty & Hwb & Hwa & Hav1 & Hoff0 & Hqb & Hqbools & Hqn & (s & Hsz & Hinfo) & Hscalar & Hndw) Href Hty.
    destruct Hinfo as (Helem & Hes & (tn0 & Htn & Hdt) & Hst). subst ty.
    pose proof (base_size_pos p _ s Hlay Hsz) as Hspos.
    destruct (type_field_of p l s Hsz) as (tb & Htfield & Htb & Htb4).
    change (read_place p img (PlData 0 off (w_ty l) [] avail) bit cnt = Some vref) in Href.
    assert (Hbytes : exists d, get_bytes img off (s * pq_elements q) = Some d /\ 1 <= pq_elements q <= avail).
    { pose proof Href as H. unfold read_place in H. rewrite Hsz in H. rewrite Hqn.
      destruct bit as [bb|]; destruct cnt as [k|]; cbn [cnt_n]; try discriminate; rewrite ?Z.mul_1_r.
      - destruct (int_ty (w_ty l) && (0 <=? bb) && (bb <? 8 * s)); [|discriminate].
        destruct (get_bytes img off s) as [d|]; [|discriminate]. exists d. split; [reflexivity|lia].
      - destruct ((1 <=? k) && (k <=? avail)) eqn:Ek; [|discriminate].
        destruct (get_bytes img off (s * k)) as [d|]; [|discriminate]. exists d. split; [reflexivity|lia].
      - destruct (get_bytes img off s) as [d|]; [|discriminate]. exists d. split; [reflexivity|lia]. }
    destruct Hbytes as (d & Hd & Hnav).
    exists tb, d, s. split; [|split; [exact Hes|]].
    - apply served_here; try assumption; [unfold loc_esize; rewrite Hwb; exact Hsz|lia|lia| |congruence].
      unfold loc_bytes. rewrite Hwb, Ho, Z.add_0_r, Z.mul_comm. exact Hd.
    - destruct q as [user plc qb qn qbools info]. cbn [pq_bit pq_bools pq_elements pq_info] in *. subst qb qbools qn.
      destruct bit as [bb|].
      + destruct cnt as [k|]; [unfold read_place in Href; rewrite Hsz in Href; discriminate|]. cbn [cnt_n unwrap1] in *.
        assert (Hint : int_ty (w_ty l) = true).
        { unfold read_place in Href. rewrite Hsz in Href. destruct (int_ty (w_ty l)); [reflexivity|discriminate]. }
        destruct (w_ty l) as [cc|tid|w]; try discriminate Hint. rewrite Z.mul_1_r in Hd.
        rewrite (int_bit_value p cc s info tb img off avail bb vref d user plc Hlay Hsz Hint Helem Htfield Hndw Hd Hoki Href).
        injection Hty as <-. repeat split. exists vref. split; [reflexivity|apply pe_refl].
      + destruct (data_value p (w_ty l) s info tb Hlay Hsz Hspos Helem Htfield) with (2 := Hndw) (img := img) (off := off) (avail := avail) (cnt := cnt) (vref := vref) (d := d) (user := user) (plc := plc)
          as (v' & Hpost & Hpy); try assumption.
        { destruct (w_ty l); auto. }
        { destruct cnt as [k|]; [cbn [cnt_n] in Hnav; lia|exact I]. }
        rewrite Hpost. cbn [place_type] in Hty. rewrite Htn in Hty. injection Hty as <-.
        split; [reflexivity|]. split; [cbn [tg_type fst snd]; f_equal; apply type_string_text; assumption|].
        exists v'. split; [reflexivity|exact Hpy].
  Qed.

  Lemma agree_bit inst off b bit cnt vref tyc :
    agree p (PlBit inst off b) bit cnt l q ->
    read_place p img (PlBit inst off b) bit cnt = Some vref ->
    place_type p (PlBit inst off b) bit cnt = Some tyc -> answered cnt vref tyc.
  Proof.
    intros (_ & Ho & Hwb & Hwty & Hav & Hqb & Hqbools & Hqn & Hcls & Hdt & Hes) Href Hty.
    unfold read_place in Href. destruct bit; [discriminate|]. destruct cnt; [discriminate|].
    destruct (get_bytes img off 1) as [[|x [|y t]]|] eqn:Hg; try discriminate. injection Href as <-.
    exists (le_enc 2 193), [if Z.testbit x b then po_bool_true pol else 0], 1.
    split; [|split; [exact Hes|]].
    - apply served_here; rewrite ?Hqn;
        [rewrite Hwty; split; [reflexivity|unfold C_BOOL; lia]|unfold type_bytes; rewrite Hwty; reflexivity
        |cbn; lia|unfold loc_esize; rewrite Hwb; reflexivity|lia|lia| |reflexivity].
      unfold loc_bytes. rewrite Hwb, Ho, Hg. reflexivity.
    - destruct q as [user plc qb qn qbools info]. cbn [pq_bit pq_bools pq_elements pq_info] in *. subst qb qbools qn.
      rewrite (bool_value info x b (po_bool_true pol) user plc Hcls) by (rewrite ?Hdt; reflexivity || exact Hbt).
      injection Hty as <-. cbn [unwrap1 fst snd]. rewrite Hdt.
      repeat split. eexists. split; [reflexivity|apply pe_refl].
  Qed.

  Lemma agree_bools inst off nbits start bit cnt vref tyc :
    agree p (PlBools inst off nbits start) bit cnt l q -> off + nbits / 8 <= Path.len img ->
    read_place p img (PlBools inst off nbits start) bit cnt = Some vref ->
    place_type p (PlBools inst off nbits start) bit cnt = Some tyc -> answered cnt vref tyc.
  Proof.
    intros (_ & Ho & Hwty & Hwb & Hnb & Hoff0 & Hst0 & Hqb & Hqbools & Hqn & Helem & Hscalar & Hdt & Hes) Himg Href Hty.
    destruct bit; [discriminate|].
    assert (Hcond : 1 <= cnt_n cnt /\ start + cnt_n cnt <= nbits).
    { unfold read_place in Href. change (match cnt with Some n => n | None => 1 end) with (cnt_n cnt) in Href.
      destruct ((1 <=? cnt_n cnt) && (start + cnt_n cnt <=? nbits)) eqn:E; [lia|destruct cnt; discriminate]. }
    destruct (dword_cover start (cnt_n cnt) (w_avail l) Hst0 (proj1 Hcond) ltac:(lia)) as (He1 & Hcov & _).
    fold (dword_elements start (cnt_n cnt)) in He1, Hcov. rewrite <- Hqn in He1, Hcov.
    destruct (get_bytes_some img off (4 * pq_elements q)) as [d Hd]; [(Z.to_euclidean_division_equations; lia)..|].
    exists (le_enc 2 211), d, 4. split; [|split; [exact Hes|]].
    - apply served_here; [rewrite Hwty; split; [reflexivity|unfold C_DWORD; lia]|unfold type_bytes; rewrite Hwty; reflexivity
                         |cbn; lia|unfold loc_esize; rewrite Hwb, Hwty; reflexivity|lia|exact He1| |congruence].
      unfold loc_bytes. rewrite Hwb, Ho, Z.add_0_r, Z.mul_comm. exact Hd.
    - destruct q as [user plc qb qn qbools info]. cbn [pq_bit pq_bools pq_elements pq_info] in *. subst qbools.
      assert (Hdw : text_eqb (ti_dtname info) txt_DWORD = true) by (rewrite Hdt; reflexivity).
      rewrite (bools_value p info img off nbits start cnt vref d user plc qb (cnt_n cnt) qn Hlay Helem Hdw eq_refl (proj1 He1) Hcov);
        try assumption; [|intros Harr; specialize (Hscalar Harr); lia].
      injection Hty as <-. repeat split; [|eexists; split; [reflexivity|apply pe_refl]].
      cbn [tg_type fst snd]. f_equal. unfold bool_type, type_text.
      destruct cnt as [k|]; cbn [cnt_n] in *; [|reflexivity].
      destruct (k =? 1) eqn:Ek; [replace (1 <? k) with false by lia|replace (1 <? k) with true by lia]; reflexivity.
  Qed.

  Theorem agree_value pl bit cnt vref tyc :
    agree p pl bit cnt l q ->
    (match pl with PlBools _ off nbits _ => off + nbits / 8 <= Path.len img | _ => True end) ->
    read_place p img pl bit cnt = Some vref -> place_type p pl bit cnt = Some tyc -> answered cnt vref tyc.
  Proof.
    destruct pl; intros Hag Himg; [apply (agree_data _ _ _ _ _ _ _ _ _ Hag)|apply (agree_bit _ _ _ _ _ _ _ Hag)
                                  |apply (agree_bools _ _ _ _ _ _ _ _ Hag Himg)].
  Qed.
End Agree.

Lemma agree_inst p pl bit cnt l q : agree p pl bit cnt l q -> w_inst l = place_inst pl.
Proof. destruct pl; cbn [agree place_inst]; tauto. Qed.

(* the request goes through the connection: its path, one element of reply, the UINT / UDINT fields, the fuel *)
Definition fits (conn : Z) (fuel : nat) (q : preq) (path : bytes) : Prop :=
  Path.len path + 11 <= conn /\ ti_esize (pq_info q) + 10 <= conn
  /\ pq_elements q * ti_esize (pq_info q) < 4294967296 /\ pq_elements q < 65536
  /\ (Z.to_nat (pq_elements q * ti_esize (pq_info q)) < fuel)%nat.

(* the image of a BOOL array holds all its DWORDs (wf_mem: an image has the size of its tag) *)
Definition image_covers (p : project) (mem : Project.mem) (r : request_ast) : Prop :=
  match resolve p r with
  | Some (PlBools inst off nbits _) =>
      match mem_get mem inst with Some img => off + nbits / 8 <= Path.len img | None => True end
  | _ => True
  end.

(* what C01 demands of the Tag returned for the request [r] *)
Definition tag_correct (p : project) (mem : Project.mem) (r : request_ast) (t : rtag) : Prop :=
  exists v tn c, ref_read p mem r = Some v /\ ref_type p r = Some (tn, c)
                 /\ good_tag t (unwrap1 (r_count r) v) (type_text tn c).

Definition request_ok (p : project) (mem : Project.mem) (cfg : ccfg) (fuel : nat) (s : text) (r : request_ast) : Prop :=
  exists q path, resolves p (client_tags p) (c_use_ids cfg) s r q path /\ fits (c_conn cfg) fuel q path
                 /\ image_covers p mem r /\ ref_read p mem r <> None.

Section Headline.
  Variables (p : project) (mem : Project.mem) (pol : policy) (basic : basic_state) (cfg : ccfg) (fuel : nat).
  Let app := mkLState p mem pol basic.
  Hypothesis Hlay : layout_ok p = true.
  Hypothesis Hbt : 0 < po_bool_true pol < 256.
  Hypothesis Hmemok : forall inst img, mem_get mem inst = Some img -> bytes_ok img = true.

  Lemma request_rq s r : request_ok p mem cfg fuel s r ->
    exists x : rq, rq_s x = s /\ good app (client_tags p) cfg x
                   /\ (Z.to_nat (rq_n x * rq_sz x) < fuel)%nat
                   /\ tag_correct p mem r (post_read (rq_q x) (res_of x)).
  Proof.
    intros (q & path & (pl & pb & l & Hres & Hparse & Hpath & Hpw & Hcia & Hpb4 & Hrp & Hag) & Hfits & Hcov & Href).
    destruct Hfits as (Hf1 & Hf2 & Hf3 & Hf4 & Hf5).
    unfold ref_read in Href. rewrite Hres in Href.
    destruct (mem_get mem (place_inst pl)) as [img|] eqn:Hmem; [|congruence].
    destruct (read_place p img pl (r_bit r) (r_count r)) as [vref|] eqn:Hrd; [|congruence].
    assert (Hpt : exists tn c, place_type p pl (r_bit r) (r_count r) = Some (tn, c)).
    { unfold place_type. destruct pl as [inst off ty dims avail| |]; try (eexists; eexists; reflexivity).
      destruct (r_bit r); [eexists; eexists; reflexivity|].
      cbn [agree] in Hag. destruct Hag as (_ & _ & _ & _ & _ & _ & _ & _ & _ & _ & _ & (s0 & _ & (_ & _ & (tn & Htn & _) & _)) & _).
      rewrite Htn. eexists. eexists. reflexivity. }
    destruct Hpt as (tn & c & Hpt).
    assert (Himg : match pl with PlBools _ off nbits _ => off + nbits / 8 <= Path.len img | _ => True end).
    { unfold image_covers in Hcov. rewrite Hres in Hcov. destruct pl as [| |inst off nbits start]; try exact I.
      cbn [place_inst] in Hmem. rewrite Hmem in Hcov. exact Hcov. }
    rewrite <- (agree_inst _ _ _ _ _ _ Hag) in Hmem.
    destruct (agree_value p mem pol basic Hlay Hbt l q path pb img Hpw Hcia Hpb4 Hrp Hmem (Hmemok _ _ Hmem) Hf4
                pl (r_bit r) (r_count r) vref (tn, c) Hag Himg Hrd Hpt) as (tb & d & s0 & Hserved & Hes & Htag).
    rewrite (agree_inst _ _ _ _ _ _ Hag) in Hmem.
    exists (mkRq s q path tb d s0). cbn [rq_s rq_q]. split; [reflexivity|]. split; [|split].
    - unfold good, rq_good. cbn [rq_s rq_q rq_path rq_tb rq_d rq_sz]. unfold rq_n. cbn [rq_q].
      rewrite <- Hes. repeat split; try assumption. rewrite Hes. exact Hserved.
    - unfold rq_n. cbn [rq_q rq_sz]. rewrite <- Hes. exact Hf5.
    - unfold tag_correct. exists vref, tn, c. split; [|split].
      + unfold ref_read. rewrite Hres, Hmem. exact Hrd.
      + rewrite (ref_type_place p r pl Hres). exact Hpt.
      + unfold res_of, rq_n. cbn [rq_q rq_tb rq_d]. exact Htag.
  Qed.

  Theorem read_correct_partial st ms (reqs : list text) (asts : list request_ast) :
    quiet app ms st -> (c_micro800 cfg = false -> ms = true) -> c_conn cfg < 65536 ->
    Forall2 (request_ok p mem cfg fuel) reqs asts ->
    exists st' sent tags,
      run_read fuel cfg (client_tags p) st reqs = (st', sent, Done tags)
      /\ Forall2 (tag_correct p mem) asts tags.
  Proof.
    intros Hq Hms Hconn HF.
    assert (Hrs : exists rs : list rq, map rq_s rs = reqs /\ Forall (good app (client_tags p) cfg) rs
                    /\ Forall (fun x => (Z.to_nat (rq_n x * rq_sz x) < fuel)%nat) rs
                    /\ Forall2 (tag_correct p mem) asts (map (fun x => post_read (rq_q x) (res_of x)) rs)).
    { induction HF as [|s r reqs asts Hok _ (rs & H1 & H2 & H3 & H4)].
      - exists []. repeat split; constructor.
      - destruct (request_rq s r Hok) as (x & Hx1 & Hx2 & Hx3 & Hx4).
        exists (x :: rs). cbn [map]. rewrite Hx1, H1. repeat split; try constructor; assumption. }
    destruct Hrs as (rs & <- & Hgood & Hfuel & Htags).
    destruct (read_transport app (client_tags p) cfg st rs fuel ms Hq Hms Hgood Hconn Hfuel) as (st' & sent & Hrun & _).
    exists st', sent. eexists. split; [exact Hrun|exact Htags].
  Qed.
End Headline.

Print Assumptions read_correct_partial.

Ltac Zify.zify_post_hook ::= Z.to_euclidean_division_equations.
