(* Proofs/GenericReply.v — reply_returned: on the reply frames the reference target builds
   (Spec/TargetCore.v encap_reply + mk_cpf + mr_bytes), Model/Generic.v gm_response returns the
   reply data unchanged (no data type), its decoding (data type given), or — general status not 0 —
   a falsy Tag whose error text starts with the text of that status. *)
From Coq Require Import String ZifyBool.
From PV Require Import Base.Bytes Base.BytesLemmas Base.Res Base.Proto Base.PyStr Base.PyStrLemmas.
From PV Require Import Gen.Consts Model.EnumMapDefs Model.Path Model.Generic.
From PV Require Model.CodecPrim Model.Codec Model.Reply.
From PV Require Import Spec.EncapParser Spec.MRParser Spec.TargetIface Spec.TargetCore.
From PV Require Import Proofs.TargetCoreP.
Open Scope Z_scope.
Ltac Zify.zify_post_hook ::= Z.to_euclidean_division_equations.

Definition reply_rr (ses : Z) (ctx : bytes) (svc : Z) (rp : mr_reply) : bytes :=
  encap_reply CMD_RRDATA ses 0 ctx (mk_cpf 0 AddrNull ITEM_UNCONN_DATA (mr_bytes svc rp)).
Definition reply_unit (ses : Z) (ctx : bytes) (toid seq svc : Z) (rp : mr_reply) : bytes :=
  encap_reply CMD_UNITDATA ses 0 ctx (mk_cpf 0 (AddrConn toid) ITEM_CONN_DATA (le_enc 2 seq ++ mr_bytes svc rp)).
Definition target_reply (connected : bool) (ses : Z) (ctx : bytes) (toid seq svc : Z) (rp : mr_reply) : bytes :=
  if connected then reply_unit ses ctx toid seq svc rp else reply_rr ses ctx svc rp.

Definition ext_bytes (ext : list Z) : bytes := flat_map (le_enc 2) ext.

Lemma slice_at (pre l : bytes) (x : Z) : slice (List.length pre) (S (List.length pre)) (pre ++ x :: l) = [x].
Proof.
  unfold slice. rewrite skipn_app_exact. replace (S (List.length pre) - List.length pre)%nat with 1%nat by lia. reflexivity.
Qed.

Lemma decode_dint_zero : Reply.decode_elem Reply.DINT_t [0; 0; 0; 0] = Reply.ROk 0.
Proof. reflexivity. Qed.
Lemma decode_usint_one x : Reply.decode_elem Reply.USINT_t [x] = Reply.ROk x.
Proof. rewrite <- (le_dec_single x) at 2. reflexivity. Qed.
Lemma decode_stream_usint_v whole x r : Reply.decode_elem_stream Reply.USINT_t whole (x :: r) = Reply.ROk (x, r).
Proof. rewrite <- (le_dec_single x) at 2. reflexivity. Qed.
Lemma decode_stream_usint whole x r : exists v, Reply.decode_elem_stream Reply.USINT_t whole (x :: r) = Reply.ROk (v, r).
Proof. eexists. apply decode_stream_usint_v. Qed.
Lemma decode_stream_uint whole a b r : exists v, Reply.decode_elem_stream Reply.UINT_t whole (a :: b :: r) = Reply.ROk (v, r).
Proof. eexists. reflexivity. Qed.
Lemma decode_stream_udint whole a b c d r : exists v, Reply.decode_elem_stream Reply.UDINT_t whole (a :: b :: c :: d :: r) = Reply.ROk (v, r).
Proof. eexists. reflexivity. Qed.

(* raw = pre ++ reply service :: 0 :: status :: ext words :: (ext bytes ++ data), pre = everything
   before the message-router reply (40 bytes over SendRRData, 46 over SendUnitData) *)
Lemma parse_cip_shape (o : nat) (pre : bytes) (rs st n : Z) (rest : bytes) :
  List.length pre = o -> (12 <= o)%nat -> slice 8 12 pre = [0; 0; 0; 0] -> 128 <= rs < 256 ->
  let raw := pre ++ rs :: 0 :: st :: n :: rest in
  Reply.parse_cip o (S (S o)) (S (S (S (S o)))) raw
  = Reply.mkResp (Some raw) None (Some (firstn 2 raw)) (Some 0)
      (Reply.services_get (Reply.services_get (Some (KBytes [rs - 128])))) (Some st) (Some rest) None.
Proof.
  intros Ho H12 Hz Hrs raw. unfold Reply.parse_cip, Reply.parse_base.
  assert (Hs : slice 8 12 raw = [0; 0; 0; 0]) by (unfold raw; rewrite slice_app_prefix by lia; exact Hz).
  rewrite Hs, decode_dint_zero.
  assert (Hsv : slice o (S o) raw = [rs]) by (unfold raw; rewrite <- Ho; apply slice_at).
  rewrite Hsv. unfold Reply.from_reply. rewrite decode_usint_one. unfold Reply.encode_usint.
  replace ((0 <=? rs - 128) && (rs - 128 <? 256)) with true by lia.
  assert (Hst : slice (S (S o)) (S (S (S o))) raw = [st]).
  { unfold raw. change (pre ++ rs :: 0 :: st :: n :: rest) with (pre ++ [rs; 0] ++ st :: n :: rest).
    rewrite app_assoc. replace (S (S o)) with (List.length (pre ++ [rs; 0])) by (rewrite app_length; cbn; lia).
    apply slice_at. }
  rewrite Hst, decode_usint_one.
  assert (Hd : skipn (S (S (S (S o)))) raw = rest).
  { unfold raw. change (pre ++ rs :: 0 :: st :: n :: rest) with (pre ++ [rs; 0; st; n] ++ rest).
    rewrite app_assoc. replace (S (S (S (S o)))) with (Nat.add (List.length (pre ++ [rs; 0; st; n])) O) by (rewrite app_length; cbn; lia).
    rewrite skipn_app_add. reflexivity. }
  rewrite Hd. reflexivity.
Qed.

Lemma with_ext_starts status ext : starts_with status (Reply.with_ext status ext) = true.
Proof.
  unfold Reply.with_ext. destruct ext as [[| c e] |].
  - rewrite <- (app_nil_r status) at 2. apply starts_with_app.
  - apply starts_with_app.
  - rewrite <- (app_nil_r status) at 2. apply starts_with_app.
Qed.

(* get_extended_status never raises on a reply that carries all its extended status words *)
Lemma get_extended_status_total (pre : bytes) (st : Z) (ext : list Z) (data : bytes) :
  exists x, Reply.get_extended_status (pre ++ st :: zlen ext :: ext_bytes ext ++ data) (List.length pre) = Reply.ROk x.
Proof.
  unfold Reply.get_extended_status.
  replace (List.length pre) with (List.length pre + 0)%nat by lia. rewrite skipn_app_add. cbn [skipn].
  rewrite decode_stream_usint_v, decode_stream_usint_v.
  destruct ext as [| e1 [| e2 [| e3 ext']]].
  - cbn [zlen List.length Z.of_nat Z.mul Z.eqb]. eexists. reflexivity.
  - eexists. reflexivity.
  - eexists. reflexivity.
  - assert (Hz : zlen (e1 :: e2 :: e3 :: ext') = 3 + zlen ext') by (unfold zlen; cbn [List.length]; lia).
    rewrite Hz. assert (0 <= zlen ext') by (unfold zlen; lia).
    replace ((3 + zlen ext') * 2 =? 0) with false by lia.
    replace ((3 + zlen ext') * 2 =? 1) with false by lia.
    replace ((3 + zlen ext') * 2 =? 2) with false by lia.
    replace ((3 + zlen ext') * 2 =? 4) with false by lia.
    eexists. reflexivity.
Qed.

(* both transports at once: the response object the base classes build *)
Lemma parse_target_reply (connected : bool) ses ctx toid seq svc st ext data :
  blen ctx = 8 -> 0 <= st < 256 -> zlen ext < 256 ->
  let rp := {| rp_status := st; rp_ext := ext; rp_data := data |} in
  let raw := target_reply connected ses ctx toid seq svc rp in
  let k := rkind_of connected in
  exists pre sk,
    raw = pre ++ st :: zlen ext :: ext_bytes ext ++ data
    /\ List.length pre = (if connected then 48 else 42)%nat
    /\ (match k with Reply.KRR => Reply.parse_rr raw | _ => Reply.parse_unit raw end)
       = Reply.mkResp (Some raw) None (Some (firstn 2 raw)) (Some 0) sk (Some st) (Some (ext_bytes ext ++ data)) None.
Proof.
  intros Hc Hst Hn rp raw k.
  assert (Hzl : 0 <= zlen ext) by (unfold zlen; lia).
  assert (Hm : mr_bytes svc rp = reply_service svc :: 0 :: st :: zlen ext :: ext_bytes ext ++ data).
  { unfold mr_bytes, rp. cbn [rp_status rp_ext rp_data]. unfold ext_bytes.
    change (blen ext) with (zlen ext). f_equal. f_equal. f_equal; [lia |]. f_equal. lia. }
  assert (Hrs : 128 <= reply_service svc < 256) by (unfold reply_service; lia).
  assert (S : exists pre, List.length pre = (if connected then 46 else 40)%nat /\ slice 8 12 pre = [0; 0; 0; 0]
                         /\ raw = pre ++ mr_bytes svc rp).
  { destruct (length8 ctx Hc) as (x0 & x1 & x2 & x3 & x4 & x5 & x6 & x7 & ->).
    exists (firstn (if connected then 46 else 40) raw). unfold raw. destruct connected; repeat split; reflexivity. }
  destruct S as (pre & Hl & Hz & Heq).
  exists (pre ++ [reply_service svc; 0]), (Reply.services_get (Reply.services_get (Some (KBytes [reply_service svc - 128])))).
  rewrite Heq, Hm. split; [| split].
  - rewrite <- app_assoc. reflexivity.
  - rewrite app_length, Hl. destruct connected; reflexivity.
  - unfold k, rkind_of. destruct connected;
      [apply (parse_cip_shape 46 pre) | apply (parse_cip_shape 40 pre)]; assumption || lia.
Qed.

(* general status 0: the reply data, unchanged or decoded *)
Theorem reply_returned_ok (a : gm_args) ses ctx toid seq svc data :
  blen ctx = 8 ->
  gm_response a (target_reply (a_connected a) ses ctx toid seq svc (mr_ok data))
  = Ok {| g_name := a_name a;
          g_value := match a_dt a with
                     | None => Some (GBytes data)
                     | Some t => match Codec.decode t data with Ok (v, _) => Some (GVal v) | Err _ => None end
                     end;
          g_type := a_dt a;
          g_error := match a_dt a with
                     | None => None
                     | Some t => match Codec.decode t data with Ok _ => None | Err _ => Some EParse end
                     end |}.
Proof.
  intros Hc.
  destruct (parse_target_reply (a_connected a) ses ctx toid seq svc 0 [] data Hc ltac:(lia) ltac:(reflexivity))
    as (pre & sk & _ & _ & Hp).
  cbn [ext_bytes flat_map app] in Hp. change {| rp_status := 0; rp_ext := []; rp_data := data |} with (mr_ok data) in Hp.
  unfold gm_response, parse_generic.
  destruct (a_connected a); cbn [rkind_of] in *; rewrite Hp; (destruct (a_dt a) as [t |]; [| reflexivity]);
    (replace (Reply.is_valid _ _) with true by reflexivity); cbn [Reply.r_data];
    (destruct (Codec.decode t data) as [[v rest] | e]; reflexivity).
Qed.

(* a refusal: general status st <> 0 (over a connection also <> 6, which the connected response
   class accepts for the fragmenting services): a falsy Tag whose error starts with the status text *)
Theorem reply_refused (a : gm_args) ses ctx toid seq svc st ext data :
  blen ctx = 8 -> 0 < st < 256 -> zlen ext < 256 -> (a_connected a = true -> st <> 6) ->
  exists txt v,
    gm_response a (target_reply (a_connected a) ses ctx toid seq svc {| rp_status := st; rp_ext := ext; rp_data := data |})
    = Ok {| g_name := a_name a; g_value := v; g_type := a_dt a; g_error := Some (EText txt) |}
    /\ starts_with (Reply.get_service_status_z st) txt = true
    /\ (a_dt a <> None -> v = None).
Proof.
  intros Hc Hst Hn H6.
  destruct (parse_target_reply (a_connected a) ses ctx toid seq svc st ext data Hc ltac:(lia) Hn)
    as (pre & sk & Hraw & Hl & Hp).
  set (raw := target_reply (a_connected a) ses ctx toid seq svc {| rp_status := st; rp_ext := ext; rp_data := data |}) in *.
  set (r := Reply.mkResp (Some raw) None (Some (firstn 2 raw)) (Some 0) sk (Some st) (Some (ext_bytes ext ++ data)) None) in *.
  assert (Hv : Reply.is_valid (rkind_of (a_connected a)) r = false).
  { unfold r, rkind_of, Reply.is_valid, Reply.is_valid_base, Reply.opt_is. cbn [Reply.r_error Reply.r_command Reply.r_command_status Reply.r_service_status Reply.r_service].
    unfold SUCCESS, INSUFFICIENT_PACKETS.
    destruct (a_connected a).
    - specialize (H6 eq_refl). replace (st =? 0) with false by lia. replace (st =? 6) with false by lia. reflexivity.
    - replace (st =? 0) with false by lia. rewrite andb_false_r. reflexivity. }
  destruct (get_extended_status_total pre st ext data) as (x & Hx). rewrite <- Hraw in Hx.
  assert (He : Reply.error (rkind_of (a_connected a)) r
               = Reply.ROk (Some (Reply.with_ext (Reply.get_service_status_z st) x))).
  { unfold Reply.error. rewrite Hv. unfold r at 1. cbn [Reply.r_error].
    unfold r at 1. cbn [Reply.r_command_status Reply.not_none_or_success]. unfold SUCCESS. cbn [Z.eqb].
    unfold r at 1. cbn [Reply.r_service_status Reply.not_none_or_success]. unfold SUCCESS.
    replace (st =? 0) with false by lia.
    unfold Reply.extended_status, rkind_of. unfold r. cbn [Reply.r_raw].
    destruct (a_connected a); rewrite Hl in Hx; rewrite Hx; reflexivity. }
  unfold gm_response, parse_generic. rewrite Hp. fold r.
  destruct (a_dt a) as [t |].
  - rewrite Hv, He. eexists _, None. split; [reflexivity |]. split; [apply with_ext_starts | reflexivity].
  - rewrite He. eexists _, _. split; [reflexivity |]. split; [apply with_ext_starts | intros H; contradiction].
Qed.
