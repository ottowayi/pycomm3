(* Proofs/ReadDecode.v — "read reply decode . target encode = value" for the type classes a Logix read
   returns, by induction on the type (template nesting):

     pyeq                     equality of Python values: dicts compare as maps (insertion order ignored)
     atom_decode              an elementary type class decodes its own image to Expect.decode_atom
     decode_elem_spec         for every element type of the project (atomic, structure with bit members
                              and hidden hosts at any nesting depth, string): the client's type class,
                              fed the image [d] followed by anything, consumes exactly [d], never fails,
                              and returns a value pyeq to Expect.decode_val whenever that is defined
     decode_array_atom / decode_array_elems   the same for n consecutive elements (Array.decode; BOOL arrays flattened)
   Hypotheses on the project are computable predicates ([layout_ok]): member sizes inside the
   structure (in any order: StructTag seeks to each offset), distinct member names, standard string layout.
   No axioms. *)
From Coq Require Import ZifyBool.
From PV Require Import Base.Bytes Base.BytesLemmas Base.Res Base.Proto Base.PyStr Base.PyStrLemmas.
From PV Require Import Gen.Types Model.Path Model.LogixRead.
From PV Require Import Spec.Project Spec.Expect.
From PV Require Import Proofs.TargetLogixP Proofs.ReadBits.
Open Scope Z_scope.
(* The imported files add the division equations to lia's preprocessing (zify_post_hook; an Ltac redefinition is global
   and reaches every importer), which is slow on every call. Off in this file, where the few goals about / and mod call
   Z.to_euclidean_division_equations themselves; the last line sets it again for the files that import this one. *)
Ltac Zify.zify_post_hook ::= idtac.

Lemma teqb_sym a b : text_eqb a b = text_eqb b a.
Proof. exact (text_eqb_sym a b). Qed.
Lemma teqb_neq a b : a <> b -> text_eqb a b = false.
Proof. exact (text_eqb_neq a b). Qed.

Lemma dget_dset_same {A} k (v : A) d : dget k (dset k v d) = Some v.
Proof.
  induction d as [|[k' v'] r IH]; cbn.
  - rewrite teqb_refl. reflexivity.
  - destruct (text_eqb k' k) eqn:E; cbn; rewrite E; auto.
Qed.

Lemma dset_fresh {A} k (v : A) d : dget k d = None -> dset k v d = d ++ [(k, v)].
Proof.
  induction d as [|[k' v'] r IH]; intros H; [reflexivity|].
  cbn in *. destruct (text_eqb k' k); [discriminate|]. rewrite IH by assumption. reflexivity.
Qed.

Lemma dget_app {A} k (a b : list (text * A)) :
  dget k (a ++ b) = match dget k a with Some v => Some v | None => dget k b end.
Proof.
  induction a as [|[k' v'] r IH]; [reflexivity|]. cbn. destruct (text_eqb k' k); auto.
Qed.

Lemma dset_next {A X} (name : X -> text) x L (v : A) vals :
  NoDup (map name (x :: L)) -> (forall e, In e (x :: L) -> dget (name e) vals = None) ->
  dset (name x) v vals = vals ++ [(name x, v)] /\ forall e, In e L -> dget (name e) (vals ++ [(name x, v)]) = None.
Proof.
  intros Hnd Hfr. inversion Hnd as [|? ? Hnotin _]; subst. split; [apply dset_fresh, Hfr; left; reflexivity|].
  intros e He. rewrite dget_app, (Hfr e (or_intror He)). cbn [dget]. rewrite teqb_neq; [reflexivity|].
  intros E. apply Hnotin. rewrite E. apply in_map. exact He.
Qed.

Lemma dget_none_map {A B} (f : B -> text * A) k l :
  (forall x, In x l -> fst (f x) <> k) -> dget k (map f l) = None.
Proof.
  induction l as [|x r IH]; intros H; [reflexivity|].
  cbn [map dget]. destruct (f x) as [k' v'] eqn:E.
  rewrite teqb_neq.
  - apply IH. intros y Hy. apply H. right. exact Hy.
  - specialize (H x (or_introl eq_refl)). rewrite E in H. exact H.
Qed.

Lemma tmem_in k l : tmem k l = true <-> In k l.
Proof.
  induction l as [|x r IH]; cbn; [split; [discriminate|tauto]|].
  rewrite orb_true_iff, IH. split; intros [H|H]; auto.
  - left. apply teqb_eq. exact H.
  - left. subst. apply teqb_refl.
Qed.

Inductive pyeq : rvalue -> rvalue -> Prop :=
  | pe_refl v : pyeq v v
  | pe_list xs ys : Forall2 pyeq xs ys -> pyeq (RList xs) (RList ys)
  | pe_dict fa fb :
      NoDup (map fst fa) -> NoDup (map fst fb) -> length fa = length fb ->
      (forall k v, In (k, v) fa -> exists v', dget k fb = Some v' /\ pyeq v v') ->
      pyeq (RStruct fa) (RStruct fb).

Lemma Forall2_pyeq_refl l : Forall2 pyeq l l.
Proof. induction l; constructor; [apply pe_refl|assumption]. Qed.

Lemma len_app_z (a b : bytes) : len (a ++ b) = len a + len b.
Proof. unfold len. rewrite app_length. lia. Qed.

Lemma stream_read_app n d rest : len d = n -> 0 < n -> stream_read n (d ++ rest) = Ok (d, rest).
Proof.
  intros Hl Hn. unfold stream_read, len in *.
  replace (Z.to_nat n) with (length d) by lia.
  rewrite firstn_app_exact, skipn_app_exact. cbv zeta.
  destruct d as [|z d]; [cbn in Hl; lia|]. unfold len. replace (Z.of_nat (length (z :: d)) <? n) with false by lia. reflexivity.
Qed.

Lemma atom_size_codes c s : atom_size c = Some s ->
  c = 193 \/ c = 194 \/ c = 195 \/ c = 196 \/ c = 197 \/ c = 198 \/ c = 199 \/ c = 200 \/ c = 201
  \/ c = 202 \/ c = 203 \/ c = 209 \/ c = 210 \/ c = 211 \/ c = 212.
Proof.
  unfold atom_size, C_BOOL, C_SINT, C_USINT, C_BYTE, C_INT, C_UINT, C_WORD, C_DINT, C_UDINT, C_REAL, C_DWORD,
    C_LINT, C_ULINT, C_LREAL, C_LWORD.
  repeat match goal with |- context [if ?b then _ else _] => destruct b eqn:? end; intros H; try discriminate; lia.
Qed.

Ltac atom_cases H :=
  match type of H with
  | atom_size ?c = Some _ =>
      let H' := fresh in
      pose proof (atom_size_codes _ _ H) as H';
      repeat (destruct H' as [H'|H']; [subst c|]); [..|subst c]
  end.

Lemma atom_size_pos c s : atom_size c = Some s -> 0 < s.
Proof. intros H. destruct (atom_size_cases c s H) as [|[|[|]]]; lia. Qed.

Lemma atom_class_some c s : atom_size c = Some s ->
  exists n k, atom_class c = Some (n, s, k) /\ kind_size k = s /\ atom_name c = Some n
              /\ text_eqb n txt_BOOL = (c =? C_BOOL) /\ text_eqb n txt_DWORD = (c =? C_DWORD)
              /\ (match k with ABits _ => atom_bits c = true | _ => atom_bits c = false end).
Proof.
  intros H. atom_cases H; vm_compute in H; injection H as <-;
  eexists; eexists; (split; [vm_compute; reflexivity|]); vm_compute; repeat split; reflexivity.
Qed.

Theorem atom_decode c s d rest : atom_size c = Some s -> len d = s -> bytes_ok d = true ->
  exists v, decode_tc (KAtom c) (d ++ rest) = Ok (v, rest) /\ decode_atom c d = Some v.
Proof.
  intros Hs Hl Hok.
  pose proof (atom_size_pos c s Hs) as Hpos.
  unfold decode_atom. rewrite Hs.
  replace (Expect.blen d =? s) with true by (unfold Expect.blen, len in *; lia). cbn [negb].
  cbn [decode_tc].
  atom_cases Hs; vm_compute in Hs; injection Hs as <-;
  match goal with |- context [atom_class ?c] =>
    let r := eval vm_compute in (atom_class c) in change (atom_class c) with r end;
  cbv iota beta; unfold decode_kind; cbn [kind_size];
  rewrite (stream_read_app _ d rest Hl) by lia; cbn [bind];
  rewrite Hl; cbn [Z.eqb Pos.eqb negb];
  eexists; (split; [reflexivity|]);
  try reflexivity.
  (* left: BOOL and the four bit strings *)
  2-5: rewrite (bits_value_bools _ d Hok) by (unfold len in Hl; lia); reflexivity.
  vm_compute (193 =? C_BOOL). cbv iota.
  destruct d as [|x [|y t]]; cbn in Hl; try lia.
  rewrite le_dec_single. do 2 f_equal.
  destruct x as [|px|px]; try reflexivity; destruct px; reflexivity.
Qed.

Definition mi_name (mi : member * tinfo) : text := m_name (fst mi).

Definition fresh_for (infos : list (member * tinfo)) (a : scan_acc) : Prop :=
  forall mi, In mi infos ->
    dget (mi_name mi) (sc_itags a) = None /\ dget (mi_name mi) (sc_bits a) = None /\ tmem (mi_name mi) (sc_priv a) = false.

Lemma tmem_app k a b : tmem k (a ++ b) = tmem k a || tmem k b.
Proof. induction a as [|x a IH]; [reflexivity|]. cbn. rewrite IH. apply orb_assoc. Qed.

Lemma scan_spec tid : forall infos a, NoDup (map mi_name infos) -> fresh_for infos a ->
  fold_left (scan_step tid) infos a =
  mkScan (sc_itags a ++ map (fun mi => (mi_name mi, snd mi)) infos)
         (sc_attrs a ++ map mi_name (filter (fun mi => negb (is_private tid (mi_name mi))) infos))
         (sc_smem a ++ map (fun mi => (mi_name mi, m_off (fst mi), ti_class (snd mi)))
                           (filter (fun mi => negb (is_bool_info (snd mi))) infos))
         (sc_bits a ++ map (fun mi => (mi_name mi, (m_off (fst mi), m_bit (fst mi))))
                           (filter (fun mi => is_bool_info (snd mi)) infos))
         (sc_priv a ++ map mi_name (filter (fun mi => is_private tid (mi_name mi)) infos)).
Proof.
  induction infos as [|[m info] rest IH]; intros a Hnd Hfr.
  - cbn. rewrite !app_nil_r. destruct a; reflexivity.
  - cbn [fold_left]. inversion Hnd as [|x l Hnotin Hnd']; subst.
    destruct (Hfr (m, info) (or_introl eq_refl)) as (F1 & F2 & F3). unfold mi_name in F1, F2, F3; cbn [fst] in F1, F2, F3.
    rewrite IH; [|assumption|].
    + unfold scan_step. cbn [sc_itags sc_attrs sc_smem sc_bits sc_priv].
      rewrite (dset_fresh _ _ _ F1).
      cbn [filter map]. change (mi_name (m, info)) with (m_name m). cbn [fst snd].
      rewrite F3.
      destruct (is_private tid (m_name m)); destruct (is_bool_info info); cbn [negb map];
        change (mi_name (m, info)) with (m_name m); cbn [fst snd];
        rewrite ?(dset_fresh _ _ _ F2); rewrite <- ?app_assoc; reflexivity.
    + intros mi Hin.
      assert (Hne : m_name m <> mi_name mi).
      { intros E. apply Hnotin. change (mi_name (m, info)) with (m_name m). rewrite E. apply in_map. exact Hin. }
      destruct (Hfr mi (or_intror Hin)) as (G1 & G2 & G3).
      unfold scan_step. cbn [sc_itags sc_bits sc_priv].
      rewrite (dset_fresh _ _ _ F1), dget_app, G1. cbn [dget]. rewrite (teqb_neq _ _ Hne).
      split; [reflexivity|]. split.
      * destruct (is_bool_info info); [|exact G2].
        rewrite (dset_fresh _ _ _ F2), dget_app, G2. cbn [dget]. rewrite (teqb_neq _ _ Hne). reflexivity.
      * destruct (is_private tid (m_name m)); [|exact G3]. rewrite F3.
        rewrite tmem_app, G3. cbn [tmem]. rewrite (teqb_neq _ _ Hne). reflexivity.
Qed.

Lemma member_infos_spec sd : forall ms infos, member_infos sd ms = Some infos ->
  map fst infos = ms /\ Forall (fun mi => member_info sd (fst mi) = Some (snd mi)) infos.
Proof.
  induction ms as [|m r IH]; intros infos H; cbn in H.
  - injection H as <-. split; constructor.
  - destruct (member_info sd m) as [i|] eqn:E; [|discriminate].
    destruct (member_infos sd r) as [l|] eqn:E2; [|discriminate].
    injection H as <-. destruct (IH l eq_refl) as [H1 H2]. cbn [map fst]. split; [congruence|].
    constructor; [exact E|exact H2].
Qed.

Lemma len_skipn_z (l : bytes) k : 0 <= k <= len l -> len (skipn (Z.to_nat k) l) = len l - k.
Proof. intros H. unfold len in *. rewrite skipn_length. lia. Qed.

Lemma dec_members_ok {X} dec raw (name : X -> text) (off : X -> Z) (cls : X -> tclass) (val : X -> rvalue) : forall L vals,
  (forall x, In x L -> 0 <= off x /\ exists r, dec (cls x) (skipn (Z.to_nat (off x)) raw) = Ok (val x, r)) ->
  NoDup (map name L) -> (forall x, In x L -> dget (name x) vals = None) ->
  dec_members dec (map (fun x => (name x, off x, cls x)) L) raw vals = Ok (vals ++ map (fun x => (name x, val x)) L).
Proof.
  induction L as [|x r IH]; intros vals Hdec Hnd Hfr.
  - cbn. rewrite app_nil_r. reflexivity.
  - cbn [map dec_members]. destruct (Hdec x (or_introl eq_refl)) as (Ho & rest & Hv).
    replace (off x <? 0) with false by lia. rewrite Hv. cbn [bind].
    destruct (dset_next name x r (val x) vals Hnd Hfr) as [-> Hfr'].
    rewrite IH; [rewrite <- app_assoc; reflexivity| |inversion Hnd; assumption|exact Hfr'].
    intros y Hy. apply Hdec. right. exact Hy.
Qed.

Lemma dec_bits_ok {X} raw (name : X -> text) (off bit : X -> Z) : forall L vals,
  (forall x, In x L -> 0 <= off x < len raw) -> NoDup (map name L) -> (forall x, In x L -> dget (name x) vals = None) ->
  dec_bits raw (map (fun x => (name x, off x, bit x)) L) vals
  = Ok (vals ++ map (fun x => (name x, RBool (Z.testbit (nth (Z.to_nat (off x)) raw 0) (bit x)))) L).
Proof.
  induction L as [|x r IH]; intros vals Hin Hnd Hfr.
  - cbn. rewrite app_nil_r. reflexivity.
  - cbn [map dec_bits]. pose proof (Hin x (or_introl eq_refl)) as Ho.
    replace (off x <? 0) with false by lia.
    destruct (nth_error raw (Z.to_nat (off x))) as [b|] eqn:En.
    2:{ apply nth_error_None in En. unfold len in Ho. lia. }
    destruct (dset_next name x r (RBool (Z.testbit b (bit x))) vals Hnd Hfr) as [-> Hfr'].
    rewrite IH; [|intros y Hy; apply Hin; right; exact Hy|inversion Hnd; assumption|exact Hfr'].
    cbn [map]. rewrite <- app_assoc, (nth_error_nth _ _ 0 En). reflexivity.
Qed.

Lemma chunks_concat n s (d : bytes) : length d = (n * s)%nat -> concat (Expect.chunks n s d) = d.
Proof.
  revert d; induction n as [|n IH]; intros d H.
  - cbn in *. destruct d; [reflexivity|discriminate].
  - cbn [Expect.chunks concat]. rewrite IH.
    + apply firstn_skipn.
    + rewrite skipn_length. lia.
Qed.

Lemma chunks_length n s (d : bytes) : length (Expect.chunks n s d) = n.
Proof. revert d; induction n as [|n IH]; intros d; [reflexivity|]. cbn. rewrite IH. reflexivity. Qed.

Lemma dec_many_spec dec (Q : bytes -> rvalue -> Prop) s : 0 < s ->
  (forall d rest, len d = s -> bytes_ok d = true -> exists v, dec (d ++ rest) = Ok (v, rest) /\ Q d v) ->
  forall n d rest, 0 <= n -> len d = s * n -> bytes_ok d = true ->
  exists vs, dec_many dec (Z.to_nat n) (d ++ rest) = Ok (vs, rest) /\ Forall2 Q (Expect.chunks (Z.to_nat n) (Z.to_nat s) d) vs.
Proof.
  intros Hs Hdec n d rest Hn Hl Hok. set (w := Z.to_nat s).
  assert (Hl' : length d = (Z.to_nat n * w)%nat) by (unfold len in Hl; nia).
  clear Hl Hn. revert d Hl' Hok. induction (Z.to_nat n) as [|k IH]; intros d Hl Hok.
  - cbn in Hl. destruct d; [|discriminate]. exists []. split; [reflexivity|constructor].
  - cbn [dec_many Expect.chunks].
    replace (d ++ rest) with (firstn w d ++ (skipn w d ++ rest)) by (rewrite app_assoc, firstn_skipn; reflexivity).
    destruct (Hdec (firstn w d) (skipn w d ++ rest)) as (v & Hv & HQ).
    { unfold len. rewrite firstn_length. lia. }
    { apply bytes_ok_firstn. exact Hok. }
    rewrite Hv. cbn [bind].
    destruct (IH (skipn w d)) as (vs & Hvs & HQs).
    { rewrite skipn_length. lia. }
    { apply bytes_ok_skipn. exact Hok. }
    rewrite Hvs. cbn [bind]. exists (v :: vs). split; [reflexivity|]. constructor; assumption.
Qed.

Lemma string_shape_some t l dd : string_shape t = Some (l, dd) ->
  visible_members t = [l; dd] /\ text_eqb (m_name l) txt_LEN = true /\ text_eqb (m_name dd) txt_DATA = true
  /\ m_ty dd = BAtom C_SINT /\ 0 < m_arr dd.
Proof.
  unfold string_shape. destruct (visible_members t) as [|l0 [|d0 [|x r]]]; try discriminate.
  destruct (_ && _) eqn:Ec; [|discriminate]. intros [= -> ->].
  repeat (apply andb_prop in Ec; destruct Ec as [Ec ?]).
  destruct (m_ty dd) as [c| |]; try discriminate. repeat split; try assumption; [f_equal|]; lia.
Qed.

(* a structure whose visible members are LEN and DATA[n] is a real string: LEN DINT at 0, DATA SINT[n] at 4 *)
Definition string_std (t : template) : bool :=
  match visible_members t with
  | [l; d] =>
      if text_eqb (m_name l) txt_LEN && text_eqb (m_name d) txt_DATA && negb (m_arr d =? 0)
      then (match string_shape t with Some _ => true | None => false end) && (m_off l =? 0) && (m_off d =? 4)
      else true
  | _ => true
  end.

Definition tmpl_layout_ok (p : project) (t : template) : bool :=
  forallb (member_ok p t) (t_members t)
  && distinct_by text_eqb (map m_name (t_members t)) && string_std t && (0 <? t_size t).

Definition layout_ok (p : project) : bool := forallb (tmpl_layout_ok p) (p_templates p).

Definition dt_class (d : dtype) : tclass := let '(_, tc, _, _, _) := d in tc.
Definition elem_tc (fuel : nat) (p : project) (ty : base_ty) : option tclass :=
  match ty with
  | BAtom c => match atom_class c with Some _ => Some (KAtom c) | None => None end
  | BStruct tid => option_map dt_class (struct_dtype fuel p tid)
  | BOpaque _ => None
  end.

(* the client's class [tc] reads an image [d] of one element of [ty], followed by anything, completely and to a value equal
   (as Python values) to what the reference decoder gives, whatever fuel [f2] that decoder is run with *)
Definition elem_spec (p : project) (ty : base_ty) (tc : tclass) (s : Z) : Prop :=
  forall d rest, len d = s -> bytes_ok d = true ->
    exists v', decode_tc tc (d ++ rest) = Ok (v', rest)
               /\ forall f2 v, decode_val f2 p ty d = Some v -> pyeq v' v.

Definition array_spec (p : project) (ty : base_ty) (tc : tclass) (s n : Z) : Prop :=
  forall d rest, len d = s * n -> bytes_ok d = true ->
    exists v', decode_tc (KArr n tc) (d ++ rest) = Ok (v', rest)
               /\ forall f2 v, decode_array_with (decode_val f2 p) ty s n d = Some v -> pyeq v' v.

Lemma all_some_forall2 {A B} (f : A -> option B) : forall l r, all_some (map f l) = Some r ->
  Forall2 (fun a b => f a = Some b) l r.
Proof.
  induction l as [|a l IH]; intros r H; cbn in H.
  - injection H as <-. constructor.
  - destruct (f a) as [b|] eqn:E; [|discriminate].
    destruct (all_some (map f l)) as [r'|] eqn:E2; [|discriminate].
    injection H as <-. constructor; [exact E|apply IH; reflexivity].
Qed.

Lemma flatten_rbools (cs : list bytes) :
  flatten_lists (map rbools cs) = map RBool (bools_of_bytes (concat cs)).
Proof.
  induction cs as [|c r IH]; [reflexivity|].
  cbn [map flatten_lists flat_map concat]. rewrite bools_of_bytes_app, map_app.
  unfold flatten_lists in IH. rewrite IH. reflexivity.
Qed.

Lemma is_bitarray_atom c s : atom_size c = Some s -> is_bitarray (KAtom c) = atom_bits c.
Proof.
  intros H. destruct (atom_class_some c s H) as (n & k & Hc & _ & _ & _ & _ & Hk).
  unfold is_bitarray. rewrite Hc. destruct k; congruence.
Qed.

Lemma decode_val_atom f2 p c d v : decode_val f2 p (BAtom c) d = Some v -> decode_atom c d = Some v.
Proof. destruct f2; [discriminate|]. cbn. auto. Qed.

Lemma decode_tc_arr n e s :
  decode_tc (KArr n e) s
  = wrap_decode (let* (vs, r) := dec_many (decode_tc e) (Z.to_nat n) s in
                 Ok (RList (if is_bitarray e then flatten_lists vs else vs), r)).
Proof. reflexivity. Qed.

Lemma decode_tc_struct ms bits priv size s :
  decode_tc (KStruct ms bits priv size) s
  = wrap_decode (if negb (match firstn (Z.to_nat size) s with [] => true | _ => false end)
                    && (len (firstn (Z.to_nat size) s) <? size) then Err DataError else
                 let* vals := dec_members decode_tc ms (firstn (Z.to_nat size) s) [] in
                 let* vals2 := dec_bits (firstn (Z.to_nat size) s) bits vals in
                 Ok (RStruct (filter (fun kv => negb (tmem (fst kv) priv)) vals2), skipn (Z.to_nat size) s)).
Proof. reflexivity. Qed.

Lemma decode_atom_bits c s d : atom_size c = Some s -> atom_bits c = true ->
  decode_atom c d = if Expect.blen d =? s then Some (rbools d) else None.
Proof.
  intros Hs Hb. unfold decode_atom. rewrite Hs. destruct (Expect.blen d =? s); [|reflexivity].
  assert (Hc : c = 209 \/ c = 210 \/ c = 211 \/ c = 212) by (unfold atom_bits, C_BYTE, C_WORD, C_DWORD, C_LWORD in Hb; lia).
  destruct Hc as [->|[->|[->| ->]]]; reflexivity.
Qed.

Lemma elem_spec_atom p c s : atom_size c = Some s -> elem_spec p (BAtom c) (KAtom c) s.
Proof.
  intros Hs d rest Hl Hokd. destruct (atom_decode c s d rest Hs Hl Hokd) as (v & Hv & Hd).
  exists v. split; [exact Hv|]. intros f2 v0 H0. apply decode_val_atom in H0. replace v0 with v by congruence. apply pe_refl.
Qed.

Theorem decode_array_elems p ty tc s n : is_bits_ty ty = false -> is_bitarray tc = false -> 0 < s -> 0 <= n ->
  elem_spec p ty tc s -> array_spec p ty tc s n.
Proof.
  intros Hb Hnb Hs Hn He d rest Hl Hok.
  rewrite decode_tc_arr.
  destruct (dec_many_spec (decode_tc tc) (fun d v' => forall f2 v, decode_val f2 p ty d = Some v -> pyeq v' v)
              s Hs He n d rest Hn Hl Hok) as (vs & Hvs & HQ).
  rewrite Hvs. cbn [bind wrap_decode]. rewrite Hnb. eexists. split; [reflexivity|].
  intros f2 v Hv. unfold decode_array_with in Hv. rewrite Hb in Hv.
  destruct (all_some (map (decode_val f2 p ty) (Expect.chunks (Z.to_nat n) (Z.to_nat s) d))) as [rs|] eqn:Ea;
    [|discriminate].
  injection Hv as <-. apply all_some_forall2 in Ea. apply pe_list.
  clear Hvs. revert rs Ea. induction HQ as [|c0 v0 cs0 vs0 H0 _ IH]; intros rs Ea; inversion Ea; subst; constructor.
  - eapply H0. eassumption.
  - apply IH. assumption.
Qed.

(* n consecutive elementary values; BOOL arrays (bit strings) come back as one flat list *)
Theorem decode_array_atom p c s n : atom_size c = Some s -> 0 <= n -> array_spec p (BAtom c) (KAtom c) s n.
Proof.
  intros Hs Hn. pose proof (atom_size_pos c s Hs) as Hpos. pose proof (is_bitarray_atom c s Hs) as Hba.
  destruct (atom_bits c) eqn:Eb; [|apply decode_array_elems; auto using elem_spec_atom].
  intros d rest Hl Hok. rewrite decode_tc_arr, Hba.
  destruct (dec_many_spec (decode_tc (KAtom c)) (fun d v => decode_atom c d = Some v) s Hpos
              (fun d rest => atom_decode c s d rest Hs) n d rest Hn Hl Hok) as (vs & Hvs & HQ).
  rewrite Hvs. cbn [bind wrap_decode]. eexists. split; [reflexivity|].
  intros f2 v Hv. unfold decode_array_with in Hv. cbn [is_bits_ty] in Hv. rewrite Eb in Hv. injection Hv as <-.
  assert (Hvals : vs = map rbools (Expect.chunks (Z.to_nat n) (Z.to_nat s) d)).
  { clear Hvs. induction HQ as [|c0 v0 cs0 vs0 H0 _ IH]; [reflexivity|].
    cbn [map]. rewrite IH. f_equal. rewrite (decode_atom_bits c s c0 Hs Eb) in H0. destruct (_ =? s); congruence. }
  rewrite Hvals, flatten_rbools, chunks_concat by (unfold len in Hl; nia).
  apply pe_refl.
Qed.

Lemma is_private_host tid n : is_private tid n = host_name tid n.
Proof. reflexivity. Qed.

Lemma wrap_arr_not_bits arr tc : is_bitarray tc = false -> (arr =? 0) = false -> is_bitarray (wrap_arr arr tc) = false.
Proof. intros _ H. unfold wrap_arr. rewrite H. reflexivity. Qed.

Lemma struct_dtype_class f p tid dt : struct_dtype f p tid = Some dt ->
  (exists size cap, dt_class dt = KStr size cap) \/ (exists ms bits priv size, dt_class dt = KStruct ms bits priv size).
Proof.
  destruct f as [|f]; [discriminate|]. cbn [struct_dtype].
  destruct (find_template (p_templates p) tid) as [t|]; [|discriminate].
  destruct (member_infos (struct_dtype f p) (t_members t)) as [infos|]; [|discriminate].
  intros [= <-]. unfold dtype_of, dt_class. destruct (is_string_dtype _); eauto 6.
Qed.

Lemma struct_dtype_not_bits f p tid dt : struct_dtype f p tid = Some dt -> is_bitarray (dt_class dt) = false.
Proof. intros H. destruct (struct_dtype_class f p tid dt H) as [(? & ? & ->)|(? & ? & ? & ? & ->)]; reflexivity. Qed.

(* what the reference decodes for a non-BOOL member from its own bytes *)
Definition ref_member (f2 : nat) (p : project) (m : member) (es : Z) (dm : bytes) : option rvalue :=
  if m_arr m =? 0 then decode_val f2 p (m_ty m) dm
  else decode_array_with (decode_val f2 p) (m_ty m) es (m_arr m) dm.

Definition IHspec (p : project) (f : nat) : Prop :=
  forall ty tc s, elem_tc f p ty = Some tc -> base_size p ty = Some s -> elem_spec p ty tc s.

Lemma member_spec p f t m i :
  IHspec p f -> member_ok p t m = true -> member_info (struct_dtype f p) m = Some i ->
  is_bool_info i = is_bool_member m /\
  (is_bool_member m = false ->
   exists sz es, member_size p m = Some sz /\ base_size p (m_ty m) = Some es /\ 0 < sz /\
     forall dm rest, len dm = sz -> bytes_ok dm = true ->
       exists v', decode_tc (ti_class i) (dm ++ rest) = Ok (v', rest) /\
                  forall f2 v, ref_member f2 p m es dm = Some v -> pyeq v' v).
Proof.
  intros IH Hok Hi. unfold member_ok in Hok.
  repeat (apply andb_prop in Hok; destruct Hok as [Hok ?]).
  unfold member_info in Hi. destruct (m_ty m) as [c|tid'|w] eqn:Ety; [| |discriminate].
  - cbv beta iota in Hi. destruct (atom_class c) as [[[n sz0] k]|] eqn:Ec; [|discriminate]. cbv beta iota in Hi. injection Hi as <-.
    unfold is_bool_info. cbn [ti_struct ti_dtname negb andb ti_class].
    assert (Hsz : exists es, atom_size c = Some es).
    { unfold is_bool_member in *. rewrite Ety in *. destruct (c =? C_BOOL) eqn:Eb.
      - exists 1. replace c with C_BOOL by lia. reflexivity.
      - unfold member_size, base_size in *. rewrite Ety in *. destruct (atom_size c) as [es|]; [eauto|destruct (m_bit m =? 0); discriminate]. }
    destruct Hsz as [es Hes].
    destruct (atom_class_some c es Hes) as (n' & k' & Hc' & _ & _ & Hbool & _ & _).
    rewrite Ec in Hc'. injection Hc' as E1 E2 E3. subst n' sz0 k'.
    unfold is_bool_member at 1. rewrite Ety. split; [exact Hbool|].
    intros Hnb. unfold is_bool_member in Hnb. rewrite Ety in Hnb. rewrite Hbool, Hnb.
    unfold is_bool_member in *. rewrite Ety, Hnb in *.
    unfold member_size, base_size in *. rewrite Ety, Hes in *.
    exists (es * member_elems m), es. split; [reflexivity|]. split; [reflexivity|].
    apply andb_prop in H. destruct H as [Hbit0 H]. apply andb_prop in H. destruct H as [Hpos Hfit].
    split; [lia|].
    intros dm rest Hl Hokd. unfold ref_member, wrap_arr, member_elems in *. rewrite Ety.
    destruct (m_arr m =? 0) eqn:Ea.
    + apply (elem_spec_atom p c es Hes); [lia|assumption].
    + apply (decode_array_atom p c es (m_arr m) Hes); [lia|lia|assumption].
  - cbv beta iota in Hi. destruct (struct_dtype f p tid') as [[[[[n tc'] sz0] attrs] mem]|] eqn:Esd; [|discriminate]. cbv beta iota in Hi. injection Hi as <-.
    unfold is_bool_info. cbn [ti_struct negb andb ti_class].
    unfold is_bool_member. rewrite Ety. split; [reflexivity|]. intros _.
    unfold is_bool_member in *. rewrite Ety in *.
    apply andb_prop in H. destruct H as [Hbit0 Hms].
    unfold member_size in *. destruct (base_size p (m_ty m)) as [es|] eqn:Ebs; [|discriminate].
    rewrite Ety in Ebs.
    apply andb_prop in Hms. destruct Hms as [Hpos Hfit].
    exists (es * member_elems m), es. split; [reflexivity|]. split; [exact Ebs|]. split; [lia|].
    assert (Hspec : elem_spec p (BStruct tid') tc' es).
    { apply (IH (BStruct tid') tc' es); [|exact Ebs]. cbn [elem_tc]. rewrite Esd. reflexivity. }
    pose proof (struct_dtype_not_bits _ _ _ _ Esd) as Hnb. cbn [dt_class] in Hnb.
    intros dm rest Hl Hokd. unfold ref_member, wrap_arr, member_elems in *. rewrite Ety.
    destruct (m_arr m =? 0) eqn:Ea.
    + apply Hspec; [lia|assumption].
    + apply (decode_array_elems p (BStruct tid') tc' es (m_arr m) eq_refl Hnb); [nia|lia|exact Hspec|lia|assumption].
Qed.

From Coq Require Import Permutation.

Lemma filter_split_perm {A} (g h : A -> bool) (l : list A) :
  Permutation (filter g (filter (fun x => negb (h x)) l) ++ filter g (filter h l)) (filter g l).
Proof.
  induction l as [|x l IH]; [constructor|].
  cbn [filter]. destruct (h x) eqn:Eh; cbn [negb filter].
  - destruct (g x) eqn:Eg; [|exact IH].
    apply Permutation_sym. apply Permutation_cons_app. apply Permutation_sym. exact IH.
  - destruct (g x) eqn:Eg; [|exact IH]. cbn [app]. constructor. exact IH.
Qed.

Lemma filter_map_fst_length {A B} (P : A -> bool) (l : list (A * B)) :
  length (filter (fun e => P (fst e)) l) = length (filter P (map fst l)).
Proof.
  induction l as [|[a b] l IH]; [reflexivity|]. cbn [filter map fst].
  destruct (P a); cbn [length]; rewrite IH; reflexivity.
Qed.

Lemma dget_nodup_in {A} (l : list (text * A)) k v : NoDup (map fst l) -> In (k, v) l -> dget k l = Some v.
Proof.
  induction l as [|[k' v'] r IH]; intros Hnd Hin; [contradiction|].
  cbn [map fst] in Hnd. inversion Hnd as [|x y Hn Hd]; subst.
  cbn [dget]. destruct Hin as [E|Hin].
  - injection E as -> ->. rewrite teqb_refl. reflexivity.
  - rewrite teqb_neq; [auto|]. intros E. subst. apply Hn. apply (in_map fst) in Hin. exact Hin.
Qed.

Lemma get_bytes_split (d : bytes) off n dm : get_bytes d off n = Some dm ->
  skipn (Z.to_nat off) d = dm ++ skipn (Z.to_nat (off + n)) d /\ len dm = n /\ 0 <= off /\ 0 <= n /\ off + n <= len d.
Proof.
  unfold get_bytes. destruct ((0 <=? off) && (0 <=? n) && (off + n <=? Expect.blen d)) eqn:E; [|discriminate].
  intros H. injection H as <-. unfold Expect.blen, len in *.
  split.
  - replace (Z.to_nat (off + n)) with (Z.to_nat off + Z.to_nat n)%nat by lia.
    rewrite <- skipn_skipn. symmetry. apply firstn_skipn.
  - rewrite firstn_length, skipn_length. lia.
Qed.

Lemma get_bytes_some (d : bytes) off n : 0 <= off -> 0 <= n -> off + n <= len d -> exists dm, get_bytes d off n = Some dm.
Proof.
  intros. unfold get_bytes. replace ((0 <=? off) && (0 <=? n) && (off + n <=? Expect.blen d)) with true; [eauto|].
  unfold Expect.blen, len in *. lia.
Qed.

Lemma bytes_ok_get (d : bytes) off n dm : bytes_ok d = true -> get_bytes d off n = Some dm -> bytes_ok dm = true.
Proof.
  unfold get_bytes. destruct (_ && _); [|discriminate]. intros H E. injection E as <-.
  apply bytes_ok_firstn, bytes_ok_skipn. exact H.
Qed.

Lemma map_filter_fst {A B C} (f : A -> C) (P : A -> bool) (l : list (A * B)) :
  map (fun e => f (fst e)) (filter (fun e => P (fst e)) l) = map f (filter P (map fst l)).
Proof.
  induction l as [|[a b] l IH]; [reflexivity|]. cbn [filter map fst].
  destruct (P a); cbn [map fst]; rewrite IH; reflexivity.
Qed.

(* the value the client's class of member [mi] decodes at the member's offset of the image [d] *)
Definition dval_of (d : bytes) (mi : member * tinfo) : rvalue :=
  match decode_tc (ti_class (snd mi)) (skipn (Z.to_nat (m_off (fst mi))) d) with
  | Ok (v, _) => v
  | Err _ => RInt 0
  end.
Definition bval_of (d : bytes) (mi : member * tinfo) : rvalue :=
  RBool (Z.testbit (nth (Z.to_nat (m_off (fst mi))) d 0) (m_bit (fst mi))).

Definition ref_field (p : project) (f2 : nat) (d : bytes) (m : member) : option (text * rvalue) :=
  match decode_member_with (decode_val f2 p) p m d with Some v => Some (m_name m, v) | None => None end.

Lemma ref_fields_keys p f2 d ms fs : all_some (map (ref_field p f2 d) ms) = Some fs -> map fst fs = map m_name ms.
Proof.
  intros H. apply all_some_forall2 in H. induction H as [|m kv ms kvs Hm _ IH]; [reflexivity|].
  cbn [map]. rewrite IH. f_equal. unfold ref_field in Hm.
  destruct (decode_member_with _ _ _ _); [|discriminate]. injection Hm as <-. reflexivity.
Qed.

Lemma decode_val_struct f2 p tid t d v :
  find_template (p_templates p) tid = Some t -> decode_val f2 p (BStruct tid) d = Some v ->
  match string_shape t with
  | Some (l, dd) => decode_string l dd d = Some v
  | None => exists f fs, all_some (map (ref_field p f d) (visible_members t)) = Some fs /\ v = RStruct fs
  end.
Proof.
  destruct f2 as [|f]; [discriminate|]. cbn [decode_val]. intros -> H.
  destruct (negb _); [discriminate|]. destruct (string_shape t) as [[l dd]|]; [exact H|].
  destruct (all_some _) as [fs|] eqn:Ea; [|discriminate]. injection H as <-. exists f, fs. split; [exact Ea|reflexivity].
Qed.

Section StructCase.
  Variables (p : project) (f : nat) (t : template) (infos : list (member * tinfo)).
  Hypothesis IH : IHspec p f.
  Hypothesis Hlay : tmpl_layout_ok p t = true.
  Hypothesis Hmi : member_infos (struct_dtype f p) (t_members t) = Some infos.

  Let tid := t_id t.
  Let np (mi : member * tinfo) : bool := negb (is_private tid (mi_name mi)).
  Let nb (mi : member * tinfo) : bool := negb (is_bool_info (snd mi)).

  Lemma sc_fst : map fst infos = t_members t.
  Proof. apply (member_infos_spec _ _ _ Hmi). Qed.

  Lemma sc_lay : forallb (member_ok p t) (t_members t) = true /\ True
                 /\ distinct_by text_eqb (map m_name (t_members t)) = true /\ string_std t = true /\ 0 < t_size t.
  Proof.
    pose proof Hlay as H. unfold tmpl_layout_ok in H. repeat (apply andb_prop in H; destruct H as [H ?]).
    repeat split; try assumption. lia.
  Qed.

  Lemma sc_nodup : NoDup (map mi_name infos).
  Proof.
    replace (map mi_name infos) with (map m_name (map fst infos)) by (rewrite map_map; reflexivity).
    rewrite sc_fst. apply (distinct_by_NoDup _ _ teqb_refl). apply sc_lay.
  Qed.

  Lemma sc_member mi : In mi infos ->
    member_ok p t (fst mi) = true /\ member_info (struct_dtype f p) (fst mi) = Some (snd mi).
  Proof.
    intros Hin. split.
    - apply (forallb_In _ (t_members t)); [apply sc_lay|]. rewrite <- sc_fst. apply in_map. exact Hin.
    - pose proof (proj2 (member_infos_spec _ _ _ Hmi)) as HF. rewrite Forall_forall in HF. apply HF. exact Hin.
  Qed.

  Lemma sc_bool mi : In mi infos -> is_bool_info (snd mi) = is_bool_member (fst mi).
  Proof. intros Hin. destruct (sc_member mi Hin) as [H1 H2]. apply (member_spec p f t _ _ IH H1 H2). Qed.

  Lemma sc_hidden mi : In mi infos -> is_private tid (mi_name mi) = m_hidden (fst mi).
  Proof.
    intros Hin. destruct (sc_member mi Hin) as [H1 _]. unfold member_ok in H1.
    repeat (apply andb_prop in H1; destruct H1 as [H1 ?]).
    rewrite is_private_host. unfold mi_name, tid. symmetry. apply eqb_prop. assumption.
  Qed.

  Lemma sc_scan : scan_members tid infos =
    mkScan (map (fun mi => (mi_name mi, snd mi)) infos)
           (map mi_name (filter np infos))
           (map (fun mi => (mi_name mi, m_off (fst mi), ti_class (snd mi))) (filter nb infos))
           (map (fun mi => (mi_name mi, (m_off (fst mi), m_bit (fst mi)))) (filter (fun mi => is_bool_info (snd mi)) infos))
           (map mi_name (filter (fun mi => is_private tid (mi_name mi)) infos)).
  Proof.
    unfold scan_members. rewrite (scan_spec tid infos _ sc_nodup); [reflexivity|].
    intros mi _. repeat split; reflexivity.
  Qed.

  Lemma sc_attrs_visible : map mi_name (filter np infos) = map m_name (visible_members t).
  Proof.
    unfold visible_members. rewrite <- sc_fst.
    rewrite <- (map_filter_fst m_name (fun m => negb (m_hidden m)) infos).
    f_equal. apply filter_ext_in. intros mi Hin. unfold np. rewrite (sc_hidden mi Hin). reflexivity.
  Qed.

  Lemma sc_itag mi : In mi infos -> dget (mi_name mi) (map (fun mi => (mi_name mi, snd mi)) infos) = Some (snd mi).
  Proof.
    intros Hin. apply dget_nodup_in.
    - rewrite map_map. cbn [fst]. exact sc_nodup.
    - apply (in_map (fun mi => (mi_name mi, snd mi))) in Hin. exact Hin.
  Qed.

  Lemma sc_private mi : In mi infos ->
    tmem (mi_name mi) (map mi_name (filter (fun mi => is_private tid (mi_name mi)) infos)) = is_private tid (mi_name mi).
  Proof.
    intros Hin. destruct (is_private tid (mi_name mi)) eqn:E.
    - apply tmem_in. apply in_map. apply filter_In. split; assumption.
    - destruct (tmem _ _) eqn:Et; [|reflexivity]. apply tmem_in in Et. apply in_map_iff in Et.
      destruct Et as (mi' & Hn & Hin'). apply filter_In in Hin'. rewrite Hn in Hin'. destruct Hin'. congruence.
  Qed.

  Let isb (mi : member * tinfo) : bool := is_bool_info (snd mi).

  Lemma sc_member_decode d mi : len d = t_size t -> bytes_ok d = true -> In mi infos -> nb mi = true ->
    exists sz es dm, member_size p (fst mi) = Some sz /\ base_size p (m_ty (fst mi)) = Some es
      /\ get_bytes d (m_off (fst mi)) sz = Some dm
      /\ decode_tc (ti_class (snd mi)) (skipn (Z.to_nat (m_off (fst mi))) d)
         = Ok (dval_of d mi, skipn (Z.to_nat (m_off (fst mi) + sz)) d)
      /\ forall f2 v, ref_member f2 p (fst mi) es dm = Some v -> pyeq (dval_of d mi) v.
  Proof.
    intros Hl Hokd Hin Hnb. destruct (sc_member mi Hin) as [Hok Hinfo].
    destruct (member_spec p f t _ _ IH Hok Hinfo) as [Hb Hs].
    unfold nb in Hnb. rewrite Hb in Hnb. apply negb_true_iff in Hnb.
    destruct (Hs Hnb) as (sz & es & Hsz & Hes & Hpos & Hdec).
    assert (Hfit : 0 <= m_off (fst mi) /\ m_off (fst mi) + sz <= t_size t).
    { unfold member_ok in Hok. rewrite Hnb, Hsz in Hok.
      repeat (apply andb_prop in Hok; destruct Hok as [Hok ?]). lia. }
    destruct (get_bytes_some d (m_off (fst mi)) sz) as [dm Hdm]; [lia|lia|lia|].
    destruct (get_bytes_split _ _ _ _ Hdm) as (Hsplit & Hldm & _).
    destruct (Hdec dm (skipn (Z.to_nat (m_off (fst mi) + sz)) d) Hldm (bytes_ok_get _ _ _ _ Hokd Hdm)) as (v' & Hv' & Hpy).
    exists sz, es, dm. repeat split; try assumption.
    - unfold dval_of. rewrite Hsplit, Hv'. reflexivity.
    - unfold dval_of. rewrite Hsplit, Hv'. exact Hpy.
  Qed.

  Lemma sc_filter_priv (g : member * tinfo -> rvalue) (l : list (member * tinfo)) :
    (forall mi, In mi l -> In mi infos) ->
    filter (fun kv : text * rvalue => negb (tmem (fst kv) (map mi_name (filter (fun mi => is_private tid (mi_name mi)) infos))))
           (map (fun mi => (mi_name mi, g mi)) l)
    = map (fun mi => (mi_name mi, g mi)) (filter np l).
  Proof.
    intros Hsub. rewrite filter_map_comm. f_equal. apply filter_ext_in. intros mi Hin. cbn [fst].
    rewrite (sc_private mi (Hsub mi Hin)). reflexivity.
  Qed.

  Definition client_fields (d : bytes) : list (text * rvalue) :=
    map (fun mi => (mi_name mi, dval_of d mi)) (filter np (filter nb infos))
    ++ map (fun mi => (mi_name mi, bval_of d mi)) (filter np (filter isb infos)).

  Lemma sc_struct_value d rest : len d = t_size t -> bytes_ok d = true ->
    decode_tc (KStruct (map (fun mi => (mi_name mi, m_off (fst mi), ti_class (snd mi))) (filter nb infos))
                       (map (fun e : text * (Z * Z) => (fst e, fst (snd e), snd (snd e)))
                            (map (fun mi => (mi_name mi, (m_off (fst mi), m_bit (fst mi)))) (filter isb infos)))
                       (map mi_name (filter (fun mi => is_private tid (mi_name mi)) infos)) (t_size t)) (d ++ rest)
    = Ok (RStruct (client_fields d), rest).
  Proof.
    intros Hl Hokd. rewrite decode_tc_struct.
    rewrite firstn_app_length, skipn_app_length by (unfold len in Hl; lia).
    replace (len d <? t_size t) with false by lia. rewrite andb_false_r.
    rewrite (dec_members_ok decode_tc d mi_name (fun mi => m_off (fst mi)) (fun mi => ti_class (snd mi)) (dval_of d)
               (filter nb infos) []).
    2:{ intros mi Hin. apply filter_In in Hin. destruct Hin as [Hin Hnb].
        destruct (sc_member_decode d mi Hl Hokd Hin Hnb) as (sz' & es & dm & _ & _ & Hdm & Hdec & _).
        split; [apply (get_bytes_split _ _ _ _ Hdm)|eauto]. }
    2:{ apply NoDup_map_filter. exact sc_nodup. }
    2:{ intros e _. reflexivity. }
    cbn [bind app].
    rewrite map_map. cbn [fst snd].
    rewrite (dec_bits_ok d mi_name (fun mi => m_off (fst mi)) (fun mi => m_bit (fst mi)) (filter isb infos)).
    2:{ intros mi Hin. apply filter_In in Hin. destruct Hin as [Hin Hb]. destruct (sc_member mi Hin) as [Hok _].
        unfold isb in Hb. rewrite (sc_bool mi Hin) in Hb. unfold member_ok in Hok. rewrite Hb in Hok.
        repeat (apply andb_prop in Hok; destruct Hok as [Hok ?]). lia. }
    2:{ apply NoDup_map_filter. exact sc_nodup. }
    2:{ intros mi Hin. apply dget_none_map. intros x Hx. cbn [fst].
        apply filter_In in Hin. apply filter_In in Hx. destruct Hin as [Hin Hb]. destruct Hx as [Hx Hnbx].
        intros E. assert (x = mi) by (apply (NoDup_map_inj mi_name infos); auto using sc_nodup).
        subst x. unfold nb, isb in *. rewrite Hb in Hnbx. discriminate. }
    cbn [bind wrap_decode]. do 3 f_equal.
    rewrite filter_app. unfold client_fields. f_equal.
    - apply sc_filter_priv. intros mi Hin. apply filter_In in Hin. tauto.
    - apply sc_filter_priv. intros mi Hin. apply filter_In in Hin. tauto.
  Qed.

  Lemma nth_of_skipn (l : bytes) n b r : skipn n l = b :: r -> nth n l 0 = b.
  Proof.
    intros H. rewrite <- (Nat.add_0_r n), <- nth_skipn, H. reflexivity.
  Qed.

  Lemma sc_perm : Permutation (filter np (filter nb infos) ++ filter np (filter isb infos)) (filter np infos).
  Proof. apply (filter_split_perm np isb infos). Qed.

  Lemma sc_visible mi : In mi infos -> np mi = true -> In (fst mi) (visible_members t).
  Proof.
    intros Hin Hnp. unfold visible_members. apply filter_In. split.
    - rewrite <- sc_fst. apply in_map. exact Hin.
    - unfold np in Hnp. rewrite (sc_hidden mi Hin) in Hnp. exact Hnp.
  Qed.

  Lemma sc_struct_pyeq d f2 fs : len d = t_size t -> bytes_ok d = true ->
    all_some (map (ref_field p f2 d) (visible_members t)) = Some fs ->
    pyeq (RStruct (client_fields d)) (RStruct fs).
  Proof.
    intros Hl Hokd Hall. pose proof (ref_fields_keys _ _ _ _ _ Hall) as K1. apply all_some_forall2 in Hall.
    assert (Hnd_np : NoDup (map mi_name (filter np infos))) by (apply NoDup_map_filter; exact sc_nodup).
    assert (Hkeys : map fst (client_fields d)
                    = map mi_name (filter np (filter nb infos) ++ filter np (filter isb infos))).
    { unfold client_fields. rewrite map_app, !map_map. cbn [fst]. rewrite <- map_app. reflexivity. }
    assert (Hnd_fs : NoDup (map fst fs)) by (rewrite K1, <- sc_attrs_visible; exact Hnd_np).
    apply pe_dict.
    - rewrite Hkeys. eapply Permutation_NoDup; [|exact Hnd_np].
      apply Permutation_sym. apply Permutation_map. exact sc_perm.
    - exact Hnd_fs.
    - rewrite <- (map_length fst (client_fields d)), Hkeys, map_length.
      rewrite (Permutation_length sc_perm).
      rewrite <- (map_length fst fs), K1, <- sc_attrs_visible, map_length. reflexivity.
    - intros k v' Hin. unfold client_fields in Hin. apply in_app_or in Hin. destruct Hin as [Hin|Hin].
      + apply in_map_iff in Hin. destruct Hin as (mi & E & Hin). injection E as <- <-.
        apply filter_In in Hin. destruct Hin as [Hin Hnp]. apply filter_In in Hin. destruct Hin as [Hin Hnb].
        destruct (Forall2_In_l _ _ _ _ Hall (sc_visible mi Hin Hnp)) as (kv & Hkv & Hrel).
        destruct (sc_member_decode d mi Hl Hokd Hin Hnb) as (sz & es & dm & Hsz & Hes & Hdm & _ & Hpy).
        unfold ref_field, decode_member_with in Hrel.
        assert (Hb : is_bool_member (fst mi) = false).
        { unfold nb in Hnb. rewrite (sc_bool mi Hin) in Hnb. apply negb_true_iff. exact Hnb. }
        rewrite Hb, Hes in Hrel.
        assert (Esz : sz = es * member_elems (fst mi)).
        { unfold member_size in Hsz. rewrite Hes in Hsz. congruence. }
        rewrite <- Esz, Hdm in Hrel.
        destruct (if m_arr (fst mi) =? 0 then decode_val f2 p (m_ty (fst mi)) dm
                  else decode_array_with (decode_val f2 p) (m_ty (fst mi)) es (m_arr (fst mi)) dm) as [v|] eqn:Ev;
          [|discriminate].
        injection Hrel as <-. exists v. split.
        * apply dget_nodup_in; assumption.
        * apply (Hpy f2). exact Ev.
      + apply in_map_iff in Hin. destruct Hin as (mi & E & Hin). injection E as <- <-.
        apply filter_In in Hin. destruct Hin as [Hin Hnp]. apply filter_In in Hin. destruct Hin as [Hin Hb].
        destruct (Forall2_In_l _ _ _ _ Hall (sc_visible mi Hin Hnp)) as (kv & Hkv & Hrel).
        unfold ref_field, decode_member_with in Hrel.
        unfold isb in Hb. rewrite (sc_bool mi Hin) in Hb. rewrite Hb in Hrel.
        destruct (get_bytes d (m_off (fst mi)) 1) as [[|b [|b2 r]]|] eqn:Eg; try discriminate.
        injection Hrel as <-. exists (RBool (Z.testbit b (m_bit (fst mi)))). split.
        * apply dget_nodup_in; assumption.
        * destruct (get_bytes_split _ _ _ _ Eg) as (Hsplit & _).
          unfold bval_of. rewrite (nth_of_skipn _ _ _ _ Hsplit). apply pe_refl.
  Qed.

  Lemma sc_class_arr mi n e : In mi infos -> ti_class (snd mi) = KArr n e -> m_arr (fst mi) = n /\ (n =? 0) = false.
  Proof.
    intros Hin Hc. destruct (sc_member mi Hin) as [_ Hinfo]. unfold member_info in Hinfo.
    destruct (m_ty (fst mi)) as [c|tid'|w]; [| |discriminate].
    - destruct (atom_class c) as [[[nm sz] k]|]; [|discriminate]. injection Hinfo as E. rewrite <- E in Hc. cbn [ti_class] in Hc.
      destruct (text_eqb nm txt_BOOL); [discriminate|]. unfold wrap_arr in Hc.
      destruct (m_arr (fst mi) =? 0) eqn:Ea; [discriminate|]. injection Hc as <- _. split; [reflexivity|exact Ea].
    - destruct (struct_dtype f p tid') as [[[[[nm tc'] sz] attrs] mem]|] eqn:Esd; [|discriminate].
      injection Hinfo as E. rewrite <- E in Hc. cbn [ti_class] in Hc. unfold wrap_arr in Hc.
      destruct (m_arr (fst mi) =? 0) eqn:Ea.
      + destruct (struct_dtype_class _ _ _ _ Esd) as [(? & ? & E2)|(? & ? & ? & ? & E2)]; cbn [dt_class] in E2; congruence.
      + injection Hc as <- _. split; [reflexivity|exact Ea].
  Qed.

  Lemma sc_data_info dd : In dd (visible_members t) -> text_eqb (m_name dd) txt_DATA_ = true ->
    exists mi, In mi infos /\ fst mi = dd /\ dget txt_DATA_ (map (fun mi => (mi_name mi, snd mi)) infos) = Some (snd mi).
  Proof.
    intros Hv Hn. apply filter_In in Hv. destruct Hv as [Hin _]. rewrite <- sc_fst in Hin.
    apply in_map_iff in Hin. destruct Hin as (mi & E & Hin). exists mi. split; [exact Hin|]. split; [exact E|].
    rewrite <- (teqb_eq _ _ Hn), <- E. apply (sc_itag mi Hin).
  Qed.

  Let the_scan := scan_members tid infos.

  Lemma sc_is_string_true : is_string_dtype the_scan = true ->
    exists l dd, string_shape t = Some (l, dd) /\ m_off l = 0 /\ m_off dd = 4 /\ string_cap the_scan = m_arr dd
                 /\ In dd (t_members t).
  Proof.
    unfold the_scan. rewrite sc_scan. unfold is_string_dtype, string_cap. cbn [sc_attrs sc_itags].
    rewrite sc_attrs_visible.
    destruct (visible_members t) as [|l [|dd [|x r]]] eqn:Ev; try discriminate.
    cbn [map]. intros H. apply andb_prop in H. destruct H as [H Hd]. apply andb_prop in H. destruct H as [Hl Hdd].
    destruct (sc_data_info dd) as (mi & Hmi_in & Hfst & Hget); [rewrite Ev; right; left; reflexivity|exact Hdd|].
    rewrite Hget in Hd |- *.
    apply andb_prop in Hd. destruct Hd as [_ Hcls].
    destruct (ti_class (snd mi)) as [| n e | |] eqn:Ec; try discriminate.
    destruct (sc_class_arr mi n e Hmi_in Ec) as [Harr Hn0]. rewrite Hfst in Harr.
    pose proof sc_lay as (_ & _ & _ & Hstd & _). unfold string_std in Hstd. rewrite Ev in Hstd.
    change txt_LEN with txt_LEN_ in Hstd. change txt_DATA with txt_DATA_ in Hstd.
    rewrite Hl, Hdd, Harr, Hn0 in Hstd. cbn [andb negb] in Hstd.
    apply andb_prop in Hstd. destruct Hstd as [Hstd Ho4]. apply andb_prop in Hstd. destruct Hstd as [Hshape Ho0].
    destruct (string_shape t) as [[l' d']|] eqn:Es; [|discriminate].
    destruct (string_shape_some _ _ _ Es) as (Ev' & _). rewrite Ev in Ev'. injection Ev' as <- <-.
    exists l, dd. repeat split; try lia; try assumption. rewrite <- Hfst, <- sc_fst. apply in_map. exact Hmi_in.
  Qed.

  Lemma sc_is_string_false : is_string_dtype the_scan = false -> string_shape t = None.
  Proof.
    intros Hf. destruct (string_shape t) as [[l dd]|] eqn:Es; [|reflexivity]. exfalso.
    destruct (string_shape_some _ _ _ Es) as (Ev & Hln & Hdn & Hty & Harr).
    destruct (sc_data_info dd) as (mi & Hmi_in & Hfst & Hget); [rewrite Ev; right; left; reflexivity|exact Hdn|].
    revert Hf. unfold the_scan. rewrite sc_scan. unfold is_string_dtype. cbn [sc_attrs sc_itags].
    rewrite sc_attrs_visible, Ev. cbn [map].
    change txt_LEN_ with txt_LEN. change txt_DATA_ with txt_DATA. rewrite Hln, Hdn. cbn [andb].
    change txt_DATA with txt_DATA_. rewrite Hget.
    destruct (sc_member mi Hmi_in) as [_ Hinfo]. unfold member_info in Hinfo. rewrite Hfst, Hty in Hinfo.
    vm_compute (atom_class C_SINT) in Hinfo. cbv beta iota in Hinfo.
    change (text_eqb [83; 73; 78; 84] txt_BOOL) with false in Hinfo. cbv iota in Hinfo.
    injection Hinfo as <-. cbn [ti_dtname ti_class]. unfold wrap_arr.
    destruct (m_arr dd =? 0) eqn:Ea; [lia|]. rewrite Ea. discriminate.
  Qed.
End StructCase.

Lemma decode_tc_str size cap s :
  decode_tc (KStr size cap) s
  = wrap_decode (let* (lv, s1) := decode_kind (AInt false 4) s in
                 let* (d, s2) := stream_read size s1 in
                 match lv with
                 | RInt l => Ok (RStr (firstn (Z.to_nat (Z.min l (len d))) d), s2)
                 | _ => Err DataError
                 end).
Proof. reflexivity. Qed.

Lemma string_decode_spec p t l dd d rest :
  string_shape t = Some (l, dd) -> m_off l = 0 -> m_off dd = 4 -> member_ok p t dd = true ->
  len d = t_size t -> bytes_ok d = true ->
  exists v', decode_tc (KStr (t_size t - 4) (m_arr dd)) (d ++ rest) = Ok (v', rest)
             /\ forall v, decode_string l dd d = Some v -> v' = v.
Proof.
  intros Hs Hl0 Hd4 Hok Hl Hokd.
  destruct (string_shape_some _ _ _ Hs) as (_ & _ & _ & Hty & Harr).
  assert (Hfit : 4 + m_arr dd <= t_size t).
  { unfold member_ok, is_bool_member, member_size, base_size, member_elems in Hok. rewrite Hty in Hok.
    change (C_SINT =? C_BOOL) with false in Hok. change (atom_size C_SINT) with (Some 1) in Hok.
    repeat (apply andb_prop in Hok; destruct Hok as [Hok ?]).
    destruct (m_arr dd =? 0) eqn:Ea; lia. }
  set (lb := firstn 4 d). set (data := skipn 4 d).
  assert (Hd : d = lb ++ data) by (symmetry; apply firstn_skipn).
  assert (Hlb : len lb = 4) by (subst lb; unfold len in *; rewrite firstn_length; lia).
  assert (Hdata : len data = t_size t - 4) by (subst data; unfold len in *; rewrite skipn_length; lia).
  assert (Hoklb : bytes_ok lb = true) by (apply bytes_ok_firstn; exact Hokd).
  rewrite decode_tc_str.
  replace (d ++ rest) with (lb ++ (data ++ rest)) by (rewrite app_assoc; subst lb data; rewrite firstn_skipn; reflexivity).
  unfold decode_kind. cbn [kind_size]. rewrite (stream_read_app 4 lb (data ++ rest) Hlb) by lia. cbn [bind].
  rewrite Hlb. cbn [Z.eqb Pos.eqb negb bind].
  rewrite (stream_read_app (t_size t - 4) data rest Hdata) by lia. cbn [bind wrap_decode].
  eexists. split; [reflexivity|].
  intros v Hv. unfold decode_string in Hv.
  assert (G1 : get_bytes d (m_off l) 4 = Some lb).
  { unfold get_bytes. rewrite Hl0. replace ((0 <=? 0) && (0 <=? 4) && (0 + 4 <=? Expect.blen d)) with true
      by (unfold Expect.blen, len in *; lia). reflexivity. }
  assert (G2 : get_bytes d (m_off dd) (m_arr dd) = Some (firstn (Z.to_nat (m_arr dd)) data)).
  { unfold get_bytes. rewrite Hd4. replace ((0 <=? 4) && (0 <=? m_arr dd) && (4 + m_arr dd <=? Expect.blen d)) with true
      by (unfold Expect.blen, len in *; lia). reflexivity. }
  rewrite G1, G2 in Hv.
  pose proof (le_dec_range lb Hoklb) as Hr. unfold len in Hlb.
  replace (length lb) with 4%nat in Hr by lia.
  destruct ((0 <=? to_signed 4 (le_dec lb)) && (to_signed 4 (le_dec lb) <=? m_arr dd)) eqn:Ec; [|discriminate].
  injection Hv as <-. f_equal.
  revert Ec. unfold to_signed. change (pow256 4) with 4294967296 in *.
  destruct (le_dec lb <? 4294967296 / 2) eqn:Eh; intros Ec; [|lia].
  rewrite firstn_firstn. f_equal. unfold len in Hdata |- *. lia.
Qed.

Theorem decode_elem_spec p : layout_ok p = true -> forall f1, IHspec p f1.
Proof.
  intros Hlay. induction f1 as [|f IH]; intros ty tc s Htc Hsz;
    (destruct ty as [c|tid|w]; cbn [elem_tc] in Htc;
     [destruct (atom_class c); [|discriminate]; injection Htc as <-; exact (elem_spec_atom p c s Hsz)| |discriminate]);
    [discriminate|].
  cbn [struct_dtype] in Htc.
  destruct (find_template (p_templates p) tid) as [t|] eqn:Ef; [|discriminate].
  destruct (member_infos (struct_dtype f p) (t_members t)) as [infos|] eqn:Emi; [|discriminate].
  cbn [option_map] in Htc. injection Htc as <-.
  cbn [base_size] in Hsz. rewrite Ef in Hsz. injection Hsz as <-.
  destruct (find_template_in _ _ _ Ef) as [Hin Hid].
  assert (Hlt : tmpl_layout_ok p t = true) by (apply (forallb_In _ (p_templates p)); assumption).
  intros d rest Hl Hokd.
  unfold dtype_of, dt_class.
  destruct (is_string_dtype (scan_members (t_id t) infos)) eqn:Estr.
  - (* a string *)
    destruct (sc_is_string_true p f t infos Hlt Emi Estr) as (l & dd & Hshape & Ho0 & Ho4 & Hcap & Hdd).
    rewrite Hcap.
    assert (Hokdd : member_ok p t dd = true).
    { pose proof (sc_lay p t Hlt) as (Hmok & _). apply (forallb_In _ (t_members t)); assumption. }
    destruct (string_decode_spec p t l dd d rest Hshape Ho0 Ho4 Hokdd Hl Hokd) as (v' & Hv' & Hpy).
    exists v'. split; [exact Hv'|].
    intros f2 v Hv. apply (decode_val_struct _ _ _ _ _ _ Ef) in Hv. rewrite Hshape in Hv.
    rewrite (Hpy v Hv). apply pe_refl.
  - (* a structure *)
    pose proof (sc_is_string_false p f t infos Hlt Emi Estr) as Hshape.
    rewrite (sc_scan p f t infos Hlt Emi). cbn [sc_smem sc_bits sc_priv].
    rewrite (sc_struct_value p f t infos IH Hlt Emi d rest Hl Hokd).
    eexists. split; [reflexivity|].
    intros f2 v Hv. apply (decode_val_struct _ _ _ _ _ _ Ef) in Hv. rewrite Hshape in Hv.
    destruct Hv as (f2' & fs & Ea & ->).
    apply (sc_struct_pyeq p f t infos IH Hlt Emi d f2' fs Hl Hokd Ea).
Qed.

Print Assumptions decode_elem_spec.

Ltac Zify.zify_post_hook ::= Z.to_euclidean_division_equations.
