(* Proofs/CodecRT.v — C06: the round-trip law and the three side properties the composite types
   need of their parts; the law for the leaf types.  Arrays and structures are in
   Proofs/CodecRTComp.v, StructTag in Proofs/CodecRTStag.v. *)
From PV Require Import Base.Bytes Base.BytesLemmas Base.Res.
From PV Require Import Model.Codec Model.CodecDom Proofs.CodecRTBase.
From Coq Require Import ZifyBool.
Open Scope Z_scope.
Ltac Zify.zify_post_hook ::= Z.to_euclidean_division_equations.

(* decoding the encoding, followed by ANY further data [rest] (nothing, for a greedy type), returns
   the normal form of the value and leaves exactly [rest]; any fuel above the encoding's length will do *)
Definition RT (t : ty) : Prop :=
  wf_ty t = true -> forall v rest, in_dom t v = true -> (greedy t = true -> rest = []) ->
  exists bs, encode t v = Ok bs
             /\ forall fuel, (length bs < fuel)%nat -> decode_fuel fuel t (bs ++ rest) = DOk (norm t v) rest.
(* what Array(None, T) needs of T: BufferEmptyError on the empty buffer *)
Definition EM (t : ty) : Prop :=
  wf_ty t = true -> consumes t = true -> forall fuel, decode_fuel fuel t [] = DEmpty [].

(* every in-domain value of a fixed-width type encodes to exactly that many bytes *)
Definition FW (t : ty) : Prop :=
  forall w v bs, fixed_width t = Some w -> wf_ty t = true -> in_dom t v = true -> encode t v = Ok bs -> length bs = w.
(* the two go together through the induction on type terms: Array(n, T) and StructTag have a width
   because their parts have one, and StructTag's round trip needs the width of its members *)
Definition PRT (t : ty) : Prop := RT t /\ FW t.

(* a hidden host member decodes whatever its bytes are *)
Definition AD (t : ty) : Prop :=
  forall w bs rest fuel, always_decodes t = true -> fixed_width t = Some w -> length bs = w ->
  exists v, decode_fuel fuel t (bs ++ rest) = DOk v rest /\ (is_bits t = true -> exists l, v = VList l).

Definition good (e : ty) (x : val) (b : bytes) : Prop :=
  encode e x = Ok b
  /\ forall fuel rest, (length b < fuel)%nat -> decode_fuel fuel e (b ++ rest) = DOk (norm e x) rest.

Lemma good_of_RT e x : RT e -> wf_ty e = true -> greedy e = false -> in_dom e x = true -> exists b, good e x b.
Proof.
  intros Hrt Hwf Hg Hd.
  destruct (Hrt Hwf x [] Hd (fun _ => eq_refl)) as (b & He & _).
  exists b. split; [exact He|]. intros fuel rest Hf.
  destruct (Hrt Hwf x rest Hd ltac:(congruence)) as (b' & He' & Hdec).
  rewrite He in He'. injection He' as <-. now apply Hdec.
Qed.

Definition enc_members {K} (ms : list (K * ty)) := map (fun m => (fst m, as_member (snd m) (encode (snd m)))) ms.
Definition dec_members {K} (fuel : nat) (ms : list (K * ty)) := map (fun m => (fst m, decode_fuel fuel (snd m))) ms.

Ltac dom_val v H :=
  destruct v; try discriminate H.

Lemma rt_TBool : RT TBool.
Proof.
  intros _ v rest Hd _. cbn [in_dom] in Hd. dom_val v Hd.
  exists [if b then 255 else 0]. split.
  - cbn [encode]. unfold bool_encode, pub_encode. cbn [truthy wrap_all]. reflexivity.
  - intros fuel _. cbn [decode_fuel norm]. unfold bool_decode.
    rewrite elem_decode_app by (cbn; lia). destruct b; reflexivity.
Qed.

Lemma rt_TInt sg w : RT (TInt sg w).
Proof.
  intros Hwf v rest Hd _. cbn [wf_ty] in Hwf. cbn [in_dom] in Hd. dom_val v Hd.
  exists (le_enc w z). split.
  - cbn [encode]. now apply int_encode_ok.
  - intros fuel _. cbn [decode_fuel norm]. apply int_decode_ok; [lia|exact Hd].
Qed.

Lemma canon64_dom b : negb (is_nan64 b) || (b =? nan64) = true -> canon64 b = b.
Proof.
  intros H. unfold canon64. destruct (is_nan64 b) eqn:E; [|reflexivity].
  cbn [negb orb] in H. lia.
Qed.

Lemma rt_TReal dbl : RT (TReal dbl).
Proof.
  intros _ v rest Hd _. cbn [in_dom] in Hd. dom_val v Hd. unfold real_dom in Hd.
  apply andb_prop in Hd as [Hd H3]. apply andb_prop in Hd as [H1 H2].
  pose proof (canon64_dom _ H2) as Hc. unfold b64_ok in H1.
  destruct dbl.
  - exists (le_enc 8 bits). split.
    + cbn [encode]. unfold real_encode, pub_encode, pack_real. cbn [as_float bind]. now rewrite Hc.
    + intros fuel _. cbn [decode_fuel norm real_norm]. unfold real_decode.
      rewrite elem_decode_app by (rewrite ?le_enc_length; lia).
      unfold unpack_real. rewrite le_enc_length. cbn [Nat.eqb dres_of_res dwrap].
      rewrite le_dec_enc. change (pow256 8) with (2 ^ 64). rewrite Z.mod_small by lia. now rewrite Hc.
  - destruct (round32 bits) as [s|] eqn:Er; [|discriminate].
    exists (le_enc 4 s). split.
    + cbn [encode]. unfold real_encode, pub_encode, pack_real. cbn [as_float bind]. now rewrite Er.
    + intros fuel _. cbn [decode_fuel norm real_norm]. rewrite Er. unfold real_decode.
      rewrite elem_decode_app by (rewrite ?le_enc_length; lia).
      unfold unpack_real. rewrite le_enc_length. cbn [Nat.eqb dres_of_res dwrap].
      rewrite le_dec_enc_id; [reflexivity|]. unfold in_urange in H3. lia.
Qed.

Lemma enc_char_size_pos e : 0 < enc_char_size e.
Proof. destruct e; cbn; lia. Qed.

Lemma rt_TStr lsg lw e : RT (TStr lsg lw e).
Proof.
  intros Hwf v rest Hd _. cbn [wf_ty] in Hwf. cbn [in_dom] in Hd. dom_val v Hd.
  unfold str_dom in Hd. apply andb_prop in Hd as [Hi Hr].
  destruct (codec_inverts_spec _ _ Hi) as (d & He & Hl & Hdec).
  unfold code_units in Hr, Hl. rewrite He in Hr, Hl.
  pose proof (enc_char_size_pos e) as Hcs.
  set (n := zlen d / enc_char_size e) in *.
  exists (le_enc lw n ++ d). split.
  - cbn [encode]. unfold str_encode, pub_encode. rewrite He. cbn [bind]. fold n.
    rewrite int_encode_ok by exact Hr. reflexivity.
  - intros fuel _. cbn [decode_fuel norm]. unfold str_decode. rewrite <- app_assoc.
    rewrite int_decode_ok by (try lia; exact Hr). cbn [dbind as_int].
    destruct (n =? 0) eqn:E0.
    + assert (d = []) by (apply zlen_0_nil; lia). subst d. rewrite text_decode_nil in Hdec. injection Hdec as <-. reflexivity.
    + rewrite <- Hl, stream_read_app, Hdec. reflexivity.
Qed.

Lemma rt_TStringN : RT TStringN.
Proof.
  intros _ v rest Hd _. cbn [in_dom] in Hd. dom_val v Hd. apply andb_prop in Hd as [Hr Hs].
  exists (le_enc 2 1 ++ le_enc 2 (zlen s) ++ s). split.
  - cbn [encode]. unfold stringn_encode, stringn_encode_cs. cbn [as_int]. rewrite stringn_enc_1.
    rewrite text_encode_single by exact Hs. cbn [bind].
    rewrite named_UINT_encode, int_encode_ok by reflexivity. cbn [bind]. rewrite Z.div_1_r.
    rewrite int_encode_ok by exact Hr. reflexivity.
  - intros fuel _. cbn [decode_fuel norm]. unfold stringn_decode. rewrite <- !app_assoc.
    rewrite named_UINT_decode, int_decode_ok by (try lia; reflexivity). cbn [dbind].
    rewrite int_decode_ok by (try lia; exact Hr). cbn [dbind as_int].
    rewrite stringn_enc_1. destruct (zlen s =? 0) eqn:E0.
    + assert (s = []) by (apply zlen_0_nil; lia). now subst s.
    + rewrite Z.mul_1_r, stream_read_app. cbn [text_decode]. reflexivity.
Qed.

Lemma datetime_dom v :
  in_dom TDateTime v = true ->
  exists t d, v = VTuple [VInt t; VInt d] /\ in_urange 4 t = true /\ in_urange 2 d = true.
Proof.
  cbn [in_dom]. destruct v; try discriminate. destruct l as [|[] [|[] [|? ?]]]; try discriminate.
  intros H. apply andb_prop in H. do 2 eexists. split; [reflexivity|exact H].
Qed.

Lemma datetime_encode_ok t d :
  in_urange 4 t = true -> in_urange 2 d = true ->
  encode TDateTime (VTuple [VInt t; VInt d]) = Ok (le_enc 4 t ++ le_enc 2 d).
Proof.
  intros Ht Hd. cbn [encode]. unfold datetime_encode, datetime_encode2. cbn [py_iter bind fst snd].
  rewrite named_UDINT_encode, int_encode_ok by exact Ht. cbn [bind].
  now rewrite named_UINT_encode, int_encode_ok by exact Hd.
Qed.

Lemma rt_TDateTime : RT TDateTime.
Proof.
  intros _ v rest Hd _. apply datetime_dom in Hd as (t & d & -> & Ht & Hd).
  exists (le_enc 4 t ++ le_enc 2 d). split; [now apply datetime_encode_ok|].
  intros fuel _. cbn [decode_fuel norm]. unfold datetime_decode. rewrite <- app_assoc.
  rewrite named_UDINT_decode, int_decode_ok by (try lia; exact Ht). cbn [dbind].
  now rewrite named_UINT_decode, int_decode_ok by (try lia; exact Hd).
Qed.

Lemma nbytes_encode_ok n b :
  wf_ty (TNBytes n) = true -> in_dom (TNBytes n) (VBytes b) = true -> encode (TNBytes n) (VBytes b) = Ok b.
Proof.
  cbn [wf_ty in_dom encode]. intros Hwf Hd. apply andb_prop in Hd as [_ Hl].
  unfold nbytes_encode, pub_encode. cbn [wrap_all].
  destruct (n =? -1) eqn:E1; [reflexivity|]. destruct (n <? 0) eqn:E0; [lia|].
  unfold slice_to. destruct (0 <=? n) eqn:E2; [|lia]. now rewrite ztake_all by lia.
Qed.

Lemma rt_TNBytes n : RT (TNBytes n).
Proof.
  intros Hwf v rest Hd Hg. pose proof Hd as Hd'. cbn [in_dom] in Hd'. cbn [greedy] in Hg. dom_val v Hd'.
  exists b. split; [now apply nbytes_encode_ok|]. apply andb_prop in Hd' as [_ Hl].
  intros fuel _. cbn [decode_fuel norm]. unfold nbytes_decode.
  destruct (n <? 0) eqn:E0.
  - rewrite (Hg eq_refl), app_nil_r. unfold stream_read, stream_take. rewrite E0.
    destruct b as [|x b]; [cbn in Hl; discriminate|].
    destruct (zlen (x :: b) <? n) eqn:E; [pose proof (zlen_nonneg (x :: b)); lia|reflexivity].
  - assert (n = zlen b) by lia. subst n. now rewrite stream_read_app.
Qed.

Lemma rt_TBits w : RT (TBits w).
Proof.
  intros Hwf v rest Hd _. cbn [wf_ty] in Hwf. cbn [in_dom] in Hd. dom_val v Hd.
  apply andb_prop in Hd as [Hl Hb].
  exists (le_enc w (bits_value l)). split.
  - cbn [encode]. apply bits_encode_ok. lia.
  - intros fuel _. cbn [decode_fuel norm]. apply bits_decode_ok; [lia|lia|exact Hb].
Qed.

Lemma fixedstr_encode_ok size lsg lw cap s :
  let s' := firstn cap s in
  str_dom lsg lw Latin1 s' = true ->
  fixedstr_encode size lsg lw cap (VStr s) = Ok (le_enc lw (zlen s') ++ s' ++ zeros (size - length s')).
Proof.
  intros s' Hd. apply latin1_dom in Hd as [Hr Hs].
  unfold fixedstr_encode, pub_encode. rewrite fss_enc_latin1. cbn [py_slice]. unfold slice. cbn [skipn].
  rewrite Nat.sub_0_r. cbn [bind py_len]. fold s'.
  rewrite int_encode_ok by exact Hr. cbn [bind]. rewrite text_encode_single by exact Hs. reflexivity.
Qed.

Lemma rt_TFixedStr size lsg lw cap : RT (TFixedStr size lsg lw cap).
Proof.
  intros Hwf v rest Hd _. cbn [wf_ty] in Hwf. cbn [in_dom] in Hd. dom_val v Hd.
  apply andb_prop in Hd as [Hd Hc]. pose proof (fixedstr_encode_ok size lsg lw cap s Hd) as He. cbv zeta in He.
  apply latin1_dom in Hd as [Hr Hs]. set (s' := firstn cap s) in *.
  eexists. split; [cbn [encode]; exact He|].
  intros fuel _. cbn [decode_fuel norm]. unfold fixedstr_decode. rewrite fss_enc_latin1. rewrite <- !app_assoc.
  rewrite int_decode_ok by (try lia; exact Hr). cbn [dbind as_int].
  rewrite (app_assoc s').
  assert (Hlen : zlen (s' ++ zeros (size - length s')) = Z.of_nat size).
  { rewrite zlen_app. unfold zlen. rewrite zeros_length. lia. }
  rewrite <- Hlen. rewrite stream_read_app.
  unfold slice_to. pose proof (zlen_nonneg s'). destruct (0 <=? zlen s') eqn:E; [|lia].
  rewrite ztake_app_exact. cbn [text_decode]. reflexivity.
Qed.

Lemma ip_dom_form v :
  in_dom TIPAddr v = true ->
  exists s a b c d, v = VStr s /\ map octet (split_dot s []) = [Some a; Some b; Some c; Some d]
                    /\ encode TIPAddr v = Ok [a; b; c; d].
Proof.
  cbn [in_dom encode]. destruct v; try discriminate. unfold ip_dom, ip_encode, pub_encode, parse_ipv4.
  destruct (map octet (split_dot s [])) as [|[o1|] [|[o2|] [|[o3|] [|[o4|] [|? ?]]]]] eqn:Es; try discriminate.
  intros _. now exists s, o1, o2, o3, o4.
Qed.

Lemma rt_TIPAddr : RT TIPAddr.
Proof.
  intros _ v rest Hd _. apply ip_dom_form in Hd as (s & a & b & c & d & -> & Ep & He).
  exists [a; b; c; d]. split; [exact He|].
  intros fuel _. cbn [decode_fuel norm]. unfold ip_decode.
  change 4 with (zlen [a; b; c; d]). rewrite stream_read_app.
  cbn [dwrap]. now rewrite <- (parse_ipv4_text _ _ _ _ _ Ep).
Qed.

Lemma pccc_ascii_dom_form v :
  in_dom TPcccAscii v = true -> exists c1 c2, v = VStr [c1; c2] /\ encode TPcccAscii v = Ok [c2; c1].
Proof.
  cbn [in_dom encode]. destruct v; try discriminate. intros Hd.
  apply andb_prop in Hd as [Hl Hs]. destruct s as [|c1 [|c2 [|? ?]]]; try discriminate.
  cbn [forallb] in Hs. apply andb_prop in Hs as [H1 Hs]. apply andb_prop in Hs as [H2 _].
  exists c1, c2. split; [reflexivity|]. unfold pccc_ascii_encode, pub_encode. rewrite pccc_ascii_enc_latin1.
  cbn [py_slice slice skipn firstn Nat.sub bind py_iter map or_space_encode truthy text_encode].
  now rewrite (single_byte_enc_char Latin1 c1 H1), (single_byte_enc_char Latin1 c2 H2).
Qed.

Lemma rt_TPcccAscii : RT TPcccAscii.
Proof.
  intros _ v rest Hd _. apply pccc_ascii_dom_form in Hd as (c1 & c2 & -> & He).
  exists [c2; c1]. split; [exact He|].
  intros fuel _. cbn [decode_fuel norm]. unfold pccc_ascii_decode. rewrite pccc_ascii_enc_latin1.
  change 2 with (zlen [c2; c1]). now rewrite stream_read_app.
Qed.

Lemma rt_TPcccString : RT TPcccString.
Proof.
  intros _ v rest Hd Hg. cbn [in_dom] in Hd. dom_val v Hd. rewrite (Hg eq_refl).
  apply andb_prop in Hd as [Hd Hs]. apply andb_prop in Hd as [Hev Hl].
  destruct (slc_swap_involutive s Hev) as (t & Ht1 & Ht2 & Ht3).
  assert (Hr : int_in_range false 2 (zlen s) = true).
  { cbn [int_in_range]. unfold in_urange, zlen. change (pow256 2) with 65536. lia. }
  exists (le_enc 2 (zlen s) ++ t). split.
  - cbn [encode]. unfold pccc_string_encode, pub_encode. rewrite pccc_string_enc_latin1. cbn [py_len bind].
    rewrite named_UINT_encode, int_encode_ok by exact Hr. cbn [bind].
    rewrite text_encode_single by exact Hs. cbn [bind]. now rewrite Ht1.
  - intros fuel _. cbn [decode_fuel norm]. unfold pccc_string_decode. rewrite pccc_string_enc_latin1.
    rewrite app_nil_r.
    rewrite named_UINT_decode, int_decode_ok by (try lia; exact Hr). cbn [dbind].
    unfold stream_take. cbn [Z.ltb Z.compare]. rewrite ztake_all, zdrop_all by (unfold zlen; lia).
    rewrite Ht2. cbn [text_decode dwrap]. reflexivity.
Qed.

Lemma fw_leaf t : match t with TArrFixed _ _ | TStructTag _ _ _ _ => False | _ => True end -> FW t.
Proof.
  intros Hl w v bs Hw Hwf Hd He. destruct t; try discriminate Hw; try destruct Hl; cbn [fixed_width] in Hw.
  - (* TBool *) injection Hw as <-. cbn [in_dom] in Hd. dom_val v Hd. cbn in He. now injection He as <-.
  - (* TInt *) injection Hw as <-. cbn [in_dom] in Hd. dom_val v Hd. cbn [encode] in He.
    rewrite int_encode_ok in He by exact Hd. injection He as <-. apply le_enc_length.
  - (* TReal *) injection Hw as <-. cbn [in_dom] in Hd. dom_val v Hd. unfold real_dom in Hd. apply andb_prop in Hd as [_ H3].
    cbn [encode] in He. unfold real_encode, pub_encode, pack_real in He. cbn [as_float bind] in He.
    destruct dbl; [|destruct (round32 bits); [|discriminate]]; injection He as <-; reflexivity.
  - (* TDateTime *) injection Hw as <-. apply datetime_dom in Hd as (t & d & -> & Ht & Hd).
    rewrite datetime_encode_ok in He by assumption. now injection He as <-.
  - (* TNBytes *) destruct (0 <=? n) eqn:E; [|discriminate]. injection Hw as <-. pose proof Hd as Hd'. cbn [in_dom] in Hd'. dom_val v Hd'.
    rewrite nbytes_encode_ok in He by assumption. injection He as <-.
    apply andb_prop in Hd' as [_ Hl]. destruct (n <? 0) eqn:E0; unfold zlen in Hl; lia.
  - (* TBits *) injection Hw as <-. cbn [in_dom] in Hd. dom_val v Hd. apply andb_prop in Hd as [Hl _]. cbn [encode] in He.
    rewrite bits_encode_ok in He by lia. injection He as <-. apply le_enc_length.
  - (* TFixedStr *) injection Hw as <-. cbn [in_dom] in Hd. dom_val v Hd. apply andb_prop in Hd as [Hd Hc]. cbn [encode] in He.
    rewrite fixedstr_encode_ok in He by exact Hd. injection He as <-. rewrite !app_length, le_enc_length, zeros_length. lia.
  - (* TIPAddr *) injection Hw as <-. apply ip_dom_form in Hd as (s & a & b & c & d & _ & _ & He'). rewrite He in He'. now injection He' as ->.
  - (* TPcccAscii *) injection Hw as <-. apply pccc_ascii_dom_form in Hd as (c1 & c2 & _ & He'). rewrite He in He'. now injection He' as ->.
Qed.

(* on the empty buffer a decoder that consumes input raises BufferEmptyError: it starts by reading an
   item of non-zero size, or by decoding its first element / member *)
Lemma em_all t : EM t.
Proof.
  induction t as [t Hl|n e IH| | |k ms IH|ms bits priv size IH] using ty_ind_nested; [destruct t; try discriminate Hl|..];
    intros Hwf Hc fuel; try discriminate Hc; cbn [wf_ty consumes decode_fuel] in *.
  - (* TBool *) apply elem_decode_nil. lia.
  - (* TInt *) apply int_decode_nil. lia.
  - (* TReal *) apply elem_decode_nil. destruct dbl; lia.
  - (* TDateTime *) unfold datetime_decode. now rewrite named_UDINT_decode, int_decode_nil by lia.
  - (* TStr *) unfold str_decode. now rewrite int_decode_nil by lia.
  - (* TStringN *) unfold stringn_decode. now rewrite named_UINT_decode, int_decode_nil by lia.
  - (* TStringI *) unfold stringi_decode. now rewrite named_USINT_decode, int_decode_nil by lia.
  - (* TNBytes *) unfold nbytes_decode. now rewrite stream_read_nil by lia.
  - (* TBits *) unfold bits_decode. now rewrite int_decode_nil by lia.
  - (* TFixedStr *) unfold fixedstr_decode. rewrite fss_enc_latin1. now rewrite int_decode_nil by lia.
  - (* TIPAddr *) unfold ip_decode. now rewrite stream_read_nil by lia.
  - (* TArrFixed: the first element *)
    apply andb_prop in Hwf as [Hwf _]. apply andb_prop in Hc as [Hn Hc].
    unfold array_decode_fixed. destruct n; [discriminate Hn|]. cbn [decode_n]. now rewrite (IH Hwf Hc fuel).
  - (* TStruct: the first member *)
    apply andb_prop in Hwf as [Hwf _]. apply andb_prop in Hwf as [Hwf _]. apply andb_prop in Hwf as [_ Hwf].
    destruct IH as [|m ms Hm _]; [discriminate Hc|]. cbn [headb] in Hc. cbn [forallb] in Hwf. apply andb_prop in Hwf as [Hwm _].
    unfold struct_decode, struct_decode_inner. cbn [map struct_decode_members fst snd]. now rewrite (Hm Hwm Hc fuel).
  - (* TStructTag: the first member, read at its offset in the empty sub-stream *)
    repeat (apply andb_prop in Hwf as [Hwf _]). apply andb_prop in Hc as [_ Hc].
    destruct IH as [|[[k off] t] ms Hm _]; [discriminate Hc|]. cbn [headb snd] in Hc, Hm. cbn [forallb snd] in Hwf.
    apply andb_prop in Hwf as [Hwm _]. apply andb_prop in Hwm as [Hwm _].
    unfold structtag_decode. rewrite firstn_nil, skipn_nil. cbn [map stag_decode_members fst snd length Nat.eqb negb andb].
    rewrite skipn_nil. now rewrite (Hm Hwm Hc fuel).
Qed.

Lemma chain_vals_lists cs : chain_vals (map VList cs) = Ok (concat cs).
Proof. induction cs as [|c cs IH]; [reflexivity|]. cbn [map chain_vals py_iter bind concat]. now rewrite IH. Qed.

Lemma decode_n_ad e we fuel :
  AD e -> always_decodes e = true -> fixed_width e = Some we ->
  forall n bs rest, length bs = (n * we)%nat ->
  exists vs, decode_n (decode_fuel fuel e) n (bs ++ rest) = DOk (VList vs) rest
             /\ (is_bits e = true -> exists cs, vs = map VList cs).
Proof.
  intros Had Ha Hw. induction n as [|n IH]; intros bs rest Hl.
  - destruct bs; [|discriminate Hl]. exists []. split; [reflexivity|now exists []].
  - cbn [decode_n]. rewrite <- (firstn_skipn we bs), <- app_assoc.
    destruct (Had we (firstn we bs) (skipn we bs ++ rest) fuel Ha Hw) as (v & Hv & Hvb).
    { rewrite firstn_length. lia. }
    rewrite Hv. cbn [dbind].
    destruct (IH (skipn we bs) rest) as (vs & Hvs & Hb).
    { rewrite skipn_length. lia. }
    rewrite Hvs. cbn [dbind]. exists (v :: vs). split; [reflexivity|].
    intros Eb. destruct (Hvb Eb) as [l ->], (Hb Eb) as [cs ->]. now exists (l :: cs).
Qed.

Lemma ad_all t : AD t.
Proof.
  induction t as [t Hlf|n e IH| | | |] using ty_ind_nested; [destruct t; try discriminate Hlf|..];
    intros w' bs rest fuel Ha Hw Hl; try discriminate Ha; cbn [always_decodes fixed_width decode_fuel] in *.
  - (* TBool *) injection Hw as <-. unfold bool_decode. rewrite elem_decode_app by (assumption || lia).
    eexists. split; [reflexivity|discriminate].
  - (* TInt *) injection Hw as <-. rewrite int_decode_bytes by (assumption || lia).
    eexists. split; [reflexivity|discriminate].
  - (* TReal *) injection Hw as <-. unfold real_decode. rewrite elem_decode_app by (try exact Hl; destruct dbl; lia).
    unfold unpack_real. rewrite Hl. destruct dbl; eexists; (split; [reflexivity|discriminate]).
  - (* TDateTime *) injection Hw as <-. unfold datetime_decode. rewrite named_UDINT_decode, named_UINT_decode.
    rewrite <- (firstn_skipn 4 bs), <- app_assoc.
    rewrite int_decode_bytes by (rewrite ?firstn_length; lia). cbn [dbind].
    rewrite int_decode_bytes by (rewrite ?skipn_length; lia). eexists. split; [reflexivity|discriminate].
  - (* TNBytes *) rewrite Ha in Hw. injection Hw as <-. unfold nbytes_decode. replace n with (zlen bs) by (unfold zlen; lia).
    rewrite stream_read_app. eexists. split; [reflexivity|discriminate].
  - (* TBits *) injection Hw as <-. unfold bits_decode. rewrite int_decode_bytes by (assumption || lia).
    eexists. split; [reflexivity|eauto].
  - (* TIPAddr *) injection Hw as <-. destruct bs as [|a [|b [|c [|d [|? ?]]]]]; try discriminate Hl.
    unfold ip_decode. change 4 with (zlen [a; b; c; d]). rewrite stream_read_app.
    eexists. split; [reflexivity|discriminate].
  - (* TArrFixed *)
    destruct (fixed_width e) as [we|] eqn:Ew; [|discriminate]. injection Hw as <-.
    destruct (decode_n_ad e we fuel IH Ha Ew n bs rest Hl) as (vs & Hvs & Hb).
    unfold array_decode_fixed. rewrite Hvs. cbn [dbind]. unfold array_flatten.
    destruct (is_bits e) eqn:Eb.
    + destruct (Hb eq_refl) as [cs ->]. rewrite chain_vals_lists. eexists. split; [reflexivity|discriminate].
    + eexists. split; [reflexivity|discriminate].
Qed.
