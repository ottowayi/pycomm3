(* Proofs/GenericTime.v — time_roundtrip: the request set_plc_time(us) makes the target's wall-clock
   object (Spec/TargetCore.v basic_request, class 0x8B) hold us, and the reply that object gives to
   the request of get_plc_time is read back by get_plc_time as us — for every us < 2^64 (beyond
   datetime.max the "datetime" / "string" renderings are None, the microsecond count is returned). *)
From Coq Require Import String ZifyBool.
From PV Require Import Base.Bytes Base.BytesLemmas Base.Res Base.Proto Base.PyStr.
From PV Require Import Gen.Consts Gen.GenericFacts Gen.SeqGen Model.EnumMapDefs Model.Path Model.Generic.
From PV Require Model.CodecPrim Model.Codec Model.Reply Model.Seq Proofs.SeqP.
From PV Require Import Spec.EncapParser Spec.MRParser Spec.TargetIface Spec.TargetCore Spec.GenericSpec.
From PV Require Import Proofs.TargetCoreP Proofs.GenericPath Proofs.GenericFrame Proofs.GenericDelivery Proofs.GenericReply.
Open Scope Z_scope.
Ltac Zify.zify_post_hook ::= Z.to_euclidean_division_equations.

Definition U64 : Z := 18446744073709551616.

Lemma int_encode_u64 us : 0 <= us < U64 -> Codec.int_encode false 8 (CodecPrim.VInt us) = Ok (le_enc 8 us).
Proof.
  intros H. unfold Codec.int_encode, CodecPrim.pub_encode, Codec.pack_int, Codec.int_in_range, in_urange.
  replace (pow256 8) with U64 by reflexivity.
  replace ((0 <=? us) && (us <? U64)) with true by lia. reflexivity.
Qed.

Lemma set_plc_time_data_v us : 0 <= us < U64 -> set_plc_time_data us = Ok ([1; 0; 6; 0] ++ le_enc 8 us).
Proof.
  intros H. unfold set_plc_time_data.
  change (struct_ty call_set_plc_time_encode_members)
    with (Ok (Codec.TStruct Codec.SPlain [(None, Codec.TInt false 2); (None, Codec.TInt false 2); (None, Codec.TInt false 8)])).
  cbn [bind]. change call_set_plc_time_encode_prefix with [1; 6]. cbn [map app].
  cbn [Codec.encode map fst snd].
  unfold Codec.struct_encode, CodecPrim.pub_encode, Codec.struct_encode_inner.
  cbn [CodecPrim.py_iter bind Codec.struct_encode_seq Codec.as_member].
  cbn [List.length Nat.ltb Nat.leb]. unfold Codec.as_member.
  change (Codec.int_encode false 2 (CodecPrim.VInt 1)) with (Ok [1; 0]).
  change (Codec.int_encode false 2 (CodecPrim.VInt 6)) with (Ok [6; 0]).
  rewrite int_encode_u64 by exact H. cbn [bind app wrap_all]. rewrite app_nil_r. reflexivity.
Qed.

(* the arguments of the two helper calls, written out; [set_request_eq] and [get_request_eq] show that they
   are the ones the model's calls (regenerated keyword arguments + defaults) pass to generic_message *)
Definition clock_struct : Codec.ty :=
  Codec.TStruct Codec.SPlain [(Some [], Codec.TNBytes 6); (Some get_plc_time_key, Codec.TInt false 8)].

Definition set_args (d : drv) (us : Z) : gm_args :=
  {| a_service := SBytes [4]; a_class := LBytes [139]; a_instance := LBytes [1]; a_attribute := None;
     a_data := [1; 0; 6; 0] ++ le_enc 8 us; a_dt := None; a_name := T "set_plc_time";
     a_connected := true; a_ucsend := false; a_route := RTrue |}.
Definition get_args (d : drv) : gm_args :=
  {| a_service := SBytes [3]; a_class := LBytes [139]; a_instance := LBytes [1]; a_attribute := None;
     a_data := [1; 0; 11; 0]; a_dt := Some clock_struct; a_name := T "generic";
     a_connected := true; a_ucsend := false; a_route := RTrue |}.

Lemma set_request_eq d us : 0 <= us < U64 ->
  set_plc_time_request d us
  = let '(d', o) := gm_request d (set_args d us) in
    (d', match o with Done f => Done (set_args d us, f) | Raised e => Raised e | NeedForwardOpen => NeedForwardOpen end).
Proof. intros H. unfold set_plc_time_request. rewrite set_plc_time_data_v by exact H. reflexivity. Qed.

Lemma get_request_eq d :
  get_plc_time_request d
  = let '(d', o) := gm_request d (get_args d) in
    (d', match o with Done f => Done (get_args d, f) | Raised e => Raised e | NeedForwardOpen => NeedForwardOpen end).
Proof. reflexivity. Qed.

Lemma wf_clock_call d (a : gm_args) svc :
  drv_ok d = true -> d_connected d = true -> 1 <= d_seq d <= 65536 ->
  a_service a = SBytes [svc] -> 0 <= svc < 128 -> a_class a = LBytes [139] -> a_instance a = LBytes [1] -> a_attribute a = None ->
  a_connected a = true -> bytes_ok (a_data a) = true -> blen (a_data a) <= 60000 ->
  wf_call d a svc [].
Proof.
  intros Hd Hc Hs Hsv Hr Hcl Hi Ha Hco Hdo Hdl.
  constructor; try (rewrite Hco; discriminate).
  - exact Hd.
  - intros _. split; assumption.
  - rewrite Hsv. cbn [service_value]. replace ((0 <=? svc) && (svc <? 128)) with true by lia. reflexivity.
  - rewrite Hcl. reflexivity.
  - rewrite Hi. reflexivity.
  - rewrite Ha. reflexivity.
  - split; assumption.
Qed.

Lemma clock_set (b : basic_state) tr cap p us :
  path_cia p = Some (139, 1, None) -> 0 <= us < U64 -> 10 <= cap ->
  basic_request b tr cap {| mr_service := 4; mr_path := p; mr_data := [1; 0; 6; 0] ++ le_enc 8 us |}
  = Some (set_clock us b, mr_ok [1; 0; 6; 0; 0; 0], [EvApp 2001 [us] []]).
Proof.
  intros Hp Hu Hc. unfold basic_request. cbn [mr_service mr_path mr_data]. rewrite Hp.
  cbn [Z.eqb Pos.eqb app]. change (u16 1 0) with 1. cbn [Z.to_nat Pos.to_nat Pos.iter_op Nat.add clock_set_items].
  change (u16 6 0) with 6. cbn [Z.eqb Pos.eqb orb].
  assert (Hrd : rd 8 (le_enc 8 us) = Some (us, [])).
  { unfold rd. rewrite <- (app_nil_r (le_enc 8 us)).
    change 8 with (blen (le_enc 8 us)) at 1. rewrite takez_app.
    rewrite le_dec_enc_id by (replace (pow256 8) with U64 by reflexivity; exact Hu). reflexivity. }
  assert (Hitems : clock_set_items (Pos.to_nat 1) (6 :: 0 :: le_enc 8 us) = Some ([(6, us)], -1, [])).
  { change (Pos.to_nat 1) with 1%nat. cbn [clock_set_items]. change (u16 6 0) with 6.
    change ((6 =? 6) || (6 =? 11)) with true. cbv iota. rewrite Hrd. reflexivity. }
  rewrite Hitems. cbn [flat_map fst snd forallb fold_left].
  change (6 =? 6) with true. change (-1 <? 0) with true. cbv iota. cbn [andb app].
  change (blen (le_enc 2 1 ++ ((le_enc 2 6 ++ [0; 0]) ++ []) ++ [])) with 6.
  replace (negb (4 + 6 <=? cap)) with false by lia. reflexivity.
Qed.

Lemma clock_get (b : basic_state) tr cap p :
  path_cia p = Some (139, 1, None) -> 20 <= cap ->
  basic_request b tr cap {| mr_service := 3; mr_path := p; mr_data := [1; 0; 11; 0] |}
  = Some (b, mr_ok ([1; 0; 11; 0; 0; 0] ++ le_enc 8 (bs_clock_us b)), []).
Proof.
  intros Hp Hc. unfold basic_request. cbn [mr_service mr_path mr_data]. rewrite Hp.
  cbn [Z.eqb Pos.eqb]. change (u16 1 0) with 1.
  change (blen [11; 0] <? 2 * 1) with false. change (2 * 1 <? blen [11; 0]) with false.
  change (rd_offsets (Z.to_nat 1) [11; 0]) with (Some [11]).
  cbn [clock_get_items Z.eqb Pos.eqb orb].
  assert (Hl : blen (le_enc 2 1 ++ le_enc 2 11 ++ [0; 0] ++ le_enc 8 (bs_clock_us b) ++ []) = 14).
  { rewrite !blen_app, !blen_le_enc, !blen_cons, !blen_nil. reflexivity. }
  rewrite Hl. replace (4 + 14 <=? cap) with true by lia. unfold mr_ok. rewrite app_nil_r. reflexivity.
Qed.

Lemma decode_clock_struct v :
  0 <= v < U64 ->
  Codec.decode clock_struct ([1; 0; 11; 0; 0; 0] ++ le_enc 8 v)
  = Ok (CodecPrim.VDict [(Some get_plc_time_key, CodecPrim.VInt v)], []).
Proof.
  intros Hv. rewrite <- (le_dec_enc_id 8 v) at 2 by (replace (pow256 8) with U64 by reflexivity; exact Hv).
  cbn [le_enc app]. reflexivity.
Qed.

Lemma get_plc_time_reads ses ctx toid seq d v :
  blen ctx = 8 -> 0 <= v < U64 ->
  get_plc_time_response (get_args d)
    (target_reply true ses ctx toid seq 3 (mr_ok ([1; 0; 11; 0; 0; 0] ++ le_enc 8 v)))
  = Ok {| tt_microseconds := Some v; tt_datetime := v <=? datetime_max_us; tt_error := None |}.
Proof.
  intros Hc Hv. unfold get_plc_time_response.
  pose proof (reply_returned_ok (get_args d) ses ctx toid seq 3 ([1; 0; 11; 0; 0; 0] ++ le_enc 8 v) Hc) as Hr.
  change (a_connected (get_args d)) with true in Hr. rewrite Hr. cbn [bind a_dt get_args a_name].
  rewrite decode_clock_struct by exact Hv. cbn [gtag_truthy g_value g_error].
  replace (CodecPrim.dict_get [(Some get_plc_time_key, CodecPrim.VInt v)] (Some get_plc_time_key)) with (Ok (CodecPrim.VInt v)) by reflexivity.
  cbn [bind]. change get_plc_time_catches_overflow with true. destruct (v <=? datetime_max_us); reflexivity.
Qed.

(* the target's message router hands a delivered request to the handler of the addressed object *)
Definition handle_delivered (b : basic_state) (tr : transport) (cap : Z) (dl : delivered) (p : bytes) :=
  basic_request b tr cap {| mr_service := dl_service dl; mr_path := p; mr_data := dl_data dl |}.
Definition dl_cia (dl : delivered) := (dl_class dl, dl_instance dl, dl_attribute dl).

(* what get_plc_time gives for a clock value: the value (with its datetime rendering when one exists) *)
Definition time_result (us : Z) : res time_tag :=
  Ok {| tt_microseconds := Some us; tt_datetime := us <=? datetime_max_us; tt_error := None |}.

Definition clock_roundtrip (d : drv) (b : basic_state) (us : Z) : Prop :=
  exists d1 fr1 d2 fr2 b1 rp,
    (* set_plc_time(us): frame -> request as the target reads it -> the clock object *)
    set_plc_time_request d us = (d1, Done (set_args d us, fr1))
    /\ spec_extract fr1 = Some (asked d (set_args d us) 4 [])
    /\ (forall tr cap p, 20 <= cap -> path_cia p = Some (dl_cia (asked d (set_args d us) 4 [])) ->
          exists rp1 evs, handle_delivered b tr cap (asked d (set_args d us) 4 []) p = Some (b1, rp1, evs) /\ rp_status rp1 = 0)
    /\ bs_clock_us b1 = us
    (* get_plc_time(): frame -> request -> the clock object's reply -> the value returned *)
    /\ get_plc_time_request d1 = (d2, Done (get_args d1, fr2))
    /\ spec_extract fr2 = Some (asked d1 (get_args d1) 3 [])
    /\ (forall tr cap p, 20 <= cap -> path_cia p = Some (dl_cia (asked d1 (get_args d1) 3 [])) ->
          handle_delivered b1 tr cap (asked d1 (get_args d1) 3 []) p = Some (b1, rp, []))
    /\ (forall ses ctx toid seq, blen ctx = 8 ->
          get_plc_time_response (get_args d1) (target_reply true ses ctx toid seq 3 rp) = time_result us).

Lemma gm_request_connected_state d a d' fr :
  a_connected a = true -> gm_request d a = (d', Done fr) -> d' = with_seq d (snd (Seq.draw (d_seq d))).
Proof.
  intros Hc. unfold gm_request. rewrite Hc.
  destruct (negb (d_connected d)); [discriminate |].
  destruct (Seq.draw (d_seq d)) as [s v]. cbn [snd]. intros [= <- _]. reflexivity.
Qed.

Theorem time_roundtrip d (b : basic_state) us :
  drv_ok d = true -> d_connected d = true -> 1 <= d_seq d <= 65535 -> 0 <= us < U64 ->
  clock_roundtrip d b us.
Proof.
  intros Hd Hc Hs Hu.
  assert (W1 : wf_call d (set_args d us) 4 []).
  { apply wf_clock_call; try reflexivity; try assumption; try lia.
    - cbn [a_data set_args]. rewrite bytes_ok_app, le_enc_ok. reflexivity.
    - cbn [a_data set_args]. rewrite blen_app, blen_le_enc. cbn. lia. }
  destruct (delivered_connected d (set_args d us) 4 [] W1 eq_refl) as (d1 & fr1 & Hg1 & He1).
  pose proof (gm_request_connected_state d (set_args d us) d1 fr1 eq_refl Hg1) as Hd1.
  assert (Hs1 : 1 <= d_seq d1 <= 65536).
  { rewrite Hd1. apply (SeqP.draw_inv (d_seq d)). unfold SeqP.sinv, SeqP.inv, SEQ_STOP, SEQ_START. lia. }
  assert (Hd1ok : drv_ok d1 = true) by (rewrite Hd1; exact Hd).
  assert (Hc1 : d_connected d1 = true) by (rewrite Hd1; exact Hc).
  assert (W2 : wf_call d1 (get_args d1) 3 []).
  { apply wf_clock_call; try reflexivity; try assumption; try lia. cbn. lia. }
  destruct (delivered_connected d1 (get_args d1) 3 [] W2 eq_refl) as (d2 & fr2 & Hg2 & He2).
  exists d1, fr1, d2, fr2, (set_clock us b), (mr_ok ([1; 0; 11; 0; 0; 0] ++ le_enc 8 us)).
  split; [rewrite set_request_eq by exact Hu; rewrite Hg1; reflexivity |].
  split; [exact He1 |].
  split.
  { intros tr cap p Hcap Hp. eexists _, _. split.
    - unfold handle_delivered. apply clock_set; [exact Hp | exact Hu | lia].
    - reflexivity. }
  split; [reflexivity |].
  split; [rewrite get_request_eq; rewrite Hg2; reflexivity |].
  split; [exact He2 |].
  split.
  { intros tr cap p Hcap Hp. unfold handle_delivered.
    exact (clock_get (set_clock us b) tr cap p Hp Hcap). }
  intros ses ctx toid seq Hctx. unfold time_result. apply get_plc_time_reads; assumption.
Qed.
