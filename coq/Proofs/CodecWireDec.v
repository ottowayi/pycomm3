(* Proofs/CodecWireDec.v — C07: the library's decoders return what the reference decodes.
   For every type of [wire_ty] and EVERY byte string:
     reference SOk v rest   ->  the model's decode returns v and leaves rest
     reference SBad         ->  DataError
     reference SEnd         ->  BufferEmptyError
     reference STrunc       ->  no claim (an unbounded array whose last element is cut short ends
                                silently before it: Props/C07.v witness)
   Three inductions on the reference's types, over the stream semantics ([decode_fuel], [dres]):
   what the reference consumes ([SUF]: a prefix, not empty for a consuming type), the empty buffer
   ([EMP]), and the decoders themselves ([DEC]), which need the first two for arrays and members. *)
From PV Require Import Base.Bytes Base.BytesLemmas Base.Res Gen.CodecFacts Model.Codec Model.CodecDom.
From PV Require Import Spec.WireFloat Spec.Wire Proofs.CodecWireDefs Proofs.CodecWireBase Proofs.CodecRTDict Proofs.CodecRTBase.
Open Scope Z_scope.

Definition Rel (s : sres) (d : dres) : Prop :=
  match s with
  | SOk v r => d = DOk v r
  | SBad => d = DErr DataError
  | SEnd => exists r, d = DEmpty r
  | STrunc => True
  end.

(* the same with any claim about the library's outcome where the reference decodes a value: the
   members of a structure are decoded into an accumulator, which is not yet the value *)
Definition RelP (P : val -> bytes -> dres -> Prop) (s : sres) (d : dres) : Prop :=
  match s with
  | SOk v r => P v r d
  | SBad => d = DErr DataError
  | SEnd => exists r, d = DEmpty r
  | STrunc => True
  end.

Lemma stream_read_short n bs k : bs <> [] -> blen bs < n -> stream_read n bs k = DErr DataError.
Proof.
  intros Hne Hlt. unfold stream_read, stream_take. unfold blen in Hlt.
  destruct (n <? 0) eqn:E; [lia|]. unfold ztake, zdrop, zlen.
  replace (Z.to_nat (Z.min n (Z.of_nat (length bs)))) with (length bs) by lia.
  rewrite firstn_all, skipn_all. destruct bs as [|b bs']; [congruence|].
  destruct (Z.of_nat (length (b :: bs')) <? n) eqn:E2; [reflexivity|lia].
Qed.

Lemma stream_read_full n bs k :
  0 < n -> n <= blen bs -> stream_read n bs k = k (firstn (Z.to_nat n) bs) (skipn (Z.to_nat n) bs).
Proof.
  intros Hn Hle. unfold stream_read, stream_take. unfold blen in Hle.
  destruct (n <? 0) eqn:E; [lia|]. unfold ztake, zdrop, zlen.
  replace (Z.to_nat (Z.min n (Z.of_nat (length bs)))) with (Z.to_nat n) by lia.
  assert (Hl : length (firstn (Z.to_nat n) bs) = Z.to_nat n) by (apply firstn_length_le; lia).
  destruct (firstn (Z.to_nat n) bs) as [|x d] eqn:F; [cbn in Hl; lia|].
  destruct (Z.of_nat (length (x :: d)) <? n) eqn:E2; [lia|reflexivity].
Qed.

Lemma rel_dwrap s d : Rel s d -> Rel s (dwrap d).
Proof.
  destruct s; cbn [Rel]; intros H; try exact I.
  - now subst.
  - now subst.
  - destruct H as [r ->]. eexists; reflexivity.
Qed.

(* a read of n > 0 bytes ([sfield] is [sblock]): nothing left, too little left, or n bytes and a rest *)
Lemma block_rel n bs ks km :
  0 < n ->
  (n <= blen bs -> Rel (ks (firstn (Z.to_nat n) bs) (skipn (Z.to_nat n) bs))
                       (dwrap (km (firstn (Z.to_nat n) bs) (skipn (Z.to_nat n) bs)))) ->
  Rel (sblock n bs ks) (dwrap (stream_read n bs km)).
Proof.
  intros Hn Hk. unfold sblock. destruct bs as [|b0 bs'] eqn:Hbs.
  - rewrite stream_read_nil by lia. cbn. eexists; reflexivity.
  - rewrite <- Hbs in *. assert (Hne : bs <> []) by (subst; discriminate). destruct (blen bs <? n) eqn:E.
    + rewrite stream_read_short by (try exact Hne; lia). reflexivity.
    + rewrite stream_read_full by lia. apply Hk. lia.
Qed.

Lemma elem_rel size unpack f bs :
  (0 < size)%nat ->
  (forall d, length d = size -> (bytes_ok bs = true -> bytes_ok d = true) -> unpack d = Ok (f d)) ->
  Rel (sfield (Z.of_nat size) bs (fun d r => SOk (f d) r)) (elem_decode size unpack bs).
Proof.
  intros Hs Hun. unfold elem_decode. apply block_rel; [lia|]. intros Hle. rewrite Nat2Z.id.
  rewrite Hun; [reflexivity|apply firstn_length_le; unfold blen in Hle; lia|apply bytes_ok_firstn].
Qed.

Lemma int_rel sg w bs : (0 < w)%nat -> Rel (sdec_int sg w bs) (int_decode sg w bs).
Proof.
  intros Hw. apply (elem_rel w); [exact Hw|]. intros d Hd _.
  unfold unpack_int. now rewrite Hd, Nat.eqb_refl, spec_int_val_model.
Qed.

Lemma bool_rel bs : Rel (sdec_bool bs) (bool_decode bs).
Proof.
  apply (elem_rel 1); [lia|]. intros d Hd _.
  destruct d as [|x [|y d]]; try discriminate. rewrite spec_le_val_le_dec. cbn [le_dec].
  replace (x + 256 * 0) with x by lia. destruct x; reflexivity.
Qed.

Section WithFloat.
  (* proved in Proofs/CodecWireFloat.v; a hypothesis here and in [Main], so that this file does not load Flocq *)
  Hypothesis widen32_spec : forall u, 0 <= u < 2 ^ 32 -> widen32 u = spec_real64_of_32 u.

  (* the values agree on byte strings only *)
  Lemma real_rel dbl bs : bytes_ok bs = true -> Rel (sdec_real dbl bs) (real_decode dbl bs).
  Proof.
    intros Hok. destruct dbl; [apply (elem_rel 8)|apply (elem_rel 4)]; try lia;
      intros d Hd Hd'; pose proof (le_dec_range d (Hd' Hok)) as Hr; rewrite Hd in Hr;
      unfold unpack_real; rewrite Hd; cbn [Nat.eqb]; rewrite spec_le_val_le_dec.
    - now rewrite sp_canon64_model.
    - now rewrite widen32_spec.
  Qed.
End WithFloat.

Lemma dwrap_dbind_dwrap d g : dwrap (dbind (dwrap d) g) = dwrap (dbind d g).
Proof. now destruct d. Qed.

Lemma dbind_stream_read n bs k g : dbind (stream_read n bs k) g = stream_read n bs (fun d r => dbind (k d r) g).
Proof. unfold stream_read. destruct (stream_take n bs) as [[|x d] r]; [destruct (n =? 0)|destruct (zlen (x :: d) <? n)]; reflexivity. Qed.

Lemma bits_rel w bs : (0 < w)%nat -> bytes_ok bs = true -> Rel (sdec_bits w bs) (bits_decode w bs).
Proof.
  intros Hw Hok. unfold bits_decode, int_decode, elem_decode. rewrite dwrap_dbind_dwrap, dbind_stream_read.
  apply block_rel; [lia|]. intros Hle. rewrite Nat2Z.id. unfold unpack_int.
  assert (Hl : length (firstn w bs) = w) by (apply firstn_length_le; unfold blen in Hle; lia).
  rewrite Hl, Nat.eqb_refl. cbn [dres_of_res dbind dwrap as_int].
  rewrite <- (value_bits_spec (firstn w bs)), Hl by now apply bytes_ok_firstn. reflexivity.
Qed.

Definition takes (dec : bytes -> sres) (ne : bool) : Prop :=
  forall bs v r, dec bs = SOk v r -> exists p, bs = p ++ r /\ (ne = true -> p <> []).

Definition suf_ok (t : ty) : Prop := takes (spec_decode t) (sconsumes t).
Definition SUF : ty -> Prop := on_wire suf_ok.

Lemma sblock_inv n bs k v r :
  sblock n bs k = SOk v r ->
  bs <> [] /\ n <= blen bs /\ k (firstn (Z.to_nat n) bs) (skipn (Z.to_nat n) bs) = SOk v r.
Proof.
  unfold sblock. destruct bs as [|b bs']; [discriminate|].
  destruct (blen (b :: bs') <? n) eqn:E; [discriminate|]. intros H. split; [discriminate|]. split; [lia|exact H].
Qed.

Lemma nonempty_length {A} (p : list A) : (0 < length p)%nat -> p <> [].
Proof. destruct p; cbn; [lia|discriminate]. Qed.

Lemma sfield_suf n bs g v r :
  0 <= n -> sfield n bs (fun d r => SOk (g d) r) = SOk v r ->
  exists p, bs = p ++ r /\ length p = Z.to_nat n /\ v = g p.
Proof.
  intros Hn H. apply sblock_inv in H as (_ & Hle & Hk). injection Hk as <- <-.
  exists (firstn (Z.to_nat n) bs). split; [now rewrite firstn_skipn|]. split; [|reflexivity].
  apply firstn_length_le. unfold blen in Hle. lia.
Qed.

Lemma sdec_int_suf sg w bs v r :
  sdec_int sg w bs = SOk v r -> exists p, bs = p ++ r /\ length p = w /\ v = VInt (spec_int_val sg w p).
Proof.
  unfold sdec_int. intros H. apply sfield_suf in H as (p & H1 & H2 & H3); [|lia].
  exists p. rewrite Nat2Z.id in H2. auto.
Qed.

Lemma takes_field n g ne :
  (ne = true -> (0 < n)%nat) -> takes (fun bs => sfield (Z.of_nat n) bs (fun d r => SOk (g d) r)) ne.
Proof.
  intros Hn bs v r H. apply sfield_suf in H as (p & H1 & H2 & _); [|lia]. rewrite Nat2Z.id in H2.
  exists p. split; [exact H1|]. intros Hne. apply nonempty_length. specialize (Hn Hne). lia.
Qed.

Lemma takes_bind dec f ne :
  takes dec ne -> (forall v, takes (f v) false) -> takes (fun bs => sbind (dec bs) f) ne.
Proof.
  intros H1 H2 bs v r H. destruct (dec bs) as [v1 r1| | |] eqn:E1; try discriminate. cbn [sbind] in H.
  destruct (H1 _ _ _ E1) as (p1 & -> & C1). destruct (H2 v1 _ _ _ H) as (p2 & -> & _).
  exists (p1 ++ p2). split; [apply app_assoc|]. intros Hc. specialize (C1 Hc). destruct p1; [congruence|discriminate].
Qed.

Lemma takes_ret (f : bytes -> val) : takes (fun bs => SOk (f bs) bs) false.
Proof. intros bs v r [= _ <-]. now exists []. Qed.

Lemma suf_TDateTime : SUF TDateTime.
Proof.
  intros _. apply (takes_bind (sdec_int false 4)); [apply takes_field; lia|]. intros t.
  apply (takes_bind (sdec_int false 2)); [now apply takes_field|]. intros d. apply (takes_ret (fun _ => VTuple [t; d])).
Qed.

Lemma sdec_chars_suf cw n : takes (sdec_chars cw n) false.
Proof.
  unfold sdec_chars. intros bs v r H. apply sblock_inv in H as (_ & Hle & Hk).
  destruct (spec_chars_dec cw _ _); [|discriminate]. injection Hk as <- <-.
  exists (firstn (Z.to_nat (n * Z.of_nat cw)) bs). now rewrite firstn_skipn.
Qed.

Lemma takes_counted cw v : takes (fun bs => match v with
                                            | VInt n => if n =? 0 then SOk (VStr []) bs else sdec_chars cw n bs
                                            | _ => SBad
                                            end) false.
Proof.
  destruct v; try (intros bs v r H; discriminate H).
  destruct (z =? 0); [apply (takes_ret (fun _ => VStr []))|apply sdec_chars_suf].
Qed.

Lemma suf_TStr lsg lw e : SUF (TStr lsg lw e).
Proof.
  intros Hw. cbn [wire_ty] in Hw. unfold suf_ok. cbn [spec_decode sconsumes].
  destruct (char_width e) as [cw|]; [|lia]. destruct lsg; [cbn in Hw; lia|].
  apply (takes_bind (sdec_int false lw)); [apply takes_field; lia|]. apply takes_counted.
Qed.

Lemma suf_TStringN : SUF TStringN.
Proof.
  intros _. apply (takes_bind (sdec_int false 2)); [apply takes_field; lia|]. intros cs.
  apply (takes_bind (sdec_int false 2)); [now apply takes_field|]. intros cnt.
  destruct cs; try (intros bs v r H; discriminate H). destruct cnt; try (intros bs v r H; discriminate H).
  destruct ((z =? 1) || (z =? 2) || (z =? 4)); [|intros bs v r H; discriminate H].
  apply (takes_counted (Z.to_nat z) (VInt z0)).
Qed.

Lemma suf_TNBytes n : SUF (TNBytes n).
Proof.
  intros Hw bs v r H. cbn [wire_ty] in Hw. cbn [spec_decode] in H. unfold sdec_nbytes in H.
  destruct (n =? -1) eqn:E.
  - destruct bs as [|b bs']; [discriminate|]. injection H as <- <-. exists (b :: bs'). split; [now rewrite app_nil_r|discriminate].
  - apply sfield_suf in H as (p & H1 & H2 & _); [|lia]. exists p. split; [exact H1|].
    intros _. apply nonempty_length. lia.
Qed.

Lemma suf_TFixedStr size lsg lw cap : SUF (TFixedStr size lsg lw cap).
Proof.
  intros Hw. cbn [wire_ty] in Hw. unfold suf_ok. cbn [spec_decode sconsumes]. destruct lsg; [cbn in Hw; lia|].
  apply (takes_bind (sdec_int false lw)); [apply takes_field; lia|]. intros n.
  destruct n; try (intros bs v r H; discriminate H). intros bs v r H.
  apply sfield_suf in H as (p & H1 & _); [|lia]. now exists p.
Qed.

Lemma takes_false dec ne : takes dec ne -> takes dec false.
Proof. intros H bs v r E. destruct (H _ _ _ E) as (p & Hp & _). now exists p. Qed.

Lemma takes_rest dec ne bs v r :
  takes dec ne -> dec bs = SOk v r -> bytes_ok bs = true ->
  bytes_ok r = true /\ (length r <= length bs)%nat /\ (ne = true -> (length r < length bs)%nat).
Proof.
  intros Ht H Hok. destruct (Ht _ _ _ H) as (p & -> & Hne). rewrite bytes_ok_app in Hok. apply andb_prop in Hok as [_ Hr].
  rewrite app_length. split; [exact Hr|]. split; [lia|]. intros E. specialize (Hne E). destruct p; [congruence|cbn; lia].
Qed.

Lemma takes_scons v vs : takes (scons v vs) false.
Proof. intros bs v' r H. unfold scons in H. destruct vs; try discriminate. injection H as _ <-. now exists []. Qed.

Lemma takes_sadd k v d : takes (sadd k v d) false.
Proof. intros bs v' r H. unfold sadd in H. destruct d; try discriminate. injection H as _ <-. now exists []. Qed.

Lemma takes_flatten dec ne : takes dec ne -> takes (fun bs => sflatten (dec bs)) ne.
Proof.
  intros H. apply (takes_bind dec _ ne H). intros vs bs v r E. destruct vs; try discriminate.
  destruct (concat_vlists l); [|discriminate]. injection E as _ <-. now exists [].
Qed.

Definition vlists (dec : bytes -> sres) : Prop := forall bs v r, dec bs = SOk v r -> exists a, v = VList a.

Lemma scons_inv s v vs r : sbind s (scons v) = SOk vs r -> exists l, s = SOk (VList l) r /\ vs = VList (v :: l).
Proof.
  destruct s as [vs' r'| | |]; try discriminate. cbn [sbind]. unfold scons. destruct vs'; try discriminate.
  intros [= <- <-]. eexists. split; reflexivity.
Qed.

Lemma chain_cons dec bs v r l :
  dec bs = SOk v r -> (vlists dec -> exists f, concat_vlists l = Some f) -> vlists dec -> exists f, concat_vlists (v :: l) = Some f.
Proof.
  intros H1 Hf Hd. destruct (Hf Hd) as [f Hf']. destruct (Hd _ _ _ H1) as [a ->].
  exists (a ++ f). cbn [concat_vlists]. now rewrite Hf'.
Qed.

Lemma sdec_n_inv dec n : forall bs vs r, sdec_n dec n bs = SOk vs r ->
  exists l, vs = VList l /\ (vlists dec -> exists f, concat_vlists l = Some f).
Proof.
  induction n as [|n IH]; intros bs vs r H; cbn [sdec_n] in H.
  - injection H as <- _. exists []. split; [reflexivity|]. now exists [].
  - destruct (dec bs) as [v r1| | |] eqn:H1; try discriminate. cbn [sbind] in H.
    apply scons_inv in H as (l & H2 & ->). destruct (IH _ _ _ H2) as (l' & [= <-] & Hf).
    exists (v :: l). split; [reflexivity|exact (chain_cons _ _ _ _ _ H1 Hf)].
Qed.

Lemma sdec_all_S dec f bs :
  bs <> [] ->
  sdec_all dec (S f) bs = match dec bs with
                          | SOk v r => if (length r <? length bs)%nat then sbind (sdec_all dec f r) (scons v) else SBad
                          | SEnd => STrunc
                          | x => x
                          end.
Proof. destruct bs; [congruence|reflexivity]. Qed.

Lemma sdec_all_inv dec fuel : forall bs vs r, sdec_all dec fuel bs = SOk vs r ->
  r = [] /\ exists l, vs = VList l /\ (vlists dec -> exists f, concat_vlists l = Some f).
Proof.
  induction fuel as [|fu IH]; intros bs vs r H; destruct bs as [|b bs']; cbn [sdec_all] in H;
    try (injection H as <- <-; split; [reflexivity|]; exists []; split; [reflexivity|]; now exists []); try discriminate.
  destruct (dec (b :: bs')) as [v r1| | |] eqn:H1; try discriminate.
  destruct (length r1 <? length (b :: bs'))%nat; [|discriminate].
  apply scons_inv in H as (l & H2 & ->). destruct (IH _ _ _ H2) as (Hr & l' & [= <-] & Hf).
  split; [exact Hr|]. exists (v :: l). split; [reflexivity|exact (chain_cons _ _ _ _ _ H1 Hf)].
Qed.

Lemma sdec_n_suf dec n ne : takes dec ne -> takes (sdec_n dec n) ((0 <? n)%nat && ne).
Proof.
  intros Hdec. induction n as [|n IH]; [apply (takes_ret (fun _ => VList []))|].
  apply (takes_bind dec); [exact Hdec|]. intros v.
  apply (takes_bind (sdec_n dec n)); [exact (takes_false _ _ IH)|]. intros vs. apply takes_scons.
Qed.

Lemma suf_TArrFixed n e : suf_ok e -> SUF (TArrFixed n e).
Proof. intros He _. pose proof (sdec_n_suf _ n _ He) as H. destruct e; try exact H. exact (takes_flatten _ _ H). Qed.

Lemma suf_TArrAll e : SUF (TArrAll e).
Proof.
  intros _ bs v r H.
  assert (Hr : r = []).
  { destruct e; cbn [spec_decode] in H; try exact (proj1 (sdec_all_inv _ _ _ _ _ H)).
    unfold sflatten in H. destruct (sdec_all _ _ _) as [vs0 r0| | |] eqn:Ha; try discriminate. cbn [sbind] in H.
    destruct vs0; try discriminate. destruct (concat_vlists l); [|discriminate]. injection H as _ <-.
    exact (proj1 (sdec_all_inv _ _ _ _ _ Ha)). }
  subst r. exists bs. split; [now rewrite app_nil_r|discriminate].
Qed.

Definition sdec_ms (ms : list (key * ty)) := map (fun m : key * ty => (fst m, spec_decode (snd m))) ms.

Lemma sdec_members_suf ms :
  Forall (fun m : key * ty => suf_ok (snd m)) ms ->
  takes (sdec_members (sdec_ms ms)) (sheadb (fun m : key * ty => sconsumes (snd m)) ms).
Proof.
  intros Hall. induction Hall as [|[k t] ms Ht _ IH]; [apply (takes_ret (fun _ => VDict []))|].
  apply (takes_bind (spec_decode t)); [exact Ht|]. intros v.
  apply (takes_bind (sdec_members (sdec_ms ms))); [exact (takes_false _ _ IH)|]. intros d. apply takes_sadd.
Qed.

Lemma suf_TStructTag ms bits priv size : SUF (TStructTag ms bits priv size).
Proof.
  intros _ bs v r H. cbn [spec_decode] in H. unfold sdec_stag in H.
  destruct bs as [|b0 bs'] eqn:Hbs; [discriminate|]. rewrite <- Hbs in *. clear Hbs b0 bs'.
  destruct (length bs <? size)%nat eqn:E; [discriminate|]. apply Nat.ltb_ge in E.
  destruct (sdec_stag_members _ priv (firstn size bs)) as [d r0| | |]; try discriminate. cbn [sbind] in H.
  destruct d; try discriminate. injection H as _ <-.
  exists (firstn size bs). split; [now rewrite firstn_skipn|].
  cbn [sconsumes]. intros Hc. apply andb_prop in Hc as [Hs _]. apply nonempty_length. apply Nat.ltb_lt in Hs.
  rewrite firstn_length_le; lia.
Qed.

Lemma SUF_all : forall t, SUF t.
Proof.
  apply wire_ty_ind.
  - intros _. apply (takes_field 1). lia.
  - intros sg w _. apply (takes_field w). cbn [sconsumes]. lia.
  - intros dbl _. destruct dbl; [apply (takes_field 8)|apply (takes_field 4)]; lia.
  - exact suf_TDateTime.
  - exact suf_TStr.
  - exact suf_TStringN.
  - exact suf_TNBytes.
  - intros w _. apply (takes_field w). cbn [sconsumes]. lia.
  - exact suf_TArrFixed.
  - intros e _. exact (suf_TArrAll e).
  - intros ms Hall _. exact (sdec_members_suf ms Hall).
  - exact suf_TFixedStr.
  - intros ms bits priv size _. exact (suf_TStructTag ms bits priv size).
Qed.

Definition emp_ok (t : ty) : Prop := sconsumes t = true -> forall fuel, decode_fuel fuel t [] = DEmpty [].
Definition EMP : ty -> Prop := on_wire emp_ok.

Lemma named_int_decode_UINT bs : named_int_decode n_UINT bs = int_decode false 2 bs.
Proof. unfold named_int_decode. now rewrite int_row_UINT. Qed.
Lemma named_int_decode_UDINT bs : named_int_decode n_UDINT bs = int_decode false 4 bs.
Proof. unfold named_int_decode. now rewrite int_row_UDINT. Qed.

(* every decoder starts with a read, a composite with that of its first member *)
Lemma EMP_all : forall t, EMP t.
Proof.
  apply wire_ty_ind.
  - intros _ _ fuel. apply elem_decode_nil. lia.
  - intros sg w Hw _ fuel. cbn [wire_ty] in Hw. apply int_decode_nil. lia.
  - intros dbl _ _ fuel. apply elem_decode_nil. destruct dbl; lia.
  - intros _ _ fuel. cbn [decode_fuel]. unfold datetime_decode. now rewrite named_int_decode_UDINT, int_decode_nil by lia.
  - intros a b c Hw _ fuel. cbn [wire_ty] in Hw. cbn [decode_fuel]. unfold str_decode. now rewrite int_decode_nil by lia.
  - intros _ _ fuel. cbn [decode_fuel]. unfold stringn_decode. now rewrite named_int_decode_UINT, int_decode_nil by lia.
  - intros n Hw _ fuel. cbn [wire_ty] in Hw. cbn [decode_fuel]. unfold nbytes_decode. now rewrite stream_read_nil by lia.
  - intros w Hw _ fuel. cbn [wire_ty] in Hw. cbn [decode_fuel]. unfold bits_decode. now rewrite int_decode_nil by lia.
  - intros n e He _ Hc fuel. cbn [sconsumes] in Hc. apply andb_prop in Hc as [Hn Hce]. destruct n; [discriminate|].
    cbn [decode_fuel]. unfold array_decode_fixed. cbn [decode_n]. now rewrite (He Hce fuel).
  - intros e _ _ Hc. discriminate Hc.
  - intros ms Hall _ Hc fuel. destruct Hall as [|[k t] ms Ht _]; [discriminate|]. cbn [sconsumes sheadb snd] in Hc, Ht.
    cbn [decode_fuel map fst snd]. unfold struct_decode, struct_decode_inner. cbn [struct_decode_members].
    now rewrite (Ht Hc fuel).
  - intros a b c d Hw _ fuel. cbn [wire_ty] in Hw. cbn [decode_fuel]. unfold fixedstr_decode. rewrite fss_enc_latin1.
    now rewrite int_decode_nil by lia.
  - intros ms bits priv size Hall _ Hc fuel. cbn [sconsumes] in Hc. apply andb_prop in Hc as [Hs Hc].
    destruct Hall as [|[[k off] t] ms Ht _]; [discriminate|]. cbn [sheadb snd] in Hc, Ht.
    cbn [decode_fuel map fst snd]. unfold structtag_decode. rewrite firstn_nil, skipn_nil.
    cbn [length Nat.eqb negb andb stag_decode_members]. rewrite skipn_nil, (Ht Hc fuel). reflexivity.
Qed.

Lemma rel_bind s d f g :
  Rel s d -> (forall v r, s = SOk v r -> Rel (f v r) (dwrap (g v r))) -> Rel (sbind s f) (dwrap (dbind d g)).
Proof.
  intros H Hk. destruct s as [v r| | |]; cbn [Rel] in H; cbn [sbind].
  - subst d. cbn [dbind]. now apply Hk.
  - subst d. reflexivity.
  - destruct H as [r ->]. cbn. eexists; reflexivity.
  - exact I.
Qed.

Lemma relP_bind P s d f g :
  Rel s d -> (forall v r, s = SOk v r -> RelP P (f v r) (g v r)) -> RelP P (sbind s f) (dbind d g).
Proof.
  intros H Hk. destruct s as [v r| | |]; cbn [Rel] in H; cbn [sbind].
  - subst d. cbn [dbind]. now apply Hk.
  - subst d. reflexivity.
  - destruct H as [r ->]. cbn. eexists; reflexivity.
  - exact I.
Qed.

Lemma rel_bind_nowrap s d f g :
  Rel s d -> (forall v r, s = SOk v r -> Rel (f v r) (g v r)) -> Rel (sbind s f) (dbind d g).
Proof. exact (relP_bind (fun v r d => d = DOk v r) s d f g). Qed.

Lemma relP_weaken (P Q : val -> bytes -> dres -> Prop) s d :
  RelP P s d -> (forall v r, P v r d -> Q v r d) -> RelP Q s d.
Proof. destruct s; cbn [RelP]; auto. Qed.

Lemma relP_then P Q s d f :
  RelP P s d -> (forall v r, P v r d -> RelP Q (f v r) d) -> RelP Q (sbind s f) d.
Proof. destruct s; cbn [RelP sbind]; auto. Qed.

Definition dec_ok (t : ty) : Prop :=
  forall fuel bs, bytes_ok bs = true -> (length bs < fuel)%nat -> Rel (spec_decode t bs) (decode_fuel fuel t bs).
Definition DEC : ty -> Prop := on_wire dec_ok.

Lemma count_rel w bs f g :
  (0 < w)%nat -> bytes_ok bs = true ->
  (forall n r, 0 <= n -> bytes_ok r = true -> Rel (f (VInt n) r) (dwrap (g (VInt n) r))) ->
  Rel (sbind (sdec_int false w bs) f) (dwrap (dbind (int_decode false w bs) g)).
Proof.
  intros Hw Hok Hk. apply rel_bind; [now apply int_rel|]. intros v r Hv.
  apply sdec_int_suf in Hv as (p & -> & _ & ->). rewrite bytes_ok_app in Hok. apply andb_prop in Hok as [Hp Hr].
  apply Hk; [|exact Hr]. unfold spec_int_val. cbn [andb]. rewrite spec_le_val_le_dec. pose proof (le_dec_range p Hp). lia.
Qed.

Lemma dec_TDateTime : DEC TDateTime.
Proof.
  intros _ fuel bs Hok _. cbn [spec_decode decode_fuel]. unfold sdec_datetime, datetime_decode.
  rewrite named_int_decode_UDINT. apply count_rel; [lia|exact Hok|]. intros t r1 _ Hr1.
  rewrite named_int_decode_UINT. apply count_rel; [lia|exact Hr1|]. intros d r2 _ _. reflexivity.
Qed.

Lemma chars_rel e cw n r1 :
  char_width e = Some cw -> 0 < n -> bytes_ok r1 = true ->
  Rel (sdec_chars cw n r1)
      (dwrap (stream_read (n * enc_char_size e) r1 (fun data r2 =>
                match text_decode e data with Ok s => DOk (VStr s) r2 | Err err => DErr err end))).
Proof.
  intros He Hn Hok. unfold sdec_chars. rewrite (char_width_size _ _ He).
  assert (Hcw : 0 < Z.of_nat cw) by (destruct e; cbn in He; try discriminate; injection He as <-; lia).
  apply block_rel; [nia|]. intros _.
  rewrite (text_decode_spec e cw _ He) by now apply bytes_ok_firstn.
  destruct (spec_chars_dec cw _ _); reflexivity.
Qed.

Lemma rel_err_wrap s e : Rel s (DErr e) -> Rel s (dwrap (DErr e)).
Proof. apply rel_dwrap. Qed.

Lemma dec_TStr lsg lw e : DEC (TStr lsg lw e).
Proof.
  intros Hw fuel bs Hok _. cbn [wire_ty] in Hw.
  destruct (char_width e) as [cw|] eqn:Hcw; [|lia]. destruct lsg; [cbn in Hw; lia|].
  cbn [spec_decode decode_fuel]. rewrite Hcw. unfold sdec_str, str_decode.
  apply count_rel; [lia|exact Hok|]. intros n r1 Hn Hr1. cbn [as_int].
  destruct (n =? 0) eqn:E0; [reflexivity|]. exact (chars_rel e cw n r1 Hcw ltac:(lia) Hr1).
Qed.

Lemma stringn_enc_spec c :
  match stringn_enc c with
  | Some e => (c =? 1) || (c =? 2) || (c =? 4) = true /\ char_width e = Some (Z.to_nat c)
  | None => (c =? 1) || (c =? 2) || (c =? 4) = false
  end.
Proof.
  unfold stringn_enc. cbn [Gen.CodecFacts.stringn_encodings zlookup].
  destruct (1 =? c) eqn:E1; [replace c with 1 by lia; now split|].
  destruct (2 =? c) eqn:E2; [replace c with 2 by lia; now split|].
  destruct (4 =? c) eqn:E4; [replace c with 4 by lia; now split|]. lia.
Qed.

Lemma dec_TStringN : DEC TStringN.
Proof.
  intros _ fuel bs Hok _. cbn [spec_decode decode_fuel]. unfold sdec_stringn, stringn_decode.
  rewrite named_int_decode_UINT. apply count_rel; [lia|exact Hok|]. intros c r1 _ Hr1.
  rewrite named_int_decode_UINT. apply count_rel; [lia|exact Hr1|]. intros n r2 Hn Hr2. cbn [as_int].
  pose proof (stringn_enc_spec c) as Hs. destruct (stringn_enc c) as [e|]; [|now rewrite Hs].
  destruct Hs as [Hc Hcw]. rewrite Hc. destruct (n =? 0) eqn:E0; [reflexivity|].
  pose proof (chars_rel e _ n r2 Hcw ltac:(lia) Hr2) as Hr. rewrite (char_width_size _ _ Hcw), Z2Nat.id in Hr by lia. exact Hr.
Qed.

Lemma dec_TNBytes n : DEC (TNBytes n).
Proof.
  intros Hw fuel bs Hok _. cbn [wire_ty] in Hw. cbn [spec_decode decode_fuel]. unfold sdec_nbytes, nbytes_decode.
  destruct (n =? -1) eqn:E.
  - assert (n = -1) by lia. subst n. unfold stream_read, stream_take. cbn [Z.ltb Z.compare Z.eqb].
    destruct bs as [|b bs']; [cbn; eexists; reflexivity|].
    destruct (zlen (b :: bs') <? -1) eqn:E2; [unfold zlen in E2; lia|reflexivity].
  - apply block_rel; [lia|]. intros _. reflexivity.
Qed.

Lemma dec_TFixedStr size lsg lw cap : DEC (TFixedStr size lsg lw cap).
Proof.
  intros Hw fuel bs Hok _. cbn [wire_ty] in Hw. destruct lsg; [cbn in Hw; lia|].
  cbn [spec_decode decode_fuel]. unfold sdec_fixedstr, fixedstr_decode. rewrite fss_enc_latin1.
  apply count_rel; [lia|exact Hok|]. intros n r1 Hn _. cbn [as_int].
  apply block_rel; [lia|]. intros Hle. rewrite Nat2Z.id. cbn [text_decode].
  unfold slice_to. destruct (0 <=? n) eqn:E0; [|lia].
  unfold ztake, zlen. rewrite firstn_length_le by (unfold blen in Hle; lia). reflexivity.
Qed.

Section Elem.
  Variables (sdec : bytes -> sres) (mdec : bytes -> dres) (fuel : nat).
  Hypothesis Hrel : forall bs, bytes_ok bs = true -> (length bs < fuel)%nat -> Rel (sdec bs) (mdec bs).
  Hypothesis Hsuf : takes sdec false.

  Lemma decode_n_rel n : forall bs, bytes_ok bs = true -> (length bs < fuel)%nat -> Rel (sdec_n sdec n bs) (decode_n mdec n bs).
  Proof.
    induction n as [|n IH]; intros bs Hok Hf; [reflexivity|].
    cbn [sdec_n decode_n]. apply rel_bind_nowrap; [now apply Hrel|]. intros v r1 Hv.
    destruct (takes_rest _ _ _ _ _ Hsuf Hv Hok) as (Hok1 & Hl1 & _).
    apply rel_bind_nowrap; [apply IH; [exact Hok1|lia]|]. intros vs r2 Hvs.
    apply sdec_n_inv in Hvs as (l & -> & _). reflexivity.
  Qed.

  (* the unbounded array: [fuel] is the fuel the element decoder was built with, [f] what the library's
     loop has left, [sf] the reference's own bound (the length of the buffer at the call) *)
  Hypothesis Hne : takes sdec true.
  Hypothesis Hemp : mdec [] = DEmpty [].

  Lemma decode_all_rel sf : forall f bs,
    bytes_ok bs = true -> (length bs < fuel)%nat -> (length bs < f)%nat -> (length bs <= sf)%nat ->
    Rel (sdec_all sdec sf bs) (decode_all mdec f bs).
  Proof.
    induction sf as [|sf IH]; intros f bs Hok Hfu Hf Hsf.
    - destruct bs; [|cbn in Hsf; lia]. destruct f; [lia|]. cbn [sdec_all decode_all]. now rewrite Hemp.
    - destruct f as [|f]; [lia|]. destruct bs as [|b bs'] eqn:Hbs.
      + cbn [sdec_all decode_all]. now rewrite Hemp.
      + rewrite <- Hbs in *. rewrite sdec_all_S by (rewrite Hbs; discriminate). cbn [decode_all]. pose proof (Hrel bs Hok Hfu) as Hr.
        destruct (sdec bs) as [v r| | |] eqn:Hs; cbn [Rel] in Hr.
        * rewrite Hr. destruct (takes_rest _ _ _ _ _ Hne Hs Hok) as (Hok1 & _ & Hp). specialize (Hp eq_refl).
          replace (length r =? length bs)%nat with false by lia.
          apply Nat.ltb_lt in Hp. rewrite Hp. apply Nat.ltb_lt in Hp.
          apply rel_bind_nowrap; [apply IH; [exact Hok1|lia|lia|lia]|]. intros vs r2 Hvs.
          apply sdec_all_inv in Hvs as (_ & l & -> & _). reflexivity.
        * now rewrite Hr.
        * exact I.
        * exact I.
  Qed.
End Elem.

Lemma array_flatten_plain vs rest : array_flatten false vs rest = DOk vs rest.
Proof. reflexivity. Qed.

Lemma rel_flatten_plain s d : Rel s d -> Rel s (dwrap (dbind d (array_flatten false))).
Proof. intros H. replace (dbind d (array_flatten false)) with d by now destruct d. now apply rel_dwrap. Qed.

Lemma concat_chain l f : concat_vlists l = Some f -> chain_vals l = Ok f.
Proof.
  revert f. induction l as [|v l IH]; intros f H; cbn [concat_vlists] in H.
  - injection H as <-. reflexivity.
  - destruct v; try discriminate. destruct (concat_vlists l) as [f'|]; [|discriminate].
    cbn [option_map] in H. injection H as <-. cbn [chain_vals py_iter bind]. now rewrite (IH f' eq_refl).
Qed.

Lemma rel_flatten_bits dec s d :
  Rel s d -> (forall vs r, s = SOk vs r -> exists l, vs = VList l /\ (vlists dec -> exists f, concat_vlists l = Some f)) ->
  vlists dec -> Rel (sflatten s) (dwrap (dbind d (array_flatten true))).
Proof.
  intros H Hl Hd. unfold sflatten. destruct s as [vs r| | |]; cbn [Rel sbind] in H |- *; try exact I.
  - subst d. destruct (Hl vs r eq_refl) as (l & -> & Hf). destruct (Hf Hd) as [f Hf'].
    cbn [dbind array_flatten]. rewrite Hf', (concat_chain _ _ Hf'). reflexivity.
  - now subst.
  - destruct H as [r ->]. eexists; reflexivity.
Qed.

Lemma sdec_bits_vlist w : vlists (sdec_bits w).
Proof. unfold sdec_bits. intros bs v r H. apply sblock_inv in H as (_ & _ & H). injection H as <- _. eexists; reflexivity. Qed.

(* an array of bit strings is decoded element by element, then flattened; no other element type is *)
Lemma dec_TArrFixed n e : dec_ok e -> DEC (TArrFixed n e).
Proof.
  intros He Hw fuel bs Hok Hf. cbn [wire_ty] in Hw. apply andb_prop in Hw as [Hwe _].
  pose proof (decode_n_rel (spec_decode e) (decode_fuel fuel e) fuel (He fuel)
                (takes_false _ _ (SUF_all e Hwe)) n bs Hok Hf) as Hr.
  cbn [decode_fuel]. unfold array_decode_fixed. destruct e; try exact (rel_flatten_plain _ _ Hr).
  exact (rel_flatten_bits _ _ _ Hr (sdec_n_inv _ n bs) (sdec_bits_vlist w)).
Qed.

Lemma dec_TArrAll e : dec_ok e -> DEC (TArrAll e).
Proof.
  intros He Hw fuel bs Hok Hf. cbn [wire_ty] in Hw. apply andb_prop in Hw as [Hw Hc]. apply andb_prop in Hw as [Hwe _].
  assert (Hr : Rel (sdec_all (spec_decode e) (length bs) bs) (decode_all (decode_fuel fuel e) fuel bs)).
  { assert (Hs : takes (spec_decode e) true) by (rewrite <- Hc; exact (SUF_all e Hwe)).
    apply (decode_all_rel (spec_decode e) (decode_fuel fuel e) fuel (He fuel) Hs (EMP_all e Hwe Hc fuel));
      try lia; exact Hok. }
  cbn [decode_fuel]. unfold array_decode_all. destruct e; try exact (rel_flatten_plain _ _ Hr).
  exact (rel_flatten_bits _ _ _ Hr (fun vs r H => proj2 (sdec_all_inv _ _ _ vs r H)) (sdec_bits_vlist w)).
Qed.

Definition mdec_ms (fuel : nat) (ms : list (key * ty)) := map (fun m : key * ty => (fst m, decode_fuel fuel (snd m))) ms.
(* the library assigns the members one by one to its dict, the reference lists the named ones *)
Lemma members_rel fuel ms :
  Forall (fun m : key * ty => dec_ok (snd m)) ms ->
  forallb (fun m : key * ty => wire_ty (snd m)) ms = true ->
  forall acc bs, bytes_ok bs = true -> (length bs < fuel)%nat ->
  RelP (fun v r d => exists kvs, v = VDict (strip kvs) /\ d = DOk (VDict (set_all acc kvs)) r /\ map fst kvs = map fst ms)
       (sdec_members (sdec_ms ms) bs) (struct_decode_members (mdec_ms fuel ms) acc bs).
Proof.
  intros Hall. induction Hall as [|[k t] ms Ht _ IH]; intros Hw acc bs Hok Hf.
  - now exists [].
  - cbn [snd] in Ht. cbn [forallb snd] in Hw. apply andb_prop in Hw as [Hwt Hwr].
    cbn [sdec_ms mdec_ms map sdec_members struct_decode_members fst snd]. fold (sdec_ms ms). fold (mdec_ms fuel ms).
    apply relP_bind; [exact (Ht fuel bs Hok Hf)|]. intros x r1 Hs.
    destruct (takes_rest _ _ _ _ _ (SUF_all t Hwt) Hs Hok) as (Hok1 & Hl1 & _).
    apply (relP_then _ _ _ _ _ (IH Hwr (dict_set acc k x) r1 Hok1 ltac:(lia))).
    intros v r (kvs & -> & I1 & I2). exists ((k, x) :: kvs). rewrite strip_cons. cbn [fst map sadd].
    split; [change (unnamed k) with (sunnamed k); now destruct (sunnamed k)|]. split; [exact I1|now rewrite I2].
Qed.

Lemma dec_TStruct ms : Forall (fun m : key * ty => dec_ok (snd m)) ms -> DEC (TStruct SPlain ms).
Proof.
  intros Hall Hw fuel bs Hok Hf.
  cbn [wire_ty] in Hw. apply andb_prop in Hw as [Hw Hdist]. apply andb_prop in Hw as [Hwm _].
  cbn [spec_decode decode_fuel]. fold (sdec_ms ms). fold (mdec_ms fuel ms).
  unfold struct_decode, struct_decode_inner.
  pose proof (members_rel fuel ms Hall Hwm [] bs Hok Hf) as Hr.
  destruct (sdec_members (sdec_ms ms) bs) as [v r| | |]; cbn [Rel RelP] in *.
  - destruct Hr as (kvs & -> & -> & Hk). cbn [dbind dwrap].
    rewrite final_dict_strip, strip_set_all by now apply dkeys_nodup_set_all.
    rewrite set_all_fresh; [reflexivity| |apply forallb_forall; reflexivity].
    replace (map fst (strip kvs)) with (filter (fun k => negb (sunnamed k)) (map fst kvs)) by exact (filter_map_comm (fun k => negb (sunnamed k)) fst kvs).
    rewrite Hk. exact Hdist.
  - now rewrite Hr.
  - destruct Hr as [r ->]. eexists; reflexivity.
  - exact I.
Qed.

Definition mdec_sms (fuel : nat) (ms : list ((key * nat) * ty)) :=
  map (fun m : (key * nat) * ty => (fst m, decode_fuel fuel (snd m))) ms.
Definition sdec_sms (ms : list ((key * nat) * ty)) := map (fun m : (key * nat) * ty => (fst m, spec_decode (snd m))) ms.
Definition mkeys_of (ms : list ((key * nat) * ty)) : list key := map (fun m : (key * nat) * ty => fst (fst m)) ms.
Definition vis (priv : list text) (kv : key * val) : bool := negb (key_in (fst kv) priv).

Lemma sfield_full n bs g :
  0 < n -> n <= blen bs -> sfield n bs (fun d r => SOk (g d) r) = SOk (g (firstn (Z.to_nat n) bs)) (skipn (Z.to_nat n) bs).
Proof.
  intros Hn Hle. unfold sfield. destruct bs as [|b bs'] eqn:Hbs; [unfold blen in Hle; cbn in Hle; lia|].
  rewrite <- Hbs in *. destruct (blen bs <? n) eqn:E; [lia|reflexivity].
Qed.

Lemma stotal_spec t w bs :
  stotal t = true -> wire_ty t = true -> sfixed t = Some w -> (w <= length bs)%nat ->
  exists v, spec_decode t bs = SOk v (skipn w bs).
Proof.
  intros Ht Hw Hf Hl. destruct t; try discriminate Ht; cbn [sfixed] in Hf; injection Hf as <-; cbn [spec_decode wire_ty] in *.
  - unfold sdec_bool. rewrite sfield_full by (unfold blen; lia). eexists; reflexivity.
  - unfold sdec_int. rewrite sfield_full by (unfold blen; lia). rewrite Nat2Z.id. eexists; reflexivity.
  - unfold sdec_real. destruct dbl; rewrite sfield_full by (unfold blen; lia); eexists; reflexivity.
  - unfold sdec_bits. rewrite sfield_full by (unfold blen; lia). rewrite Nat2Z.id. eexists; reflexivity.
Qed.

Lemma vis_of_skey priv k v : vis priv (k, v) = negb (skey_in k priv).
Proof. reflexivity. Qed.

Lemma stag_members_rel fuel priv size raw :
  length raw = size -> bytes_ok raw = true -> (size < fuel)%nat ->
  forall ms, Forall (fun m : (key * nat) * ty => dec_ok (snd m)) ms ->
  forallb (fun m : (key * nat) * ty => wire_ty (snd m)) ms = true ->
  forallb (fun m : (key * nat) * ty => negb (skey_in (fst (fst m)) priv) || stotal (snd m)) ms = true ->
  forallb (inside size) ms = true ->
  forall acc,
  RelP (fun v _ d => exists E sub', v = VDict (filter (vis priv) E) /\ d = DOk (VDict (set_all acc E)) sub'
                                    /\ map fst E = mkeys_of ms)
       (sdec_stag_members (sdec_sms ms) priv raw) (stag_decode_members (mdec_sms fuel ms) acc raw).
Proof.
  intros Hlen Hok Hfuel ms Hall. induction Hall as [|[[k off] t] ms Ht _ IH]; intros Hw Hp Hin acc.
  - now exists [], [].
  - cbn [snd] in Ht. cbn [forallb fst snd] in Hw, Hp, Hin.
    apply andb_prop in Hw as [Hwt Hwr]. apply andb_prop in Hp as [Hpt Hpr]. apply andb_prop in Hin as [Hit Hir].
    unfold inside in Hit. cbn [fst snd] in Hit.
    destruct (sfixed t) as [w|] eqn:Hfw; [|discriminate]. apply Nat.leb_le in Hit.
    cbn [mdec_sms map stag_decode_members fst snd]. fold (mdec_sms fuel ms).
    set (bsm := skipn off raw).
    assert (Hokm : bytes_ok bsm = true) by now apply bytes_ok_skipn.
    assert (Hlm : length bsm = (size - off)%nat) by (unfold bsm; rewrite skipn_length; lia).
    pose proof (Ht fuel bsm Hokm ltac:(lia)) as Hr.
    cbn [sdec_sms map sdec_stag_members fst snd]. fold (sdec_sms ms). fold bsm.
    destruct (skey_in k priv) eqn:Hpk.
    + (* hidden host: the reference skips it, the library decodes it (always succeeds) *)
      cbn [negb orb] in Hpt.
      destruct (stotal_spec t w bsm Hpt Hwt Hfw ltac:(lia)) as [v Hv]. rewrite Hv in Hr. cbn [Rel] in Hr.
      rewrite Hr. cbn [dbind]. apply (relP_weaken _ _ _ _ (IH Hwr Hpr Hir (dict_set acc k v))).
      intros v' _ (E & sub' & -> & N1 & N2). exists ((k, v) :: E), sub'.
      cbn [filter map fst mkeys_of]. now rewrite vis_of_skey, Hpk, N1, N2.
    + apply relP_bind; [exact Hr|]. intros v r2 _. apply (relP_then _ _ _ _ _ (IH Hwr Hpr Hir (dict_set acc k v))).
      intros v' _ (E & sub' & -> & N1 & N2). exists ((k, v) :: E), sub'.
      cbn [filter map fst mkeys_of]. now rewrite vis_of_skey, Hpk, N1, N2.
Qed.

Lemma stag_bits_dec_spec raw bits : forall acc,
  forallb (fun b : text * (nat * nat) => (fst (snd b) <? length raw)%nat && (snd (snd b) <? 8)%nat) bits = true ->
  stag_decode_bits bits raw acc
  = Ok (set_all acc (map (fun b : text * (nat * nat) => (Some (fst b), VBool (spec_bit_at raw (8 * fst (snd b) + snd (snd b))))) bits)).
Proof.
  induction bits as [|[name [off bit]] bits IH]; intros acc Hin; [reflexivity|].
  cbn [forallb fst snd] in Hin. apply andb_prop in Hin as [Hin1 Hin2]. apply andb_prop in Hin1 as [Hoff Hbit].
  apply Nat.ltb_lt in Hoff, Hbit.
  cbn [stag_decode_bits]. destruct (nth_error raw off) as [b|] eqn:Hn; [|apply nth_error_None in Hn; lia].
  rewrite IH by exact Hin2. cbn [map fst snd]. now rewrite (spec_bit_at_testbit raw off bit b Hbit Hn).
Qed.

Lemma dec_TStructTag ms bits priv size :
  Forall (fun m : (key * nat) * ty => dec_ok (snd m)) ms -> DEC (TStructTag ms bits priv size).
Proof.
  intros Hall Hw fuel bs Hok Hf. pose proof Hw as Hw0. cbn [wire_ty] in Hw. apply andb_prop in Hw as [Hwm Htm].
  pose proof (tmpl_inside _ _ _ _ Htm) as Hins.
  unfold tmpl_ok in Htm. apply andb_prop in Htm as [Htm Hhid]. apply andb_prop in Htm as [Htm Hhead].
  apply andb_prop in Htm as [Htm Hkeys]. apply andb_prop in Htm as [Hext Hbits].
  destruct bs as [|b0 bs'] eqn:Hbs.
  - (* the empty buffer: the first member reports it *)
    rewrite (EMP_all _ Hw0 Hhead fuel). now exists [].
  - cbn [spec_decode decode_fuel]. fold (sdec_sms ms). fold (mdec_sms fuel ms). unfold sdec_stag, structtag_decode.
    rewrite <- Hbs in *. assert (Hne : (0 < length bs)%nat) by (subst bs; cbn; lia). clear Hbs b0 bs'.
    destruct (length bs <? size)%nat eqn:E.
    + apply Nat.ltb_lt in E. rewrite firstn_all2 by lia.
      now replace (negb (length bs =? 0)%nat && (length bs <? size)%nat) with true by lia.
    + apply Nat.ltb_ge in E.
      set (raw := firstn size bs). assert (Hlen : length raw = size) by (unfold raw; now apply firstn_length_le).
      assert (Hokr : bytes_ok raw = true) by (unfold raw; now apply bytes_ok_firstn).
      rewrite Hlen, Nat.ltb_irrefl, andb_false_r.
      pose proof (stag_members_rel fuel priv size raw Hlen Hokr ltac:(lia) ms Hall Hwm Hhid Hins []) as Hr.
      destruct (sdec_stag_members (sdec_sms ms) priv raw) as [v r0| | |]; cbn [sbind Rel RelP] in *.
      * destruct Hr as (E0 & sub' & -> & -> & M2).
        (* all the names are distinct: the assignments to the dict are appends *)
        rewrite stag_bits_dec_spec, <- set_all_app, set_all_fresh.
        -- cbn [dwrap app]. rewrite filter_app, filter_map_comm, (filter_all _ bits); [reflexivity|].
           revert Hbits. apply forallb_impl. intros b Hb. now apply andb_prop in Hb as [_ Hb].
        -- rewrite map_app, map_map, M2. exact Hkeys.
        -- apply forallb_forall. reflexivity.
        -- rewrite Hlen. revert Hbits. apply forallb_impl. intros b Hb. now apply andb_prop in Hb as [Hb _].
      * now rewrite Hr.
      * destruct Hr as [r ->]. eexists; reflexivity.
      * exact I.
Qed.

Section Main.
  Hypothesis widen32_spec : forall u, 0 <= u < 2 ^ 32 -> widen32 u = spec_real64_of_32 u.

  Lemma DEC_all : forall t, DEC t.
  Proof.
    apply wire_ty_ind.
    - intros _ fuel bs _ _. apply bool_rel.
    - intros sg w Hw fuel bs _ _. cbn [wire_ty] in Hw. apply int_rel. lia.
    - intros dbl _ fuel bs Hok _. now apply real_rel.
    - exact dec_TDateTime.
    - exact dec_TStr.
    - exact dec_TStringN.
    - exact dec_TNBytes.
    - intros w Hw fuel bs Hok _. cbn [wire_ty] in Hw. apply bits_rel; [lia|exact Hok].
    - exact dec_TArrFixed.
    - exact dec_TArrAll.
    - exact dec_TStruct.
    - exact dec_TFixedStr.
    - exact dec_TStructTag.
  Qed.

  (* the fuel-free view: decode t bs = res_of_dres (decode_fuel (S (length bs)) t bs) *)
  Theorem decode_is_spec_gen t bs :
    wire_ty t = true -> bytes_ok bs = true ->
    match spec_decode t bs with
    | SOk v rest => decode t bs = Ok (v, rest)
    | SBad => decode t bs = Err DataError
    | SEnd => decode t bs = Err BufferEmpty
    | STrunc => True
    end.
  Proof.
    intros Hw Hok. unfold decode.
    pose proof (DEC_all t Hw (S (length bs)) bs Hok ltac:(lia)) as Hr.
    destruct (spec_decode t bs) as [v r| | |]; cbn [Rel] in Hr.
    - now rewrite Hr.
    - now rewrite Hr.
    - destruct Hr as [r ->]. reflexivity.
    - exact I.
  Qed.
End Main.
