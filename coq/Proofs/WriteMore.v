(* Proofs/WriteMore.v — further request kinds of C02, composed with the target:
     write_correct_struct_bytes   a structure (or string) given as BYTES: passed through unchanged and stored;
                                  when the bytes are the reference encoding of a value, the memory is ref_write's
     write_correct_slice          `{n}` consecutive elements of an array of structures / strings (elements of
                                  the class of Proofs/WriteStruct.ty_guard), longer lists truncated *)
From Coq Require Import ZifyBool String.
From PV Require Import Base.Bytes Base.BytesLemmas Base.Res Base.Proto Base.PyStr Model.CodecFloat Model.Path Model.LogixPlan Model.LogixWrite.
From PV Require Import Spec.EncapParser Spec.MRParser Spec.TargetIface Spec.TargetCore Spec.Project Spec.Expect Spec.TargetLogix.
From PV Require Import Proofs.TargetCoreP Proofs.TargetLogixP Proofs.WriteBits Proofs.WriteMsg Proofs.WriteEnc Proofs.WriteCorrect Proofs.WriteFull Proofs.WriteBools Proofs.WriteStruct.
Open Scope Z_scope.
Ltac Zify.zify_post_hook ::= Z.to_euclidean_division_equations.

Theorem write_correct_struct_bytes p m r inst off tid dims avail t b rv m_ref img id tag ty tname inst_id ui seq path :
  resolve p r = Some (PlData inst off (BStruct tid) dims avail) -> r_bit r = None -> r_count r = None ->
  mem_get m inst = Some img ->
  find_template (p_templates p) tid = Some t -> 0 <= t_handle t < 65536 ->
  encode_val (depth_fuel p) p (BStruct tid) rv = Some b ->          (* the bytes are the reference encoding of rv *)
  ref_write p m r rv = Some m_ref ->
  1 <= avail -> 0 <= seq < 65536 ->
  let info := mkInfo true tname ty (t_handle t) inst_id in
  let q := mkParsed id false tag None 1 None info (PBytes b) in
  let l := mkWLoc inst off (BStruct tid) dims avail None in
  path_of tag info ui = Ok (Some path) ->
  exists pk pk1,
    encode_value q = Ok (b, 1)
    /\ new_write_packet KWrite seq tag 1 info id ui 0 b = Ok pk
    /\ build_message pk = Ok pk1
    /\ k_message pk1 = le_enc 2 seq ++ [77] ++ path ++ write_data (160 :: 2 :: le_enc 2 (t_handle t)) 1 b
    /\ svc_write p m img l (write_data (160 :: 2 :: le_enc 2 (t_handle t)) 1 b)
       = (m_ref, mr_ok [], [EvApp 1 [inst; off; 77] b]).
Proof.
  intros Hres Hbit Hcnt Hmem Hft Hh He Hw Hav Hseq info q l Hpath.
  destruct (ref_write_inv _ _ _ _ _ _ _ Hres Hmem Hw) as (img' & Hwp & ->). rewrite Hbit, Hcnt in Hwp.
  destruct (write_place_one _ _ _ _ _ _ _ _ _ Hwp) as (s & d & Hs & He' & Hl & Hput).
  rewrite He in He'. injection He' as <-.
  destruct (struct_type_field p l tid t tname ty inst_id eq_refl Hft Hh) as (Hpt & Hparse & Htm).
  destruct (request_stores_intro p m img l q ui seq path _ _ 1 b s img' eq_refl Hpt Hpath Hseq Hparse Htm Hs)
    as (data & pk & pk1 & E & T); [cbn [w_avail l]; lia|lia|lia|reflexivity|exact Hput|].
  injection E as <-. exists pk, pk1. split; [reflexivity|exact T].
Qed.

Theorem write_correct_slice p m r inst off tid dims avail t e l_py vs n m_ref img id tag n0 inst_id ui seq path :
  ty_guard (depth_fuel p) p (BStruct tid) = true -> wty_of (depth_fuel p) p (BStruct tid) = Some e ->
  resolve p r = Some (PlData inst off (BStruct tid) dims avail) -> r_bit r = None -> r_count r = Some n ->
  mem_get m inst = Some img ->
  find_template (p_templates p) tid = Some t -> 0 <= t_handle t < 65536 -> PyStr.text_eqb (t_name t) n_DWORD = false ->
  Forall2 denotes l_py vs ->
  ref_write p m r (RList vs) = Some m_ref ->
  1 < n < 65536 -> 0 <= seq < 65536 ->
  let info := mkInfo true (t_name t) (WArray n0 e) (t_handle t) inst_id in
  let q := mkParsed id false tag None n None info (PList l_py) in
  let l := mkWLoc inst off (BStruct tid) dims avail None in
  path_of tag info ui = Ok (Some path) ->
  exists data pk pk1,
    encode_value q = Ok (data, n)
    /\ new_write_packet KWrite seq tag n info id ui 0 data = Ok pk
    /\ build_message pk = Ok pk1
    /\ k_message pk1 = le_enc 2 seq ++ [77] ++ path ++ write_data (160 :: 2 :: le_enc 2 (t_handle t)) n data
    /\ svc_write p m img l (write_data (160 :: 2 :: le_enc 2 (t_handle t)) n data)
       = (m_ref, mr_ok [], [EvApp 1 [inst; off; 77] data]).
Proof.
  intros Hg Hwt Hres Hbit Hcnt Hmem Hft Hh _ H2 Hw Hnn Hseq info q l Hpath.
  destruct (struct_type_field p l tid t (t_name t) (WArray n0 e) inst_id eq_refl Hft Hh) as (Hpt & Hparse & Htm).
  exact (write_correct_many p m r inst off _ dims avail e l_py vs n m_ref img id tag info n0 _ _ ui seq path
           Hg eq_refl Hwt Hres Hbit Hcnt Hmem eq_refl Hpt Hparse Htm H2 Hw ltac:(lia) Hseq Hpath).
Qed.
