(* Proofs/CodecWireEnc.v — C07: the library's encoders produce the reference bytes.
   [encode_is_spec_gen]: for every type the reference defines ([wire_ty]) and every value the
   reference encodes, outside the deviation classes of Proofs/CodecWireDefs.v ([enc_dev] = 0), the
   model's [encode] returns exactly [spec_encode]'s bytes.  Induction on [ty]; leaves by the
   arithmetic lemmas of CodecWireBase.v; StructTag by the pointwise reading of the splice folds
   ([piece_fold], [structtag_layout_gen]). *)
From PV Require Import Base.Bytes Base.BytesLemmas Base.Res Model.Codec.
From PV Require Import Spec.WireFloat Spec.Wire Proofs.CodecRTBase Proofs.CodecRTBuf Proofs.CodecWireDefs Proofs.CodecWireBase.
Open Scope Z_scope.

Lemma first_nz_zero a b : first_nz a b = 0 <-> a = 0 /\ b = 0.
Proof. unfold first_nz. destruct (a =? 0) eqn:E; lia. Qed.

Lemma first_dev_zero {A} (f : A -> Z) l : first_dev f l = 0 <-> Forall (fun x => f x = 0) l.
Proof.
  induction l as [|x r IH]; cbn [first_dev]; [split; [constructor|reflexivity]|].
  rewrite first_nz_zero, IH. split.
  - intros [H1 H2]. now constructor.
  - intros H. inversion H; subst. now split.
Qed.

Lemma pub_encode_ok f v bs : f v = Ok bs -> pub_encode f v = Ok bs.
Proof. unfold pub_encode. now intros ->. Qed.

Lemma spec_int_enc sg w z bs :
  (0 < w)%nat -> spec_int w sg z = Some bs ->
  int_encode sg w (VInt z) = Ok bs /\ bytes_ok bs = true /\ length bs = w.
Proof.
  intros Hw H. apply spec_int_model in H as [Hr ->]; [|exact Hw].
  split; [|split; [apply le_enc_ok|apply le_enc_length]].
  unfold int_encode, pub_encode, pack_int. now rewrite Hr.
Qed.

Lemma named_int_encode_spec n sg w z bs :
  int_row n = Some (sg, w) -> (0 < w)%nat -> spec_int w sg z = Some bs -> named_int_encode n (VInt z) = Ok bs.
Proof. intros Hn Hw H. unfold named_int_encode. rewrite Hn. now apply spec_int_enc. Qed.

Definition enc_ok (t : ty) : Prop :=
  forall v bs, spec_encode t v = Some bs -> enc_dev t v = 0 ->
  encode t v = Ok bs /\ bytes_ok bs = true /\ (forall w, sfixed t = Some w -> length bs = w).
Definition ENC : ty -> Prop := on_wire enc_ok.

Lemma as_member_plain t v : as_member t (encode t) v = encode t v.
Proof. reflexivity. Qed.

Lemma enc_TBool : ENC TBool.
Proof.
  intros _ v bs Hs _. cbn [spec_encode] in Hs. unfold spec_bool_enc in Hs. destruct v; try discriminate.
  injection Hs as <-. split; [reflexivity|split; [now destruct b|]]. intros w H. now injection H as <-.
Qed.

Lemma enc_TInt sg w : ENC (TInt sg w).
Proof.
  intros Hw v bs Hs _. cbn [wire_ty] in Hw. cbn [spec_encode] in Hs. destruct v; try discriminate.
  destruct (spec_int_enc sg w z bs ltac:(lia) Hs) as (He & Hok & Hl).
  split; [exact He|split; [exact Hok|]]. intros w' H. now injection H as <-.
Qed.

Section WithFloat.
  (* the agreement of the model's integer rounding with Flocq's, proved in Proofs/CodecWireFloat.v; a
     hypothesis here and in [Main], so that this file does not load Flocq *)
  Hypothesis round32_spec : forall b, sp_f64_ok b = true -> round32 b = spec_real32_of_64 b.

  Lemma enc_TReal dbl : ENC (TReal dbl).
  Proof.
    intros _ v bs Hs _. cbn [spec_encode] in Hs. unfold spec_real_enc in Hs. destruct v; try discriminate.
    destruct (sp_f64_ok bits) eqn:Hok; [|discriminate]. pose proof (sp_f64_ok_canon bits Hok) as [_ Hc].
    assert (H : exists z, bs = le_enc (if dbl then 8 else 4) z /\ pack_real dbl (VFloat bits) = Ok bs).
    { unfold pack_real. cbn [as_float bind]. destruct dbl.
      - injection Hs as <-. exists bits. now rewrite Hc, spec_le_le_enc.
      - rewrite (round32_spec bits Hok). destruct (spec_real32_of_64 bits) as [s|]; [|discriminate].
        injection Hs as <-. exists s. now rewrite spec_le_le_enc. }
    destruct H as (z & -> & He). split; [|split; [apply le_enc_ok|]].
    - cbn [encode]. unfold real_encode. now apply pub_encode_ok.
    - intros w H. injection H as <-. apply le_enc_length.
  Qed.
End WithFloat.

(* the body DATE_AND_TIME.encode reaches, from a pair as from two arguments *)
Lemma datetime_join_spec a b bs :
  spec_datetime_enc a b = Some bs ->
  wrap_all DataError (let* x := named_int_encode n_UDINT (VInt a) in
                      let* y := named_int_encode n_UINT (VInt b) in Ok (x ++ y)) = Ok bs
  /\ bytes_ok bs = true /\ length bs = 6%nat.
Proof.
  unfold spec_datetime_enc. intros Hs. apply both_some in Hs as (pa & pb & Ha & Hb & ->).
  rewrite (named_int_encode_spec _ _ 4 _ _ int_row_UDINT ltac:(lia) Ha), (named_int_encode_spec _ _ 2 _ _ int_row_UINT ltac:(lia) Hb).
  destruct (spec_int_enc _ 4 _ _ ltac:(lia) Ha) as (_ & Oa & La). destruct (spec_int_enc _ 2 _ _ ltac:(lia) Hb) as (_ & Ob & Lb).
  split; [reflexivity|]. now rewrite bytes_ok_app, Oa, Ob, app_length, La, Lb.
Qed.

(* DATE_AND_TIME.encode(time, date): the documented positional call produces the reference bytes *)
Theorem datetime_args_is_spec a b bs :
  spec_encode TDateTime (VTuple [VInt a; VInt b]) = Some bs -> encode_args TDateTime [VInt a; VInt b] = Ok bs.
Proof. intros H. exact (proj1 (datetime_join_spec a b bs H)). Qed.

Lemma enc_TDateTime : ENC TDateTime.
Proof.
  intros _ v bs Hs _. cbn [spec_encode] in Hs.
  destruct v as [| | | | | |l|l| |]; try discriminate. destruct l as [|[| |a| | | | | | |] [|[| |b| | | | | | |] [|? ?]]]; try discriminate.
  destruct (datetime_join_spec a b bs Hs) as (He & Hok & Hl).
  split; [exact He|split; [exact Hok|]]. intros w H. now injection H as <-.
Qed.

Lemma enc_TStr lsg lw e : ENC (TStr lsg lw e).
Proof.
  intros Hw v bs Hs _. cbn [wire_ty] in Hw. cbn [spec_encode] in Hs.
  destruct (char_width e) as [cw|] eqn:Hcw; [|lia]. destruct lsg; [cbn in Hw; lia|].
  unfold spec_str_enc in Hs. destruct v; try discriminate.
  destruct (spec_chars cw s) as [d|] eqn:Hd; [|discriminate].
  destruct (spec_int lw false (blen d / Z.of_nat cw)) as [p|] eqn:Hp; [|discriminate]. apply Some_inj in Hs. subst bs.
  destruct (spec_int_enc _ lw _ _ ltac:(lia) Hp) as (Ep & Op & _). destruct (text_encode_spec _ _ _ _ Hcw Hd) as [Ed Od].
  split; [|split; [|discriminate]].
  - cbn [encode]. unfold str_encode. apply pub_encode_ok.
    rewrite Ed. cbn [bind]. rewrite (char_width_size _ _ Hcw). change (zlen d) with (blen d). now rewrite Ep.
  - now rewrite bytes_ok_app, Op, Od.
Qed.

Lemma enc_TStringN : ENC TStringN.
Proof.
  intros _ v bs Hs _. cbn [spec_encode] in Hs. unfold spec_stringn_enc in Hs. destruct v; try discriminate.
  destruct (spec_chars 1 s) as [d|] eqn:Hc; [|discriminate].
  destruct (spec_int 2 false (blen d)) as [p|] eqn:Hp; [|discriminate]. apply Some_inj in Hs. subst bs.
  destruct (text_encode_spec Latin1 1 _ _ eq_refl Hc) as [Ed Od]. split; [|split; [|discriminate]].
  - cbn [encode]. unfold stringn_encode, stringn_encode_cs. cbn [as_int]. rewrite stringn_enc_1, Ed. cbn [bind].
    rewrite (named_int_encode_spec _ _ 2 1 (spec_le 2 1) int_row_UINT ltac:(lia) eq_refl). cbn [bind].
    rewrite Z.div_1_r. change (zlen d) with (blen d).
    now rewrite (named_int_encode_spec _ _ 2 _ _ int_row_UINT ltac:(lia) Hp).
  - destruct (spec_int_enc _ 2 _ _ ltac:(lia) Hp) as (_ & Op & _).
    now rewrite !bytes_ok_app, spec_le_le_enc, le_enc_ok, Op, Od.
Qed.

Lemma enc_TNBytes n : ENC (TNBytes n).
Proof.
  intros Hw v bs Hs _. cbn [wire_ty] in Hw. cbn [spec_encode] in Hs. unfold spec_nbytes_enc in Hs.
  destruct v; try discriminate.
  destruct (bytes_ok b && ((n =? -1) || (blen b =? n))) eqn:Hc; [|discriminate]. injection Hs as <-.
  apply andb_prop in Hc as [Hok Hn]. split; [|split; [exact Hok|]].
  - cbn [encode]. unfold nbytes_encode. apply pub_encode_ok.
    destruct (n =? -1) eqn:E1; [reflexivity|]. cbn [orb] in Hn.
    unfold slice_to. assert (n = zlen b) by (unfold blen, zlen in *; lia). subst n.
    destruct (0 <=? zlen b) eqn:E2; [|unfold zlen in E2; lia]. unfold ztake. rewrite Z.min_id. unfold zlen. now rewrite Nat2Z.id, firstn_all.
  - cbn [sfixed]. intros w H. destruct (0 <? n) eqn:E; [|discriminate]. injection H as <-.
    destruct (n =? -1) eqn:E1; [lia|]. cbn [orb] in Hn. unfold blen in Hn. lia.
Qed.

Lemma bits_encode_vbools w bl :
  length bl = (8 * w)%nat -> bits_encode w (VList (map VBool bl)) = Ok (spec_bits w bl).
Proof.
  intros Hl. unfold bits_encode. apply pub_encode_ok. cbn [py_len bind].
  unfold zlen. rewrite map_length, Hl.
  replace (Z.of_nat (8 * w) =? 8 * Z.of_nat w) with true by lia. cbn [negb py_iter bind pack_int].
  rewrite bits_value_vbools.
  assert (Hr : int_in_range false w (bval bl) = true).
  { cbn [int_in_range]. unfold in_urange. pose proof (bval_range bl) as H. rewrite Hl in H.
    rewrite <- wpow_pow256. unfold wpow. replace (8 * Z.of_nat w) with (Z.of_nat (8 * w)) by lia. lia. }
  rewrite Hr. now rewrite le_enc_bval.
Qed.

Lemma spec_bits_ok w bl : bytes_ok (spec_bits w bl) = true.
Proof. rewrite <- le_enc_bval. apply le_enc_ok. Qed.

Lemma spec_bits_length w bl : length (spec_bits w bl) = w.
Proof. unfold spec_bits. now rewrite map_length, seq_length. Qed.

Lemma enc_TBits w : ENC (TBits w).
Proof.
  intros _ v bs Hs _. cbn [spec_encode] in Hs. unfold spec_bits_enc in Hs. destruct v; try discriminate.
  destruct (bools_of l) as [bl|] eqn:Hb; [|discriminate].
  destruct (length bl =? 8 * w)%nat eqn:Hl; [|discriminate]. injection Hs as <-.
  apply bools_of_vbools in Hb. subst l. apply Nat.eqb_eq in Hl.
  split; [|split; [apply spec_bits_ok|]].
  - cbn [encode]. now apply bits_encode_vbools.
  - intros w' H. injection H as <-. apply spec_bits_length.
Qed.

Lemma enc_TFixedStr size lsg lw cap : ENC (TFixedStr size lsg lw cap).
Proof.
  intros Hw v bs Hs _. cbn [wire_ty] in Hw. cbn [spec_encode] in Hs. destruct lsg; [cbn in Hw; lia|].
  unfold spec_fixedstr_enc in Hs. destruct v; try discriminate.
  destruct (spec_int lw false (blen (firstn cap s))) as [p|] eqn:Hp; [|discriminate].
  destruct (spec_chars 1 (firstn cap s)) as [d|] eqn:Hc; [|discriminate].
  destruct (length (firstn cap s) <=? size)%nat eqn:Hsz; [|discriminate]. injection Hs as <-.
  destruct (spec_int_enc _ lw _ _ ltac:(lia) Hp) as (Ep & Op & Lp). destruct (text_encode_spec Latin1 1 _ _ eq_refl Hc) as [Ed Od].
  split; [|split].
  - cbn [encode]. unfold fixedstr_encode. apply pub_encode_ok. rewrite fss_enc_latin1.
    cbn [py_slice bind]. unfold slice. rewrite Nat.sub_0_r. cbn [skipn py_len bind].
    change (zlen (firstn cap s)) with (blen (firstn cap s)). rewrite Ep. cbn [bind].
    rewrite Ed. cbn [bind]. now rewrite zeros_repeat.
  - now rewrite !bytes_ok_app, Op, Od, <- zeros_repeat, zeros_ok.
  - intros w H. injection H as <-. rewrite !app_length, Lp, repeat_length, (spec_chars_1 _ _ Hc).
    apply Nat.leb_le in Hsz. lia.
Qed.

Lemma encode_items_spec enc senc dev fw l :
  (forall x b, senc x = Some b -> dev x = 0 ->
               enc x = Ok b /\ bytes_ok b = true /\ (forall w, fw = Some w -> length b = w)) ->
  forall n i bs, (i + n <= length l)%nat ->
  spec_enc_list senc (firstn n (skipn i l)) = Some bs ->
  first_dev dev (firstn n (skipn i l)) = 0 ->
  encode_items enc (VList l) i n = Ok bs /\ bytes_ok bs = true /\ (forall w, fw = Some w -> length bs = (n * w)%nat).
Proof.
  intros Hall. induction n as [|n IH]; intros i bs Hle Hs Hd.
  - cbn [firstn spec_enc_list] in Hs. injection Hs as <-. split; [reflexivity|split; [reflexivity|intros w _; reflexivity]].
  - destruct (nth_error l i) as [x|] eqn:Hn; [|apply nth_error_None in Hn; lia].
    rewrite (skipn_nth_error _ _ _ Hn) in Hs, Hd. cbn [firstn spec_enc_list first_dev] in Hs, Hd.
    apply both_some in Hs as (a & b & Ha & Hb & ->). apply first_nz_zero in Hd as [Hd1 Hd2].
    destruct (Hall x a Ha Hd1) as (He & Hok & Hlen).
    destruct (IH (S i) b ltac:(lia) Hb Hd2) as (He' & Hok' & Hlen').
    cbn [encode_items py_index]. rewrite Hn. cbn [bind]. rewrite He. cbn [bind]. rewrite He'. cbn [bind].
    split; [reflexivity|split].
    + now rewrite bytes_ok_app, Hok, Hok'.
    + intros w Hw. rewrite app_length, (Hlen w Hw), (Hlen' w Hw). lia.
Qed.

Lemma enc_arr_fixed_plain n e v bs :
  enc_ok e ->
  match v with
  | VList l => if (n <=? length l)%nat then spec_enc_list (spec_encode e) (firstn n l) else None
  | _ => None
  end = Some bs ->
  match v with VList l => first_dev (enc_dev e) (firstn n l) | _ => 0 end = 0 ->
  array_encode (Some n) None (as_member e (encode e)) v = Ok bs /\ bytes_ok bs = true
  /\ (forall w, match sfixed e with Some w => Some (n * w)%nat | None => None end = Some w -> length bs = w).
Proof.
  intros He Hs Hd. destruct v; try discriminate. destruct (n <=? length l)%nat eqn:Hn; [|discriminate]. apply Nat.leb_le in Hn.
  destruct (encode_items_spec (as_member e (encode e)) _ _ _ l He n 0%nat bs ltac:(lia) Hs Hd) as (H1 & H2 & H3).
  split; [|split; [exact H2|]].
  - unfold array_encode. cbn [py_len bind].
    destruct (zlen l <? Z.of_nat n) eqn:E; [unfold zlen in E; lia|]. cbn [bind]. now rewrite H1.
  - intros w Hw. destruct (sfixed e) as [we|] eqn:Hf; [|discriminate]. injection Hw as <-. now apply H3.
Qed.

Lemma enc_arr_all_plain e v bs :
  enc_ok e ->
  match v with VList l => spec_enc_list (spec_encode e) l | _ => None end = Some bs ->
  match v with VList l => first_dev (enc_dev e) l | _ => 0 end = 0 ->
  array_encode None None (as_member e (encode e)) v = Ok bs /\ bytes_ok bs = true.
Proof.
  intros He Hs Hd. destruct v; try discriminate. rewrite <- (firstn_all l) in Hs, Hd.
  destruct (encode_items_spec (as_member e (encode e)) _ _ _ l He (length l) 0%nat bs ltac:(lia) Hs Hd) as (H1 & H2 & _).
  split; [|exact H2]. unfold array_encode. cbn [py_len bind]. unfold zlen. now rewrite Nat2Z.id, H1.
Qed.

(* arrays of bit strings: the flat bit list is cut into elements *)
Fixpoint chunks_of {A} (m c : nat) (l : list A) : list (list A) :=
  match m with O => [] | S m' => firstn c l :: chunks_of m' c (skipn c l) end.

Lemma chunk_vals_spec c l :
  (0 < c)%nat -> forall m i fuel, length l = (i + m * c)%nat -> (m < fuel)%nat ->
  chunk_vals fuel c (VList l) i (length l) = Ok (map VList (chunks_of m c (skipn i l))).
Proof.
  intros Hc. induction m as [|m IH]; intros i fuel Hl Hf; (destruct fuel as [|fuel]; [lia|]); cbn [chunk_vals].
  - replace (length l <=? i)%nat with true by lia. reflexivity.
  - replace (length l <=? i)%nat with false by lia.
    cbn [py_slice bind]. replace (i + c - i)%nat with c by lia.
    rewrite (IH (i + c)%nat fuel) by lia. cbn [bind chunks_of map].
    rewrite skipn_skipn. reflexivity.
Qed.

Lemma encode_chunks w :
  (0 < w)%nat -> forall m bl pre, length bl = (m * (8 * w))%nat ->
  encode_items (as_member (TBits w) (encode (TBits w)))
               (VList (pre ++ map VList (chunks_of m (8 * w) (map VBool bl)))) (length pre) m
  = Ok (spec_bits (m * w) bl).
Proof.
  intros Hw.
  assert (Henc : forall a, length a = (8 * w)%nat ->
                 as_member (TBits w) (encode (TBits w)) (VList (map VBool a)) = Ok (spec_bits w a)).
  { intros a Ha. cbn [as_member encode]. now apply bits_encode_vbools. }
  set (enc := as_member (TBits w) (encode (TBits w))) in *.
  induction m as [|m IH]; intros bl pre Hl.
  - reflexivity.
  - cbn [chunks_of map encode_items py_index].
    rewrite nth_error_app2, Nat.sub_diag by lia. cbn [nth_error bind].
    rewrite firstn_map. rewrite Henc by (rewrite firstn_length_le; lia). cbn [bind].
    specialize (IH (skipn (8 * w) bl) (pre ++ [VList (map VBool (firstn (8 * w) bl))])).
    rewrite app_length in IH. cbn [length] in IH. rewrite Nat.add_1_r in IH.
    rewrite <- app_assoc in IH. cbn [app] in IH. rewrite skipn_map.
    rewrite IH by (rewrite skipn_length; lia). cbn [bind].
    rewrite <- spec_bits_split by (rewrite firstn_length_le; lia).
    now rewrite firstn_skipn.
Qed.

Lemma array_encode_bits fixed w bl m :
  (0 < w)%nat -> length bl = (m * (8 * w))%nat ->
  match fixed with Some n => (n <= length bl)%nat | None => True end ->
  array_encode fixed (Some w) (as_member (TBits w) (encode (TBits w))) (VList (map VBool bl))
  = Ok (spec_bits (m * w) bl).
Proof.
  intros Hw Hl Hfix. unfold array_encode. cbn [py_len bind]. unfold zlen. rewrite map_length.
  set (len0 := match fixed with Some _ => _ | None => _ end).
  assert (Hlen0 : exists n0, len0 = Ok n0).
  { unfold len0. destruct fixed as [n|]; [|eexists; reflexivity].
    replace (Z.of_nat (length bl) <? Z.of_nat n) with false by lia. eexists; reflexivity. }
  destruct Hlen0 as [n0 ->]. cbn [bind].
  rewrite match_pos by lia. rewrite Nat2Z.id.
  replace (Z.to_nat (Z.of_nat (length bl) / Z.of_nat (w * 8))) with m.
  2:{ rewrite Hl. replace (Z.of_nat (m * (8 * w))) with (Z.of_nat m * Z.of_nat (w * 8)) by lia.
      rewrite Z.div_mul by lia. lia. }
  pose proof (chunk_vals_spec (w * 8) (map VBool bl) ltac:(lia) m 0%nat (S (length bl))) as Hc.
  assert (Hm : (m <= length bl)%nat) by (rewrite Hl; nia).
  rewrite map_length in Hc. rewrite Hc by lia. cbn [bind skipn].
  rewrite (Nat.mul_comm w 8). pose proof (encode_chunks w Hw m bl [] Hl) as He. cbn [app length] in He. now rewrite He.
Qed.

Lemma enc_TArrFixed n e : enc_ok e -> ENC (TArrFixed n e).
Proof.
  intros He Hw v bs Hs Hd. cbn [wire_ty] in Hw. apply andb_prop in Hw as [Hwe _].
  destruct e; try exact (enc_arr_fixed_plain n _ v bs He Hs Hd).
  cbn [wire_ty] in Hwe. assert (Hw' : (0 < w)%nat) by lia.
  cbn [spec_encode] in Hs. unfold spec_bitarr_enc in Hs. destruct v; try discriminate.
  destruct (bools_of l) as [bl|] eqn:Hb; [|discriminate].
  destruct (n * (8 * w) <=? length bl)%nat eqn:Hn; [|discriminate].
  apply bools_of_vbools in Hb. subst l.
  cbn [enc_dev] in Hd. rewrite map_length in Hd.
  destruct (length bl =? n * (8 * w))%nat eqn:Hl; [|discriminate]. apply Nat.eqb_eq in Hl.
  rewrite <- Hl, firstn_all in Hs. injection Hs as <-.
  split; [|split; [apply spec_bits_ok|]].
  - cbn [encode bits_width]. apply array_encode_bits; [exact Hw'|exact Hl|]. rewrite Hl. nia.
  - cbn [sfixed]. intros w0 H. injection H as <-. apply spec_bits_length.
Qed.

Lemma enc_TArrAll e : enc_ok e -> ENC (TArrAll e).
Proof.
  intros He _ v bs Hs Hd.
  destruct e; try (destruct (enc_arr_all_plain _ v bs He Hs Hd) as [H1 H2]; split; [exact H1|split; [exact H2|discriminate]]).
  cbn [spec_encode] in Hs. unfold spec_bitarr_enc in Hs. destruct v; try discriminate.
  destruct (bools_of l) as [bl|] eqn:Hb; [|discriminate].
  destruct ((0 <? w)%nat && (length bl mod (8 * w) =? 0)%nat) eqn:Hc; [|discriminate].
  apply andb_prop in Hc as [Hw' Hm]. apply Nat.ltb_lt in Hw'. apply Nat.eqb_eq in Hm.
  apply bools_of_vbools in Hb. subst l.
  set (m := (length bl / (8 * w))%nat).
  assert (Hl : length bl = (m * (8 * w))%nat).
  { unfold m. rewrite Nat.mul_comm. apply Nat.div_exact; lia. }
  assert (H8 : (length bl / 8 = m * w)%nat).
  { rewrite Hl. replace (m * (8 * w))%nat with (m * w * 8)%nat by lia. now rewrite Nat.div_mul by lia. }
  rewrite H8 in Hs. injection Hs as <-.
  split; [|split; [apply spec_bits_ok|discriminate]].
  cbn [encode bits_width]. now apply array_encode_bits.
Qed.

Definition enc_ms (ms : list (key * ty)) := map (fun m : key * ty => (fst m, as_member (snd m) (encode (snd m)))) ms.
Definition senc_ms (ms : list (key * ty)) := map (fun m : key * ty => (fst m, spec_encode (snd m))) ms.

Lemma join_ok a b fa fr :
  bytes_ok a = true -> bytes_ok b = true -> (forall w, fa = Some w -> length a = w) ->
  (forall w, sum_widths fr = Some w -> length b = w) ->
  bytes_ok (a ++ b) = true /\ (forall w, sum_widths (fa :: fr) = Some w -> length (a ++ b) = w).
Proof.
  intros Ha Hb La Lb. split; [now rewrite bytes_ok_app, Ha, Hb|].
  cbn [sum_widths]. intros w H. destruct fa as [wa|]; [|discriminate]. destruct (sum_widths fr) as [wr|]; [|discriminate].
  injection H as <-. now rewrite app_length, (La wa eq_refl), (Lb wr eq_refl).
Qed.

Lemma struct_dict_spec ms d :
  Forall (fun m : key * ty => enc_ok (snd m)) ms ->
  forall bs, spec_struct_dict (senc_ms ms) d = Some bs ->
  first_dev (fun m : key * ty => match slookup d (fst m) with Some x => enc_dev (snd m) x | None => 0 end) ms = 0 ->
  struct_encode_dict (enc_ms ms) d = Ok bs /\ bytes_ok bs = true
  /\ (forall w, sum_widths (map (fun m : key * ty => sfixed (snd m)) ms) = Some w -> length bs = w).
Proof.
  intros Hall. induction Hall as [|[k t] ms Ht _ IH]; intros bs Hs Hd.
  - cbn in Hs. injection Hs as <-. split; [reflexivity|split; [reflexivity|]]. cbn. intros w H. injection H as <-. reflexivity.
  - cbn [snd] in Ht.
    cbn [senc_ms map spec_struct_dict fst snd] in Hs. cbn [first_dev fst snd] in Hd.
    destruct (slookup d k) as [x|] eqn:Hx; [|discriminate].
    fold (senc_ms ms) in Hs. apply both_some in Hs as (a & b & Ha & Hb & ->). apply first_nz_zero in Hd as [Hd1 Hd2].
    destruct (Ht x a Ha Hd1) as (He & Hok & Hlen).
    destruct (IH b Hb Hd2) as (He' & Hok' & Hlen').
    cbn [enc_ms map struct_encode_dict fst snd]. fold (enc_ms ms).
    rewrite slookup_model, Hx. cbn [bind]. rewrite as_member_plain, He. cbn [bind]. rewrite He'. cbn [bind].
    split; [reflexivity|exact (join_ok _ _ _ _ Hok Hok' Hlen Hlen')].
Qed.

Lemma struct_seq_spec ms :
  Forall (fun m : key * ty => enc_ok (snd m)) ms ->
  forall l bs, spec_struct_seq (senc_ms ms) l = Some bs ->
  first_dev2 (fun (m : key * ty) x => enc_dev (snd m) x) ms l = 0 ->
  struct_encode_seq (enc_ms ms) l = Ok bs /\ bytes_ok bs = true
  /\ (forall w, sum_widths (map (fun m : key * ty => sfixed (snd m)) ms) = Some w -> length bs = w).
Proof.
  intros Hall. induction Hall as [|[k t] ms Ht _ IH]; intros l bs Hs Hd.
  - destruct l; [|discriminate]. cbn in Hs. injection Hs as <-. split; [reflexivity|split; [reflexivity|]].
    cbn. intros w H. injection H as <-. reflexivity.
  - cbn [snd] in Ht. destruct l as [|x l]; [discriminate|].
    cbn [senc_ms map spec_struct_seq fst snd] in Hs. cbn [first_dev2 fst snd] in Hd.
    fold (senc_ms ms) in Hs. apply both_some in Hs as (a & b & Ha & Hb & ->). apply first_nz_zero in Hd as [Hd1 Hd2].
    destruct (Ht x a Ha Hd1) as (He & Hok & Hlen).
    destruct (IH l b Hb Hd2) as (He' & Hok' & Hlen').
    cbn [enc_ms map struct_encode_seq fst snd]. fold (enc_ms ms).
    rewrite as_member_plain, He. cbn [bind]. rewrite He'. cbn [bind].
    split; [reflexivity|exact (join_ok _ _ _ _ Hok Hok' Hlen Hlen')].
Qed.

Lemma spec_struct_seq_length (sms : list (key * (val -> option bytes))) l bs :
  spec_struct_seq sms l = Some bs -> length l = length sms.
Proof.
  revert l bs. induction sms as [|[k f] sms IH]; intros [|x l] bs H; cbn [spec_struct_seq] in H; try discriminate; [reflexivity|].
  apply both_some in H as (a & b & _ & Hb & _). cbn [length]. f_equal. exact (IH _ _ Hb).
Qed.

Lemma enc_TStruct ms : Forall (fun m : key * ty => enc_ok (snd m)) ms -> ENC (TStruct SPlain ms).
Proof.
  intros Hall _ v bs Hs Hd. cbn [spec_encode] in Hs. fold (senc_ms ms) in Hs. cbn [enc_dev] in Hd.
  assert (H : struct_encode_inner (enc_ms ms) v = Ok bs /\ bytes_ok bs = true
              /\ (forall w, sum_widths (map (fun m : key * ty => sfixed (snd m)) ms) = Some w -> length bs = w)).
  { destruct v; try discriminate.
    - cbn [struct_encode_inner py_iter bind]. pose proof (spec_struct_seq_length _ _ _ Hs) as Hl.
      unfold enc_ms, senc_ms in *. rewrite map_length in *. rewrite Hl, Nat.ltb_irrefl.
      fold (enc_ms ms). fold (senc_ms ms) in Hs. now apply struct_seq_spec.
    - cbn [struct_encode_inner]. now apply struct_dict_spec. }
  destruct H as [He H]. split; [|exact H]. cbn [encode]. fold (enc_ms ms). unfold struct_encode. now apply pub_encode_ok.
Qed.

Lemma splice_nth buf a e j :
  (a + length e <= length buf)%nat ->
  nth j (splice buf a e) 0 = if (a <=? j)%nat && (j <? a + length e)%nat then nth (j - a) e 0 else nth j buf 0.
Proof.
  intros H. unfold splice.
  destruct (a <=? j)%nat eqn:E1; cbn [andb].
  - apply Nat.leb_le in E1. rewrite app_nth2 by (rewrite firstn_length_le; lia). rewrite firstn_length_le by lia.
    destruct (j <? a + length e)%nat eqn:E2.
    + apply Nat.ltb_lt in E2. now rewrite app_nth1 by lia.
    + apply Nat.ltb_ge in E2. rewrite app_nth2 by lia. rewrite nth_skipn. f_equal. lia.
  - apply Nat.leb_gt in E1. rewrite app_nth1 by (rewrite firstn_length_le; lia). now apply nth_firstn.
Qed.

Lemma splice_ok buf a e : bytes_ok buf = true -> bytes_ok e = true -> bytes_ok (splice buf a e) = true.
Proof. intros Hb He. unfold splice. now rewrite !bytes_ok_app, bytes_ok_firstn, bytes_ok_skipn, He. Qed.

Definition put (buf : bytes) (p : nat * bytes) : bytes := splice buf (fst p) (snd p).

Lemma piece_fold size ps : forall buf, length buf = size -> bytes_ok buf = true ->
  Forall (fun p : nat * bytes => (fst p + length (snd p) <= size)%nat /\ bytes_ok (snd p) = true) ps ->
  length (fold_left put ps buf) = size /\ bytes_ok (fold_left put ps buf) = true
  /\ forall j, nth j (fold_left put ps buf) 0
               = fold_left (fun acc (p : nat * bytes) =>
                              let '(off, e) := p in
                              if (off <=? j)%nat && (j <? off + length e)%nat then nth (j - off) e 0 else acc) ps (nth j buf 0).
Proof.
  induction ps as [|[off e] ps IH]; intros buf Hl Hok Hall; [repeat split; assumption|].
  inversion Hall as [|? ? [H1 He] H2]; subst. cbn [fst snd] in H1, He.
  cbn [fold_left]. change (put buf (off, e)) with (splice buf off e).
  destruct (IH (splice buf off e)) as (IH1 & IH2 & IH3); [now apply splice_length|now apply splice_ok|exact H2|].
  split; [exact IH1|split; [exact IH2|]]. intros j. rewrite IH3, splice_nth by exact H1. reflexivity.
Qed.

Lemma spec_image_nth size ps bv j : (j < size)%nat -> nth j (spec_image size ps bv) 0 = bits_byte bv j (piece_byte ps j).
Proof.
  intros Hj. unfold spec_image.
  rewrite (nth_indep _ 0 (bits_byte bv 0%nat (piece_byte ps 0%nat))) by (rewrite map_length, seq_length; exact Hj).
  rewrite (map_nth (fun j => bits_byte bv j (piece_byte ps j)) (seq 0 size) 0%nat j), seq_nth by exact Hj. reflexivity.
Qed.

Definition enc_sms (ms : list ((key * nat) * ty)) := map (fun m : (key * nat) * ty => (fst m, as_member (snd m) (encode (snd m)))) ms.
Definition senc_sms (ms : list ((key * nat) * ty)) := map (fun m : (key * nat) * ty => (fst m, spec_encode (snd m))) ms.

Lemma stag_members_spec size ms priv d :
  Forall (fun m : (key * nat) * ty => enc_ok (snd m)) ms -> forallb (inside size) ms = true ->
  forall ps, stag_pieces (senc_sms ms) priv d = Some ps ->
  first_dev (fun m : (key * nat) * ty =>
               if skey_in (fst (fst m)) priv then 0
               else match slookup d (fst (fst m)) with Some x => enc_dev (snd m) x | None => 0 end) ms = 0 ->
  (forall buf, stag_encode_members (enc_sms ms) priv d buf = Ok (fold_left put ps buf))
  /\ Forall (fun p : nat * bytes => (fst p + length (snd p) <= size)%nat /\ bytes_ok (snd p) = true) ps.
Proof.
  intros Hall. induction Hall as [|[[k off] t] ms Ht _ IH]; intros Hin ps Hs Hd.
  - cbn in Hs. injection Hs as <-. split; [reflexivity|constructor].
  - cbn [snd] in Ht. cbn [forallb fst snd] in Hin. apply andb_prop in Hin as [Hit Hir].
    cbn [senc_sms map stag_pieces fst snd] in Hs. fold (senc_sms ms) in Hs. cbn [first_dev fst snd] in Hd.
    apply first_nz_zero in Hd as [Hd1 Hd2].
    cbn [enc_sms map stag_encode_members fst snd]. fold (enc_sms ms). rewrite <- skey_in_model.
    destruct (skey_in k priv) eqn:Hp.
    + exact (IH Hir ps Hs Hd2).
    + destruct (slookup d k) as [x|] eqn:Hx; [|discriminate].
      apply (both_some _ _ (fun e ps => (off, e) :: ps)) in Hs as (e & ps' & He & Hps & ->).
      destruct (Ht x e He Hd1) as (Hm & Hok & Hlen).
      destruct (IH Hir ps' Hps Hd2) as [IH1 IH2].
      split.
      * intros buf. rewrite slookup_model, Hx. cbn [bind]. rewrite as_member_plain, Hm. cbn [bind]. rewrite IH1. reflexivity.
      * constructor; [|exact IH2]. cbn [fst snd]. unfold inside in Hit. cbn [fst snd] in Hit.
        destruct (sfixed t) as [w|] eqn:Hf; [|discriminate]. apply Nat.leb_le in Hit.
        rewrite (Hlen w eq_refl). split; [lia|exact Hok].
Qed.

Lemma set_nth_splice buf off f b0 : nth_error buf off = Some b0 -> set_nth buf off f = Some (splice buf off [f b0]).
Proof.
  revert off. induction buf as [|b r IH]; intros [|off] H; try discriminate.
  - injection H as ->. reflexivity.
  - cbn [set_nth]. now rewrite (IH off H).
Qed.

(* the reference sets / clears a bit by adding / subtracting its weight when the bit differs; the
   library uses the bitwise operations *)
Lemma set_bit_lor v b : set_bit v b true = Z.lor v (2 ^ Z.of_nat b).
Proof.
  unfold set_bit. rewrite odd_div_testbit by lia. destruct (Z.testbit v (Z.of_nat b)) eqn:T.
  - symmetry. apply Z.bits_inj'. intros k Hk. rewrite Z.lor_spec, Z.pow2_bits_eqb by lia.
    destruct (Z.eqb_spec (Z.of_nat b) k) as [<-|_]; [now rewrite T|apply orb_false_r].
  - assert (L : Z.land v (2 ^ Z.of_nat b) = 0).
    { apply Z.bits_inj'. intros k Hk. rewrite Z.land_spec, Z.pow2_bits_eqb, Z.bits_0 by lia.
      destruct (Z.eqb_spec (Z.of_nat b) k) as [<-|_]; [now rewrite T|apply andb_false_r]. }
    now rewrite Z.add_nocarry_lxor, Z.lxor_lor.
Qed.

Lemma set_bit_land_lnot v b : set_bit v b false = Z.land v (Z.lnot (2 ^ Z.of_nat b)).
Proof.
  rewrite <- Z.ldiff_land. unfold set_bit. rewrite odd_div_testbit by lia. destruct (Z.testbit v (Z.of_nat b)) eqn:T.
  - apply Z.sub_nocarry_ldiff. apply Z.bits_inj'. intros k Hk. rewrite Z.ldiff_spec, Z.pow2_bits_eqb, Z.bits_0 by lia.
    destruct (Z.eqb_spec (Z.of_nat b) k) as [<-|_]; [now rewrite T|reflexivity].
  - apply Z.bits_inj'. intros k Hk. rewrite Z.ldiff_spec, Z.pow2_bits_eqb by lia.
    destruct (Z.eqb_spec (Z.of_nat b) k) as [<-|_]; [now rewrite T|now rewrite andb_true_r].
Qed.

Lemma set_bit_byte v b x : 0 <= v < 256 -> (b < 8)%nat -> 0 <= set_bit v b x < 256.
Proof.
  intros Hv Hb. assert (Hp : 0 < 2 ^ Z.of_nat b) by (apply Z.pow_pos_nonneg; lia). destruct x.
  - rewrite set_bit_lor. split; [apply Z.lor_nonneg; lia|].
    assert (Hl : Z.log2 v < 8) by (destruct (Z.eq_dec v 0) as [->|]; [reflexivity|apply Z.log2_lt_pow2; lia]).
    destruct (Z.eq_dec (Z.lor v (2 ^ Z.of_nat b)) 0) as [->|Hn]; [reflexivity|].
    apply (Z.log2_lt_pow2 _ 8); [pose proof (proj2 (Z.lor_nonneg v (2 ^ Z.of_nat b))); lia|].
    rewrite Z.log2_lor, Z.log2_pow2 by lia. lia.
  - split; [rewrite set_bit_land_lnot; apply Z.land_nonneg; lia|]. unfold set_bit. destruct (Z.odd _); lia.
Qed.

Lemma stag_bit_step name off bit bits d buf x b0 :
  slookup d (Some name) = Some (VBool x) -> nth_error buf off = Some b0 -> 0 <= b0 < 256 -> (bit < 8)%nat ->
  stag_encode_bits ((name, (off, bit)) :: bits) d buf = stag_encode_bits bits d (splice buf off [set_bit b0 bit x]).
Proof.
  intros Hx Hn Hb0 Hbit. cbn [stag_encode_bits]. rewrite slookup_model, Hx. cbn [bind truthy]. destruct x.
  - rewrite Hn. cbv zeta. rewrite <- set_bit_lor. pose proof (set_bit_byte b0 bit true Hb0 Hbit).
    destruct (set_bit b0 bit true <? 256) eqn:E; [|lia]. now rewrite (set_nth_splice _ _ _ _ Hn).
  - now rewrite (set_nth_splice _ _ _ _ Hn), set_bit_land_lnot.
Qed.

Lemma stag_bits_spec bits d :
  forall bv buf, stag_bitvals bits d = Some bv -> bytes_ok buf = true ->
  forallb (fun b : text * (nat * nat) => (fst (snd b) <? length buf)%nat && (snd (snd b) <? 8)%nat) bits = true ->
  exists buf', stag_encode_bits bits d buf = Ok buf' /\ length buf' = length buf /\ bytes_ok buf' = true
               /\ forall j, nth j buf' 0 = bits_byte bv j (nth j buf 0).
Proof.
  induction bits as [|[name [off bit]] bits IH]; intros bv buf Hs Hok Hin.
  - cbn in Hs. injection Hs as <-. exists buf. repeat split; auto.
  - cbn [stag_bitvals] in Hs. destruct (slookup d (Some name)) as [x|] eqn:Hx; [|discriminate].
    destruct x; try discriminate. destruct (stag_bitvals bits d) as [bv'|] eqn:Hbv; [|discriminate].
    cbn [option_map] in Hs. injection Hs as <-.
    cbn [forallb fst snd] in Hin. apply andb_prop in Hin as [Hin1 Hin2]. apply andb_prop in Hin1 as [Hoff Hbit].
    apply Nat.ltb_lt in Hoff, Hbit.
    destruct (nth_error buf off) as [b0|] eqn:Hn; [|apply nth_error_None in Hn; lia].
    pose proof (bytes_ok_nth_error _ _ _ Hok Hn) as Hb0. pose proof (set_bit_byte b0 bit b Hb0 Hbit) as Hb1.
    rewrite (stag_bit_step _ _ _ _ _ _ _ _ Hx Hn Hb0 Hbit). set (buf1 := splice buf off [set_bit b0 bit b]).
    assert (L1 : length buf1 = length buf) by (apply splice_length; cbn [length]; lia).
    destruct (IH bv' buf1 eq_refl) as (buf' & R1 & R2 & R3 & R4).
    { apply splice_ok; [exact Hok|]. cbn [bytes_ok forallb]. rewrite (proj2 (byte_ok_iff _) Hb1). reflexivity. }
    { now rewrite L1. }
    exists buf'. split; [exact R1|]. split; [lia|]. split; [exact R3|].
    intros j. rewrite R4. unfold buf1. rewrite splice_nth by (cbn [length]; lia). cbn [bits_byte fold_left length].
    destruct (Nat.eqb_spec off j) as [<-|Hne].
    + replace ((off <=? off)%nat && (off <? off + 1)%nat) with true by lia. now rewrite Nat.sub_diag, (nth_error_nth buf off 0 Hn).
    + now replace ((off <=? j)%nat && (j <? off + 1)%nat) with false by lia.
Qed.

Lemma enc_TStructTag ms bits priv size :
  Forall (fun m : (key * nat) * ty => enc_ok (snd m)) ms -> ENC (TStructTag ms bits priv size).
Proof.
  intros Hall Hw v bs Hs Hd. cbn [wire_ty] in Hw. apply andb_prop in Hw as [_ Htm].
  cbn [spec_encode] in Hs. fold (senc_sms ms) in Hs. cbn [enc_dev] in Hd.
  destruct v; try discriminate.
  destruct (stag_pieces (senc_sms ms) priv d) as [ps|] eqn:Hps; [|discriminate].
  destruct (stag_bitvals bits d) as [bv|] eqn:Hbv; [|discriminate]. injection Hs as <-.
  destruct (stag_members_spec size ms priv d Hall (tmpl_inside _ _ _ _ Htm) ps Hps Hd) as [M1 M2].
  destruct (piece_fold size ps (zeros size) (zeros_length _) (zeros_ok _) M2) as (P1 & Hok0 & P2).
  set (buf0 := fold_left put ps (zeros size)) in *.
  destruct (stag_bits_spec bits d bv buf0 Hbv Hok0) as (buf' & B1 & B2 & B3 & B4).
  { rewrite P1. unfold tmpl_ok in Htm. apply andb_prop in Htm as [Htm _]. apply andb_prop in Htm as [Htm _]. apply andb_prop in Htm as [Htm _]. apply andb_prop in Htm as [_ Hb].
    revert Hb. apply forallb_impl. intros b Hb. now apply andb_prop in Hb as [Hb _]. }
  assert (Hbs : spec_image size ps bv = buf').
  { assert (Hl : length (spec_image size ps bv) = size) by (unfold spec_image; now rewrite map_length, seq_length).
    apply (nth_ext _ _ 0 0); [lia|]. rewrite Hl. intros j Hj. now rewrite spec_image_nth, B4, P2, zeros_repeat, nth_repeat. }
  rewrite Hbs.
  assert (Henc : encode (TStructTag ms bits priv size) (VDict d) = Ok buf').
  { cbn [encode]. fold (enc_sms ms). unfold structtag_encode. apply pub_encode_ok.
    rewrite M1. cbn [bind]. exact B1. }
  split; [exact Henc|split; [exact B3|]].
  cbn [sfixed]. intros w H. injection H as <-. lia.
Qed.

Section Main.
  Hypothesis round32_spec : forall b, sp_f64_ok b = true -> round32 b = spec_real32_of_64 b.

  Lemma ENC_all : forall t, ENC t.
  Proof.
    apply wire_ty_ind.
    - exact enc_TBool.
    - exact enc_TInt.
    - exact (enc_TReal round32_spec).
    - exact enc_TDateTime.
    - exact enc_TStr.
    - exact enc_TStringN.
    - exact enc_TNBytes.
    - exact enc_TBits.
    - exact enc_TArrFixed.
    - exact enc_TArrAll.
    - exact enc_TStruct.
    - exact enc_TFixedStr.
    - exact enc_TStructTag.
  Qed.

  (* every value the reference encodes is encoded by the library to the reference bytes *)
  Theorem encode_is_spec_gen t v bs :
    wire_ty t = true -> spec_encode t v = Some bs -> enc_dev t v = 0 -> encode t v = Ok bs.
  Proof. intros Hw Hs Hd. exact (proj1 (ENC_all t Hw v bs Hs Hd)). Qed.

  (* StructTag: the image is [size] bytes; byte j is the visible member covering j (0 when none)
     with the BOOL members of that byte applied *)
  Theorem structtag_layout_gen ms bits priv size d ps bv :
    wire_ty (TStructTag ms bits priv size) = true ->
    stag_pieces (senc_sms ms) priv d = Some ps -> stag_bitvals bits d = Some bv ->
    enc_dev (TStructTag ms bits priv size) (VDict d) = 0 ->
    exists image, encode (TStructTag ms bits priv size) (VDict d) = Ok image /\ length image = size
                  /\ forall j, (j < size)%nat -> nth j image 0 = bits_byte bv j (piece_byte ps j).
  Proof.
    intros Hw Hps Hbv Hd.
    assert (Hs : spec_encode (TStructTag ms bits priv size) (VDict d) = Some (spec_image size ps bv)).
    { cbn [spec_encode]. fold (senc_sms ms). now rewrite Hps, Hbv. }
    destruct (ENC_all _ Hw _ _ Hs Hd) as (He & _ & Hl).
    exists (spec_image size ps bv). split; [exact He|]. split; [apply Hl; reflexivity|]. intros j. apply spec_image_nth.
  Qed.
End Main.
