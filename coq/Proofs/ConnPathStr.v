(* Proofs/ConnPathStr.v — C15 string lemmas, on top of Proofs/PathStr.v: splitting at separator
   characters ([fields] vs the model's split/replace), decimal numerals (print/parse inverse, leading
   zeros), and the model of int() (what it accepts, when it is non-positive).  All by induction. *)
From Coq Require Import String.
From PV Require Import Base.Bytes Base.ListLemmas Base.Proto Base.Res Base.PyStr Model.Path
     Model.ConnPath Spec.ConnPathGrammar Proofs.PathStr.
From Coq Require Import ZifyBool.
Ltac Zify.zify_post_hook ::= Z.to_euclidean_division_equations.
Open Scope Z_scope.

Lemma fields_ext p q s : (forall c, p c = q c) -> fields p s = fields q s.
Proof.
  intros H. induction s as [|c r IH]; cbn [fields]; [reflexivity|]. now rewrite IH, H.
Qed.

Lemma split_chr_aux_fields sep s : forall cur,
  split_chr_aux sep s cur
  = (rev cur ++ fst (fields (fun c => c =? sep) s)) :: snd (fields (fun c => c =? sep) s).
Proof.
  induction s as [|c r IH]; intros cur; cbn [split_chr_aux fields].
  - cbn. now rewrite app_nil_r.
  - destruct (fields (fun c0 => c0 =? sep) r) as [f fs] eqn:E. cbn [fst snd] in IH.
    destruct (c =? sep) eqn:Ec; cbn [fst snd].
    + rewrite app_nil_r. f_equal. specialize (IH []). cbn in IH. now rewrite IH.
    + rewrite IH. cbn [rev]. now rewrite <- app_assoc.
Qed.

Lemma split_chr_fields sep s :
  split_chr sep s = fst (fields (fun c => c =? sep) s) :: snd (fields (fun c => c =? sep) s).
Proof. unfold split_chr. now rewrite split_chr_aux_fields. Qed.

Lemma fields_normalise s : fields (fun c => c =? 47) (normalise s) = fields is_sep s.
Proof.
  unfold normalise, replace_chr. induction s as [|c r IH]; [reflexivity|].
  cbn [map fields]. rewrite IH. destruct (fields is_sep r) as [f fs].
  unfold is_sep, SLASH, BACKSLASH, COMMA.
  destruct (c =? 92) eqn:E1.
  - assert (c = 92) by lia. subst. reflexivity.
  - destruct (c =? 44) eqn:E2.
    + assert (c = 44) by lia. subst. reflexivity.
    + destruct (c =? 47) eqn:E3; reflexivity.
Qed.

Lemma fields_backslash s : fields (fun c => c =? 47) (replace_chr 92 47 s)
  = fields (fun c => (c =? 47) || (c =? 92)) s.
Proof.
  unfold replace_chr. induction s as [|c r IH]; [reflexivity|].
  cbn [map fields]. rewrite IH. destruct (fields _ r) as [f fs].
  destruct (c =? 92) eqn:E1.
  - assert (c = 92) by lia. subst. reflexivity.
  - destruct (c =? 47) eqn:E3; reflexivity.
Qed.

Definition none_of (p : Z -> bool) (s : text) : bool := forallb (fun c => negb (p c)) s.

Lemma fields_none p a : none_of p a = true -> fields p a = (a, []).
Proof.
  induction a as [|c r IH]; cbn [none_of forallb fields]; [reflexivity|].
  intros H. apply andb_prop in H as [H1 H2]. fold (none_of p r) in H2. rewrite (IH H2).
  destruct (p c); [discriminate|reflexivity].
Qed.

Lemma fields_app_sep p a c r : none_of p a = true -> p c = true ->
  fields p (a ++ c :: r) = (a, fst (fields p r) :: snd (fields p r)).
Proof.
  intros Ha Hc. induction a as [|x a IH]; cbn [app fields].
  - destruct (fields p r) as [f fs]. now rewrite Hc.
  - cbn [none_of forallb] in Ha. apply andb_prop in Ha as [H1 H2]. fold (none_of p a) in H2.
    rewrite (IH H2). destruct (p x); [discriminate|reflexivity].
Qed.

Lemma fields_first_none p s : none_of p (fst (fields p s)) = true.
Proof.
  induction s as [|c r IH]; cbn [fields]; [reflexivity|].
  destruct (fields p r) as [f fs]. cbn [fst] in IH.
  destruct (p c) eqn:E; cbn [fst none_of forallb]; [reflexivity|]. rewrite E. exact IH.
Qed.

Lemma fields_rest_none p s : forallb (none_of p) (snd (fields p s)) = true.
Proof.
  induction s as [|c r IH]; cbn [fields]; [reflexivity|].
  pose proof (fields_first_none p r) as Hf.
  destruct (fields p r) as [f fs]. cbn [fst snd] in *.
  destruct (p c) eqn:E; cbn [snd forallb]; [|exact IH]. now rewrite Hf, IH.
Qed.

Lemma contains_chr_fields c s :
  contains_chr c s = match snd (fields (fun x => x =? c) s) with [] => false | _ => true end.
Proof.
  unfold contains_chr. induction s as [|x r IH]; cbn [existsb fields]; [reflexivity|].
  destruct (fields (fun x0 => x0 =? c) r) as [f fs]. cbn [snd] in IH.
  rewrite IH. rewrite (Z.eqb_sym c x). destruct (x =? c); cbn [snd orb]; reflexivity.
Qed.
Lemma digits_val_app l1 l2 a :
  digits_val (l1 ++ l2) a = match digits_val l1 a with Some v => digits_val l2 v | None => None end.
Proof.
  revert a. induction l1 as [|c r IH]; intros a; cbn [app digits_val]; [reflexivity|].
  destruct (is_ascii_digit c); [apply IH|reflexivity].
Qed.

Lemma digits_val_zeros k l : digits_val (repeat 48 k ++ l) 0 = digits_val l 0.
Proof. induction k as [|k IH]; cbn [repeat app digits_val]; [reflexivity|]. exact IH. Qed.

Lemma dec_digits_val fuel : forall z acc, 0 <= z < 2 ^ Z.of_nat fuel ->
  exists k, 0 <= k /\ forall a, digits_val (dec_digits fuel z acc) a = digits_val acc (a * 10 ^ k + z).
Proof.
  induction fuel as [|f IH]; intros z acc Hz.
  - exists 0. split; [lia|]. intros a. cbn [dec_digits]. change (2 ^ Z.of_nat 0) with 1 in Hz.
    f_equal. lia.
  - cbn [dec_digits]. rewrite Nat2Z.inj_succ, Z.pow_succ_r in Hz by lia.
    destruct (z <? 10) eqn:E.
    + exists 1. split; [lia|]. intros a. cbn [digits_val]. unfold is_ascii_digit.
      replace ((48 <=? 48 + z mod 10) && (48 + z mod 10 <=? 57)) with true by lia.
      f_equal. lia.
    + destruct (IH (z / 10) ((48 + z mod 10) :: acc)) as [k [Hk H]]; [lia|].
      exists (k + 1). split; [lia|]. intros a. rewrite H. cbn [digits_val]. unfold is_ascii_digit.
      replace ((48 <=? 48 + z mod 10) && (48 + z mod 10 <=? 57)) with true by lia.
      f_equal. rewrite Z.pow_add_r by lia. change (10 ^ 1) with 10. lia.
Qed.

Lemma dec_digits_digits fuel : forall z acc,
  forallb is_ascii_digit acc = true -> forallb is_ascii_digit (dec_digits fuel z acc) = true.
Proof.
  induction fuel as [|f IH]; intros z acc Ha; cbn [dec_digits]; [exact Ha|].
  assert (Hd : forallb is_ascii_digit ((48 + z mod 10) :: acc) = true).
  { cbn [forallb]. rewrite Ha. unfold is_ascii_digit. lia. }
  destruct (z <? 10); [exact Hd|]. apply IH. exact Hd.
Qed.

Lemma dec_digits_nonempty fuel z acc : acc <> [] -> dec_digits fuel z acc <> [].
Proof.
  revert z acc. induction fuel as [|f IH]; intros z acc Ha; cbn [dec_digits]; [exact Ha|].
  destruct (z <? 10); [discriminate|]. apply IH. discriminate.
Qed.

Lemma print_nat_z_val n : 0 <= n -> digits_val (print_nat_z n) 0 = Some n.
Proof.
  intros Hn. unfold print_nat_z.
  destruct (dec_digits_val (S (Z.to_nat (Z.log2 n))) n []) as [k [Hk H]].
  - rewrite Nat2Z.inj_succ, Z2Nat.id by apply Z.log2_nonneg.
    destruct (Z.eq_dec n 0) as [->|Hnz]; [cbn; lia|].
    pose proof (Z.log2_spec n ltac:(lia)). lia.
  - rewrite H. cbn [digits_val]. f_equal; lia.
Qed.
Lemma print_nat_z_digits n : forallb is_ascii_digit (print_nat_z n) = true.
Proof. unfold print_nat_z. apply dec_digits_digits. reflexivity. Qed.
Lemma print_nat_z_nonempty n : print_nat_z n <> [].
Proof.
  unfold print_nat_z. cbn [dec_digits]. destruct (n <? 10); [discriminate|].
  apply dec_digits_nonempty. discriminate.
Qed.

Lemma repeat_digits k : forallb is_ascii_digit (repeat 48 k) = true.
Proof. induction k; cbn; auto. Qed.

Lemma decimal_isdigit z n : isdigit (decimal z n) = true.
Proof.
  apply isdigit_forallb. unfold decimal. split.
  - intros H. apply app_eq_nil in H as [_ H]. now apply print_nat_z_nonempty in H.
  - rewrite forallb_app, repeat_digits, print_nat_z_digits. reflexivity.
Qed.
Lemma decimal_dval z n : 0 <= n -> dval (decimal z n) = n.
Proof. intros H. unfold dval, decimal. rewrite digits_val_zeros. now rewrite print_nat_z_val. Qed.

Lemma isdigit_dval t : isdigit t = true -> digits_val t 0 = Some (dval t) /\ 0 <= dval t.
Proof. intros H. destruct (isdigit_val t H) as [v [Hv Hp]]. unfold dval. now rewrite Hv. Qed.

(* digit strings contain no separator, colon or dot *)
Lemma digits_none p t : (forall c, is_ascii_digit c = true -> p c = false) ->
  forallb is_ascii_digit t = true -> none_of p t = true.
Proof.
  intros Hp. induction t as [|c r IH]; cbn [forallb none_of]; [reflexivity|].
  intros H. apply andb_prop in H as [H1 H2]. rewrite (Hp c H1). cbn. now apply IH.
Qed.
Lemma digit_not_sep c : is_ascii_digit c = true -> is_sep c = false.
Proof. unfold is_ascii_digit, is_sep, SLASH, BACKSLASH, COMMA. lia. Qed.
Lemma digit_not_colon c : is_ascii_digit c = true -> is_colon c = false.
Proof. unfold is_ascii_digit, is_colon, COLON. lia. Qed.

Definition of_int_digits (r : text) (neg : bool) : res Z := int_unsigned r neg.
(* the two models of int() (Model/ConnPath.v int_of_text, Model/Path.v py_int_full) are the same function *)
Lemma int_of_text_py s : int_of_text s = py_int_full s.
Proof.
  unfold int_of_text, py_int_full. change (int_strip s) with (strip s).
  destruct (strip s) as [|c r]; [reflexivity|].
  unfold int_unsigned, py_int_unsigned, count_digits, len. change int_digits with digits_us.
  change INT_MAX_STR_DIGITS with int_max_str_digits.
  destruct (c =? 45); [|destruct (c =? 43)]; (destruct (_ <=? _); [|reflexivity]);
    destruct (digits_us _ 0 false); reflexivity.
Qed.

(* int() of an ASCII decimal numeral: its value, unless it is longer than the limit *)
Lemma int_of_numeral p : isdigit p = true ->
  int_of_text p = if numeral_ok p then Ok (dval p) else Err (Foreign ValueError).
Proof.
  intros Hd. destruct (isdigit_dval p Hd) as [Hv _].
  now rewrite int_of_text_py, (py_int_full_isdigit p (dval p) Hd Hv).
Qed.

(* what int() accepts is made of digits, '_', a sign and blanks, with at least one digit; a minus
   sign makes the value non-positive *)
Definition us_char (c : Z) : bool := is_ascii_digit c || (c =? 95).

Lemma int_digits_ok s : forall acc pd z, int_digits s acc pd = Some z ->
  forallb us_char s = true /\ (pd = false -> existsb is_ascii_digit s = true) /\ (0 <= acc -> 0 <= z).
Proof.
  induction s as [|c r IH]; intros acc pd z; cbn [int_digits forallb existsb].
  - destruct pd; [|discriminate]. intros [= <-]. repeat split; [discriminate|auto].
  - unfold us_char. destruct (is_ascii_digit c) eqn:Ec.
    + intros H. destruct (IH _ _ _ H) as (H1 & _ & H3). repeat split; [exact H1|].
      intros Ha. apply H3. unfold is_ascii_digit in Ec. lia.
    + destruct ((c =? 95) && pd) eqn:E; [|discriminate]. apply andb_prop in E as [-> ->].
      intros H. destruct (IH _ _ _ H) as (H1 & H2 & H3). repeat split; [exact H1|discriminate|exact H3].
Qed.

Lemma int_unsigned_ok r neg v : int_unsigned r neg = Ok v ->
  forallb us_char r = true /\ existsb is_ascii_digit r = true /\ (neg = true -> v <= 0).
Proof.
  unfold int_unsigned. destruct (_ <=? _); [|discriminate].
  destruct (int_digits r 0 false) as [z|] eqn:E; [|discriminate]. intros [= <-].
  destruct (int_digits_ok _ _ _ _ E) as (H1 & H2 & H3). repeat split; [exact H1|exact (H2 eq_refl)|].
  intros ->. specialize (H3 (Z.le_refl 0)). lia.
Qed.

Lemma int_lstrip_split s : exists a, s = a ++ int_lstrip s /\ forallb int_ws a = true.
Proof.
  induction s as [|c r (a & E & Ha)]; [now exists []|]. cbn [int_lstrip].
  destruct (int_ws c) eqn:Ec; [|now exists []]. exists (c :: a). cbn [app forallb]. now rewrite Ec, Ha, <- E.
Qed.

Lemma int_strip_split s :
  exists a b, s = a ++ int_strip s ++ b /\ forallb int_ws a = true /\ forallb int_ws b = true.
Proof.
  unfold int_strip. destruct (int_lstrip_split s) as (a & Ea & Ha).
  destruct (int_lstrip_split (rev (int_lstrip s))) as (b & Eb & Hb).
  exists a, (rev b). split; [|split; [exact Ha|now rewrite forallb_rev]].
  now rewrite <- rev_app_distr, <- Eb, rev_involutive.
Qed.

Lemma chars_lenient (P : Z -> bool) w :
  (forall c, P c = true -> lenient_char c = true /\ (c =? 45) = false) ->
  forallb P w = true -> forallb lenient_char w = true /\ existsb (fun c => c =? 45) w = false.
Proof.
  intros HP. induction w as [|c w IH]; cbn [forallb existsb]; [auto|]. intros Hw.
  apply andb_prop in Hw as [Hc Hw]. destruct (IH Hw) as [-> ->]. now destruct (HP c Hc) as [-> ->].
Qed.
Lemma ws_lenient c : int_ws c = true -> lenient_char c = true /\ (c =? 45) = false.
Proof. unfold lenient_char, blank, int_ws. lia. Qed.
Lemma us_lenient c : us_char c = true -> lenient_char c = true /\ (c =? 45) = false.
Proof. unfold lenient_char, us_char, is_ascii_digit. lia. Qed.

Lemma int_ok_chars s v : int_of_text s = Ok v ->
  forallb lenient_char s = true /\ existsb is_ascii_digit s = true
  /\ (existsb (fun c => c =? 45) s = true -> v <= 0).
Proof.
  unfold int_of_text. destruct (int_strip_split s) as (a & b & E & Ha & Hb). intros H.
  destruct (chars_lenient _ a ws_lenient Ha) as [La Ma]. destruct (chars_lenient _ b ws_lenient Hb) as [Lb Mb].
  rewrite E, !forallb_app, !existsb_app, La, Lb, Ma, Mb, !orb_false_r. cbn [andb orb].
  destruct (int_strip s) as [|c r]; [discriminate|]. cbn [forallb existsb].
  destruct (c =? 45) eqn:E45; [|destruct (c =? 43) eqn:E43]; destruct (int_unsigned_ok _ _ _ H) as (H1 & H2 & H3).
  - destruct (chars_lenient _ r us_lenient H1) as [-> ->]. rewrite H2, orb_true_r. unfold lenient_char. rewrite E45.
    rewrite !orb_true_r. auto.
  - destruct (chars_lenient _ r us_lenient H1) as [-> ->]. rewrite H2, orb_true_r. unfold lenient_char. rewrite E43.
    rewrite !orb_true_r. repeat split. discriminate.
  - destruct (chars_lenient _ (c :: r) us_lenient H1) as [L M]. cbn [forallb existsb] in L, M, H2. rewrite E45 in M.
    rewrite L, M, H2. cbn [orb]. rewrite orb_true_r. split; [reflexivity|split; [reflexivity|discriminate]].
Qed.
