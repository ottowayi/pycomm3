(* Proofs/SlcParseP.v — what parse_tag (Model/Slc.v) does on every spelled address.

   The texts are built from ARBITRARY digit runs (any digits, any leading zeros) within the length
   limits of the grammar; the regular-expression steps are discharged by the matcher lemmas of
   RegexP.v (greedy digit runs, optional pieces, first-character misses), never by enumerating
   addresses.  The patterns are applied with fullmatch, so a pattern that cannot start at the file
   letter is out, and each letter leaves one or two patterns of the cascade to look at.

   Per family of addresses (N/B/F/L word forms, S, I/O, Bf/n, T/C) the result is
       parse_tag text = if <the range checks of the code on the numbers the digit runs denote>
                        then PTag <fields> else PNone
   including the fall-through of a failed range check through the remaining patterns. *)
From Coq Require Import String.
From PV Require Import Base.Bytes Base.Proto Base.Res Base.PyStr Base.PyStrLemmas Model.Regex Model.SlcVal Model.Slc.
From PV Require Import Gen.SlcTables Proofs.RegexP.
From Coq Require Import ZifyBool.
Open Scope Z_scope.
Ltac Zify.zify_post_hook ::= Z.to_euclidean_division_equations.

Definition run (n : nat) (ds : text) : Prop := all_digits ds /\ ds <> [] /\ (length ds <= n)%nat.
Definition anyrun (ds : text) : Prop := all_digits ds /\ ds <> [].

Lemma run_any n ds : run n ds -> anyrun ds.
Proof. intros (A & B & _). split; assumption. Qed.

Lemma run_len1 n ds : run n ds -> (1 <= length ds)%nat.
Proof. intros (_ & Hne & _). destruct ds; [congruence|cbn; lia]. Qed.

Definition lcl (L x : Z) : Prop := lower_c L = x.        (* L is the letter x (given in lower case), in either case *)
Definition lfbn (L : Z) : Prop := lcl L 108 \/ lcl L 102 \/ lcl L 98 \/ lcl L 110.
Definition io (L : Z) : Prop := lcl L 105 \/ lcl L 111.
Definition tc (L : Z) : Prop := lcl L 99 \/ lcl L 116.

(* the alphabet of a spelled non-T/C address, its file letter aside: digits and punctuation *)
Definition punct (c : Z) : Prop := c = 58 \/ c = 47 \/ c = 46 \/ c = 123 \/ c = 125.
Definition body_char (c : Z) : Prop := is_ascii_digit c = true \/ punct c.

Lemma body_cannot_start rx :
  (forall d, is_ascii_digit d = true -> cannot_start rx d) -> (forall c, punct c -> cannot_start rx c) ->
  forall s, Forall body_char s -> Forall (cannot_start rx) s.
Proof.
  intros Hd Hp s H. eapply Forall_impl; [|exact H]. intros c [Hc|Hc]; auto.
Qed.

Definition otext (o : option text) : text := match o with Some t => t | None => [] end.
Definition subpart (sub : option text) : text := match sub with Some w => 46 :: w | None => [] end.
Definition bitpart (bit : option text) : text := match bit with Some b => 47 :: b | None => [] end.
Definition cntpart (cnt : option text) : text := match cnt with Some c => 123 :: c ++ [125] | None => [] end.
Definition cnt_token (cnt : option text) : option text :=
  match cnt with Some c => Some (123 :: c ++ [125]) | None => None end.

Definition optrun (n : nat) (o : option text) : Prop := forall x, o = Some x -> run n x.
Definition optany (o : option text) : Prop := forall x, o = Some x -> anyrun x.
Definition optcnt (fuel : nat) (o : option text) : Prop := forall x, o = Some x -> anyrun x /\ (length x < fuel)%nat.

Lemma optcnt_of s (cnt : option text) pre post :
  optany cnt -> s = pre ++ cntpart cnt ++ post -> optcnt (S (length s)) cnt.
Proof.
  intros H E c Ec. split; [auto|]. subst cnt s. cbn [cntpart].
  repeat (rewrite app_length || cbn [length]). lia.
Qed.

Lemma nohead_subpart p sub rest : p 46 = false -> nohead p rest -> nohead p (subpart sub ++ rest).
Proof. destruct sub; auto. Qed.
Lemma nohead_bitpart p bit rest : p 47 = false -> nohead p rest -> nohead p (bitpart bit ++ rest).
Proof. destruct bit; auto. Qed.
Lemma nohead_cntpart p cnt : p 123 = false -> nohead p (cntpart cnt).
Proof. destruct cnt; cbn; auto. Qed.

(* parse_tag applies the patterns with fullmatch (Gen/SlcTables.v: PARSE_TAG_FULLMATCH) *)
Lemma re_apply_full rx s : re_apply rx s = fullmatch rx s.
Proof. reflexivity. Qed.

Lemma search_then_miss rx s k : fullmatch_here (S (length s)) rx s = NoMatch -> search_then rx s k = PNone.
Proof. intros H. unfold search_then. rewrite re_apply_full, (fullmatch_miss _ _ H). reflexivity. Qed.
Lemma search_then_first rx c s k : cannot_start rx c -> search_then rx (c :: s) k = PNone.
Proof. intros H. unfold search_then. rewrite re_apply_full, (fullmatch_first_miss _ _ _ H). reflexivity. Qed.
Lemma search_then_hit rx s k e g :
  fullmatch_here (S (length s)) rx s = Match e g -> search_then rx s k = k s g.
Proof. intros H. unfold search_then. rewrite re_apply_full, (fullmatch_hit _ _ _ _ H). reflexivity. Qed.

(* one constructor at a time, as implications: they apply only on the syntactic shape they are
   meant for (rewriting would also find instances modulo unfolding of [m]) *)
Lemma a_seq fuel ic a b s g k R :
  m fuel ic a s g (fun s' g' => m fuel ic b s' g' k) = R -> m fuel ic (Seq a b) s g k = R.
Proof. intros H. exact H. Qed.
Lemma a_group fuel ic i nm a s g k R :
  m fuel ic a s g (fun s' g' => k s' (gset i (span s s') g')) = R -> m fuel ic (Group i nm a) s g k = R.
Proof. intros H. exact H. Qed.
Lemma a_chr fuel ic cs c s g k R :
  cc_match ic cs c = true -> k s g = R -> m fuel ic (Chr cs) (c :: s) g k = R.
Proof. intros H1 H2. rewrite m_chr_ok by exact H1. exact H2. Qed.
Lemma a_group_chr fuel ic i nm cs c s g k R :
  cc_match ic cs c = true -> k s (gset i [c] g) = R -> m fuel ic (Group i nm (Chr cs)) (c :: s) g k = R.
Proof. intros H1 H2. rewrite m_group, m_chr_ok by exact H1. rewrite span_cons1. exact H2. Qed.
Lemma a_opt_none fuel ic a s g k R :
  m fuel ic a s g k = NoMatch -> k s g = R -> m fuel ic (Opt a) s g k = R.
Proof. intros H1 H2. rewrite m_opt_none by exact H1. exact H2. Qed.

(* the optional pieces, in success form: a piece that is there is consumed whole, one that is not
   cannot start at what follows.  Group numbers, names and digit limits are those of the caller. *)
Lemma opt_digits_ok fuel i nm hi o rest g k e gf :
  (0 < fuel)%nat -> optrun hi o -> nodigit_head rest ->
  k rest (match o with Some d => gset i d g | None => g end) = Match e gf ->
  m fuel true (Opt (Group i nm (Rep 1 hi (Chr [CDigit])))) (otext o ++ rest) g k = Match e gf.
Proof.
  intros Hf Ho Hr Hk. destruct o as [d|]; cbn [otext app].
  - destruct (Ho d eq_refl) as (Hd & Hne & Hl).
    apply m_opt_some, group_digits_ok; try assumption. exact (run_len1 _ _ (Ho d eq_refl)).
  - apply a_opt_none; [|exact Hk]. apply m_miss; [exact Hf|reflexivity|].
    destruct rest; [exact I|]. unfold nohead. cbn [first_ok]. rewrite cc_digit. exact Hr.
Qed.

Lemma opt_bit_ok fuel i nm j nm' hi bit rest g k e gf :
  (0 < fuel)%nat -> optrun hi bit -> nodigit_head rest -> nohead (cc_match true [CLit 47]) rest ->
  k rest (match bit with Some b => gset i (47 :: b) (gset j b g) | None => g end) = Match e gf ->
  m fuel true (Opt (Group i nm (Seq (Chr [CLit 47]) (Group j nm' (Rep 1 hi (Chr [CDigit])))))) (bitpart bit ++ rest) g k
  = Match e gf.
Proof.
  intros Hf Ho Hr Hs Hk. destruct bit as [b|]; cbn [bitpart app].
  - destruct (Ho b eq_refl) as (Hd & Hne & Hl).
    apply m_opt_some, a_group, a_seq, a_chr; [reflexivity|].
    apply group_digits_ok; try assumption; [exact (run_len1 _ _ (Ho b eq_refl))|].
    rewrite span_cons. exact Hk.
  - apply a_opt_none; [|exact Hk]. apply m_miss; [exact Hf|reflexivity|exact Hs].
Qed.

Lemma opt_sub_ok fuel i nm i' nm' j nm'' hi sub rest g k e gf :
  (0 < fuel)%nat -> optrun hi sub -> nodigit_head rest -> nohead (cc_match true [CLit 46]) rest ->
  k rest (match sub with Some w => gset i (46 :: w) (gset j w (gset i' [46] g)) | None => g end) = Match e gf ->
  m fuel true (Opt (Group i nm (Seq (Group i' nm' (Chr [CLit 46])) (Group j nm'' (Rep 1 hi (Chr [CDigit]))))))
    (subpart sub ++ rest) g k = Match e gf.
Proof.
  intros Hf Ho Hr Hs Hk. destruct sub as [w|]; cbn [subpart app].
  - destruct (Ho w eq_refl) as (Hd & Hne & Hl).
    apply m_opt_some, a_group, a_seq, a_group_chr; [reflexivity|].
    apply group_digits_ok; try assumption; [exact (run_len1 _ _ (Ho w eq_refl))|].
    rewrite span_cons. exact Hk.
  - apply a_opt_none; [|exact Hk]. apply m_miss; [exact Hf|reflexivity|exact Hs].
Qed.

(* the fuel of the count's [+]: the digits of the count are fewer than the characters of the piece *)
Lemma opt_cnt_ok fuel i nm j nm' cnt g :
  optany cnt -> (length (cntpart cnt) <= fuel)%nat ->
  m fuel true (Opt (Group i nm (Seq (Chr [CLit 123]) (Seq (Group j nm' (Plus (Chr [CDigit]))) (Chr [CLit 125])))))
    (cntpart cnt) g at_end
  = Match [] (match cnt with Some c => gset i (123 :: c ++ [125]) (gset j c g) | None => g end).
Proof.
  intros Ho Hl. destruct cnt as [c|]; [|reflexivity]. destruct (Ho c eq_refl) as (Hd & Hne).
  cbn [cntpart length] in *. rewrite app_length in Hl. cbn [length] in Hl.
  apply m_opt_some, a_group, a_seq, a_chr; [reflexivity|]. apply a_seq.
  apply group_plus_digits_ok; try assumption; [reflexivity|lia|].
  apply a_chr; [reflexivity|]. rewrite span_nil. reflexivity.
Qed.

Ltac len_ok :=
  first [ assumption
        | match goal with H : run _ ?ds |- (1 <= length ?ds)%nat => exact (run_len1 _ _ H) end
        | match goal with H : run _ ?ds |- (length ?ds <= _)%nat => exact (proj2 (proj2 H)) end
        | lia ].
Ltac digits_ok :=
  match goal with
  | H : run _ ?ds |- all_digits ?ds => exact (proj1 H)
  | H : anyrun ?ds |- all_digits ?ds => exact (proj1 H)
  end.
(* the head of what follows a piece *)
Ltac heads := repeat first [exact I | reflexivity | apply nohead_subpart | apply nohead_bitpart | apply nohead_cntpart].

(* [rx]: walk down a pattern along a text that matches it, one success-form step per constructor *)
Ltac rx1 :=
  lazymatch goal with
  | |- m _ _ (Seq _ _) _ _ _ = _ => apply a_seq
  | |- m _ _ (Group _ _ (Chr _)) (_ :: _) _ _ = _ => apply a_group_chr; [first [assumption | reflexivity] | cbv beta]
  | |- m _ _ (Chr _) (_ :: _) _ _ = _ => apply a_chr; [reflexivity | cbv beta]
  | |- m _ _ (Group _ _ (Rep _ _ (Chr [CDigit]))) _ _ _ = _ =>
      eapply group_digits_ok; [digits_ok | len_ok | len_ok | heads | cbv beta]
  | |- m _ _ (Opt (Group _ _ (Rep _ _ _))) _ _ _ = _ => apply opt_digits_ok; [apply Nat.lt_0_succ | assumption | heads | cbv beta]
  | |- m _ _ (Opt (Group _ _ (Seq (Chr [CLit 47]) _))) _ _ _ = _ =>
      apply opt_bit_ok; [apply Nat.lt_0_succ | assumption | heads | heads | cbv beta]
  | |- m _ _ (Opt (Group _ _ (Seq (Group _ _ _) _))) _ _ _ = _ =>
      apply opt_sub_ok; [apply Nat.lt_0_succ | assumption | heads | heads | cbv beta]
  | |- m _ _ (Opt _) (cntpart _) _ at_end = _ =>
      apply opt_cnt_ok; [assumption | repeat (rewrite app_length || cbn [length]); lia]
  end.
Ltac rx := repeat rx1.

Lemma lfbn_letter_match L : lfbn L -> cc_match true [CLit 76; CLit 70; CLit 66; CLit 78] L = true.
Proof. unfold lfbn, lcl. intros HL. cbn. destruct HL as [H|[H|[H|H]]]; rewrite H; reflexivity. Qed.
Lemma io_letter_match L : io L -> cc_match true [CLit 73; CLit 79] L = true.
Proof. unfold io, lcl. intros HL. cbn. destruct HL as [H|H]; rewrite H; reflexivity. Qed.
Lemma tc_letter_match L : tc L -> cc_match true [CLit 67; CLit 84] L = true.
Proof. unfold tc, lcl. intros HL. cbn. destruct HL as [H|H]; rewrite H; reflexivity. Qed.
Lemma letter_match L x : lcl L (lower_c x) -> cc_match true [CLit x] L = true.
Proof. unfold lcl. intros H. cbn. rewrite H, Z.eqb_refl. reflexivity. Qed.

(* the name lookups do not look at the groups: they are evaluated with the groups abstracted *)
Ltac named_groups :=
  repeat split;
  match goal with |- gi _ ?G _ = _ =>
    let g := fresh "g" in let Eg := fresh "Eg" in remember G as g eqn:Eg; vm_compute; subst g end.

Lemma lfbn_match L f e bit cnt :
  lfbn L -> run 3 f -> run 3 e -> optrun 2 bit -> optany cnt ->
  let s := L :: f ++ 58 :: e ++ bitpart bit ++ cntpart cnt in
  exists g, fullmatch_here (S (length s)) LFBN_RE s = Match [] g
   /\ gi LFBN_RE g "file_type" = Ok (Some [L]) /\ gi LFBN_RE g "file_number" = Ok (Some f)
   /\ gi LFBN_RE g "element_number" = Ok (Some e) /\ gi LFBN_RE g "sub_element" = Ok bit
   /\ gi LFBN_RE g "_elem_cnt_token" = Ok (cnt_token cnt) /\ gi LFBN_RE g "element_count" = Ok cnt.
Proof.
  intros HL Hf He Hb Hc s. subst s. pose proof (lfbn_letter_match L HL) as HLm.
  eexists. split; [unfold fullmatch_here, LFBN_RE, LFBN_RE_ast; cbn [rx_re rx_ic]; rx|].
  named_groups; destruct bit, cnt; reflexivity.
Qed.

Lemma s_match L e bit cnt :
  lcl L 115 -> run 3 e -> optrun 2 bit -> optany cnt ->
  let s := L :: 58 :: e ++ bitpart bit ++ cntpart cnt in
  exists g, fullmatch_here (S (length s)) S_RE s = Match [] g
   /\ gi S_RE g "file_type" = Ok (Some [L]) /\ gi S_RE g "element_number" = Ok (Some e) /\ gi S_RE g "sub_element" = Ok bit
   /\ gi S_RE g "_elem_cnt_token" = Ok (cnt_token cnt) /\ gi S_RE g "element_count" = Ok cnt.
Proof.
  intros HL He Hb Hc s. subst s. pose proof (letter_match L 83 HL) as HLm.
  eexists. split; [unfold fullmatch_here, S_RE, S_RE_ast; cbn [rx_re rx_ic]; rx|].
  named_groups; destruct bit, cnt; reflexivity.
Qed.

Lemma io_match L file e sub bit cnt :
  io L -> optrun 3 file -> run 3 e -> optrun 3 sub -> optrun 2 bit -> optany cnt ->
  let s := L :: otext file ++ 58 :: e ++ subpart sub ++ bitpart bit ++ cntpart cnt in
  exists g, fullmatch_here (S (length s)) IO_RE s = Match [] g
   /\ gi IO_RE g "file_type" = Ok (Some [L]) /\ gi IO_RE g "element_number" = Ok (Some e)
   /\ gi IO_RE g "position_number" = Ok sub /\ gi IO_RE g "sub_element" = Ok bit
   /\ gi IO_RE g "_elem_cnt_token" = Ok (cnt_token cnt) /\ gi IO_RE g "element_count" = Ok cnt
   /\ gi IO_RE g "file_number" = Ok file.
Proof.
  intros HL Hfile He Hs Hb Hc s. subst s. pose proof (io_letter_match L HL) as HLm.
  eexists. split; [unfold fullmatch_here, IO_RE, IO_RE_ast; cbn [rx_re rx_ic]; rx|].
  named_groups; destruct file, sub, bit, cnt; reflexivity.
Qed.

Lemma b_match L f n cnt :
  lcl L 98 -> run 3 f -> run 4 n -> optany cnt ->
  let s := L :: f ++ 47 :: n ++ cntpart cnt in
  exists g, fullmatch_here (S (length s)) B_RE s = Match [] g
   /\ gi B_RE g "file_type" = Ok (Some [L]) /\ gi B_RE g "file_number" = Ok (Some f) /\ gi B_RE g "element_number" = Ok (Some n)
   /\ gi B_RE g "_elem_cnt_token" = Ok (cnt_token cnt) /\ gi B_RE g "element_count" = Ok cnt.
Proof.
  intros HL Hf Hn Hc s. subst s. pose proof (letter_match L 66 HL) as HLm.
  eexists. split; [unfold fullmatch_here, B_RE, B_RE_ast; cbn [rx_re rx_ic]; rx|].
  named_groups; destruct cnt; reflexivity.
Qed.

(* timer / counter mnemonics: any text whose upper-casing is a key of PCCC_CT.  The pattern lists
   the same words (DN twice), so under IGNORECASE one of its alternatives spells the text. *)
Lemma dict_get_In {A} (tbl : list (text * A)) k v : dict_get tbl k = Ok v -> In k (map fst tbl).
Proof.
  unfold dict_get. induction tbl as [|[k' v'] tbl IH]; cbn; [discriminate|].
  destruct (text_eqb k' k) eqn:E; [left; apply text_eqb_eq; exact E|right; apply IH; assumption].
Qed.

Definition ct_words : list text :=
  [[65; 67; 67]; [80; 82; 69]; [69; 78]; [68; 78]; [84; 84]; [67; 85]; [67; 68]; [68; 78]; [79; 86]; [85; 78]; [85; 65]].

Lemma ct_words_keys k : In k (map fst pccc_ct) -> In k ct_words.
Proof. cbn. intros H. repeat (destruct H as [<-|H]; [tauto|]). contradiction. Qed.

Lemma ct_match L f e mn code :
  tc L -> run 3 f -> run 3 e -> dict_get pccc_ct (upper mn) = Ok code ->
  let s := L :: f ++ 58 :: e ++ 46 :: mn in
  exists g, fullmatch_here (S (length s)) CT_RE s = Match [] g
   /\ gi CT_RE g "file_type" = Ok (Some [L]) /\ gi CT_RE g "file_number" = Ok (Some f)
   /\ gi CT_RE g "element_number" = Ok (Some e) /\ gi CT_RE g "sub_element" = Ok (Some mn).
Proof.
  intros HL Hf He Hmn s. subst s. pose proof (tc_letter_match L HL) as HLm.
  eexists. split; [unfold fullmatch_here, CT_RE, CT_RE_ast; cbn [rx_re rx_ic]; rx|].
  - apply a_group. apply (m_words_end _ true (upper mn) mn) with (ws := ct_words).
    + reflexivity.
    + apply spells_upper.
    + rewrite span_nil. reflexivity.
    + apply ct_words_keys. exact (dict_get_In _ _ _ Hmn).
  - named_groups; reflexivity.
Qed.

Definition mk (ft : text) (file el : Z) (pos sub : option Z) (af cnt : Z) (nm : text) : tagd :=
  {| t_file_type := ft; t_file_number := file; t_element_number := el; t_pos_number := pos;
     t_sub_element := sub; t_address_field := af; t_element_count := cnt; t_tag := nm |}.
Definition cntval (cnt : option text) : Z := match cnt with Some c => dval c | None => 1 end.
Definition optrange (lo hi : Z) (o : option text) : bool :=
  match o with Some b => in_range lo hi (dval b) | None => true end.
Definition optval (o : option text) : Z := match o with Some b => dval b | None => 0 end.
Definition af_of (bit : option text) : Z := match bit with Some _ => 3 | None => 2 end.

Ltac split_opts :=
  repeat match goal with
  | H : optrun _ (Some ?b) |- _ => pose proof (H b eq_refl); clear H
  | H : optrun _ None |- _ => clear H
  | H : optany (Some ?b) |- _ => pose proof (H b eq_refl); clear H
  | H : optany None |- _ => clear H
  end.
Ltac pyints :=
  repeat match goal with
  | H : run _ ?ds |- context [py_int ?ds] => rewrite (py_int_digits ds (proj1 H) (proj1 (proj2 H)))
  | H : anyrun ?ds |- context [py_int ?ds] => rewrite (py_int_digits ds (proj1 H) (proj2 H))
  end.
Definition io_file (L : Z) : Z := if text_eqb (upper [L]) [79] then 0 else 1.

(* the I/O branch: `return None` (PStop) when a spelled file number is not the I/O file's *)
Definition io_file_ok (L : Z) (file : option text) : bool :=
  match file with Some f => dval f =? io_file L | None => true end.

(* Walking down a pattern along a text it does NOT match: the digit groups are deterministic
   because what follows them fails on a digit ([digit_blind]), so [a_group_digits] /
   [group_digits_overlong_k] apply; the walk ends at a character the pattern does not accept. *)
Ltac blind :=
  let d := fresh "d" in let s0 := fresh "s0" in let g0 := fresh "g0" in let Hd := fresh "Hd" in
  intros d s0 g0 Hd; cbv beta;
  repeat first
    [ reflexivity
    | apply first_miss; [lia | cbn; rewrite ?(lower_c_digit d Hd); unfold is_ascii_digit in Hd; lia]
    | apply m_skip; [lia | cbn; rewrite ?(lower_c_digit d Hd); unfold is_ascii_digit in Hd; lia | intros ?; cbv beta] ].

Ltac nonempty :=
  match goal with
  | H : run _ ?ds |- ?ds <> [] => exact (proj1 (proj2 H))
  | H : anyrun ?ds |- ?ds <> [] => exact (proj2 H)
  end.

(* [fl]: at a digit group the run is too long by what the context says of the lengths, or it is
   consumed whole and its length limit joins the context; a contradiction among the lengths ends the walk *)
Ltac fl1 :=
  lazymatch goal with
  | |- m _ _ (Seq _ _) _ _ _ = _ => apply a_seq
  | |- m _ _ (Group _ _ (Chr _)) (_ :: _) _ _ = _ =>
      first [ apply a_group_chr; [first [assumption | reflexivity] | cbv beta] | apply a_group, m_chr_miss; reflexivity ]
  | |- m _ _ (Chr _) (_ :: _) _ _ = _ => first [ apply a_chr; [reflexivity | cbv beta] | apply m_chr_miss; reflexivity ]
  | |- m _ _ (Group _ _ (Rep _ _ (Chr [CDigit]))) (_ ++ _) _ _ = _ =>
      first [ apply group_digits_overlong_k; [digits_ok | lia | blind]
            | apply a_group_digits_any; [digits_ok | nonempty | heads | blind | intros ?; try (exfalso; lia); cbv beta] ]
  | |- m _ _ (Opt (Group _ _ (Rep _ _ (Chr [CDigit])))) (_ ++ _) _ _ = _ =>
      apply a_opt_group_digits_any; [digits_ok | nonempty | heads | blind | intros ?; try (exfalso; lia); cbv beta]
  | |- m _ _ (Opt _) _ _ _ = _ =>
      apply a_opt_none; [first [apply first_miss; [lia | reflexivity] | apply empty_miss; [lia | reflexivity] | idtac] | cbv beta]
  | |- m _ _ (Group _ _ _) _ _ _ = _ => apply a_group
  | |- at_end (_ :: _) _ = _ => reflexivity
  end.
Ltac fl := repeat fl1.

(* the mismatch of one pattern, as the step of the cascade sees it *)
Ltac step_miss rx ast := apply search_then_miss; unfold fullmatch_here, rx, ast; cbn [rx_re rx_ic].

(* B_RE on Bf:e : after the file number comes ":", not "/"; LFBN_RE on Bf/n the other way round *)
Lemma step_b_colon L f rest : lcl L 98 -> anyrun f -> step_b (L :: f ++ 58 :: rest) = PNone.
Proof. intros HL Hf. pose proof (letter_match L 66 HL) as HLm. step_miss B_RE B_RE_ast. fl. Qed.

Lemma step_lfbn_slash L f rest : lcl L 98 -> anyrun f -> step_lfbn (L :: f ++ 47 :: rest) = PNone.
Proof.
  intros HL Hf. pose proof (lfbn_letter_match L (or_intror (or_intror (or_introl HL)))) as HLm.
  step_miss LFBN_RE LFBN_RE_ast. fl.
Qed.

(* ST_RE on a status address: "S" matches, then ":" is not "T" *)
Lemma step_st_colon L rest : lcl L 115 -> step_plain ST_RE (L :: 58 :: rest) = PNone.
Proof.
  intros HL. step_miss ST_RE ST_RE_ast.
  apply a_seq, a_group, a_seq, a_chr; [exact (letter_match L 83 HL)|]. apply m_chr_miss. reflexivity.
Qed.

Lemma step_ct_first c s : cannot_start CT_RE c -> step_ct (c :: s) = PNone.
Proof. apply search_then_first. Qed.
Lemma step_lfbn_first c s : cannot_start LFBN_RE c -> step_lfbn (c :: s) = PNone.
Proof. apply search_then_first. Qed.
Lemma step_io_first c s : cannot_start IO_RE c -> step_io (c :: s) = PNone.
Proof. apply search_then_first. Qed.
Lemma step_plain_first rx c s : cannot_start rx c -> step_plain rx (c :: s) = PNone.
Proof. apply search_then_first. Qed.
Lemma step_s_first c s : cannot_start S_RE c -> step_s (c :: s) = PNone.
Proof. apply search_then_first. Qed.
Lemma step_b_first c s : cannot_start B_RE c -> step_b (c :: s) = PNone.
Proof. apply search_then_first. Qed.

(* every step whose pattern cannot start at the letter L, which [H : lower_c L = x] describes, returns nothing *)
Ltac by_letter H L s :=
  rewrite ?(step_ct_first L s), ?(step_lfbn_first L s), ?(step_io_first L s), ?(step_plain_first ST_RE L s),
    ?(step_plain_first A_RE L s), ?(step_s_first L s), ?(step_b_first L s)
    by (unfold cannot_start; cbn; rewrite H; reflexivity).

Lemma parse_tag_tc L s : tc L -> parse_tag (L :: s) = finish (step_ct (L :: s)).
Proof.
  intros [H|H]; unfold parse_tag, orelse; by_letter H L s; destruct (step_ct (L :: s)); reflexivity.
Qed.

Lemma parse_tag_io L s : io L -> parse_tag (L :: s) = finish (step_io (L :: s)).
Proof.
  intros [H|H]; unfold parse_tag, orelse; by_letter H L s; destruct (step_io (L :: s)); reflexivity.
Qed.

(* B is also the letter of B_RE *)
Lemma parse_tag_lfbn L s : lfbn L -> (lcl L 98 -> step_b (L :: s) = PNone) ->
  parse_tag (L :: s) = finish (step_lfbn (L :: s)).
Proof.
  intros HL Hb. unfold parse_tag, orelse.
  destruct HL as [H|[H|[H|H]]]; by_letter H L s; rewrite ?(Hb H); destruct (step_lfbn (L :: s)); reflexivity.
Qed.

Lemma parse_tag_flat L s : lcl L 98 -> step_lfbn (L :: s) = PNone -> parse_tag (L :: s) = finish (step_b (L :: s)).
Proof.
  intros H E. unfold parse_tag, orelse. rewrite E. by_letter H L s. destruct (step_b (L :: s)); reflexivity.
Qed.

(* S is also the first letter of ST_RE *)
Lemma parse_tag_s L s : lcl L 115 -> parse_tag (L :: 58 :: s) = finish (step_s (L :: 58 :: s)).
Proof.
  intros H. unfold parse_tag, orelse. rewrite (step_st_colon L s H). by_letter H L (58 :: s).
  destruct (step_s (L :: 58 :: s)); reflexivity.
Qed.

Definition keep (c : bool) (t : tagd) : pres := if c then PTag t else PNone.

Theorem parse_lfbn L f e bit cnt :
  lfbn L -> run 3 f -> run 3 e -> optrun 2 bit -> optany cnt ->
  let s := L :: f ++ 58 :: e ++ bitpart bit ++ cntpart cnt in
  parse_tag s =
    keep (in_range 1 255 (dval f) && in_range 0 255 (dval e) && optrange 0 15 bit)
         (mk (upper [L]) (dval f) (dval e) None (option_map dval bit) (af_of bit) (cntval cnt)
             (tag_name_of s (cnt_token cnt))).
Proof.
  intros HL Hf He Hb Hc s. pose proof (run_any _ _ Hf) as Af.
  destruct (lfbn_match L f e bit cnt) as (g & Hm & G1 & G2 & G4 & G6 & G7 & G8); try assumption.
  unfold s at 1. rewrite parse_tag_lfbn by (try assumption; intros H; apply step_b_colon; assumption). fold s. unfold keep, step_lfbn. rewrite (search_then_hit _ _ _ _ _ Hm).
  rewrite G1, G2, G4, G6, G7, G8.
  cbn [pbind int_of text_of]. pyints. cbn [pbind].
  destruct bit as [b|]; destruct cnt as [c|]; cbn [optrange option_map cntval count_of cnt_token af_of];
    split_opts; pyints; cbn [pbind int_of text_of];
    destruct (in_range 1 255 (dval f)); destruct (in_range 0 255 (dval e)); cbn [andb pbind]; pyints; cbn [pbind];
    try reflexivity; destruct (in_range 0 15 (dval b)); reflexivity.
Qed.

Theorem parse_s L e bit cnt :
  lcl L 115 -> run 3 e -> optrun 2 bit -> optany cnt ->
  let s := L :: 58 :: e ++ bitpart bit ++ cntpart cnt in
  parse_tag s =
    keep (in_range 0 255 (dval e) && optrange 0 15 bit)
         (mk (upper [L]) 2 (dval e) None (option_map dval bit) (af_of bit) (cntval cnt)
             (match bit with Some _ => s | None => tag_name_of s (cnt_token cnt) end)).
Proof.
  intros HL He Hb Hc s.
  destruct (s_match L e bit cnt) as (g & Hm & G1 & G3 & G5 & G6 & G7); try assumption.
  unfold s at 1. rewrite parse_tag_s by assumption. fold s. unfold keep, step_s. rewrite (search_then_hit _ _ _ _ _ Hm).
  rewrite G1, G3, G5, G6, G7.
  cbn [pbind int_of text_of]. pyints. cbn [pbind].
  destruct bit as [b|]; destruct cnt as [c|]; cbn [optrange option_map cntval count_of cnt_token af_of];
    split_opts; pyints; cbn [pbind int_of text_of];
    destruct (in_range 0 255 (dval e)); cbn [andb pbind]; pyints; cbn [pbind];
    try reflexivity; destruct (in_range 0 15 (dval b)); cbn [pbind count_of]; pyints; reflexivity.
Qed.

Theorem parse_io L file e sub bit cnt :
  io L -> optrun 3 file -> run 3 e -> optrun 3 sub -> optrun 2 bit -> optany cnt ->
  let s := L :: otext file ++ 58 :: e ++ subpart sub ++ bitpart bit ++ cntpart cnt in
  parse_tag s =
    keep (io_file_ok L file && (in_range 0 255 (dval e) && optrange 0 15 bit))
         (mk (upper [L]) (io_file L) (dval e) (Some (optval sub)) (Some (optval bit)) (af_of bit)
             (cntval cnt) (tag_name_of s (cnt_token cnt))).
Proof.
  intros HL Hfile He Hs Hb Hc s.
  destruct (io_match L file e sub bit cnt) as (g & Hm & G1 & G4 & G7 & G9 & G10 & G11 & G2); try assumption.
  unfold s at 1. rewrite parse_tag_io by assumption. fold s. unfold keep, step_io. rewrite (search_then_hit _ _ _ _ _ Hm).
  rewrite G1, G2, G4, G7, G9, G10, G11.
  cbn [pbind int_of text_of]. fold (io_file L).
  assert (Hio : in_range 0 255 (io_file L) = true) by (unfold io_file; destruct (text_eqb (upper [L]) [79]); reflexivity).
  unfold io_file_ok.
  destruct file as [f|]; destruct sub as [w|]; destruct bit as [b|]; destruct cnt as [c|];
    cbn [optrange optval option_map cntval count_of cnt_token af_of];
    split_opts; pyints; cbn [pbind int_of text_of bind]; rewrite ?Hio;
    try (destruct (dval f =? io_file L); cbn [negb]; [|reflexivity]);
    destruct (in_range 0 255 (dval e)); cbn [andb pbind negb]; pyints; cbn [pbind];
    try reflexivity; destruct (in_range 0 15 (dval b)); cbn [pbind count_of]; pyints; reflexivity.
Qed.

Theorem parse_flat L f n cnt :
  lcl L 98 -> run 3 f -> run 4 n -> optany cnt ->
  let s := L :: f ++ 47 :: n ++ cntpart cnt in
  parse_tag s =
    keep (in_range 1 255 (dval f) && in_range 0 4095 (dval n))
         (mk (upper [L]) (dval f) (dval n / 16) None (Some (dval n - dval n / 16 * 16)) 3 (cntval cnt)
             (tag_name_of s (cnt_token cnt))).
Proof.
  intros HL Hf Hn Hc s. pose proof (run_any _ _ Hf) as Af.
  destruct (b_match L f n cnt) as (g & Hm & G1 & G2 & G4 & G5 & G6); try assumption.
  unfold s at 1. rewrite parse_tag_flat by (try apply step_lfbn_slash; assumption). fold s. unfold keep, step_b. rewrite (search_then_hit _ _ _ _ _ Hm).
  rewrite G1, G2, G4, G5, G6.
  cbn [pbind int_of text_of]. pyints. cbn [pbind].
  destruct cnt as [c|]; cbn [cntval count_of cnt_token]; split_opts;
    destruct (in_range 1 255 (dval f)); cbn [andb pbind]; pyints; cbn [pbind]; try reflexivity;
    destruct (in_range 0 4095 (dval n)); cbn [pbind count_of]; pyints; reflexivity.
Qed.

Theorem parse_tc L f e mn code :
  tc L -> run 3 f -> run 3 e -> dict_get pccc_ct (upper mn) = Ok code ->
  let s := L :: f ++ 58 :: e ++ 46 :: mn in
  parse_tag s =
    keep (in_range 1 255 (dval f) && in_range 0 255 (dval e))
         (mk (upper [L]) (dval f) (dval e) None (Some code) 3 1 s).
Proof.
  intros HL Hf He Hcode s.
  destruct (ct_match L f e mn code) as (g & Hm & G1 & G2 & G4 & G6); try assumption.
  unfold s at 1. rewrite parse_tag_tc by assumption. fold s. unfold keep, step_ct. rewrite (search_then_hit _ _ _ _ _ Hm).
  rewrite G1, G2, G4, G6.
  cbn [pbind int_of text_of]. pyints. cbn [pbind]. rewrite Hcode.
  destruct (in_range 1 255 (dval f)); cbn [andb pbind]; pyints; cbn [pbind]; try reflexivity;
    destruct (in_range 0 255 (dval e)); reflexivity.
Qed.

Definition supported_lower : list Z := [105; 111; 99; 116; 108; 102; 98; 110; 115; 97].   (* i o c t l f b n s a *)

Theorem parse_unsupported c rest : ~ In (lower_c c) supported_lower -> parse_tag (c :: rest) = PNone.
Proof.
  intros Hc.
  assert (N : forall x, In x supported_lower -> (lower_c c =? x) = false).
  { intros x Hx. destruct (lower_c c =? x) eqn:E; [|reflexivity]. exfalso. apply Hc. replace (lower_c c) with x by lia. exact Hx. }
  assert (CS : forall rx, In rx [CT_RE; LFBN_RE; IO_RE; ST_RE; A_RE; S_RE; B_RE] -> cannot_start rx c).
  { intros rx Hrx. unfold cannot_start.
    repeat (destruct Hrx as [Hrx|Hrx]; [subst rx; cbn; rewrite ?N by (cbn; tauto); reflexivity|]). contradiction. }
  unfold parse_tag, orelse.
  rewrite (step_ct_first c rest), (step_lfbn_first c rest), (step_io_first c rest), (step_plain_first ST_RE c rest),
    (step_plain_first A_RE c rest), (step_s_first c rest), (step_b_first c rest) by (apply CS; cbn; tauto).
  reflexivity.
Qed.

(* With fullmatch nothing may be left over: after at most hi digits of a longer run the next
   character is a digit, which neither the next literal nor the end of the text accepts.
   The runs have any length; [tail] is what follows the last numbered piece. *)
Definition olen (o : option text) : nat := match o with Some t => length t | None => O end.

Lemma finish_none r : r = PNone -> finish r = PNone.
Proof. intros ->. reflexivity. Qed.

Theorem overlong_lfbn L f e bit tail :
  lfbn L -> anyrun f -> anyrun e -> optany bit -> (3 < length f \/ 3 < length e \/ 2 < olen bit)%nat ->
  parse_tag (L :: f ++ 58 :: e ++ bitpart bit ++ tail) = PNone.
Proof.
  intros HL Hf He Hb Hlong. pose proof (lfbn_letter_match L HL) as HLm.
  rewrite parse_tag_lfbn by (try assumption; intros H; apply step_b_colon; assumption).
  apply finish_none. step_miss LFBN_RE LFBN_RE_ast.
  destruct bit as [b|]; split_opts; cbn [olen bitpart app] in *; fl.
Qed.

Theorem overlong_s L e bit tail :
  lcl L 115 -> anyrun e -> optany bit -> (3 < length e \/ 2 < olen bit)%nat ->
  parse_tag (L :: 58 :: e ++ bitpart bit ++ tail) = PNone.
Proof.
  intros HL He Hb Hlong. pose proof (letter_match L 83 HL) as HLm. rewrite parse_tag_s by exact HL.
  apply finish_none. step_miss S_RE S_RE_ast. destruct bit as [b|]; split_opts; cbn [olen bitpart app] in *; fl.
Qed.

Theorem overlong_io L file e sub bit tail :
  io L -> optany file -> anyrun e -> optany sub -> optany bit ->
  (3 < olen file \/ 3 < length e \/ 3 < olen sub \/ 2 < olen bit)%nat ->
  parse_tag (L :: otext file ++ 58 :: e ++ subpart sub ++ bitpart bit ++ tail) = PNone.
Proof.
  intros HL Hfile He Hs Hb Hlong. pose proof (io_letter_match L HL) as HLm. rewrite parse_tag_io by exact HL.
  apply finish_none. step_miss IO_RE IO_RE_ast.
  destruct file as [fl0|], sub as [w|], bit as [b|]; split_opts; cbn [olen otext subpart bitpart app] in *; fl.
Qed.

Theorem overlong_flat L f n tail :
  lcl L 98 -> anyrun f -> anyrun n -> (3 < length f \/ 4 < length n)%nat -> parse_tag (L :: f ++ 47 :: n ++ tail) = PNone.
Proof.
  intros HL Hf Hn Hlong. pose proof (letter_match L 66 HL) as HLm.
  rewrite parse_tag_flat by (try apply step_lfbn_slash; assumption).
  apply finish_none. step_miss B_RE B_RE_ast. fl.
Qed.

(* T/C: after the element comes "any character" and a mnemonic; a fourth element digit is taken
   as that character and then the mnemonic does not start with a letter *)
Theorem overlong_tc L f e rest :
  tc L -> anyrun f -> all_digits e -> (3 < length f \/ 3 < length e)%nat ->
  parse_tag (L :: f ++ 58 :: e ++ 46 :: rest) = PNone.
Proof.
  intros HL Hf He Hlong. pose proof (tc_letter_match L HL) as HLm. rewrite parse_tag_tc by exact HL.
  apply finish_none. step_miss CT_RE CT_RE_ast.
  apply a_seq, a_group_chr; [exact HLm|]. cbv beta. apply a_seq.
  destruct (le_lt_dec (length f) 3) as [Lf|Lf]; [|apply group_digits_overlong_k; [exact (proj1 Hf)|exact Lf|blind]].
  assert (Hl : (3 < length e)%nat) by lia.
  apply a_group_digits; [exact (proj1 Hf) | exact (run_len1 3 f (conj (proj1 Hf) (conj (proj2 Hf) Lf))) | exact Lf | reflexivity | right; blind |].
  cbv beta. apply a_seq, a_group_chr; [reflexivity|]. cbv beta. apply a_seq.
  apply group_digits_overlong; [exact He|exact Hl|]. intros d ds' g' Hd Hds'.
  apply a_seq, a_group_chr; [cbn; unfold is_ascii_digit in Hd; destruct (d =? 10) eqn:E; [lia|reflexivity]|]. cbv beta.
  destruct ds' as [|d2 ds']; cbn [app].
  - apply first_miss; [lia|reflexivity].
  - inversion Hds' as [|? ? Hd2 _]; subst. apply first_miss; [lia|].
    cbn. rewrite (lower_c_digit d2 Hd2). unfold is_ascii_digit in Hd2. lia.
Qed.
