(* Proofs/CodecErrEnc.v — C08, encode side: every T.encode(value) returns bytes or raises
   DataError (no exception of another class escapes any call); a value that is clearly outside the
   domain ([bad]) and not in the silently accepted class ([silent]: arrays of bit strings given too
   few bits / a partial element) is rejected with DataError. *)
From PV Require Import Base.Bytes Base.BytesLemmas Base.Res.
From PV Require Import Model.Codec.
From PV Require Import Proofs.CodecErrDefs Proofs.CodecErrBase.
From Coq Require Import ZifyBool.
Open Scope Z_scope.
Ltac Zify.zify_post_hook ::= Z.to_euclidean_division_equations.

Definition lib_enc (r : res bytes) : Prop := match r with Ok _ => True | Err e => e = DataError end.

Lemma wrap_all_lib (r : res bytes) : lib_enc (wrap_all DataError r).
Proof. destruct r; cbn; auto. Qed.

Theorem encode_lib t v : lib_enc (encode t v).
Proof.
  destruct t; cbn [encode]; apply wrap_all_lib.
Qed.

Lemma is_err_bind {A B} (r : res A) (f : A -> res B) :
  is_err r = true -> is_err (bind r f) = true.
Proof. destruct r; cbn; [discriminate|auto]. Qed.
Lemma is_err_bind_all {A B} (r : res A) (f : A -> res B) :
  (forall a, is_err (f a) = true) -> is_err (bind r f) = true.
Proof. destruct r; cbn; auto. Qed.
Lemma is_err_wrap {A} e (r : res A) : is_err (wrap_all e r) = is_err r.
Proof. destruct r; reflexivity. Qed.
Lemma is_err_pub f v : is_err (pub_encode f v) = is_err (f v).
Proof. apply is_err_wrap. Qed.

Lemma int_encode_err sg w v : int_bad sg w v = true -> is_err (int_encode sg w v) = true.
Proof.
  unfold int_encode, int_bad. rewrite is_err_pub. unfold pack_int. destruct v; intros H; try reflexivity; try discriminate.
  apply negb_true_iff in H. now rewrite H.
Qed.

Lemma enc_ok_false e s : enc_ok e s = false -> is_err (text_encode e s) = true.
Proof. unfold enc_ok. now intros H%negb_false_iff. Qed.

Lemma str_encode_bad lsg lw enc v : bad (TStr lsg lw enc) v = true -> is_err (str_encode lsg lw enc v) = true.
Proof.
  intros H. unfold str_encode. rewrite is_err_pub. destruct v; try reflexivity.
  cbn [bad] in H. unfold str_bad in H. destruct (text_encode enc s) as [d|]; cbn [bind]; [|reflexivity].
  apply is_err_bind, int_encode_err. cbn [int_bad]. now rewrite enc_char_size_width.
Qed.

Lemma stringn_encode_bad v : bad TStringN v = true -> is_err (stringn_encode v) = true.
Proof.
  intros H. unfold stringn_encode, stringn_encode_cs. rewrite is_err_wrap. cbn [as_int]. rewrite stringn_enc_1.
  destruct v; try reflexivity. cbn [bad] in H. unfold str_bad in H. destruct (text_encode Latin1 s) as [d|]; cbn [bind]; [|reflexivity].
  rewrite named_UINT_encode. destruct (int_encode false 2 (VInt 1)) as [a|]; cbn [bind]; [|reflexivity].
  apply is_err_bind, int_encode_err. cbn [int_bad char_width] in *. exact H.
Qed.

Lemma fixedstr_encode_bad size lsg lw cap v :
  bad (TFixedStr size lsg lw cap) v = true -> is_err (fixedstr_encode size lsg lw cap v) = true.
Proof.
  intros H. unfold fixedstr_encode. rewrite is_err_pub, fss_enc_latin1.
  destruct v; cbn [py_slice py_len bind]; try reflexivity; try (destruct (int_encode lsg lw _); reflexivity).
  unfold slice. rewrite Nat.sub_0_r. cbn [skipn bad] in *.
  unfold fstr_bad in H. apply orb_prop in H as [H|H].
  - apply is_err_bind, int_encode_err. exact H.
  - apply is_err_bind_all. intros l. apply is_err_bind, enc_ok_false. now apply negb_true_iff.
Qed.

Lemma pccc_string_encode_bad v : bad TPcccString v = true -> is_err (pccc_string_encode v) = true.
Proof.
  intros H. unfold pccc_string_encode. rewrite is_err_pub, pccc_string_enc_latin1, named_UINT_encode.
  destruct v; cbn [py_len bind]; try reflexivity; try (destruct (int_encode false 2 (VInt _)); reflexivity).
  apply is_err_bind_all. intros l. apply is_err_bind, enc_ok_false. now apply negb_true_iff.
Qed.

Lemma datetime_encode_bad v : bad TDateTime v = true -> is_err (datetime_encode v) = true.
Proof.
  intros H. unfold datetime_encode, datetime_encode2. rewrite is_err_wrap, named_UDINT_encode, named_UINT_encode.
  destruct (py_iter v) as [l|] eqn:Ei; cbn [bind]; [|reflexivity].
  assert (Hl : seq_items v = Some l \/ sized v = true /\ seq_items v = None) by (destruct v; try discriminate Ei; injection Ei as <-; auto).
  cbn [bad] in H. destruct Hl as [Hl|[Hl1 Hl2]]; [rewrite Hl in H|rewrite Hl2, Hl1 in H; discriminate H].
  destruct l as [|t [|d [|? ?]]]; try reflexivity. cbn [bind fst snd].
  apply orb_prop in H as [H|H]; [now apply is_err_bind, int_encode_err|].
  apply is_err_bind_all. intros a. now apply is_err_bind, int_encode_err.
Qed.

Lemma leaf_rejects t v : leaf t = true -> bad t v = true -> is_err (encode t v) = true.
Proof.
  destruct t; intros Hl Hb; try discriminate Hl; cbn [encode].
  - (* TBool *) discriminate Hb.
  - (* TInt *) now apply int_encode_err.
  - (* TReal *) unfold real_encode. rewrite is_err_pub. unfold pack_real. cbn [bad] in Hb. unfold real_bad in Hb.
    destruct (as_float v) as [b|]; cbn [bind]; [|reflexivity].
    apply andb_prop in Hb as [Hd Hr]. destruct dbl; [discriminate|]. destruct (round32 b); [discriminate|reflexivity].
  - (* TDateTime *) now apply datetime_encode_bad.
  - (* TStr *) now apply str_encode_bad.
  - (* TStringN *) now apply stringn_encode_bad.
  - (* TStringI *) discriminate Hb.
  - (* TNBytes *) unfold nbytes_encode. rewrite is_err_pub. destruct v; try discriminate; reflexivity.
  - (* TBits *) unfold bits_encode. rewrite is_err_pub. cbn [bad] in Hb. destruct (py_len v) as [n|]; cbn [bind]; [|reflexivity]. now rewrite Hb.
  - (* TFixedStr *) now apply fixedstr_encode_bad.
  - (* TIPAddr *) unfold ip_encode. rewrite is_err_pub. cbn [bad] in Hb. destruct v; try reflexivity; try discriminate.
    + destruct (in_urange 4 z); [discriminate|reflexivity].
    + unfold ip_ok in Hb. destruct (parse_ipv4 s); [discriminate|reflexivity].
    + destruct (length b =? 4)%nat; [discriminate|reflexivity].
  - (* TPcccAscii *) unfold pccc_ascii_encode. rewrite is_err_pub, pccc_ascii_enc_latin1. destruct v; try discriminate; reflexivity.
  - (* TPcccString *) now apply pccc_string_encode_bad.
Qed.

Lemma existsb_rejects {A} (p q r : A -> bool) l :
  Forall (fun x => p x = true -> q x = false -> r x = true) l ->
  existsb p l = true -> existsb q l = false -> existsb r l = true.
Proof.
  induction 1 as [|x l Hx _ IH]; cbn [existsb]; [discriminate|].
  intros Hp [Hq1 Hq2]%orb_false_elim. apply orb_prop in Hp as [Hp|Hp]; [rewrite Hx|rewrite IH, orb_true_r]; auto.
Qed.
Lemma existsb2_rejects {A B} (p q r : A -> B -> bool) la :
  Forall (fun a => forall b, p a b = true -> q a b = false -> r a b = true) la ->
  forall lb, existsb2 p la lb = true -> existsb2 q la lb = false -> existsb2 r la lb = true.
Proof.
  induction 1 as [|a la Ha _ IH]; intros [|b lb]; cbn [existsb2]; try discriminate.
  intros Hp [Hq1 Hq2]%orb_false_elim. apply orb_prop in Hp as [Hp|Hp]; [rewrite Ha|rewrite IH, orb_true_r]; auto.
Qed.

Lemma encode_items_err enc v l : seq_items v = Some l -> forall n i,
  existsb (fun x => is_err (enc x)) (firstn n (skipn i l)) = true -> is_err (encode_items enc v i n) = true.
Proof.
  intros Hv. induction n as [|n IH]; intros i; [discriminate|]. cbn [encode_items].
  destruct (nth_error l i) as [x|] eqn:Hx; [|apply nth_error_None in Hx; rewrite skipn_all2 by exact Hx; discriminate].
  rewrite (skipn_nth_error l i x Hx).
  assert (Hi : py_index v i = Ok x) by (destruct v; try discriminate Hv; injection Hv as ->; cbn [py_index]; now rewrite Hx).
  rewrite Hi. cbn [bind firstn existsb]. intros [H|H]%orb_prop; [now apply is_err_bind|].
  destruct (enc x); cbn [bind]; [|reflexivity]. apply is_err_bind, IH, H.
Qed.

Lemma struct_seq_err (E : ty -> val -> res bytes) (ms : list (key * ty)) : forall l,
  existsb2 (fun m x => is_err (E (snd m) x)) ms l = true ->
  is_err (struct_encode_seq (map (fun m => (fst m, E (snd m))) ms) l) = true.
Proof.
  induction ms as [|[k t] ms IH]; intros [|x l]; cbn [existsb2 map struct_encode_seq fst snd]; try discriminate.
  intros [H|H]%orb_prop; [now apply is_err_bind|]. destruct (E t x); cbn [bind]; [|reflexivity]. apply is_err_bind, IH, H.
Qed.

Lemma struct_dict_err (E : ty -> val -> res bytes) (ms : list (key * ty)) d :
  existsb (fun m => match dict_get d (fst m) with Ok x => is_err (E (snd m) x) | Err _ => true end) ms = true ->
  is_err (struct_encode_dict (map (fun m => (fst m, E (snd m))) ms) d) = true.
Proof.
  induction ms as [|[k t] ms IH]; cbn [existsb map struct_encode_dict fst snd]; [discriminate|].
  destruct (dict_get d k) as [x|]; cbn [bind]; [|reflexivity].
  intros [H|H]%orb_prop; [now apply is_err_bind|]. destruct (E t x); cbn [bind]; [|reflexivity]. apply is_err_bind, IH, H.
Qed.

Lemma stag_members_err (E : ty -> val -> res bytes) (ms : list ((key * nat) * ty)) priv d : forall buf,
  existsb (fun m => negb (key_in (fst (fst m)) priv)
                    && match dict_get d (fst (fst m)) with Ok x => is_err (E (snd m) x) | Err _ => true end) ms = true ->
  is_err (stag_encode_members (map (fun m => (fst m, E (snd m))) ms) priv d buf) = true.
Proof.
  induction ms as [|[[k off] t] ms IH]; intros buf; cbn [existsb map stag_encode_members fst snd]; [discriminate|].
  destruct (key_in k priv); cbn [negb andb orb]; [apply IH|].
  destruct (dict_get d k) as [x|]; cbn [bind]; [|reflexivity].
  intros [H|H]%orb_prop; [now apply is_err_bind|]. destruct (E t x); cbn [bind]; [|reflexivity]. apply IH, H.
Qed.

Lemma stag_bits_err (bits : list (text * (nat * nat))) d : forall buf,
  existsb (fun b => is_err (dict_get d (Some (fst b)))) bits = true -> is_err (stag_encode_bits bits d buf) = true.
Proof.
  induction bits as [|[name [off bit]] bits IH]; intros buf; cbn [existsb stag_encode_bits fst]; [discriminate|].
  intros H. destruct (dict_get d (Some name)) as [x|]; cbn [bind is_err orb] in *; [|reflexivity].
  destruct (truthy x).
  - destruct (nth_error buf off); [|reflexivity]. destruct (_ <? 256); [|reflexivity].
    destruct (set_nth buf off _); [apply IH, H|reflexivity].
  - destruct (set_nth buf off _); [apply IH, H|reflexivity].
Qed.

Lemma seq_items_len v l : seq_items v = Some l -> py_len v = Ok (zlen l).
Proof. destruct v; try discriminate; intros H; injection H as <-; reflexivity. Qed.

Lemma array_items_err (fixed : option nat) (enc : val -> res bytes) (v : val) l :
  seq_items v = Some l ->
  match fixed with
  | Some n => (length l <? n)%nat || existsb (fun x => is_err (enc x)) (firstn n l)
  | None => existsb (fun x => is_err (enc x)) l
  end = true ->
  is_err (array_encode fixed None enc v) = true.
Proof.
  intros Hv H. unfold array_encode. rewrite is_err_wrap, (seq_items_len v l Hv). cbn [bind].
  destruct fixed as [n|]; cbn [bind].
  - destruct (zlen l <? Z.of_nat n) eqn:En; [reflexivity|]. cbn [bind].
    apply (encode_items_err enc v l Hv n 0%nat). apply orb_prop in H as [H|H]; [unfold zlen in En; lia|exact H].
  - apply (encode_items_err enc v l Hv _ 0%nat). cbn [skipn]. unfold zlen. now rewrite Nat2Z.id, firstn_all.
Qed.

Lemma unsized_array_err fixed bw enc v : sized v = false -> is_err (array_encode fixed bw enc v) = true.
Proof. intros Hs. unfold array_encode. rewrite is_err_wrap. destruct v; try discriminate; reflexivity. Qed.

(* bit-string arrays: the only loud case is fewer values than the array length *)
Lemma bits_array_fixed_err n w enc v l :
  seq_items v = Some l -> zlen l <? Z.of_nat n = true ->
  is_err (array_encode (Some n) (Some w) enc v) = true.
Proof.
  intros Hv H. unfold array_encode. rewrite is_err_wrap, (seq_items_len v l Hv). cbn [bind]. now rewrite H.
Qed.

Definition Rejects (t : ty) : Prop :=
  forall v, bad t v = true -> silent t v = false -> is_err (encode t v) = true.

Lemma rejects_elements e (IH : Rejects e) l :
  existsb (bad e) l = true -> existsb (silent e) l = false -> existsb (fun x => is_err (encode e x)) l = true.
Proof. apply existsb_rejects, Forall_forall. intros x _. apply IH. Qed.

Theorem encode_rejects : forall t, Rejects t.
Proof.
  induction t as [t Hl| | | | |] using ty_ind_nested; intros v Hb Hs; [now apply leaf_rejects|..];
    cbn [bad silent] in Hb, Hs; cbn [encode]; unfold as_member.
  - destruct (seq_items v) as [l|] eqn:Hl; [|now apply unsized_array_err, negb_true_iff].
    destruct (bits_width t) as [w|].
    + apply (bits_array_fixed_err n w _ v l Hl). apply andb_false_iff in Hs as [Hs|Hs]; [lia|congruence].
    + apply (array_items_err (Some n) _ v l Hl). apply orb_prop in Hb as [->|Hb]; [reflexivity|].
      now rewrite (rejects_elements t IHt), orb_true_r.
  - destruct (seq_items v) as [l|] eqn:Hl; [|now apply unsized_array_err, negb_true_iff].
    destruct (bits_width t2) as [w|]; [congruence|]. apply (array_items_err None _ v l Hl). now apply rejects_elements.
  - destruct (seq_items v) as [l|] eqn:Hl; [|now apply unsized_array_err, negb_true_iff].
    destruct (bits_width t) as [w|]; [congruence|]. apply (array_items_err None _ v l Hl). now apply rejects_elements.
  - unfold struct_encode. rewrite is_err_pub.
    assert (Hseq : forall l, (length l <? length ms)%nat || existsb2 (fun m x => bad (snd m) x) ms l = true ->
                              existsb2 (fun m x => silent (snd m) x) ms l = false ->
                              is_err (struct_encode_inner (map (fun m => (fst m, encode (snd m))) ms) (VList l)) = true).
    { intros l Hbl Hsl. cbn [struct_encode_inner py_iter bind]. rewrite map_length.
      destruct (length l <? length ms)%nat; [reflexivity|]. apply (struct_seq_err encode).
      revert Hbl Hsl. apply existsb2_rejects. exact H. }
    assert (Hdict : forall d,
               existsb (fun m => match dict_get d (fst m) with Ok x => bad (snd m) x | Err _ => true end) ms = true ->
               existsb (fun m => match dict_get d (fst m) with Ok x => silent (snd m) x | Err _ => false end) ms = false ->
               is_err (struct_encode_dict (map (fun m => (fst m, encode (snd m))) ms) d) = true).
    { intros d Hbd Hsd. apply (struct_dict_err encode). revert Hbd Hsd. apply existsb_rejects.
      eapply Forall_impl; [|exact H]. intros m Hm. destruct (dict_get d (fst m)); [apply Hm|reflexivity]. }
    destruct k; [|destruct v; try discriminate Hb; reflexivity|];
      (destruct v; try discriminate Hb; try reflexivity; [exact (Hseq _ Hb Hs)|exact (Hseq _ Hb Hs)|exact (Hdict _ Hb Hs)]).
  - unfold structtag_encode. rewrite is_err_pub. destruct v; try reflexivity.
    apply orb_prop in Hb as [Hb|Hb]; [|apply is_err_bind_all; intros buf; now apply stag_bits_err].
    apply is_err_bind, (stag_members_err encode). revert Hb Hs. apply existsb_rejects.
    eapply Forall_impl; [|exact H]. intros m Hm. destruct (key_in (fst (fst m)) priv); [discriminate|]. cbn [negb andb].
    destruct (dict_get d (fst (fst m))); [apply Hm|reflexivity].
Qed.

(* at the public call the rejection is a DataError *)
Theorem encode_rejects_dataerror t v :
  bad t v = true -> silent t v = false -> encode t v = Err DataError.
Proof.
  intros Hb Hs. pose proof (encode_rejects t v Hb Hs) as He. pose proof (encode_lib t v) as Hl.
  destruct (encode t v); [discriminate|]. cbn in Hl. now subst.
Qed.
