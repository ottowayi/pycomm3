(* Proofs/CodecErrDec.v — C08, decode side: every decoder result is a value, DataError or
   BufferEmptyError; the unread rest is never longer than the buffer; types that make progress;
   termination of every decode (Array._decode_all stops when an element consumed nothing;
   Array(L, T) runs `count` element decodes, which end with the buffer when T makes progress);
   BufferEmptyError is raised only at the end of the buffer. *)
From PV Require Import Base.Bytes Base.Res.
From PV Require Import Gen.CodecFacts Model.Codec.
From PV Require Import Proofs.CodecErrDefs Proofs.CodecErrBase Proofs.CodecErrStrict.
From Coq Require Import ZifyBool.
Open Scope Z_scope.
Ltac Zify.zify_post_hook ::= Z.to_euclidean_division_equations.

(* [took E NF B bs r]: what the result [r] of a decoder run on [bs] says about lengths.  The unread
   rest is never longer than the buffer; under B a value consumed at least a byte; under E a
   BufferEmptyError comes with nothing left; under NF the fuel did not run out.  The three are
   parameters so that one induction on type terms carries [progress], [be_ok] and [fuel_ok] at once;
   the elementary decoders have [took True True _]. *)
Definition took (E NF B : Prop) (bs : bytes) (r : dres) : Prop :=
  match r with
  | DOk _ x => (length x <= length bs)%nat /\ (B -> (length x < length bs)%nat)
  | DEmpty x => (length x <= length bs)%nat /\ (E -> x = [])
  | DErr _ => True
  | DOutOfFuel => ~ NF
  end.

Lemma took_weaken E NF B (E' NF' B' : Prop) bs r :
  took E NF B bs r -> (E' -> E) -> (NF' -> NF) -> (B' -> B) -> took E' NF' B' bs r.
Proof. destruct r; cbn; tauto. Qed.
Lemma took_false E NF B bs r : took E NF B bs r -> took E NF False bs r.
Proof. intros H. eapply took_weaken; [exact H|tauto..]. Qed.
Lemma took_wrap E NF B bs r : took E NF B bs r -> took E NF B bs (dwrap r).
Proof. destruct r; cbn; auto. Qed.
Lemma took_mono E NF bs bs' r : took E NF False bs r -> (length bs <= length bs')%nat -> took E NF False bs' r.
Proof. destruct r; cbn; auto; intros [H1 H2] Hl; (split; [lia|]); tauto. Qed.

Lemma took_bind E NF B1 B2 bs r f :
  took E NF B1 bs r -> (forall v x, r = DOk v x -> (length x <= length bs)%nat -> took E NF B2 x (f v x)) ->
  took E NF (B1 \/ B2) bs (dbind r f).
Proof.
  intros Hr Hf. destruct r as [v x| | |]; cbn [dbind]; cbn in Hr; try exact Hr.
  destruct Hr as [Hle Hlt]. specialize (Hf v x eq_refl Hle). destruct (f v x); cbn in *; auto.
  - destruct Hf as [H1 H2]. split; [lia|]. intros [HB|HB]; [specialize (Hlt HB)|specialize (H2 HB)]; lia.
  - destruct Hf as [H1 H2]. split; [lia|exact H2].
Qed.
Lemma took_bind_l E NF B bs r f :
  took E NF B bs r -> (forall v x, r = DOk v x -> (length x <= length bs)%nat -> took E NF False x (f v x)) ->
  took E NF B bs (dbind r f).
Proof. intros Hr Hf. eapply took_weaken; [apply (took_bind _ _ _ _ _ _ _ Hr Hf)|tauto..]. Qed.

Lemma sshape_took w bs r : sshape w bs r -> took True True (0 < w)%nat bs r.
Proof. destruct r; cbn; try tauto; [lia|]. intros [-> _]. cbn. split; [lia|auto]. Qed.

Lemma stream_read_took E NF n bs k :
  (forall d x, took E NF False x (k d x)) -> took E NF (n <> 0) bs (stream_read n bs k).
Proof.
  intros Hk. destruct (stream_read_spec n bs k) as [(-> & _ & ->)|[(_ & _ & ->)|(d & x & -> & -> & Hd & _)]].
  - cbn. auto.
  - exact I.
  - specialize (Hk d x). pose proof (app_length d x) as Hl.
    assert (H : n <> 0 -> (0 < length d)%nat) by (destruct d; [tauto|cbn; lia]).
    destruct (k d x); cbn [took] in *; auto; (split; [lia|]); try tauto. intros Hn. specialize (H Hn). lia.
Qed.

Lemma text_result_took E NF enc data r2 :
  took E NF False r2 (match text_decode enc data with Ok s => DOk (VStr s) r2 | Err e => DErr e end).
Proof. destruct (text_decode enc data); cbn; intuition lia. Qed.

Lemma int_decode_took sg w bs : took True True (0 < w)%nat bs (int_decode sg w bs).
Proof. apply sshape_took, int_decode_strict. Qed.

Lemma str_decode_took lsg lw enc bs : took True True (0 < lw)%nat bs (str_decode lsg lw enc bs).
Proof.
  apply took_wrap, took_bind_l; [apply int_decode_took|].
  intros n r1 _ _. destruct (as_int n =? 0); [cbn; intuition lia|].
  eapply took_false, stream_read_took. intros d r. apply text_result_took.
Qed.

Lemma stringn_decode_took bs : took True True (0 < 2)%nat bs (stringn_decode bs).
Proof.
  unfold stringn_decode. rewrite named_UINT_decode. apply took_wrap, took_bind_l; [apply int_decode_took|]. intros cs r1 _ _.
  apply took_bind_l; [eapply took_false, int_decode_took|]. intros cnt r2 _ _.
  destruct (stringn_enc (as_int cs)); [|exact I].
  destruct (as_int cnt =? 0); [cbn; intuition lia|].
  eapply took_false, stream_read_took. intros d r. apply text_result_took.
Qed.

Lemma nbytes_decode_took n bs : took True True (n <> 0) bs (nbytes_decode n bs).
Proof. apply took_wrap, stream_read_took. intros d r. cbn. intuition lia. Qed.

Lemma pccc_string_decode_took bs : took True True (0 < 2)%nat bs (pccc_string_decode bs).
Proof.
  unfold pccc_string_decode. destruct pccc_string_enc; [|exact I]. rewrite named_UINT_decode.
  apply took_wrap, took_bind_l; [apply int_decode_took|]. intros n r1 _ _.
  destruct (stream_take 82 r1) as [d r2] eqn:Ht. apply stream_take_split in Ht as ->.
  destruct (slc_swap d); [|exact I].
  eapply took_mono; [apply text_result_took|rewrite app_length; lia].
Qed.

(* the string classes STRINGI names (any other class: the model's marker error) *)
Lemma named_decode_took n bs : took True True False bs (named_decode n bs).
Proof.
  unfold named_decode. destruct (ty_of_name n) as [[]|]; cbv beta iota;
    lazymatch goal with |- took _ _ _ _ (DErr _) => exact I | |- _ => idtac end.
  - eapply took_false, str_decode_took.
  - eapply took_false, stringn_decode_took.
Qed.

(* lang = SHORT_STRING.decode(b"\x03" + stream.read(3)): BufferEmptyError only when the read
   returned nothing *)
Lemma lang_decode_empty l3 x : str_decode false 1 Latin1 (3 :: l3) = DEmpty x -> l3 = [].
Proof.
  unfold str_decode. intros E. apply dwrap_empty in E.
  apply dbind_empty_inv in E as [E|(n & r1 & E1 & E)].
  - pose proof (int_decode_strict false 1 (3 :: l3)) as H. rewrite E in H. cbn in H. lia.
  - apply int_decode_value in E1 as (-> & -> & _). cbn [as_int skipn] in E.
    unfold prefix_val in E. cbn [firstn le_dec] in E. change (3 + 256 * 0 =? 0) with false in E. cbn iota in E.
    match type of E with stream_read ?n _ ?k = _ =>
      destruct (stream_read_spec n l3 k) as [(-> & _)|[(_ & _ & Hr)|(d & y & _ & Hr & _)]] end;
      [reflexivity|rewrite Hr in E; discriminate E..].
Qed.

Lemma stringi_items_took count : forall bs ss ls cs, took True True False bs (stringi_decode_items count bs ss ls cs).
Proof.
  induction count as [|c IH]; intros bs ss ls cs; cbn [stringi_decode_items]; [cbn; intuition lia|].
  destruct (stream_take 3 bs) as [l3 r1] eqn:Ht. rewrite named_SHORT_STRING_decode.
  pose proof (str_decode_took false 1 Latin1 (3 :: l3)) as Hn.
  destruct (str_decode false 1 Latin1 (3 :: l3)) as [lang x|e|x|] eqn:El; [|exact I| |now cbn in Hn].
  - apply stream_take_split in Ht as ->. destruct r1 as [|code r2]; [exact I|].
    destruct (zlookup stringi_string_types code) as [tn|]; [|exact I]. rewrite named_UINT_decode.
    eapply took_mono with (bs := r2); [|rewrite app_length; cbn [length]; lia].
    apply took_bind_l; [eapply took_false, int_decode_took|]. intros chs r3 _ _.
    apply took_bind_l; [apply named_decode_took|]. intros s r4 _ _. apply IH.
  - apply lang_decode_empty in El as ->. apply stream_take_nil in Ht as [-> [->|Ht]]; [cbn; auto|discriminate Ht].
Qed.

Lemma stringi_decode_took bs : took True True (0 < 1)%nat bs (stringi_decode bs).
Proof.
  unfold stringi_decode. rewrite named_USINT_decode. apply took_wrap, took_bind_l; [apply int_decode_took|]. intros c r1 _ _.
  apply stringi_items_took.
Qed.

Lemma leaf_took t : leaf t = true -> forall fuel bs, took True True (progress t = true) bs (decode_fuel fuel t bs).
Proof.
  intros Hl fuel bs. destruct (strict t) eqn:Hs.
  - eapply took_weaken; [apply sshape_took, strict_decode, Hs|auto..]. apply strict_progress_width, Hs.
  - destruct t; try discriminate Hl; try discriminate Hs; cbn [decode_fuel progress].
    + eapply took_weaken; [apply str_decode_took|auto..]. apply Nat.ltb_lt.
    + eapply took_weaken; [apply stringn_decode_took|auto..].
    + eapply took_weaken; [apply stringi_decode_took|auto..].
    + eapply took_weaken; [apply nbytes_decode_took|auto..]. lia.
    + eapply took_weaken; [apply pccc_string_decode_took|auto..].
Qed.

Definition Took (L : nat) (E NF B : Prop) (dec : bytes -> dres) : Prop :=
  forall bs, (length bs <= L)%nat -> took E NF B bs (dec bs).

Lemma Took_weaken L E NF B (E' NF' B' : Prop) dec :
  Took L E NF B dec -> (E' -> E) -> (NF' -> NF) -> (B' -> B) -> Took L E' NF' B' dec.
Proof. intros H H1 H2 H3 bs Hl. exact (took_weaken _ _ _ _ _ _ _ _ (H bs Hl) H1 H2 H3). Qed.

Lemma decode_n_took L E NF B dec n : Took L E NF B dec -> Took L E NF ((0 < n)%nat /\ B) (decode_n dec n).
Proof.
  intros Hd. induction n as [|n IH]; intros bs Hl; cbn [decode_n]; [cbn; split; [|intros [H _]]; lia|].
  eapply took_weaken; [apply took_bind_l; [apply Hd, Hl|]|tauto..]. intros v r1 _ Hle.
  apply took_bind_l; [eapply took_false, IH; lia|]. intros vs r2 _ _. destruct vs; cbn; intuition lia.
Qed.

Lemma decode_n_count L E NF dec n : Took L E NF True dec ->
  forall bs v r, (length bs <= L)%nat -> decode_n dec n bs = DOk v r -> (n + length r <= length bs)%nat.
Proof.
  intros Hd. induction n as [|n IH]; intros bs v r Hl; cbn [decode_n].
  - intros H. injection H as _ <-. lia.
  - intros H. apply dbind_ok_inv in H as (v1 & r1 & E1 & H). apply dbind_ok_inv in H as (vs & r2 & E2 & H).
    specialize (Hd bs Hl). rewrite E1 in Hd. destruct Hd as [_ Hd]. specialize (Hd I).
    apply IH in E2; [|lia]. destruct vs; try discriminate. injection H as _ <-. lia.
Qed.

Lemma array_flatten_took E NF b vs r : took E NF False r (array_flatten b vs r).
Proof. unfold array_flatten. destruct b; [|cbn; intuition lia]. destruct vs; cbn; auto. destruct (chain_vals l); cbn; intuition lia. Qed.

(* Array(L, T): beyond [count_limit] elements the model gives up; with an element type that makes
   progress so many cannot all decode from a shorter buffer *)
Lemma array_prefix_took L E NF B B2 b0 declen dec :
  Took L E NF B declen -> Took L E NF B2 dec -> (NF -> B2 /\ Z.of_nat L < count_limit) ->
  Took L E NF B (array_decode_prefix b0 declen dec).
Proof.
  intros Hlen Hd Hnf bs Hl. apply took_wrap, took_bind_l; [apply Hlen, Hl|]. intros n r1 _ Hle. cbv zeta.
  destruct (match n with VInt z => Some z | VBool b1 => Some (if b1 then 1 else 0) | _ => None end) as [z|]; cbv iota; [|exact I].
  assert (Hl1 : (length r1 <= L)%nat) by lia.
  pose proof (decode_n_took L E NF B2 dec (Z.to_nat (Z.min z count_limit)) Hd r1 Hl1) as H.
  destruct (decode_n dec _ r1) as [vs r2|e|x|] eqn:E2; try (eapply took_weaken; [exact H|tauto..]).
  destruct (count_limit <? z) eqn:Ez.
  - intros HNF. destruct (Hnf HNF) as [HB Hc].
    eapply (decode_n_count L E NF) in E2; [|eapply Took_weaken; [exact Hd|auto..]|exact Hl1]. unfold count_limit in *. lia.
  - eapply took_mono; [apply array_flatten_took|]. destruct H. assumption.
Qed.

(* the loop: each round either shortens the buffer or ends, so [length bs + 1] rounds are enough —
   whatever the element type; BufferEmptyError ends it and never leaves it *)
Lemma decode_all_took L E E' NF dec fuel :
  Took L E' NF False dec -> (NF -> (L < fuel)%nat) -> Took L E NF False (decode_all dec fuel).
Proof.
  intros Hd Hf bs Hl. assert (Hf' : NF -> (length bs < fuel)%nat) by (intros HNF; specialize (Hf HNF); lia). clear Hf.
  revert bs Hl Hf'. induction fuel as [|f IH]; intros bs Hl Hf; cbn [decode_all]; [intros HNF; specialize (Hf HNF); lia|].
  pose proof (Hd bs Hl) as H. destruct (dec bs) as [v r1|e|r|]; cbn in H |- *; auto; [|tauto].
  destruct H as [Hle _]. destruct (length r1 =? length bs)%nat eqn:En; [cbn; tauto|]. apply Nat.eqb_neq in En.
  eapply took_mono with (bs := r1); [|exact Hle].
  apply took_bind_l; [apply IH; [lia|intros HNF; specialize (Hf HNF); lia]|]. intros vs r2 _ _. destruct vs; cbn; intuition lia.
Qed.

Lemma struct_members_took L E NF (D : ty -> bytes -> dres) (B : ty -> Prop) (ms : list (key * ty)) :
  Forall (fun m => Took L E NF (B (snd m)) (D (snd m))) ms ->
  forall acc, Took L E NF (Exists (fun m => B (snd m)) ms) (struct_decode_members (map (fun m => (fst m, D (snd m))) ms) acc).
Proof.
  intros H. induction H as [|[k t] ms Hd _ IH]; intros acc bs Hl; cbn [map struct_decode_members fst snd].
  - cbn. split; [lia|]. intros Hx. inversion Hx.
  - eapply took_weaken; [apply took_bind; [apply Hd, Hl|]|auto..].
    + intros v r1 _ Hle. apply IH. lia.
    + intros Hx. inversion Hx; auto.
Qed.

Lemma stag_members_fuel L E NF (D : ty -> bytes -> dres) (B : ty -> Prop) (ms : list ((key * nat) * ty)) :
  Forall (fun m => Took L E NF (B (snd m)) (D (snd m))) ms ->
  forall acc raw, (length raw <= L)%nat -> stag_decode_members (map (fun m => (fst m, D (snd m))) ms) acc raw = DOutOfFuel -> ~ NF.
Proof.
  intros H. induction H as [|[[k off] t] ms Hd _ IH]; intros acc raw Hl; cbn [map stag_decode_members fst snd]; [discriminate|].
  intros Ef. apply dbind_fuel_inv in Ef as [Ef|(v1 & r1 & E1 & Ef)].
  - cbn [snd] in Hd. assert (Hs : (length (skipn off raw) <= L)%nat) by (rewrite skipn_length; lia).
    specialize (Hd _ Hs). now rewrite Ef in Hd.
  - exact (IH _ raw Hl Ef).
Qed.

Lemma structtag_took L E NF (D : ty -> bytes -> dres) (B : ty -> Prop) ms bits priv size :
  Forall (fun m => Took L E NF (B (snd m)) (D (snd m))) ms ->
  Took L False NF ((0 < size)%nat /\ (Exists (fun m => B (snd m)) ms \/ bits <> []))
    (structtag_decode (map (fun m => (fst m, D (snd m))) ms) bits priv size).
Proof.
  intros Hms bs Hl. unfold structtag_decode. apply took_wrap. destruct (negb _ && _); [exact I|].
  assert (Hs : (length (skipn size bs) <= length bs)%nat) by (rewrite skipn_length; lia).
  destruct (stag_decode_members _ [] (firstn size bs)) as [v x|e|x|] eqn:Em; cbn [took]; auto; [|tauto|].
  - destruct v; try exact I. destruct (stag_decode_bits bits (firstn size bs) d) eqn:Eb; [|exact I].
    cbn [took]. split; [exact Hs|]. intros [Hsz Hb].
    destruct bs as [|b bs]; [exfalso|rewrite skipn_length; cbn [length]; lia].
    rewrite firstn_nil in *. destruct Hb as [Hb|Hb].
    + refine (stag_members_nil D ms _ _ _ _ Em). rewrite Exists_exists in Hb |- *. destruct Hb as (m & Hin & Hm).
      exists m. split; [exact Hin|]. intros v r E0.
      rewrite Forall_forall in Hms. specialize (Hms m Hin [] Hl). rewrite E0 in Hms. destruct Hms as [_ Hms]. specialize (Hms Hm). cbn in Hms. lia.
    + destruct (stag_bits_nil bits d Hb) as [e He]. congruence.
  - revert Em. apply (stag_members_fuel L E NF D B ms Hms). rewrite firstn_length. lia.
Qed.

(* [fuel_ok L fuel t]: decoding [t] from at most L bytes ends within the fuel.  Every Array(L, T)
   inside is over an element type that makes progress, and then L lies below the model's
   [count_limit] (the bound of the loop the model runs for one `range(count)`). *)
Definition fuel_ok (L fuel : nat) (t : ty) : Prop :=
  hprogress t = true /\ (L < fuel)%nat /\ (has_prefix t = true -> Z.of_nat L < count_limit).

Lemma fuel_ok_member {K} L fuel (ms : list (K * ty)) m :
  forallb (fun m => hprogress (snd m)) ms = true -> (L < fuel)%nat ->
  (existsb (fun m => has_prefix (snd m)) ms = true -> Z.of_nat L < count_limit) -> In m ms -> fuel_ok L fuel (snd m).
Proof.
  intros Hh Hf Hc Hin. rewrite forallb_forall in Hh. repeat split; [apply Hh, Hin|exact Hf|].
  intros Hp. apply Hc, existsb_exists. eauto.
Qed.

Theorem decode_took : forall t fuel L,
  Took L (be_ok t = true) (fuel_ok L fuel t) (progress t = true) (decode_fuel fuel t).
Proof.
  induction t as [t Hl| | | | |] using ty_ind_nested; intros fuel L;
    [intros bs _; eapply took_weaken; [apply leaf_took, Hl|auto..]|..]; cbn [decode_fuel].
  - (* TArrFixed: n elements, progress when n > 0 and the element makes progress *)
    intros bs Hl. eapply took_weaken; [apply took_wrap, took_bind_l; [apply (decode_n_took L), Hl; apply IHt|]|auto..].
    + intros vs rest _ _. apply array_flatten_took.
    + cbn [progress]. intros [H1 H2]%andb_prop. split; [apply Nat.ltb_lt|]; assumption.
  - (* TArrPrefix: progress is the length type's; the element's progress bounds the count that can decode *)
    apply array_prefix_took with (B2 := progress t2 = true).
    + eapply Took_weaken; [apply IHt1|cbn [be_ok]; now intros [H1 H2]%andb_prop| |auto].
      intros ([[_ H1]%andb_prop _]%andb_prop & Hf & Hc). repeat split; auto.
    + eapply Took_weaken; [apply IHt2|cbn [be_ok]; now intros [H1 H2]%andb_prop| |auto].
      intros ([_ H2]%andb_prop & Hf & Hc). repeat split; auto.
    + intros ([[Hp _]%andb_prop _]%andb_prop & _ & Hc). split; [exact Hp|now apply Hc].
  - (* TArrAll: the loop ends on the element's BufferEmptyError and never passes it on; no progress is claimed *)
    intros bs Hl. eapply took_weaken with (E := True); [apply took_wrap, took_bind_l|auto..].
    + apply (decode_all_took L True (be_ok t = true) (fuel_ok L fuel (TArrAll t))), Hl.
      * eapply Took_weaken; [apply IHt|tauto..].
      * now intros (_ & Hf & _).
    + intros vs rest _ _. apply array_flatten_took.
    + auto.
    + intros Hp. discriminate Hp.
  - (* TStruct: progress when some member makes progress *)
    intros bs Hl. unfold struct_decode, struct_decode_inner.
    eapply took_weaken with (E := be_ok (TStruct k ms) = true) (NF := fuel_ok L fuel (TStruct k ms))
                            (B := Exists (fun m => progress (snd m) = true) ms);
      [apply took_wrap, took_bind_l; [apply took_bind_l|]|auto..].
    + apply (struct_members_took L _ _ (decode_fuel fuel) (fun t => progress t = true)), Hl.
      rewrite Forall_forall in H |- *. intros m Hin. eapply Took_weaken; [apply (H m Hin)| | |auto].
      * cbn [be_ok]. intros Hb. rewrite forallb_forall in Hb. apply Hb, Hin.
      * intros (Hh & Hf & Hc). exact (fuel_ok_member L fuel ms m Hh Hf Hc Hin).
    + intros v r _ _. destruct v; cbn; intuition lia.
    + intros v r _ _. destruct k; [cbn; intuition lia| |]; destruct v; cbn; auto; destruct (identity_post d); cbn; intuition lia.
    + cbn [progress]. intros (m & Hin & Hp)%existsb_exists. apply Exists_exists. eauto.
  - (* TStructTag: a strict one by its exact width; one that is not strict is not [be_ok], so nothing is claimed of its BufferEmptyError *)
    intros bs Hl. destruct (strict (TStructTag ms bits priv size)) eqn:Hs.
    + eapply took_weaken; [apply sshape_took, (strict_decode _ Hs)|auto..]. apply (strict_progress_width _ Hs).
    + eapply took_weaken with (B := (0 < size)%nat /\ (Exists (fun m => progress (snd m) = true) ms \/ bits <> []));
        [apply (structtag_took L False (fuel_ok L fuel (TStructTag ms bits priv size)) (decode_fuel fuel) (fun t => progress t = true)), Hl| |auto|].
      * rewrite Forall_forall in H |- *. intros m Hin. eapply Took_weaken; [apply (H m Hin)|tauto| |auto].
        intros (Hh & Hf & Hc). exact (fuel_ok_member L fuel ms m Hh Hf Hc Hin).
      * cbn [be_ok]. congruence.
      * cbn [progress]. intros [Hsz Hp]%andb_prop. split; [now apply Nat.ltb_lt|].
        apply orb_prop in Hp as [(m & Hin & Hp)%existsb_exists|Hp]; [left; apply Exists_exists; eauto|right; now destruct bits].
Qed.

Theorem decode_terminates : forall t, hprogress t = true ->
  forall fuel bs, (length bs < fuel)%nat -> (has_prefix t = true -> Z.of_nat (length bs) < count_limit) ->
  decode_fuel fuel t bs <> DOutOfFuel.
Proof.
  intros t Hh fuel bs Hl Hc E. pose proof (decode_took t fuel _ bs (le_n _)) as H. rewrite E in H.
  apply H. repeat split; assumption.
Qed.

Lemma stringi_items_NoFuel count bs ss ls cs : stringi_decode_items count bs ss ls cs <> DOutOfFuel.
Proof. intros E. pose proof (stringi_items_took count bs ss ls cs) as H. rewrite E in H. now apply H. Qed.

Theorem buffer_empty_at_end t fuel bs r : be_ok t = true -> decode_fuel fuel t bs = DEmpty r -> r = [].
Proof. intros Hb E. pose proof (decode_took t fuel _ bs (le_n _)) as H. rewrite E in H. now apply H. Qed.

(* every public decode is wrapped: a foreign exception never escapes *)
Theorem decode_lib fuel t bs e : decode_fuel fuel t bs = DErr e -> e = DataError.
Proof.
  destruct t; cbn [decode_fuel]; apply dwrap_err.          (* also through the Gen-given encodings of FixedSizeString / PCCC types *)
Qed.

(* an element decoder that succeeds without consuming input succeeds any number of times, whatever
   the buffer holds: why Array(L, T) over such a T runs as many rounds as the count says *)
Lemma decode_n_zero_width dec v : (forall bs, dec bs = DOk v bs) -> forall n bs, exists vs, decode_n dec n bs = DOk (VList vs) bs.
Proof.
  intros Hd. induction n as [|n IH]; intros bs; cbn [decode_n]; [eexists; reflexivity|].
  rewrite Hd. cbn [dbind]. destruct (IH bs) as [vs ->]. cbn [dbind]. eexists. reflexivity.
Qed.
