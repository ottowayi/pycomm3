(* Proofs/EncapP.v — C11, frame level: what build_request of every request class produces is the
   spec-side frame [mk_frame] of Spec/EncapParser.v, which the strict parser reads back
   ([parse_mk_frame], Proofs/TargetCoreP.v); the connected data item starts with the sequence count;
   build_message is assembled once for the classes whose _setup_message sets the flag, and is NOT
   for RegisterSession. *)
From Coq Require Import ZifyBool.
From PV Require Import Base.Bytes Base.BytesLemmas Base.Res Model.EncapDefs Gen.EncapGen Model.Encap
                       Spec.EncapParser Proofs.TargetCoreP.
Open Scope Z_scope.
Ltac Zify.zify_post_hook ::= Z.to_euclidean_division_equations.

Definition cmd_of (k : kind) : Z :=
  match k with
  | KSendUnit => CMD_UNITDATA | KSendRR => CMD_RRDATA | KRegister => CMD_REGISTER
  | KUnRegister => CMD_UNREGISTER | KListIdentity => CMD_LIST_IDENTITY
  end.

Definition body_of (k : kind) (seq : Z) (cid : bytes) (msg : bytes) : fbody :=
  match k with
  | KSendUnit => BCpf 10 (AddrConn (le_dec cid)) ITEM_CONN_DATA (le_enc 2 seq ++ msg)
  | KSendRR => BCpf 10 AddrNull ITEM_UNCONN_DATA msg
  | KRegister => BRegister
  | KUnRegister | KListIdentity => BEmpty
  end.

Definition frame_of (k : kind) (seq : Z) (cid : bytes) (msg : bytes) (sess : Z) (ctx : bytes) : frame :=
  {| f_cmd := cmd_of k; f_session := sess; f_context := ctx; f_body := body_of k seq cid msg |}.

(* number of bytes after the header *)
Definition common_len (k : kind) (msg : bytes) : Z :=
  match k with
  | KSendUnit => 22 + zlen msg
  | KSendRR => 16 + zlen msg
  | KRegister => 4
  | _ => 0
  end.

(* the request object the driver builds: class k, sequence count seq (SendUnitData), the driver's
   protocol version (RegisterSession), message body = the chunks [body] *)
Definition request (k : kind) (seq : Z) (body : list bytes) : packet :=
  add (new_packet k (PInt seq) (PBytes CFG_PROTOCOL_VERSION) (PBytes REGISTER_OPTION_FLAGS_DEFAULT)) (map PBytes body).

(* the same with the constructor arguments a class does not look at left arbitrary (the driver passes
   no sequence to the unconnected classes, no protocol version to any class but RegisterSession) *)
Definition request_gen (k : kind) (sq pver flags : pv) (body : list bytes) : packet :=
  add (new_packet k sq pver flags) (map PBytes body).
Definition args_for (k : kind) (seq : Z) (sq pver flags : pv) : Prop :=
  (k = KSendUnit -> sq = PInt seq)
  /\ (k = KRegister -> pver = PBytes CFG_PROTOCOL_VERSION /\ flags = PBytes REGISTER_OPTION_FLAGS_DEFAULT).
Lemma args_for_request k seq : args_for k seq (PInt seq) (PBytes CFG_PROTOCOL_VERSION) (PBytes REGISTER_OPTION_FLAGS_DEFAULT).
Proof. split; intros _; repeat split. Qed.

Definition all_bytes_ok (body : list bytes) : bool := forallb bytes_ok body.

Lemma zlen_blen (b : bytes) : zlen b = blen b.
Proof. reflexivity. Qed.

Lemma enc_uint_ok w z : 0 <= z < pow256 w -> enc_uint w (PInt z) = Ok (le_enc w z).
Proof. intros H. unfold enc_uint, in_urange. destruct ((0 <=? z) && (z <? pow256 w)) eqn:E; [reflexivity | lia]. Qed.

Lemma join_bytes (body : list bytes) : join (map PBytes body) = Ok (concat body).
Proof. induction body as [| b r IH]; cbn [map join concat]; [reflexivity |]. rewrite IH. reflexivity. Qed.

Lemma join_cons_bytes b (l : list pv) : join (PBytes b :: l) = (let* t := join l in Ok (b ++ t)).
Proof. reflexivity. Qed.

Lemma concat_ok (body : list bytes) : all_bytes_ok body = true -> bytes_ok (concat body) = true.
Proof.
  unfold all_bytes_ok. induction body as [| b r IH]; cbn [forallb concat]; intros H; [reflexivity |].
  apply andb_true_iff in H as [Hb Hr]. rewrite bytes_ok_app, Hb, (IH Hr). reflexivity.
Qed.

Lemma length4 (l : bytes) : length l = 4%nat -> exists a b c d, l = [a; b; c; d].
Proof.
  intros H. do 4 (destruct l as [| ? l]; [cbn in H; lia |]). destruct l; [| cbn in H; lia]. now do 4 eexists.
Qed.

Lemma build_header_ok (cmd : bytes) (len sess : Z) (ctx : bytes) :
  0 <= len < 65536 -> 0 <= sess < 4294967296 ->
  build_header {| ha_command := PBytes cmd; ha_length := PInt len; ha_session := PInt sess;
                  ha_context := PBytes ctx; ha_option := PInt CFG_OPTION |}
  = Ok (cmd ++ le_enc 2 len ++ le_enc 4 sess ++ [0; 0; 0; 0] ++ ctx ++ le_enc 4 0).
Proof.
  intros Hl Hs. unfold build_header, header_layout, header_wrap.
  cbn [map hfield_eval harg_val ha_command ha_length ha_session ha_context ha_option].
  rewrite (enc_uint_ok 2 len) by (rewrite pow256_2; lia).
  rewrite (enc_uint_ok 4 sess) by (rewrite pow256_4; lia).
  unfold CFG_OPTION. rewrite (enc_uint_ok 4 0) by (rewrite pow256_4; lia).
  cbn [bind eval_all join wrap_all]. rewrite app_nil_r. reflexivity.
Qed.

Lemma base_cpf_conn (msg cid : bytes) :
  length cid = 4%nat -> bytes_ok cid = true -> zlen msg < 65536 ->
  base_cpf cls_SendUnitData msg (PBytes cid) = Ok (mk_cpf 10 (AddrConn (le_dec cid)) ITEM_CONN_DATA msg).
Proof.
  intros Hc Hok Hm. unfold base_cpf, addr_data_of, ADDR_LEN_SIZE.
  assert (zlen cid = 4) as Hz by (unfold zlen; lia).
  rewrite Hz, (enc_uint_ok 2 4) by (rewrite pow256_2; lia).
  cbn [bind]. unfold cpf_layout.
  cbn [map cfield_eval cattr_val cls_SendUnitData pc_timeout pc_address_type pc_message_type pv_of_opt].
  pose proof (Nat2Z.is_nonneg (length msg)) as Hn.
  rewrite (enc_uint_ok 2 (zlen msg)) by (rewrite pow256_2; unfold zlen in *; lia).
  cbn [bind eval_all join]. rewrite app_nil_r.
  unfold mk_cpf, addr_bytes.
  replace (le_enc 4 (le_dec cid)) with cid by (symmetry; rewrite <- Hc; apply le_enc_dec; exact Hok).
  reflexivity.
Qed.

Lemma base_cpf_null (c : pclass) (msg : bytes) :
  pc_timeout c = Some [10; 0] -> pc_address_type c = Some [0; 0] -> pc_message_type c = Some [178; 0] ->
  zlen msg < 65536 ->
  base_cpf c msg PNone = Ok (mk_cpf 10 AddrNull ITEM_UNCONN_DATA msg).
Proof.
  intros Ht Ha Hm Hl. unfold base_cpf, addr_data_of, ADDR_DATA_NONE. cbn [bind]. unfold cpf_layout.
  cbn [map cfield_eval cattr_val]. rewrite Ht, Ha, Hm. cbn [pv_of_opt].
  pose proof (Nat2Z.is_nonneg (length msg)) as Hn.
  rewrite (enc_uint_ok 2 (zlen msg)) by (rewrite pow256_2; unfold zlen in *; lia).
  cbn [bind eval_all join]. rewrite app_nil_r. reflexivity.
Qed.

Definition message_of (k : kind) (seq : Z) (body : list bytes) : bytes :=
  match k with
  | KSendUnit => le_enc 2 seq ++ concat body
  | KRegister => CFG_PROTOCOL_VERSION ++ REGISTER_OPTION_FLAGS_DEFAULT ++ concat body
  | _ => concat body
  end.

Ltac simp_pkt :=
  cbv [with_msg with_setup with_added with_message p_msg p_added p_kind p_sequence p_protocol_version
       p_option_flags p_msg_setup p_message class_of pc_setup pc_cpf pc_command
       cls_SendUnitData cls_SendRRData cls_RegisterSession cls_UnRegisterSession cls_ListIdentity negb];
  cbn [app].

Lemma build_message_fresh_gen k seq sq pver flags body :
  0 <= seq < 65536 -> args_for k seq sq pver flags ->
  exists p1, build_message (request_gen k sq pver flags body) = (p1, Ok (message_of k seq body)) /\ p_kind p1 = k
             /\ p_message p1 = message_of k seq body
             /\ p_msg_setup p1 = (match k with KRegister => false | _ => true end).
Proof.
  intros Hs [Hu Hr]. unfold build_message, request_gen, add, new_packet, setup_message.
  destruct k; try (rewrite (Hu eq_refl)); try (destruct (Hr eq_refl) as [-> ->]);
    simp_pkt; rewrite ?(enc_uint_ok 2 seq) by (rewrite pow256_2; lia);
    unfold finish_message; simp_pkt; rewrite ?join_cons_bytes, join_bytes; cbn [bind];
    eexists; repeat split; reflexivity.
Qed.

Lemma build_message_fresh k seq body :
  0 <= seq < 65536 ->
  exists p1, build_message (request k seq body) = (p1, Ok (message_of k seq body)) /\ p_kind p1 = k
             /\ p_message p1 = message_of k seq body
             /\ p_msg_setup p1 = (match k with KRegister => false | _ => true end).
Proof. intros Hs. exact (build_message_fresh_gen k seq _ _ _ body Hs (args_for_request k seq)). Qed.

Lemma mk_frame_unfold f :
  mk_frame f = le_enc 2 (f_cmd f) ++ le_enc 2 (blen (body_bytes (f_body f))) ++ le_enc 4 (f_session f)
               ++ [0; 0; 0; 0] ++ f_context f ++ le_enc 4 0 ++ body_bytes (f_body f).
Proof. unfold mk_frame, mk_header. rewrite <- !app_assoc. reflexivity. Qed.

(* what build_request returns is the spec-side frame; [target] is whatever the driver holds in
   _target_cid — only SendUnitData looks at it *)
Lemma build_request_is_mk_frame_gen k seq sq pver flags body (target : pv) cid sess ctx :
  0 <= seq < 65536 -> args_for k seq sq pver flags -> 0 <= sess < 4294967296 ->
  (k = KSendUnit -> target = PBytes cid /\ length cid = 4%nat /\ bytes_ok cid = true) ->
  (k = KRegister -> concat body = []) ->
  common_len k (concat body) < 65536 ->
  exists p1, build_request (request_gen k sq pver flags body) target (PInt sess) (PBytes ctx) (PInt CFG_OPTION)
             = (p1, Ok (mk_frame (frame_of k seq cid (concat body) sess ctx))).
Proof.
  intros Hseq Hargs Hsess Hunit Hreg Hlen.
  destruct (build_message_fresh_gen k seq sq pver flags body Hseq Hargs) as (p1 & Hbm & Hk & _ & _).
  unfold build_request. rewrite Hbm, Hk. exists p1. f_equal.
  pose proof (Nat2Z.is_nonneg (length (concat body))) as Hn.
  rewrite mk_frame_unfold. unfold frame_of. cbn [f_cmd f_session f_context f_body].
  destruct k; cbn [message_of common_len] in *; unfold build_common_packet_format;
    cbn [class_of pc_cpf pc_command cls_SendUnitData cls_SendRRData cls_RegisterSession cls_UnRegisterSession
         cls_ListIdentity pv_of_opt body_of cmd_of body_bytes].
  - destruct (Hunit eq_refl) as (-> & Hc & Hok).
    assert (zlen (le_enc 2 seq ++ concat body) = 2 + zlen (concat body)) as Hz
      by (unfold zlen; rewrite app_length, le_enc_length; lia).
    rewrite (base_cpf_conn (le_enc 2 seq ++ concat body) cid Hc Hok) by lia.
    cbn [bind].
    assert (zlen (mk_cpf 10 (AddrConn (le_dec cid)) ITEM_CONN_DATA (le_enc 2 seq ++ concat body)) = 22 + zlen (concat body)) as Hb.
    { change zlen with blen. unfold mk_cpf, addr_bytes. rewrite !blen_app, !blen_le_enc. unfold blen. cbn [length]. lia. }
    unfold zlen in *. rewrite build_header_ok by (rewrite ?Hb; lia). cbn [bind]. rewrite <- !app_assoc. reflexivity.
  - rewrite base_cpf_null by (try reflexivity; lia). cbn [bind].
    assert (zlen (mk_cpf 10 AddrNull ITEM_UNCONN_DATA (concat body)) = 16 + zlen (concat body)) as Hb.
    { change zlen with blen. unfold mk_cpf, addr_bytes. rewrite !blen_app, !blen_le_enc. unfold blen. cbn [length]. lia. }
    unfold zlen in *. rewrite build_header_ok by (rewrite ?Hb; lia). cbn [bind]. rewrite <- !app_assoc. reflexivity.
  - rewrite (Hreg eq_refl). cbn [bind].
    change (zlen (CFG_PROTOCOL_VERSION ++ REGISTER_OPTION_FLAGS_DEFAULT ++ [])) with 4.
    rewrite build_header_ok by lia. cbn [bind]. rewrite <- !app_assoc. reflexivity.
  - cbn [bind]. change (zlen (@nil Z)) with 0. rewrite build_header_ok by lia. cbn [bind]. rewrite <- !app_assoc. reflexivity.
  - cbn [bind]. change (zlen (@nil Z)) with 0. rewrite build_header_ok by lia. cbn [bind]. rewrite <- !app_assoc. reflexivity.
Qed.

Lemma frame_of_wf k seq cid msg sess ctx :
  0 <= seq < 65536 -> 0 <= sess < 4294967296 -> length ctx = 8%nat -> bytes_ok ctx = true ->
  (k = KSendUnit -> length cid = 4%nat /\ bytes_ok cid = true) -> bytes_ok msg = true ->
  common_len k msg < 65536 ->
  frame_wf (frame_of k seq cid msg sess ctx) = true.
Proof.
  intros Hseq Hsess Hc8 Hcok Hunit Hm Hlen.
  pose proof (Nat2Z.is_nonneg (length msg)) as Hn.
  unfold frame_wf, frame_of. cbn [f_session f_context f_cmd f_body]. rewrite Hcok.
  assert (blen ctx = 8) as -> by (unfold blen; lia).
  destruct k; cbn [body_of cmd_of body_wf common_len] in *; unfold blen, zlen in *.
  - destruct (Hunit eq_refl) as (Hc4 & Hok).
    pose proof (le_dec_range cid Hok) as Hr. rewrite Hc4, pow256_4 in Hr.
    rewrite bytes_ok_app, le_enc_ok, Hm, app_length, le_enc_length.
    unfold CMD_UNITDATA, ITEM_CONN_DATA. lia.
  - rewrite Hm. unfold CMD_RRDATA, ITEM_UNCONN_DATA. lia.
  - unfold CMD_REGISTER. lia.
  - unfold CMD_UNREGISTER, CMD_LIST_SERVICES, CMD_LIST_IDENTITY, CMD_LIST_INTERFACES. lia.
  - unfold CMD_UNREGISTER, CMD_LIST_SERVICES, CMD_LIST_IDENTITY, CMD_LIST_INTERFACES. lia.
Qed.

Lemma frame_ok_gen : forall k seq sq pver flags body target cid sess ctx,
  0 <= seq < 65536 -> args_for k seq sq pver flags -> 0 <= sess < 4294967296 ->
  length ctx = 8%nat -> bytes_ok ctx = true -> all_bytes_ok body = true ->
  (k = KSendUnit -> target = PBytes cid /\ length cid = 4%nat /\ bytes_ok cid = true) ->
  (k = KRegister -> concat body = []) ->
  common_len k (concat body) < 65536 ->
  exists p1 f,
    build_request (request_gen k sq pver flags body) target (PInt sess) (PBytes ctx) (PInt CFG_OPTION) = (p1, Ok f)
    /\ parse_frame f = RcOk (frame_of k seq cid (concat body) sess ctx).
Proof.
  intros k seq sq pver flags body target cid sess ctx Hseq Hargs Hsess Hc8 Hcok Hbody Hunit Hreg Hlen.
  destruct (build_request_is_mk_frame_gen k seq sq pver flags body target cid sess ctx Hseq Hargs Hsess Hunit Hreg Hlen) as (p1 & Hb).
  exists p1, (mk_frame (frame_of k seq cid (concat body) sess ctx)). split; [exact Hb |].
  apply parse_mk_frame, frame_of_wf; try assumption.
  - intros Hk. destruct (Hunit Hk) as (_ & H4 & Hok). now split.
  - now apply concat_ok.
Qed.

(* the headline: for EVERY payload (a universally quantified list of byte strings; the only bound is
   the 16-bit length field), every request class, every session / connection id / context *)
Theorem frame_ok : forall k seq body target cid sess ctx,
  0 <= seq < 65536 -> 0 <= sess < 4294967296 ->
  length ctx = 8%nat -> bytes_ok ctx = true -> all_bytes_ok body = true ->
  (k = KSendUnit -> target = PBytes cid /\ length cid = 4%nat /\ bytes_ok cid = true) ->
  (k = KRegister -> concat body = []) ->
  common_len k (concat body) < 65536 ->
  exists p1 f,
    build_request (request k seq body) target (PInt sess) (PBytes ctx) (PInt CFG_OPTION) = (p1, Ok f)
    /\ parse_frame f = RcOk (frame_of k seq cid (concat body) sess ctx).
Proof.
  intros k seq body target cid sess ctx Hseq. exact (frame_ok_gen k seq _ _ _ body target cid sess ctx Hseq (args_for_request k seq)).
Qed.

Lemma firstn_le_enc w z r : firstn w (le_enc w z ++ r) = le_enc w z.
Proof. rewrite <- (le_enc_length w z) at 1. apply firstn_app_exact. Qed.

(* the connected data item of a SendUnitData request begins with the sequence count given at construction *)
Theorem connected_starts_with_seq : forall seq body cid sess ctx,
  0 <= seq < 65536 -> 0 <= sess < 4294967296 ->
  length ctx = 8%nat -> bytes_ok ctx = true -> all_bytes_ok body = true ->
  length cid = 4%nat -> bytes_ok cid = true -> 22 + zlen (concat body) < 65536 ->
  exists p1 f t d,
    build_request (request KSendUnit seq body) (PBytes cid) (PInt sess) (PBytes ctx) (PInt CFG_OPTION) = (p1, Ok f)
    /\ parse_frame f = RcOk {| f_cmd := CMD_UNITDATA; f_session := sess; f_context := ctx;
                               f_body := BCpf t (AddrConn (le_dec cid)) ITEM_CONN_DATA d |}
    /\ firstn 2 d = le_enc 2 seq /\ le_dec (firstn 2 d) = seq /\ skipn 2 d = concat body.
Proof.
  intros seq body cid sess ctx Hseq Hsess Hc8 Hcok Hbody Hc4 Hcid Hlen.
  destruct (frame_ok KSendUnit seq body (PBytes cid) cid sess ctx Hseq Hsess Hc8 Hcok Hbody) as (p1 & f & Hb & Hp).
  - intros _. repeat split; assumption.
  - discriminate.
  - exact Hlen.
  - exists p1, f, 10, (le_enc 2 seq ++ concat body). split; [exact Hb |]. split; [exact Hp |].
    rewrite firstn_le_enc, le_enc_app_skipn. repeat split.
    apply le_dec_enc_id. rewrite pow256_2. lia.
Qed.

Lemma with_message_idem p m : with_message (with_message p m) m = with_message p m.
Proof. reflexivity. Qed.

Lemma finish_message_fix p p1 m : finish_message p = (p1, Ok m) -> finish_message p1 = (p1, Ok m).
Proof.
  unfold finish_message. destruct (join (p_msg p)) as [m0 | e] eqn:E; intros H; inversion H; subst.
  cbn [with_message p_msg]. rewrite E. reflexivity.
Qed.

(* a second build_message on an object whose first build succeeded and set the flag returns the
   same message and leaves the object as it is *)
Theorem build_message_once : forall p p1 m,
  build_message p = (p1, Ok m) -> p_msg_setup p1 = true -> build_message p1 = (p1, Ok m).
Proof.
  intros p p1 m H Hf. unfold build_message at 1. rewrite Hf. cbn [negb].
  unfold build_message in H. destruct (negb (p_msg_setup p)).
  - destruct (setup_message p) as [p0 [u | e]]; [| discriminate]. eapply finish_message_fix; exact H.
  - eapply finish_message_fix; exact H.
Qed.

Lemma finish_message_flag p p1 r : finish_message p = (p1, r) -> p_msg_setup p1 = p_msg_setup p.
Proof. unfold finish_message. destruct (join (p_msg p)); intros H; inversion H; reflexivity. Qed.

(* every class but RegisterSession sets the flag at its first build (its _setup_message calls the base one) *)
Theorem build_message_sets_flag : forall p p1 r,
  pc_setup (class_of (p_kind p)) <> SetupRegister -> build_message p = (p1, r) -> p_msg_setup p1 = true.
Proof.
  intros p p1 r Hk H. unfold build_message in H. destruct (p_msg_setup p) eqn:Hf; cbn [negb] in H.
  - rewrite (finish_message_flag _ _ _ H). exact Hf.
  - unfold setup_message in H. destruct (pc_setup (class_of (p_kind p))) as [| size |]; [| | congruence].
    + rewrite (finish_message_flag _ _ _ H). reflexivity.
    + destruct (enc_uint size (p_sequence (with_setup p true))) as [b | e].
      * rewrite (finish_message_flag _ _ _ H). reflexivity.
      * inversion H. reflexivity.
Qed.

Corollary build_message_once_flagging : forall p p1 m,
  pc_setup (class_of (p_kind p)) <> SetupRegister -> build_message p = (p1, Ok m) -> build_message p1 = (p1, Ok m).
Proof. intros p p1 m Hk H. eapply build_message_once; [exact H | eapply build_message_sets_flag; eauto]. Qed.

(* RegisterSession's _setup_message does not call the base one: the flag stays False and a second
   build appends version and flags again; the frame then built is rejected (rule 10) *)
Definition register_request : packet := request KRegister 0 [].
Theorem register_rebuilt_refuted :
  exists p1 p2 f1 f2,
    build_request register_request PNone (PInt 0) (PBytes CFG_CONTEXT) (PInt CFG_OPTION) = (p1, Ok f1)
    /\ build_request p1 PNone (PInt 0) (PBytes CFG_CONTEXT) (PInt CFG_OPTION) = (p2, Ok f2)
    /\ parse_frame f1 = RcOk (frame_of KRegister 0 [] [] 0 CFG_CONTEXT)
    /\ parse_frame f2 = RcErr 10
    /\ p_message p1 = [1; 0; 0; 0] /\ p_message p2 = [1; 0; 0; 0; 1; 0; 0; 0].
Proof.
  pose (b1 := build_request register_request PNone (PInt 0) (PBytes CFG_CONTEXT) (PInt CFG_OPTION)).
  pose (b2 := build_request (fst b1) PNone (PInt 0) (PBytes CFG_CONTEXT) (PInt CFG_OPTION)).
  exists (fst b1), (fst b2), (match snd b1 with Ok f => f | Err _ => [] end),
    (match snd b2 with Ok f => f | Err _ => [] end).
  vm_compute. repeat split.
Qed.
