(* Proofs/C09P.v — the headline lemmas of C09, in the exact form Props/C09.v states them.
   The parser is the CIP one ([parse_padded_epath], 32-bit format code 2); that the regenerated
   table of the code agrees with it is [table_f32_cip], by computation on Gen/PathTables.v. *)
From Coq Require Import String.
From PV Require Import Base.Bytes Base.Res Gen.PathTables Model.Path Spec.EPathParser Proofs.PathStr
     Proofs.PathSeg Proofs.PathTag.
From Coq Require Import ZifyBool.
Open Scope Z_scope.
Ltac Zify.zify_post_hook ::= Z.to_euclidean_division_equations.

Lemma table_f32_cip : table_f32 = FORMAT_32BIT.
Proof. reflexivity. Qed.

Lemma f32_cip_cases : FORMAT_32BIT = 2 \/ FORMAT_32BIT = 3.
Proof. now left. Qed.

Lemma no_guard l : existsb (seg_guard FORMAT_32BIT) l = false.
Proof. apply guard_split. left. exact table_f32_cip. Qed.

(* what EPATH.encode(length=True, pad_length) returns for a path body *)
Definition counted (pad_length : bool) (body : list Z) : list Z :=
  len body / 2 :: (if pad_length then [0] else []) ++ body.

Lemma epath_total segs ssegs pad_length :
  denote_all segs = Some ssegs ->
  exists body, encode_segs padded_PADDED_EPATH segs = Ok body /\ Nat.even (length body) = true
    /\ parse_padded_epath body = Some ssegs
    /\ epath_encode padded_PADDED_EPATH segs true pad_length
       = (if len body / 2 <=? 255 then Ok (counted pad_length body) else Err DataError)
    /\ (len body / 2 <= 255 -> parse_counted pad_length (counted pad_length body) = Some ssegs).
Proof.
  intros Hd.
  exact (epath_counted_ok FORMAT_32BIT f32_cip_cases segs ssegs pad_length Hd (no_guard segs)).
Qed.

Lemma logical_ok t lt v :
  assoc_text t spec_ltypes = Some lt -> 0 <= v < 4294967296 ->
  exists bs, encode_seg true (Logical t (LInt v)) = Ok bs /\ Nat.even (length bs) = true
             /\ parse_padded_epath bs = Some [SLogical lt v].
Proof.
  intros Ht Hv.
  destruct (epath_total [Logical t (LInt v)] [SLogical lt v] false) as (body & He & Hev & Hp & _).
  { cbn [denote_all]. now rewrite (denote_logical_int t lt v Ht Hv). }
  change padded_PADDED_EPATH with true in He. cbn [encode_segs] in He.
  destruct (encode_seg true (Logical t (LInt v))) as [bs|]; [|discriminate]. injection He as <-.
  rewrite app_nil_r in *. exists bs. auto.
Qed.

Lemma epath_emitted_ok segs ssegs pad_length out :
  denote_all segs = Some ssegs ->
  epath_encode padded_PADDED_EPATH segs true pad_length = Ok out ->
  exists w body, out = w :: (if pad_length then [0] else []) ++ body /\ len body = 2 * w
                 /\ parse_padded_epath body = Some ssegs /\ parse_counted pad_length out = Some ssegs.
Proof.
  intros Hd Ho. destruct (epath_total segs ssegs pad_length Hd) as (body & _ & Hev & Hp & He & Hc).
  rewrite He in Ho. destruct (len body / 2 <=? 255) eqn:E; [|discriminate]. injection Ho as <-.
  exists (len body / 2), body. split; [reflexivity|]. split.
  - unfold len. apply Nat.even_spec in Hev as [k Hk]. rewrite Hk. lia.
  - split; [exact Hp|]. apply Hc. lia.
Qed.

Lemma logical_format_sizes k f : assoc_z k logical_format = Some f -> k = 1 \/ k = 2 \/ k = 4.
Proof.
  unfold logical_format. cbn [assoc_z].
  destruct (1 =? k) eqn:E1; [lia|]. destruct (2 =? k) eqn:E2; [lia|]. destruct (4 =? k) eqn:E4; [lia|discriminate].
Qed.

Lemma logical_seg_len t v enc : encode_seg true (Logical t v) = Ok enc -> len enc <= 6.
Proof.
  unfold encode_seg, encode_logical, encode_logical_with.
  destruct (assoc_text t logical_types) as [ty|]; [|discriminate].
  destruct (logical_value_bytes v) as [vb|e]; [|discriminate]. cbn [bind].
  destruct (assoc_z (len vb) logical_format) as [f|] eqn:Ef; [|discriminate].
  apply logical_format_sizes in Ef.
  destruct (byte_ok _); [|discriminate]. cbn [wrap_all]. intros H. injection H as <-.
  rewrite len_cons, len_app. destruct (Nat.odd _); [change (len [0]) with 1|change (len []) with 0]; lia.
Qed.

Lemma logical_segs_len segs : Forall (fun s => match s with Logical _ _ => True | _ => False end) segs ->
  forall body, encode_segs true segs = Ok body -> len body <= 6 * Z.of_nat (length segs).
Proof.
  induction 1 as [|s segs Hs _ IH]; cbn [encode_segs]; intros body.
  - intros [= <-]. reflexivity.
  - destruct s as [t v| | | |]; try contradiction.
    destruct (encode_seg true (Logical t v)) as [e|] eqn:E; [|discriminate].
    destruct (encode_segs true segs) as [r|]; [|discriminate]. cbn [bind]. intros [= <-].
    apply logical_seg_len in E. specialize (IH _ eq_refl). rewrite len_app. cbn [length]. lia.
Qed.

Definition request_reading (c i : Z) (a : option Z) : list sseg :=
  [SLogical 0 c; SLogical 1 i] ++ match a with Some x => [SLogical 4 x] | None => [] end.

Lemma request_path_ok c i a :
  0 <= c < 4294967296 -> 0 <= i < 4294967296 ->
  match a with Some x => 0 < x < 4294967296 | None => True end ->
  exists out, request_path (LInt c) (LInt i) (option_map LInt a) = Ok out
              /\ parse_counted false out = Some (request_reading c i a).
Proof.
  intros Hc Hi Ha. unfold request_path.
  set (segs := request_path_segs (LInt c) (LInt i) (option_map LInt a)).
  assert (Hd : denote_all segs = Some (request_reading c i a)).
  { unfold segs, request_path_segs, request_reading. cbn [app denote_all].
    rewrite (denote_logical_int (txt "class_id") 0 c eq_refl Hc), (denote_logical_int (txt "instance_id") 1 i eq_refl Hi).
    destruct a as [x|]; cbn [option_map lval_truthy]; [|reflexivity].
    replace (negb (x =? 0)) with true by lia. cbn [denote_all].
    now rewrite (denote_logical_int (txt "attribute_id") 4 x eq_refl) by (unfold LOGICAL_LIMIT; lia). }
  destruct (epath_total segs _ false Hd) as (body & He & _ & _ & Henc & Hcnt).
  assert (Hlen : len body <= 18).
  { assert (Hs : Forall (fun s => match s with Logical _ _ => True | _ => False end) segs /\ (length segs <= 3)%nat).
    { unfold segs, request_path_segs. destruct a as [x|]; cbn [option_map lval_truthy]; [destruct (negb (x =? 0))|];
        cbn [app length]; (split; [repeat constructor|auto]). }
    pose proof (logical_segs_len segs (proj1 Hs) body He). lia. }
  exists (counted false body). rewrite Henc.
  destruct (len body / 2 <=? 255) eqn:E; [|lia]. split; [reflexivity|]. apply Hcnt. lia.
Qed.

Lemma tag_path_ok p inst use :
  wf_tagpath LOGICAL_LIMIT p = true -> wf_instance LOGICAL_LIMIT p inst use = true ->
  exists body, Nat.even (length body) = true
    /\ parse_padded_epath body = Some (tag_reading p inst use)
    /\ tag_request_path (render_tag p) inst use
       = (if len body / 2 <=? 255 then Ok (Some (counted false body)) else Err DataError)
    /\ (len body / 2 <= 255 -> parse_counted false (counted false body) = Some (tag_reading p inst use)).
Proof.
  intros Hwf Hinst.
  exact (tag_path_ok_gen FORMAT_32BIT LOGICAL_LIMIT p inst use f32_cip_cases (Z.le_refl _)
           (or_introl table_f32_cip) Hwf Hinst).
Qed.

Lemma route_segs hops extra extra_r :
  forallb (wf_hop 65535) hops = true -> denote_all extra = Some extra_r ->
  denote_all (map hop_seg hops ++ extra) = Some (map hop_reading hops ++ extra_r).
Proof. intros Hh He. now rewrite denote_all_app, (denote_hops 65535 hops ltac:(lia) Hh), He. Qed.

Lemma route_total hops extra extra_r pad_length :
  forallb (wf_hop 65535) hops = true -> denote_all extra = Some extra_r ->
  exists body, Nat.even (length body) = true
    /\ parse_padded_epath body = Some (map hop_reading hops ++ extra_r)
    /\ epath_encode padded_PADDED_EPATH (map hop_seg hops ++ extra) true pad_length
       = (if len body / 2 <=? 255 then Ok (counted pad_length body) else Err DataError)
    /\ (len body / 2 <= 255 ->
        parse_counted pad_length (counted pad_length body) = Some (map hop_reading hops ++ extra_r)).
Proof.
  intros Hh He.
  destruct (epath_total _ _ pad_length (route_segs hops extra extra_r Hh He)) as (body & _ & Hev & Hp & Henc & Hc).
  exists body. repeat split; assumption.
Qed.

Lemma route_emitted_ok hops extra extra_r pad_length out :
  forallb (wf_hop 65535) hops = true -> denote_all extra = Some extra_r ->
  epath_encode padded_PADDED_EPATH (map hop_seg hops ++ extra) true pad_length = Ok out ->
  parse_counted pad_length out = Some (map hop_reading hops ++ extra_r).
Proof.
  intros Hh He Ho.
  destruct (epath_emitted_ok _ _ pad_length out (route_segs hops extra extra_r Hh He) Ho) as (w & body & _ & _ & _ & Hc).
  exact Hc.
Qed.
