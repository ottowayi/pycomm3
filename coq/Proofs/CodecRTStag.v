(* Proofs/CodecRTStag.v — C06: the round-trip law for StructTag (Logix template structures):
   members spliced into a zeroed buffer at their offsets, BOOL members set / cleared in hidden host
   bytes, decoding from a private sub-stream by skipping to each offset. *)
From PV Require Import Base.Bytes Base.BytesLemmas Base.Res.
From PV Require Import Model.Codec Model.CodecDom.
From PV Require Import Proofs.CodecRTBase Proofs.CodecRT Proofs.CodecRTDict Proofs.CodecRTBuf.
From Coq Require Import ZifyBool.
Open Scope Z_scope.

Lemma extents_cons k off t ms size :
  extents_ok (stag_layout (((k, off), t) :: ms)) size = true ->
  exists w, fixed_width t = Some w /\ (off + w <= size)%nat
            /\ (forall m w' i, In m ms -> fixed_width (snd m) = Some w' ->
                  inside off w i -> ~ inside (snd (fst m)) w' i)
            /\ extents_ok (stag_layout ms) size = true.
Proof.
  unfold stag_layout. cbn [map extents_ok fst snd]. destruct (fixed_width t) as [w|]; [|discriminate].
  intros H. apply andb_prop in H as [H H3]. apply andb_prop in H as [H1 H2].
  exists w. split; [reflexivity|]. split; [apply Nat.leb_le in H1; exact H1|]. split; [|exact H3].
  intros m w' i Hin Hw'. rewrite forallb_forall in H2.
  specialize (H2 (snd (fst m), fixed_width (snd m)) ltac:(apply in_map_iff; exists m; split; [reflexivity|exact Hin])).
  rewrite Hw' in H2. cbn [ext_disjoint] in H2. unfold inside. lia.
Qed.

Definition member_ok (priv : list text) (d : list (key * val)) (buf : bytes) (m : (key * nat) * ty) : Prop :=
  exists w, fixed_width (snd m) = Some w /\ (snd (fst m) + w <= length buf)%nat /\
  if key_in (fst (fst m)) priv then always_decodes (snd m) = true
  else exists x e, dict_get d (fst (fst m)) = Ok x /\ good (snd m) x e /\ length e = w
                   /\ forall j, (j < w)%nat -> nth_error buf (snd (fst m) + j) = nth_error e j.

Definition outside_visible (priv : list text) (ms : list ((key * nat) * ty)) (i : nat) : Prop :=
  forall m w, In m ms -> key_in (fst (fst m)) priv = false -> fixed_width (snd m) = Some w ->
              ~ inside (snd (fst m)) w i.

(* each visible member is spliced in at its offset; the extents being disjoint, what a member wrote
   is still there at the end, and nothing outside the visible extents has changed *)
Lemma stag_enc_members priv d ms : forall buf,
  Forall (fun m => PRT (snd m)) ms ->
  forallb (fun m => wf_ty (snd m) && negb (greedy (snd m))) ms = true ->
  extents_ok (stag_layout ms) (length buf) = true ->
  forallb (fun m => negb (key_in (fst (fst m)) priv) || always_decodes (snd m)) ms = true ->
  forallb (fun m => key_in (fst (fst m)) priv
                    || match dict_get d (fst (fst m)) with Ok x => in_dom (snd m) x | Err _ => false end) ms = true ->
  exists buf1, stag_encode_members (enc_members ms) priv d buf = Ok buf1
    /\ length buf1 = length buf
    /\ (forall i, outside_visible priv ms i -> nth_error buf1 i = nth_error buf i)
    /\ Forall (member_ok priv d buf1) ms.
Proof.
  induction ms as [|[[k off] t] ms IH]; intros buf Hmp Hwf Hlay Hpriv Hdom.
  - exists buf. repeat split; constructor.
  - inversion Hmp as [|? ? [Hrt Hfw] Hmp']; subst. cbn [snd] in Hrt, Hfw.
    cbn [forallb fst snd] in Hwf, Hpriv, Hdom.
    apply andb_prop in Hwf as [Hwt Hwf]. apply andb_prop in Hwt as [Hwt Hgt]. apply negb_true_iff in Hgt.
    apply andb_prop in Hpriv as [Hpt Hpriv]. apply andb_prop in Hdom as [Hdt Hdom].
    apply extents_cons in Hlay as (w & Hw & Hend & Hdis & Hlay).
    cbn [enc_members map stag_encode_members fst snd]. fold (enc_members ms).
    destruct (key_in k priv) eqn:Ek.
    + cbn [negb orb] in Hpt.
      destruct (IH buf Hmp' Hwf Hlay Hpriv Hdom) as (buf1 & He & Hl & Hout & Hall).
      exists buf1. split; [exact He|]. split; [exact Hl|]. split.
      * intros i Hi. apply Hout. intros m w' Hin. apply Hi. now right.
      * constructor; [|exact Hall]. exists w. cbn [fst snd]. rewrite Ek, Hl. now repeat split.
    + cbn [orb] in Hdt. destruct (dict_get d k) as [x|] eqn:Ex; [|discriminate].
      destruct (good_of_RT t x Hrt Hwt Hgt Hdt) as (e & Hgood).
      pose proof (Hfw w x e Hw Hwt Hdt (proj1 Hgood)) as Hle. subst w.
      cbn [bind]. unfold as_member at 1. rewrite (proj1 Hgood). cbn [bind].
      destruct (IH (splice buf off e) Hmp' Hwf) as (buf1 & He & Hl & Hout & Hall); try assumption.
      { now rewrite splice_length. }
      rewrite splice_length in Hl by exact Hend.
      exists buf1. split; [exact He|]. split; [exact Hl|]. split.
      * intros i Hi. rewrite Hout.
        -- apply splice_nth_outside; [exact Hend|]. exact (Hi ((k, off), t) _ (or_introl eq_refl) Ek Hw).
        -- intros m w' Hin. apply Hi. now right.
      * constructor; [|exact Hall]. exists (length e). cbn [fst snd]. rewrite Ek, Hl.
        split; [exact Hw|]. split; [exact Hend|]. exists x, e. repeat split; try assumption; try apply Hgood.
        intros j Hj. rewrite Hout.
        -- now apply splice_nth_inside.
        -- intros m w' Hin _ Hw'. apply (Hdis m w' _ Hin Hw'). now apply inside_add.
Qed.

Definition bit_off (b : text * (nat * nat)) : nat := fst (snd b).
Definition bit_no (b : text * (nat * nat)) : nat := snd (snd b).

Lemma bitpos_nodup_cons o b r :
  bitpos_nodup ((o, b) :: r) = true -> ~ In (o, b) r /\ bitpos_nodup r = true.
Proof.
  cbn [bitpos_nodup]. intros H. apply andb_prop in H as [H1 H2]. split; [|exact H2].
  intros Hin. apply negb_true_iff in H1.
  assert (existsb (fun p => (fst p =? o)%nat && (snd p =? b)%nat) r = true).
  { apply existsb_exists. exists (o, b). split; [exact Hin|]. cbn. now rewrite !Nat.eqb_refl. }
  congruence.
Qed.

Definition byte_at (buf : bytes) (o : nat) (byte : Z) : Prop := nth_error buf o = Some byte /\ 0 <= byte < 256.

(* the bit of [buf] that BOOL member [b] names holds the dict's value for it *)
Definition bit_ok (d : list (key * val)) (buf : bytes) (b : text * (nat * nat)) : Prop :=
  exists byte val, dict_get d (Some (fst b)) = Ok (VBool val) /\ nth_error buf (bit_off b) = Some byte
                   /\ Z.testbit byte (Z.of_nat (bit_no b)) = val.

Lemma stag_encode_bit name off bit r d buf byte v :
  dict_get d (Some name) = Ok (VBool v) -> byte_at buf off byte -> (bit < 8)%nat ->
  exists buf', stag_encode_bits ((name, (off, bit)) :: r) d buf = stag_encode_bits r d buf'
    /\ length buf' = length buf /\ (forall j, j <> off -> nth_error buf' j = nth_error buf j)
    /\ byte_at buf' off (with_bit byte bit v).
Proof.
  intros Hx [Hb Hr] Hbit. pose proof (with_bit_byte byte bit v Hr Hbit) as Hnb.
  cbn [stag_encode_bits]. rewrite Hx. cbn [bind truthy]. unfold with_bit in *. destruct v.
  - destruct (set_nth_at buf off (fun _ => Z.lor byte (2 ^ Z.of_nat bit)) byte Hb) as (buf' & Hs & L).
    exists buf'. rewrite Hb. cbv zeta. rewrite Hs.
    destruct (Z.lor byte (2 ^ Z.of_nat bit) <? 256) eqn:E; [|lia]. now repeat split; try apply L.
  - destruct (set_nth_at buf off (fun b => Z.land b (Z.lnot (2 ^ Z.of_nat bit))) byte Hb) as (buf' & Hs & L).
    exists buf'. rewrite Hs. now repeat split; try apply L.
Qed.

(* the bits are written one after the other; a bit position that is not (or no longer) to be
   written keeps its value, which is how the bits already written survive the later ones *)
Lemma stag_enc_bits d bits : forall buf,
  forallb (fun b => match dict_get d (Some (fst b)) with Ok x => is_vbool x | Err _ => false end) bits = true ->
  Forall (fun b => (bit_no b < 8)%nat) bits ->
  bitpos_nodup (map snd bits) = true ->
  (forall b, In b bits -> exists byte, byte_at buf (bit_off b) byte) ->
  exists buf2, stag_encode_bits bits d buf = Ok buf2
    /\ length buf2 = length buf
    /\ (forall i, ~ In i (map bit_off bits) -> nth_error buf2 i = nth_error buf i)
    /\ (forall o b0 byte, ~ In (o, b0) (map snd bits) -> byte_at buf o byte ->
          exists byte2, byte_at buf2 o byte2 /\ Z.testbit byte2 (Z.of_nat b0) = Z.testbit byte (Z.of_nat b0))
    /\ Forall (bit_ok d buf2) bits.
Proof.
  induction bits as [|[name [off bit]] bits IH]; intros buf Hv Hr Hnd Hby.
  - exists buf. repeat split; try constructor. intros o b0 byte _ H. exists byte. now split.
  - cbn [forallb fst] in Hv. apply andb_prop in Hv as [Hv0 Hv].
    destruct (dict_get d (Some name)) as [x|] eqn:Ex; [|discriminate]. destruct x as [|v| | | | | | | |]; try discriminate Hv0.
    inversion Hr as [|? ? Hbit Hr']; subst. unfold bit_no in Hbit. cbn [snd] in Hbit.
    cbn [map snd] in Hnd. apply bitpos_nodup_cons in Hnd as [Hnin Hnd].
    destruct (Hby (name, (off, bit)) (or_introl eq_refl)) as (byte & Hb). unfold bit_off in Hb. cbn [fst snd] in Hb.
    destruct (stag_encode_bit name off bit bits d buf byte v Ex Hb Hbit) as (buf' & Hk & L1 & L2 & L3).
    destruct (IH buf' Hv Hr' Hnd) as (buf2 & He & Hl & Hsame & Hpres & Hall).
    { intros b' Hin. destruct (Nat.eq_dec (bit_off b') off) as [->|Hne]; [eauto|].
      destruct (Hby b' (or_intror Hin)) as (byte' & Hb'1 & Hb'2). exists byte'. split; [now rewrite L2|exact Hb'2]. }
    exists buf2. split; [now rewrite Hk|]. split; [now rewrite Hl|]. split; [|split].
    + intros i Hi. cbn [map] in Hi. unfold bit_off at 1 in Hi. cbn [fst snd] in Hi.
      rewrite Hsame by (intros H; apply Hi; now right). apply L2. intros ->. apply Hi. now left.
    + intros o b0 byte0 Hnin0 Ho. cbn [map snd] in Hnin0.
      assert (Hnin' : ~ In (o, b0) (map snd bits)) by (intros H; apply Hnin0; now right).
      destruct (Nat.eq_dec o off) as [->|Hne].
      * destruct (Hpres off b0 _ Hnin' L3) as (byte2 & Hb2 & Ht). exists byte2. split; [exact Hb2|].
        destruct Ho as [Ho _], Hb as [Hb _]. rewrite Hb in Ho. injection Ho as <-.
        rewrite Ht. apply with_bit_other. intros ->. apply Hnin0. now left.
      * apply (Hpres o b0 byte0 Hnin'). destruct Ho as [Ho1 Ho2]. split; [now rewrite L2|exact Ho2].
    + constructor; [|exact Hall].
      destruct (Hpres off bit _ Hnin L3) as (byte2 & [Hb2 _] & Ht).
      exists byte2, v. unfold bit_off, bit_no. cbn [fst snd]. repeat split; [exact Ex|exact Hb2|].
      rewrite Ht. apply with_bit_same.
Qed.

Lemma stag_dec_members priv d buf fuel ms : forall acc,
  Forall (member_ok priv d buf) ms -> (length buf < fuel)%nat ->
  exists kvs,
    stag_decode_members (dec_members fuel ms) acc buf = DOk (VDict (set_all acc kvs)) []
    /\ map fst kvs = map (fun m => fst (fst m)) ms
    /\ filter (fun kv => negb (key_in (fst kv) priv)) kvs
       = flat_map (fun m : (key * nat) * ty =>
                     if key_in (fst (fst m)) priv then []
                     else match dict_get d (fst (fst m)) with
                          | Ok x => [(fst (fst m), norm (snd m) x)]
                          | Err _ => []
                          end) ms.
Proof.
  induction ms as [|[[k off] t] ms IH]; intros acc Hok Hf.
  - now exists [].
  - inversion Hok as [|? ? Hm Hok']; subst.
    destruct Hm as (w & Hw & Hend & Hm). cbn [fst snd] in Hw, Hend, Hm.
    cbn [dec_members map stag_decode_members flat_map fst snd]. fold (dec_members fuel ms).
    destruct (key_in k priv) eqn:Ek.
    + rewrite <- (firstn_skipn w (skipn off buf)), skipn_skipn.
      destruct (ad_all t w (firstn w (skipn off buf)) (skipn (off + w) buf) fuel Hm Hw) as (v & Hv & _).
      { rewrite firstn_length, skipn_length. lia. }
      rewrite Hv. cbn [dbind].
      destruct (IH (dict_set acc k v) Hok' Hf) as (kvs & Hd & Hk & Hfl).
      exists ((k, v) :: kvs). cbn [map filter fst]. rewrite Ek, Hk. now repeat split.
    + destruct Hm as (x & e & Hx & Hgood & Hle & Hnth).
      rewrite (skipn_slice_ext buf e off) by (rewrite Hle; assumption).
      rewrite (proj2 Hgood) by lia. cbn [dbind].
      destruct (IH (dict_set acc k (norm t x)) Hok' Hf) as (kvs & Hd & Hk & Hfl).
      exists ((k, norm t x) :: kvs). cbn [map filter fst]. rewrite Ek, Hk, Hx, Hfl. now repeat split.
Qed.

Definition bit_entries (d : list (key * val)) (bits : list (text * (nat * nat))) : list (key * val) :=
  flat_map (fun b => match dict_get d (Some (fst b)) with Ok x => [(Some (fst b), x)] | Err _ => [] end) bits.

Lemma stag_dec_bits d bits raw : forall acc,
  Forall (bit_ok d raw) bits ->
  stag_decode_bits bits raw acc = Ok (set_all acc (bit_entries d bits)).
Proof.
  induction bits as [|[name [off bit]] bits IH]; intros acc H; [reflexivity|].
  inversion H as [|b0 bs0 (byte & val & Hx & Hb & Ht) H' E1]. clear H. unfold bit_off, bit_no in Hb, Ht. cbn [fst snd] in Hx, Hb, Ht.
  unfold bit_entries. cbn [stag_decode_bits flat_map fst]. rewrite Hb, Hx. cbn [app]. unfold set_all. cbn [fold_left fst snd].
  rewrite Ht. apply IH. exact H'.
Qed.

Lemma outside_of_bits priv ms off :
  existsb (in_extent off) (stag_visible_extents ms priv) = false -> outside_visible priv ms off.
Proof.
  intros H m w Hin Hk Hw Hr.
  assert (existsb (in_extent off) (stag_visible_extents ms priv) = true); [|congruence].
  apply existsb_exists. exists (snd (fst m), Some w). split.
  - unfold stag_visible_extents. apply in_map_iff. exists m. split; [now rewrite Hw|].
    apply filter_In. split; [exact Hin|]. now rewrite Hk.
  - cbn [in_extent]. unfold inside in Hr. apply andb_true_intro. split; [apply Nat.leb_le|apply Nat.ltb_lt]; apply Hr.
Qed.

Lemma member_ok_transfer priv d buf1 buf2 m :
  length buf2 = length buf1 ->
  (key_in (fst (fst m)) priv = false -> forall w i, fixed_width (snd m) = Some w ->
     inside (snd (fst m)) w i -> nth_error buf2 i = nth_error buf1 i) ->
  member_ok priv d buf1 m -> member_ok priv d buf2 m.
Proof.
  intros Hl Hs (w & Hw & Hend & H). exists w. rewrite Hl. split; [exact Hw|]. split; [exact Hend|].
  destruct (key_in (fst (fst m)) priv) eqn:Ek; [exact H|].
  destruct H as (x & e & Hx & Hg & Hle & Hn). exists x, e. repeat split; try assumption; try apply Hg.
  intros j Hj. rewrite (Hs eq_refl w); [now apply Hn|exact Hw|now apply inside_add].
Qed.

Lemma bit_entries_keys d bits :
  forallb (fun b => match dict_get d (Some (fst b)) with Ok x => is_vbool x | Err _ => false end) bits = true ->
  map fst (bit_entries d bits) = map (fun b => Some (fst b)) bits.
Proof.
  induction bits as [|b bits IH]; [reflexivity|]. cbn [forallb]. intros H. apply andb_prop in H as [H1 H2].
  unfold bit_entries. cbn [flat_map map]. destruct (dict_get d (Some (fst b))); [|discriminate].
  cbn [app map fst]. f_equal. now apply IH.
Qed.

Lemma filter_bit_entries priv d bits :
  forallb (fun b => negb (mem_text (fst b) priv)) bits = true ->
  filter (fun kv : key * val => negb (key_in (fst kv) priv)) (bit_entries d bits) = bit_entries d bits.
Proof.
  induction bits as [|b bits IH]; [reflexivity|]. cbn [forallb]. intros H. apply andb_prop in H as [H1 H2].
  unfold bit_entries in *. cbn [flat_map]. rewrite filter_app. f_equal; [|exact (IH H2)].
  destruct (dict_get d (Some (fst b))); [|reflexivity]. cbn [filter fst key_in]. now rewrite H1.
Qed.

Lemma stag_form ms bits priv size d rest :
  Forall (fun m => PRT (snd m)) ms ->
  wf_ty (TStructTag ms bits priv size) = true -> in_dom (TStructTag ms bits priv size) (VDict d) = true ->
  exists bs, encode (TStructTag ms bits priv size) (VDict d) = Ok bs /\ length bs = size
    /\ forall fuel, (length bs < fuel)%nat ->
         decode_fuel fuel (TStructTag ms bits priv size) (bs ++ rest)
         = DOk (norm (TStructTag ms bits priv size) (VDict d)) rest.
Proof.
  (* the members are spliced into the zeroed image first (buf1), the bits set second (buf2); bit bytes
     lie outside every visible member, so what was known of the members in buf1 holds in buf2 *)
  intros Hmp Hwf Hd. cbn [wf_ty] in Hwf.
  apply andb_prop in Hwf as [Hwf Hbnd]. apply andb_prop in Hwf as [Hwf Hbits]. apply andb_prop in Hwf as [Hwf Hpriv].
  apply andb_prop in Hwf as [Hwf Hkeys]. apply andb_prop in Hwf as [Hw1 Hlay].
  cbn [in_dom] in Hd. apply andb_prop in Hd as [Hdm Hdb].
  destruct (stag_enc_members priv d ms (zeros size) Hmp Hw1) as (buf1 & He1 & Hl1 & Hout & Hall1); try assumption.
  { now rewrite zeros_length. }
  rewrite zeros_length in Hl1.
  assert (Hbf : forall b, In b bits -> (bit_off b < size)%nat /\ (bit_no b < 8)%nat
                                       /\ negb (mem_text (fst b) priv) = true
                                       /\ outside_visible priv ms (bit_off b)).
  { intros b Hin. rewrite forallb_forall in Hbits. specialize (Hbits b Hin).
    apply andb_prop in Hbits as [Hb Hb4]. apply andb_prop in Hb as [Hb Hb3]. apply andb_prop in Hb as [Hb1 Hb2].
    split; [now apply Nat.ltb_lt|]. split; [now apply Nat.ltb_lt|]. split; [exact Hb1|].
    apply outside_of_bits. now apply negb_true_iff. }
  destruct (stag_enc_bits d bits buf1 Hdb) as (buf2 & He2 & Hl2 & Hsame & _ & Hallb).
  { apply Forall_forall. intros b Hin. apply (Hbf b Hin). }
  { exact Hbnd. }
  { intros b Hin. destruct (Hbf b Hin) as (H1 & _ & _ & H4).
    exists 0. split; [|clear; lia]. rewrite (Hout _ H4), zeros_repeat. now apply nth_error_repeat. }
  rewrite Hl1 in Hl2.
  assert (Hall2 : Forall (member_ok priv d buf2) ms).
  { apply Forall_forall. intros m Hin. rewrite Forall_forall in Hall1.
    apply (member_ok_transfer priv d buf1 buf2 m); [congruence| |now apply Hall1].
    intros Ek w i Hw Hi. apply Hsame. intros Hib. apply in_map_iff in Hib as (b & <- & Hb).
    destruct (Hbf b Hb) as (_ & _ & _ & H4).
    exact (H4 m w Hin Ek Hw Hi). }
  exists buf2. split; [|split; [exact Hl2|]].
  - cbn [encode]. unfold structtag_encode, pub_encode. fold (enc_members ms). rewrite He1. cbn [bind]. now rewrite He2.
  - intros fuel Hf. cbn [decode_fuel]. unfold structtag_decode. fold (dec_members fuel ms).
    rewrite <- Hl2. cbv zeta. rewrite firstn_app_exact, skipn_app_exact, Nat.ltb_irrefl, andb_false_r.
    destruct (stag_dec_members priv d buf2 fuel ms [] Hall2 Hf) as (kvs & Hdm2 & Hks & Hfl).
    rewrite Hdm2, (stag_dec_bits d bits buf2 _ Hallb), <- set_all_app, set_all_fresh.
    + cbn [app dwrap norm]. rewrite filter_app, Hfl, filter_bit_entries; [reflexivity|].
      apply forallb_forall. intros b Hin. apply (Hbf b Hin).
    + now rewrite map_app, Hks, (bit_entries_keys _ _ Hdb).
    + now apply forallb_forall.
Qed.

Lemma rt_TStructTag ms bits priv size : Forall (fun m => PRT (snd m)) ms -> RT (TStructTag ms bits priv size).
Proof.
  intros Hmp Hwf v rest Hd _. destruct v; try (cbn [in_dom] in Hd; discriminate Hd).
  destruct (stag_form ms bits priv size d rest Hmp Hwf Hd) as (bs & He & _ & Hdec). exists bs. now split.
Qed.

Lemma fw_TStructTag ms bits priv size : Forall (fun m => PRT (snd m)) ms -> FW (TStructTag ms bits priv size).
Proof.
  intros Hmp w v bs Hw Hwf Hd He. cbn in Hw. injection Hw as <-.
  destruct v; try (cbn [in_dom] in Hd; discriminate Hd).
  destruct (stag_form ms bits priv size d [] Hmp Hwf Hd) as (bs' & He' & Hl & _).
  rewrite He in He'. injection He' as <-. exact Hl.
Qed.
