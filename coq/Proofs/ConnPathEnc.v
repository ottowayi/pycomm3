(* Proofs/ConnPathEnc.v — C15: the port-segment encoder of Model/Path.v on the (port text, link
   text) pairs the path parser produces, against the reference classification of one hop. *)
From Coq Require Import String.
From PV Require Import Proofs.PathStr Proofs.PathSeg.
From PV Require Import Base.Bytes Base.Res Base.PyStr Gen.PathTables Model.Path Model.ConnPath
     Spec.ConnPathGrammar Proofs.ConnPathStr.
From Coq Require Import ZifyBool.
Ltac Zify.zify_post_hook ::= Z.to_euclidean_division_equations.
Open Scope Z_scope.

Lemma same_text_eqb a : forall b, same_text a b = text_eqb a b.
Proof. induction a as [|x a IH]; intros [|y b]; cbn; try reflexivity; try now rewrite IH. Qed.
Lemma lookup_assoc k t : lookup k t = assoc_text k t.
Proof. induction t as [|[k' v] r IH]; cbn; [reflexivity|]. now rewrite same_text_eqb, IH. Qed.

(* the documented names are the regenerated ones *)
Lemma doc_names_regenerated : doc_port_names = port_segments.
Proof. reflexivity. Qed.

Lemma doc_name k v : lookup k doc_port_names = Some v ->
  assoc_text k port_segments = Some v /\ isdigit k = false /\ none_of is_sep k = true /\ 1 <= v <= 3.
Proof.
  rewrite lookup_assoc, doc_names_regenerated. intros H. split; [exact H|].
  apply (assoc_text_forallb (fun k v => negb (isdigit k) && none_of is_sep k && (1 <=? v) && (v <=? 3))) in H;
    [|reflexivity].
  apply andb_prop in H as [H H3]. apply andb_prop in H as [H H2]. apply andb_prop in H as [H0 H1].
  apply negb_true_iff in H0. repeat split; auto; lia.
Qed.

Lemma resolve_ok p n : classify_port p = PortOk n ->
  exists pt, port_of_text p = Ok pt /\ resolve_port pt = Ok n /\ 1 <= n <= PMAX.
Proof.
  unfold classify_port, PMAX. destruct (lookup p doc_port_names) as [k|] eqn:El.
  - intros [= ->]. destruct (doc_name _ _ El) as (Ha & Hd & _ & Hn).
    exists (inr p). unfold port_of_text. rewrite Hd. cbn [resolve_port]. rewrite Ha. repeat split; lia.
  - destruct (isdigit p) eqn:Hd; [|discriminate].
    destruct (isdigit_dval p Hd) as [Hv Hp].
    destruct ((1 <=? dval p) && (dval p <=? 65535) && numeral_ok p) eqn:E1; [|discriminate].
    intros [= <-]. exists (inl (dval p)). unfold port_of_text.
    apply andb_prop in E1 as [E1 E2]. rewrite Hd, (int_of_numeral p Hd), E2.
    cbn. repeat split; lia.
Qed.

Lemma resolve_bad p : classify_port p = PortBad ->
  port_of_text p = Ok (inr p) /\ resolve_port (inr p) = Err (Foreign KeyError).
Proof.
  unfold classify_port. destruct (lookup p doc_port_names) as [k|] eqn:El; [discriminate|].
  destruct (isdigit p) eqn:Hd.
  - destruct ((1 <=? dval p) && (dval p <=? PMAX) && numeral_ok p); discriminate.
  - intros _. unfold port_of_text. rewrite Hd. split; [reflexivity|]. cbn [resolve_port].
    rewrite lookup_assoc, doc_names_regenerated in El. now rewrite El.
Qed.

Lemma resolve_notbad p : classify_port p <> PortBad ->
  (exists e, port_of_text p = Err e) \/ (exists pt k, port_of_text p = Ok pt /\ resolve_port pt = Ok k).
Proof.
  intros H. destruct (classify_port p) as [n| |] eqn:E; [| |contradiction].
  - right. destruct (resolve_ok p n E) as [pt [H1 [H2 _]]]. eauto.
  - unfold classify_port in E. destruct (lookup p doc_port_names); [discriminate|].
    destruct (isdigit p) eqn:Hd; [|discriminate].
    unfold port_of_text. rewrite Hd, (int_of_numeral p Hd).
    destruct (numeral_ok p); cbn [bind]; [right|left]; eauto. exists (inl (dval p)), (dval p). auto.
Qed.

Lemma octet_bridge o : octet_ok o = octet o.
Proof.
  unfold octet_ok, octet. destruct (isdigit o) eqn:Hd; [|reflexivity].
  destruct (isdigit_dval o Hd) as [Hv _]. now rewrite Hv.
Qed.
Lemma quad_bridge t : ip_v4_ok t = strict_quad t.
Proof.
  unfold ip_v4_ok, strict_quad. rewrite split_chr_fields.
  change (fun c => c =? 46) with is_dot. destruct (fields is_dot t) as [a fs]. cbn [fst snd].
  destruct fs as [|b [|c [|d [|e r]]]]; try reflexivity. now rewrite !octet_bridge.
Qed.

Lemma quad_props t : strict_quad t = true ->
  forallb (fun c => is_ascii_digit c || is_dot c) t = true /\ (7 <= List.length t <= 15)%nat.
Proof.
  rewrite <- quad_bridge. intros H. destruct (ip_v4_ok_shape t H) as [Hc Hl].
  split; [exact Hc|unfold len in Hl; lia].
Qed.

Lemma link_ok l k : classify_link l = LinkOk k ->
  port_link_bytes (LinkStr l) = Ok (link_bytes k) /\ wf_link k = true.
Proof.
  unfold classify_link. destruct (isdigit l) eqn:Hd.
  - destruct (isdigit_dval l Hd) as [Hv Hp]. destruct (numeral_ok l) eqn:En; [|discriminate]. cbn [negb].
    destruct (dval l <=? 255) eqn:E; [|discriminate].
    intros [= <-]. cbn [port_link_bytes link_bytes wf_link]. rewrite Hd, Hv.
    unfold numeral_ok, NUMERAL_LIMIT in En. unfold len, int_max_str_digits. rewrite En.
    rewrite USINT_small by lia. split; [reflexivity|lia].
  - destruct (existsb is_colon l); [discriminate|]. destruct (strict_quad l) eqn:Eq; [|discriminate].
    intros [= <-]. cbn [port_link_bytes link_bytes wf_link]. rewrite Hd, quad_bridge, Eq.
    destruct (quad_props l Eq) as [Hc _]. split; [|reflexivity].
    now apply utf8_encode_ascii, quad_chars_ascii.
Qed.

Lemma link_bad l c : classify_link l = LinkBad c -> exists e, port_link_bytes (LinkStr l) = Err e.
Proof.
  unfold classify_link. destruct (isdigit l) eqn:Hd.
  - destruct (isdigit_dval l Hd) as [Hv Hp]. destruct (numeral_ok l) eqn:En; [|discriminate]. cbn [negb].
    destruct (dval l <=? 255) eqn:E; [discriminate|].
    intros _. cbn [port_link_bytes]. rewrite Hd, Hv.
    unfold numeral_ok, NUMERAL_LIMIT in En. unfold len, int_max_str_digits. rewrite En.
    rewrite USINT_out by lia. eauto.
  - destruct (existsb is_colon l); [discriminate|]. destruct (strict_quad l) eqn:Eq; [discriminate|].
    intros _. cbn [port_link_bytes]. rewrite Hd, quad_bridge, Eq. eauto.
Qed.

Lemma link_bytes_len k : wf_link k = true -> (1 <= List.length (link_bytes k) <= 15)%nat.
Proof.
  destruct k as [n|t]; cbn [wf_link link_bytes List.length]; intros H; [lia|].
  destruct (quad_props t H) as [_ Hl]. lia.
Qed.

Lemma hop_bytes_wire h : hop_bytes h = port_wire (h_port h) (link_bytes (h_link h)).
Proof. reflexivity. Qed.

(* for every CIP port number 1..65535 (identifier 1..14, or 15 + the 16-bit extended port number)
   the encoder emits the reference wire form of the hop *)
Lemma hop_gen p l h : classify_hop p l = HOk h ->
  exists pt, port_of_text p = Ok pt
             /\ encode_seg true (Port pt (LinkStr l)) = Ok (hop_bytes h) /\ wf_hop h = true.
Proof.
  unfold classify_hop. destruct (classify_port p) as [n| |] eqn:Ep; try discriminate;
    destruct (classify_link l) as [k| |c] eqn:El; try discriminate.
  intros [= <-].
  destruct (resolve_ok p n Ep) as [pt [Hpt [Hr Hn]]]. destruct (link_ok l k El) as [Hl Hwf].
  pose proof (link_bytes_len k Hwf) as Hlen. unfold PMAX in Hn.
  exists pt. split; [exact Hpt|].
  split; [|unfold wf_hop, PMAX; cbn [h_port h_link]; rewrite Hwf; lia].
  rewrite hop_bytes_wire. cbn [h_port h_link]. apply (encode_port_wire pt n _ _ Hr); [lia|exact Hl|unfold len; lia].
Qed.

Lemma hop_bad p l c : classify_hop p l = HBad c ->
  (exists e, port_of_text p = Err e)
  \/ (exists pt, port_of_text p = Ok pt /\ encode_seg true (Port pt (LinkStr l)) = Err DataError).
Proof.
  unfold classify_hop.
  destruct (classify_port p) as [n| |] eqn:Ep.
  - destruct (classify_link l) as [k| |c'] eqn:El; try discriminate. intros _.
    destruct (resolve_ok p n Ep) as [pt [Hpt _]].
    right. exists pt. split; [exact Hpt|]. apply encode_port_err. right. exact (link_bad l c' El).
  - destruct (classify_link l) as [k| |c'] eqn:El; try discriminate. intros _.
    destruct (resolve_notbad p) as [[e He]|[pt [k [Hpt _]]]]; [congruence|left; eauto|].
    right. exists pt. split; [exact Hpt|]. apply encode_port_err. right. exact (link_bad l c' El).
  - intros _. destruct (resolve_bad p Ep) as [Hpt Hr]. right. exists (inr p). split; [exact Hpt|].
    apply encode_port_err. left. eauto.
Qed.

Lemma encode_seg_port_err port link e :
  encode_seg true (Port port link) = Err e -> e = DataError.
Proof. cbn [encode_seg]. destruct (encode_port true port link); cbn; congruence. Qed.
