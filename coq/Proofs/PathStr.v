(* Proofs/PathStr.v — what the path proofs (C09, C15) and the read and write proofs share about Model/Path.v:
   the integer encoders in and out of range, and string lemmas: association lists, split/join, find,
   decimal strings and int() on them, UTF-8 of ASCII text, dotted quads. *)
From Coq Require Import String.
From PV Require Import Base.Bytes Base.Res Base.PyStr Base.PyStrLemmas Model.Path.
From Coq Require Import ZifyBool.
Open Scope Z_scope.
Ltac Zify.zify_post_hook ::= Z.to_euclidean_division_equations.

Lemma len_app a b : len (a ++ b) = len a + len b.
Proof. unfold len. rewrite app_length. lia. Qed.

Lemma len_cons a b : len (a :: b) = 1 + len b.
Proof. unfold len. cbn [length]. lia. Qed.

Lemma len_nonneg a : 0 <= len a.
Proof. unfold len. lia. Qed.

Lemma uint_encode_in w z : 0 <= z < pow256 w -> uint_encode w z = Ok (le_enc w z).
Proof. intros H. unfold uint_encode, in_urange. now replace ((0 <=? z) && (z <? pow256 w)) with true by lia. Qed.

Lemma uint_encode_out w z : z < 0 \/ pow256 w <= z -> uint_encode w z = Err DataError.
Proof. intros H. unfold uint_encode, in_urange. now replace ((0 <=? z) && (z <? pow256 w)) with false by lia. Qed.

Lemma USINT_small z : 0 <= z < 256 -> USINT_encode z = Ok [z].
Proof. intros H. unfold USINT_encode. rewrite uint_encode_in by exact H. cbn [le_enc]. now rewrite Z.mod_small. Qed.

Lemma USINT_out z : z < 0 \/ 256 <= z -> USINT_encode z = Err DataError.
Proof. exact (uint_encode_out 1 z). Qed.

Lemma UINT_ok z : 0 <= z < 65536 -> UINT_encode z = Ok (le_enc 2 z).
Proof. exact (uint_encode_in 2 z). Qed.

Lemma UINT_small z : 0 <= z < 65536 -> UINT_encode z = Ok [z mod 256; z / 256].
Proof. intros H. rewrite UINT_ok by exact H. cbn [le_enc]. now rewrite (Z.mod_small (z / 256)) by lia. Qed.

Lemma UINT_big z : 65536 <= z -> UINT_encode z = Err DataError.
Proof. intros H. apply (uint_encode_out 2). now right. Qed.

Lemma UDINT_ok z : 0 <= z < 4294967296 -> UDINT_encode z = Ok (le_enc 4 z).
Proof. exact (uint_encode_in 4 z). Qed.

Lemma text_eqb_refl a : text_eqb a a = true.
Proof. apply PyStrLemmas.text_eqb_refl. Qed.

(* a key found in an association list is one of its keys, with that value *)
Lemma assoc_text_in k t v : assoc_text k t = Some v -> In (k, v) t.
Proof.
  induction t as [|[k' v'] t IH]; cbn [assoc_text]; [discriminate|].
  destruct (text_eqb k' k) eqn:E.
  - intros H. injection H as ->. apply text_eqb_eq in E. subst. now left.
  - intros H. right. auto.
Qed.

Lemma assoc_text_forallb (P : text -> Z -> bool) t k v :
  forallb (fun kv => P (fst kv) (snd kv)) t = true -> assoc_text k t = Some v -> P k v = true.
Proof. intros H Ha. apply assoc_text_in in Ha. rewrite forallb_forall in H. exact (H _ Ha). Qed.

Definition nosep (sep : Z) (s : text) : bool := forallb (fun c => negb (c =? sep)) s.

Lemma nosep_app c a b : nosep c (a ++ b) = nosep c a && nosep c b.
Proof. unfold nosep. apply forallb_app. Qed.

Lemma nosep_join c sep parts : nosep c sep = true -> forallb (nosep c) parts = true -> nosep c (join sep parts) = true.
Proof.
  intros Hs. induction parts as [|p [|q r] IH]; intros H; cbn [join]; [reflexivity| |].
  - cbn [forallb] in H. now rewrite andb_true_r in H.
  - cbn [forallb] in H. apply andb_true_iff in H as [Hp Hr].
    rewrite !nosep_app, Hp, Hs. cbn [andb]. apply IH. exact Hr.
Qed.

Lemma split_aux_nosep sep p rest cur :
  nosep sep p = true -> split_chr_aux sep (p ++ rest) cur = split_chr_aux sep rest (rev p ++ cur).
Proof.
  revert cur; induction p as [|c p IH]; intros cur H; [reflexivity|].
  cbn [nosep forallb] in H. apply andb_true_iff in H as [Hc Hp].
  cbn [app split_chr_aux]. destruct (c =? sep) eqn:E; [lia|].
  rewrite IH by exact Hp. cbn [rev]. now rewrite <- app_assoc.
Qed.

Lemma split_aux_join sep parts : forall p cur,
  nosep sep p = true -> forallb (nosep sep) parts = true ->
  split_chr_aux sep (join [sep] (p :: parts)) cur = (rev cur ++ p) :: parts.
Proof.
  induction parts as [|q qs IH]; intros p cur Hp Hq.
  - cbn [join]. rewrite <- (app_nil_r p) at 1. rewrite split_aux_nosep by exact Hp.
    cbn [split_chr_aux]. now rewrite rev_app_distr, rev_involutive.
  - cbn [forallb] in Hq. apply andb_true_iff in Hq as [Hq Hqs].
    change (join [sep] (p :: q :: qs)) with (p ++ [sep] ++ join [sep] (q :: qs)).
    rewrite split_aux_nosep by exact Hp. cbn [app split_chr_aux]. rewrite Z.eqb_refl.
    rewrite IH by assumption. now rewrite rev_app_distr, rev_involutive.
Qed.

Lemma split_join sep p parts :
  nosep sep p = true -> forallb (nosep sep) parts = true ->
  split_chr sep (join [sep] (p :: parts)) = p :: parts.
Proof. intros Hp Hq. unfold split_chr. now rewrite split_aux_join. Qed.

Lemma split_aux_nonempty sep s cur : split_chr_aux sep s cur <> [].
Proof.
  revert cur; induction s as [|c s IH]; intros cur; cbn [split_chr_aux]; [discriminate|].
  destruct (c =? sep); [discriminate|apply IH].
Qed.

Lemma join_split_aux sep s : forall cur, join [sep] (split_chr_aux sep s cur) = rev cur ++ s.
Proof.
  induction s as [|c s IH]; intros cur; cbn [split_chr_aux].
  - cbn [join]. now rewrite app_nil_r.
  - destruct (c =? sep) eqn:E.
    + specialize (IH []). destruct (split_chr_aux sep s []) as [|x l] eqn:Es.
      { exfalso. exact (split_aux_nonempty _ _ _ Es). }
      change (join [sep] (rev cur :: x :: l)) with (rev cur ++ [sep] ++ join [sep] (x :: l)).
      rewrite IH. cbn [rev app]. assert (c = sep) by lia. now subst.
    + rewrite IH. cbn [rev]. now rewrite <- app_assoc.
Qed.

Lemma join_split sep s : join [sep] (split_chr sep s) = s.
Proof. unfold split_chr. now rewrite join_split_aux. Qed.

Lemma find_from_nosep c name rest i :
  nosep c name = true -> find_from [c] (name ++ c :: rest) i = Some (i + length name)%nat.
Proof.
  revert i; induction name as [|x name IH]; intros i H.
  - cbn [app find_from starts_with]. rewrite Z.eqb_refl. cbn. f_equal. lia.
  - cbn [nosep forallb] in H. apply andb_true_iff in H as [Hx Hn].
    cbn [app find_from starts_with].
    destruct (c =? x) eqn:E; [lia|]. cbn [andb].
    rewrite IH by exact Hn. f_equal. cbn [length]. lia.
Qed.

Lemma starts_with_app p s : starts_with p s = true -> exists r, s = p ++ r.
Proof.
  revert s; induction p as [|x p IH]; intros s H.
  - now exists s.
  - destruct s as [|y s]; cbn [starts_with] in H; [discriminate|].
    apply andb_true_iff in H as [Hx Hr]. destruct (IH _ Hr) as [r ->].
    exists r. cbn [app]. f_equal. lia.
Qed.

Lemma contains_chr_nosep c s : nosep c s = true -> contains_chr c s = false.
Proof.
  unfold contains_chr. induction s as [|x s IH]; cbn [nosep forallb existsb]; [reflexivity|].
  intros H. apply andb_true_iff in H as [Hx Hs]. rewrite (IH Hs).
  destruct (c =? x) eqn:E; [lia|reflexivity].
Qed.

Lemma contains_chr_app_cons c a b : contains_chr c (a ++ c :: b) = true.
Proof.
  unfold contains_chr. rewrite existsb_app. cbn [existsb]. rewrite Z.eqb_refl.
  now rewrite orb_true_r.
Qed.

Lemma removelast_snoc {A} (l : list A) x : removelast (l ++ [x]) = l.
Proof. rewrite removelast_app by discriminate. cbn. apply app_nil_r. Qed.

Definition all_digits (s : text) : bool := forallb is_ascii_digit s.

Lemma isdigit_forallb t : isdigit t = true <-> t <> [] /\ forallb is_ascii_digit t = true.
Proof. destruct t; cbn [isdigit]; split; intros H; try discriminate; try tauto. split; [discriminate|exact H]. Qed.

Lemma isdigit_all s : isdigit s = true -> all_digits s = true /\ s <> [].
Proof. intros H. apply isdigit_forallb in H. tauto. Qed.

Lemma digits_val_total s : forall acc, all_digits s = true -> exists v, digits_val s acc = Some v.
Proof.
  induction s as [|c s IH]; intros acc H; cbn [digits_val]; [now exists acc|].
  cbn [all_digits forallb] in H. apply andb_true_iff in H as [Hc Hs]. rewrite Hc. now apply IH.
Qed.

Lemma digits_val_nonneg s : forall acc v, 0 <= acc -> digits_val s acc = Some v -> 0 <= v.
Proof.
  induction s as [|c s IH]; intros acc v Ha; cbn [digits_val].
  - intros H. injection H as <-. exact Ha.
  - destruct (is_ascii_digit c) eqn:E; [|discriminate]. unfold is_ascii_digit in E.
    apply IH. lia.
Qed.

Lemma isdigit_val s : isdigit s = true -> exists v, digits_val s 0 = Some v /\ 0 <= v.
Proof.
  intros H. destruct (isdigit_all s H) as [Ha _]. destruct (digits_val_total s 0 Ha) as [v Hv].
  exists v. split; [exact Hv|]. now apply (digits_val_nonneg s 0 v).
Qed.

Lemma digits_us_digits s : forall acc b, all_digits s = true -> (s <> [] \/ b = true) ->
  digits_us s acc b = digits_val s acc.
Proof.
  induction s as [|c s IH]; intros acc b H Hne; cbn [digits_us digits_val].
  - destruct Hne as [Hne| ->]; [congruence|reflexivity].
  - cbn [all_digits forallb] in H. apply andb_true_iff in H as [Hc Hs]. rewrite Hc.
    apply IH; [exact Hs|now right].
Qed.

Lemma digit_not_ws c : is_ascii_digit c = true -> is_ws c = false.
Proof. unfold is_ascii_digit, is_ws. lia. Qed.

Lemma lstrip_digits s : all_digits s = true -> lstrip s = s.
Proof.
  destruct s as [|c s]; [reflexivity|]. cbn [all_digits forallb lstrip]. intros H.
  apply andb_true_iff in H as [Hc _]. now rewrite (digit_not_ws _ Hc).
Qed.

Lemma strip_digits s : all_digits s = true -> strip s = s.
Proof.
  intros H. unfold strip. rewrite (lstrip_digits s H).
  rewrite lstrip_digits; [apply rev_involutive|]. unfold all_digits. now rewrite forallb_rev.
Qed.

(* int() of a decimal string is its value, unless it has more than 4300 digits *)
Lemma py_int_full_isdigit s v : isdigit s = true -> digits_val s 0 = Some v ->
  py_int_full s = if len s <=? int_max_str_digits then Ok v else Err (Foreign ValueError).
Proof.
  intros Hd Hv. destruct (isdigit_all s Hd) as [Ha Hne].
  unfold py_int_full. rewrite (strip_digits s Ha).
  destruct s as [|c r]; [congruence|].
  pose proof Ha as Ha'. cbn [all_digits forallb] in Ha'. apply andb_true_iff in Ha' as [Hc _].
  unfold is_ascii_digit in Hc.
  destruct (c =? 45) eqn:E1; [lia|]. destruct (c =? 43) eqn:E2; [lia|].
  unfold py_int_unsigned, count_digits. rewrite (filter_all _ _ Ha).
  destruct (len (c :: r) <=? int_max_str_digits); [|reflexivity].
  rewrite digits_us_digits by (auto; left; discriminate). now rewrite Hv.
Qed.

Lemma py_int_full_digits s v :
  isdigit s = true -> len s <= int_max_str_digits -> digits_val s 0 = Some v -> py_int_full s = Ok v.
Proof.
  intros Hd Hl Hv. rewrite (py_int_full_isdigit s v Hd Hv).
  now replace (len s <=? int_max_str_digits) with true by lia.
Qed.

Lemma utf8_encode_ascii s : ascii_ok s = true -> utf8_encode s = Ok s.
Proof.
  induction s as [|c s IH]; cbn [ascii_ok forallb utf8_encode]; [reflexivity|].
  intros H. apply andb_true_iff in H as [Hc Hs]. unfold utf8_char.
  destruct (c <? 0) eqn:E0; [lia|]. destruct (c <? 128) eqn:E1; [|lia].
  unfold ascii_ok in IH. rewrite (IH Hs). reflexivity.
Qed.

Lemma ascii_bytes_ok s : ascii_ok s = true -> bytes_ok s = true.
Proof.
  unfold ascii_ok, bytes_ok. induction s as [|c s IH]; cbn [forallb]; [reflexivity|].
  intros H. apply andb_true_iff in H as [Hc Hs]. rewrite (IH Hs). unfold byte_ok. lia.
Qed.

Lemma ascii_ok_app a b : ascii_ok (a ++ b) = ascii_ok a && ascii_ok b.
Proof. unfold ascii_ok. apply forallb_app. Qed.

Lemma octet_ok_facts o : octet_ok o = true -> all_digits o = true /\ (1 <= length o <= 3)%nat.
Proof.
  unfold octet_ok. intros H. apply andb_true_iff in H as [H _]. apply andb_true_iff in H as [H _].
  apply andb_true_iff in H as [H Hl].
  destruct (isdigit_all o H) as [Ha Hne]. split; [exact Ha|].
  destruct o; [congruence|]. cbn [length] in *. apply Nat.leb_le in Hl. lia.
Qed.

Lemma ip_v4_ok_shape s : ip_v4_ok s = true ->
  forallb (fun c => is_ascii_digit c || (c =? 46)) s = true /\ 7 <= len s <= 15.
Proof.
  unfold ip_v4_ok. intros H. pose proof (join_split 46 s) as J.
  destruct (split_chr 46 s) as [|a [|b [|c [|d [|e l]]]]]; try discriminate.
  apply andb_true_iff in H as [H Hd]. apply andb_true_iff in H as [H Hc].
  apply andb_true_iff in H as [Ha Hb].
  destruct (octet_ok_facts _ Ha) as [A1 A2]. destruct (octet_ok_facts _ Hb) as [B1 B2].
  destruct (octet_ok_facts _ Hc) as [C1 C2]. destruct (octet_ok_facts _ Hd) as [D1 D2].
  assert (W : forall o, all_digits o = true -> forallb (fun c => is_ascii_digit c || (c =? 46)) o = true)
    by (intros o; apply forallb_impl; now intros x ->).
  cbn [join] in J. subst s. split.
  - rewrite !forallb_app. cbn [forallb]. now rewrite !W.
  - unfold len. rewrite !app_length. cbn [length]. lia.
Qed.

Lemma quad_chars_ascii s : forallb (fun c => is_ascii_digit c || (c =? 46)) s = true -> ascii_ok s = true.
Proof. apply forallb_impl. intros c. unfold is_ascii_digit. lia. Qed.

Lemma Zodd_of_nat n : Z.odd (Z.of_nat n) = Nat.odd n.
Proof.
  induction n as [|n IH]; [reflexivity|].
  rewrite Nat2Z.inj_succ, Z.odd_succ, Nat.odd_succ, <- Z.negb_odd, <- Nat.negb_odd, IH. reflexivity.
Qed.
