(* Proofs/ReplyValid.v — what the response parsers compute, in terms of the wire bytes, and the
   classification theorems: validity == the Spec's status-word rule for ALL byte strings. *)
From Coq Require Import String ZifyBool.
From PV Require Import Base.Bytes Base.BytesLemmas.
From PV Require Import Gen.Status Gen.Consts.
From PV Require Import Model.Reply Spec.ReplyReader.
From PV Require Import Proofs.ReplyBase.
Open Scope Z_scope.
Ltac Zify.zify_post_hook ::= Z.to_euclidean_division_equations.

Lemma parse_base_spec raw :
  let r := parse_base raw in
  r_raw r = Some raw /\ r_command r = Some (firstn 2 raw) /\ r_service r = None /\ r_service_status r = None
  /\ r_data r = None /\ r_session r = None
  /\ r_command_status r = option_map (to_signed 4) (u32_at 8 raw)
  /\ is_some (r_error r) = is_none (u32_at 8 raw).
Proof.
  unfold parse_base. pose proof (decode_u32_slice DINT_t 8 raw eq_refl) as H. change (8 + 4)%nat with 12%nat in H. change (ety_signed DINT_t) with true in H.
  destruct (u32_at 8 raw) as [e|].
  - rewrite H. cbn. repeat split; reflexivity.
  - destruct (decode_elem DINT_t (slice 8 12 raw)) as [v|x m]; [discriminate|]. cbn. repeat split; reflexivity.
Qed.

Definition encap_zero (raw : bytes) : bool := match encap_status raw with Some e => e =? 0 | None => false end.

Lemma command_status_zero raw : bytes_ok raw = true ->
  opt_is (option_map (to_signed 4) (u32_at 8 raw)) SUCCESS = encap_zero raw.
Proof.
  intros Hok. unfold encap_zero, encap_status. destruct (u32_at 8 raw) as [e|] eqn:E; [|reflexivity].
  exact (to_signed4_zero e (u32_range 8 raw e Hok E)).
Qed.

Lemma parse_cip_spec o1 o2 o3 raw : bytes_ok raw = true ->
  let r := parse_cip o1 o2 o3 raw in
  r_raw r = Some raw /\ r_command r = Some (firstn 2 raw) /\ r_session r = None
  /\ r_command_status r = option_map (to_signed 4) (u32_at 8 raw)
  /\ match nth_error raw o1, nth_error raw o2 with
     | Some s, Some g =>
         if 128 <=? s then
           r_service r = svc_of (s - 128) /\ r_service_status r = Some g /\ r_data r = Some (skipn o3 raw)
           /\ is_some (r_error r) = is_none (u32_at 8 raw)
         else is_some (r_error r) = true /\ r_data r = None /\ r_service_status r = None
     | _, _ => is_some (r_error r) = true /\ r_data r = None /\ r_service_status r = None
     end.
Proof.
  intros Hok. unfold parse_cip.
  destruct (parse_base_spec raw) as (B1 & B2 & B3 & B4 & B5 & B6 & B7 & B8).
  pose proof (from_reply_slice o1 raw Hok) as HF.
  pose proof (decode_usint_slice o2 raw) as HS.
  destruct (nth_error raw o1) as [s|]; [destruct (128 <=? s) eqn:Es|].
  2,3: (destruct (from_reply (slice o1 (S o1) raw)) as [v|x m]; [discriminate|];
        cbn [set_error r_raw r_error r_command r_command_status r_service r_service_status r_data r_session is_some];
        destruct (nth_error raw o2); repeat split; auto).
  rewrite HF, HS.
  destruct (nth_error raw o2) as [g|]; cbn [set_error set_service set_status_data r_raw r_error r_command r_command_status r_service r_service_status r_data r_session is_some];
    repeat split; auto.
Qed.

Lemma parse_cip_complete o1 o2 o3 raw e s g : bytes_ok raw = true ->
  u32_at 8 raw = Some e -> nth_error raw o1 = Some s -> 128 <= s -> nth_error raw o2 = Some g ->
  parse_cip o1 o2 o3 raw
  = mkResp (Some raw) None (Some (firstn 2 raw)) (Some (to_signed 4 e)) (svc_of (s - 128)) (Some g) (Some (skipn o3 raw)) None.
Proof.
  intros Hok Ee Es Hs Eg. destruct (parse_cip_spec o1 o2 o3 raw Hok) as (P1 & P2 & P3 & P4 & P5).
  rewrite Es, Eg, Ee in *. replace (128 <=? s) with true in P5 by lia. destruct P5 as (Q1 & Q2 & Q3 & Q4).
  destruct (parse_cip o1 o2 o3 raw) as [a b c d f g' h i].
  cbn [r_raw r_error r_command r_command_status r_service r_service_status r_data r_session option_map is_none] in *.
  subst. now destruct b.
Qed.

(* a general status is recorded only on the complete branch (both bytes present, reply bit set),
   and only there is there data *)
Lemma parse_cip_status o1 o2 o3 raw g : bytes_ok raw = true ->
  r_service_status (parse_cip o1 o2 o3 raw) = Some g ->
  exists s, nth_error raw o1 = Some s /\ 128 <= s /\ nth_error raw o2 = Some g
    /\ r_data (parse_cip o1 o2 o3 raw) = Some (skipn o3 raw).
Proof.
  intros Hok H. destruct (parse_cip_spec o1 o2 o3 raw Hok) as (_ & _ & _ & _ & P5).
  destruct (nth_error raw o1) as [s|]; [destruct (nth_error raw o2) as [g'|]; [destruct (128 <=? s) eqn:E|]|];
    try (destruct P5 as (_ & _ & Q); congruence).
  destruct P5 as (_ & Q2 & Q3 & _). exists s. rewrite Q2 in H. injection H as ->. repeat split; auto. lia.
Qed.
Lemma parse_cip_data o1 o2 o3 raw : bytes_ok raw = true ->
  r_data (parse_cip o1 o2 o3 raw) = (if is_some (r_service_status (parse_cip o1 o2 o3 raw)) then Some (skipn o3 raw) else None).
Proof.
  intros Hok. destruct (r_service_status _) as [g|] eqn:E; [now destruct (parse_cip_status _ _ _ _ _ Hok E) as (s & _ & _ & _ & ->)|].
  destruct (parse_cip_spec o1 o2 o3 raw Hok) as (_ & _ & _ & _ & P5).
  destruct (nth_error raw o1) as [s|]; [destruct (nth_error raw o2) as [g'|]; [destruct (128 <=? s)|]|];
    try (destruct P5 as (_ & Q & _); exact Q).
  destruct P5 as (_ & Q2 & _). congruence.
Qed.

Lemma is_none_some_neg {A} (o : option A) : is_none o = negb (is_some o).
Proof. now destruct o. Qed.

(* validity of a CIP reply == the Spec's rule, for every byte string *)
Lemma cip_valid_iff (partial : bool) L raw : bytes_ok raw = true ->
  let r := parse_cip (l_svc L) (l_status L) (l_data L) raw in
  is_valid_base r && (opt_is (r_service_status r) SUCCESS
                      || (partial && (opt_is (r_service_status r) INSUFFICIENT_PACKETS && in_multi_packet_services (r_service r))))
  = spec_success partial L raw.
Proof.
  intros Hok r.
  destruct (parse_cip_spec (l_svc L) (l_status L) (l_data L) raw Hok) as (P1 & P2 & P3 & P4 & P5).
  fold r in P1, P2, P3, P4, P5.
  unfold is_valid_base, spec_success, status_ok, status_words, reply_bit, byte_at.
  rewrite is_none_some_neg, P2, P4, (command_status_zero raw Hok). unfold encap_zero.
  destruct (nth_error raw (l_svc L)) as [s|] eqn:E1;
    [destruct (nth_error raw (l_status L)) as [g|] eqn:E2; [destruct (128 <=? s) eqn:Es|]|].
  (* an incomplete reply has an error recorded and is no success for the Spec either *)
  2-4: (destruct P5 as (Q1 & _); rewrite Q1; cbn; destruct (encap_status raw); cbn; rewrite ?andb_false_r; reflexivity).
  pose proof (nth_error_bytes_ok raw _ s Hok E1) as Hs.
  destruct P5 as (Q1 & Q2 & Q3 & Q4). rewrite Q1, Q2, Q4. unfold encap_status.
  destruct (u32_at 8 raw) as [e|]; cbn [is_none negb andb is_some opt_is]; [|reflexivity].
  unfold SUCCESS, INSUFFICIENT_PACKETS. rewrite (multi_services_agree (s - 128)) by lia.
  replace (s mod 128) with (s - 128) by (clear - Hs Es; lia).
  rewrite andb_true_r, andb_assoc. reflexivity.
Qed.

Theorem unit_valid_iff raw : bytes_ok raw = true ->
  is_valid KUnit (parse_unit raw) = spec_success true unit_layout raw.
Proof. intros Hok. rewrite <- (cip_valid_iff true unit_layout raw Hok). reflexivity. Qed.

Theorem rr_valid_iff raw : bytes_ok raw = true ->
  is_valid KRR (parse_rr raw) = spec_success false rr_layout raw.
Proof.
  intros Hok. rewrite <- (cip_valid_iff false rr_layout raw Hok). cbn [is_valid andb orb].
  unfold parse_rr. cbn [l_svc l_status l_data rr_layout]. now rewrite orb_false_r.
Qed.

(* "too short to contain its status words is never success": the -> direction, spelled out *)
Lemma spec_success_words partial L raw : spec_success partial L raw = true ->
  encap_status raw = Some 0 /\ exists s g, byte_at (l_svc L) raw = Some s /\ 128 <= s /\ byte_at (l_status L) raw = Some g
    /\ (g = 0 \/ (partial = true /\ g = 6 /\ continues (s mod 128) = true)).
Proof.
  unfold spec_success, status_ok, status_words, reply_bit.
  destruct (encap_status raw) as [e|]; [|discriminate].
  destruct (byte_at (l_svc L) raw) as [s|]; [|discriminate]. destruct (byte_at (l_status L) raw) as [g|]; [|discriminate].
  intros H. apply andb_true_iff in H as [H H2]. apply andb_true_iff in H as [H0 H1].
  split; [f_equal; lia|]. exists s, g. repeat split; [lia|].
  apply orb_true_iff in H1 as [H1|H1]; [left; lia|right].
  apply andb_true_iff in H1 as [H1 H3]. apply andb_true_iff in H1 as [H1 H4]. auto with zarith.
Qed.
Corollary unit_valid_needs_words raw : bytes_ok raw = true -> is_valid KUnit (parse_unit raw) = true ->
  (49 <= length raw)%nat /\ encap_status raw = Some 0 /\ exists s g, byte_at 46 raw = Some s /\ 128 <= s
    /\ byte_at 48 raw = Some g /\ (g = 0 \/ (g = 6 /\ continues (s mod 128) = true)).
Proof.
  intros Hok. rewrite (unit_valid_iff raw Hok). intros H.
  destruct (spec_success_words _ _ _ H) as (He & s & g & Hs & H128 & Hg & Hc). cbn [l_svc l_status unit_layout] in *.
  split; [apply nth_error_some_lt in Hg; lia|]. split; [exact He|]. exists s, g. intuition.
Qed.
Corollary rr_valid_needs_words raw : bytes_ok raw = true -> is_valid KRR (parse_rr raw) = true ->
  (43 <= length raw)%nat /\ encap_status raw = Some 0 /\ exists s, byte_at 40 raw = Some s /\ 128 <= s /\ byte_at 42 raw = Some 0.
Proof.
  intros Hok. rewrite (rr_valid_iff raw Hok). intros H.
  destruct (spec_success_words _ _ _ H) as (He & s & g & Hs & H128 & Hg & [->|[Hc _]]); [|discriminate].
  cbn [l_svc l_status rr_layout] in *. split; [apply nth_error_some_lt in Hg; lia|]. eauto.
Qed.

Lemma base_valid_iff raw : bytes_ok raw = true -> is_valid KBase (parse_base raw) = encap_zero raw.
Proof.
  intros Hok. destruct (parse_base_spec raw) as (_ & B2 & _ & _ & _ & _ & B7 & B8).
  unfold is_valid, is_valid_base. rewrite is_none_some_neg, B8, B2, B7, (command_status_zero raw Hok).
  unfold encap_zero, encap_status. now destruct (u32_at 8 raw).
Qed.

Lemma set_error_invalid k r e : is_valid k (set_error r e) = false.
Proof. destruct k; reflexivity. Qed.

Lemma parse_register_spec raw : bytes_ok raw = true ->
  is_valid KRegister (parse_register raw) = encap_zero raw
  /\ (encap_zero raw = true -> r_session (parse_register raw) = u32_at 4 raw /\ u32_at 4 raw <> None).
Proof.
  intros Hok. unfold parse_register.
  pose proof (decode_u32_slice UDINT_t 4 raw eq_refl) as H. change (4 + 4)%nat with 8%nat in H. change (ety_signed UDINT_t) with false in H.
  destruct (u32_at 4 raw) as [s|] eqn:Hs.
  - (* the session is set and nothing else changes: validity is that of the plain response *)
    rewrite H. change (is_valid KRegister (set_session (parse_base raw) s)) with (is_valid KBase (parse_base raw) && true).
    rewrite (base_valid_iff raw Hok), andb_true_r. split; [reflexivity|]. intros _. split; [reflexivity|discriminate].
  - (* fewer than 8 bytes: no status word either *)
    destruct (decode_elem UDINT_t (slice 4 8 raw)) as [v|x m]; [discriminate|]. rewrite set_error_invalid.
    assert (E8 : u32_at 8 raw = None).
    { destruct (u32_at 8 raw) eqn:E; [|reflexivity]. exfalso. apply (u32_at_present 4 raw); [|exact Hs].
      assert (u32_at 8 raw <> None) as H8 by congruence. apply u32_at_present in H8. lia. }
    unfold encap_zero, encap_status. rewrite E8. split; [reflexivity|discriminate].
Qed.

Theorem register_valid_iff raw : bytes_ok raw = true -> is_valid KRegister (parse_register raw) = encap_zero raw.
Proof. intros Hok. apply (parse_register_spec raw Hok). Qed.
