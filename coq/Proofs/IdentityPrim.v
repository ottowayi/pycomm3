(* Proofs/IdentityPrim.v — lemmas about the primitive decoders / encoders of Model/Identity.v on
   the wire encodings of Spec/IdentitySpec.v.  The facts read from the regenerated Gen/Types.v
   (sizes, struct formats, len_type and encoding of SHORT_STRING) are the [type_row_*] lemmas: a
   change of one of these declarations in /repo breaks them (and with them C16). *)
From Coq Require Import String ZifyBool.
From PV Require Import Base.Bytes Base.BytesLemmas Base.Res Base.Proto Base.PyStr Base.PyStrLemmas Model.Identity Spec.IdentitySpec.
From PV Require Gen.Types.
Open Scope Z_scope.
Ltac Zify.zify_post_hook ::= Z.to_euclidean_division_equations.

(* [x :: ... = y :: ...] with arithmetic heads *)
Ltac list_lia := repeat (apply (f_equal2 (@cons Z)); [lia|]); try reflexivity.

(* regenerated facts *)
Lemma type_row_USINT : type_row T_USINT = Some (1, zs_of_string "<B", [], []).
Proof. vm_compute. reflexivity. Qed.
Lemma type_row_UINT : type_row T_UINT = Some (2, zs_of_string "<H", [], []).
Proof. vm_compute. reflexivity. Qed.
Lemma type_row_INT : type_row T_INT = Some (2, zs_of_string "<h", [], []).
Proof. vm_compute. reflexivity. Qed.
Lemma type_row_DINT : type_row T_DINT = Some (4, zs_of_string "<i", [], []).
Proof. vm_compute. reflexivity. Qed.
Lemma type_row_UDINT : type_row T_UDINT = Some (4, zs_of_string "<I", [], []).
Proof. vm_compute. reflexivity. Qed.
Lemma type_row_ULINT : type_row T_ULINT = Some (8, zs_of_string "<Q", [], []).
Proof. vm_compute. reflexivity. Qed.
Lemma type_row_SHORT_STRING : type_row T_SHORT_STRING = Some (0, [], T_USINT, ENC_LATIN1).
Proof. vm_compute. reflexivity. Qed.

Lemma fmt_B : fmt_sem (zs_of_string "<B") = Some (false, 1%nat). Proof. vm_compute. reflexivity. Qed.
Lemma fmt_H : fmt_sem (zs_of_string "<H") = Some (false, 2%nat). Proof. vm_compute. reflexivity. Qed.
Lemma fmt_h : fmt_sem (zs_of_string "<h") = Some (true, 2%nat). Proof. vm_compute. reflexivity. Qed.
Lemma fmt_i : fmt_sem (zs_of_string "<i") = Some (true, 4%nat). Proof. vm_compute. reflexivity. Qed.
Lemma fmt_I : fmt_sem (zs_of_string "<I") = Some (false, 4%nat). Proof. vm_compute. reflexivity. Qed.
Lemma fmt_Q : fmt_sem (zs_of_string "<Q") = Some (false, 8%nat). Proof. vm_compute. reflexivity. Qed.

Lemma text_eqb_refl a : text_eqb a a = true.
Proof. now apply text_eqb_eq. Qed.

Lemma stream_read_app d rest : d <> [] -> stream_read (length d) (d ++ rest) = Ok (d, rest).
Proof.
  intros H. unfold stream_read. rewrite firstn_app_exact, skipn_app_exact.
  destruct d as [|x d]; [congruence|]. rewrite Nat.ltb_irrefl. reflexivity.
Qed.

Lemma elem_decode_gen name size fmt lt enc sg w d rest :
  type_row name = Some (size, fmt, lt, enc) -> fmt_sem fmt = Some (sg, w) -> Z.to_nat size = w ->
  length d = w -> (0 < w)%nat ->
  elem_decode name (d ++ rest) = Ok ((if sg then to_signed w (le_dec d) else le_dec d), rest).
Proof.
  intros Hr Hf Hs Hl Hw. unfold elem_decode. rewrite Hr, Hf, Hs. clear Hs. subst w.
  rewrite stream_read_app by (destruct d; cbn [length] in Hw; [lia|congruence]).
  cbn [bind]. unfold unpack. rewrite Nat.eqb_refl. reflexivity.
Qed.

(* members whose value the structs drop (unnamed) or keep as it is: any bytes of the right length *)
Lemma dec_USINT a rest : elem_decode T_USINT (a :: rest) = Ok (a, rest).
Proof.
  change (a :: rest) with ([a] ++ rest).
  rewrite (elem_decode_gen _ _ _ _ _ _ _ [a] rest type_row_USINT fmt_B eq_refl eq_refl) by lia.
  cbn [le_dec]. f_equal. f_equal. lia.
Qed.
Lemma dec_UINT_raw d rest : length d = 2%nat -> elem_decode T_UINT (d ++ rest) = Ok (le_dec d, rest).
Proof. intros H. rewrite (elem_decode_gen _ _ _ _ _ _ _ d rest type_row_UINT fmt_H eq_refl H) by lia. reflexivity. Qed.
Lemma dec_INT_raw d rest : length d = 2%nat -> elem_decode T_INT (d ++ rest) = Ok (to_signed 2 (le_dec d), rest).
Proof. intros H. rewrite (elem_decode_gen _ _ _ _ _ _ _ d rest type_row_INT fmt_h eq_refl H) by lia. reflexivity. Qed.
Lemma dec_DINT_raw d rest : length d = 4%nat -> elem_decode T_DINT (d ++ rest) = Ok (to_signed 4 (le_dec d), rest).
Proof. intros H. rewrite (elem_decode_gen _ _ _ _ _ _ _ d rest type_row_DINT fmt_i eq_refl H) by lia. reflexivity. Qed.
Lemma dec_UDINT_raw d rest : length d = 4%nat -> elem_decode T_UDINT (d ++ rest) = Ok (le_dec d, rest).
Proof. intros H. rewrite (elem_decode_gen _ _ _ _ _ _ _ d rest type_row_UDINT fmt_I eq_refl H) by lia. reflexivity. Qed.
Lemma dec_ULINT_raw d rest : length d = 8%nat -> elem_decode T_ULINT (d ++ rest) = Ok (le_dec d, rest).
Proof. intros H. rewrite (elem_decode_gen _ _ _ _ _ _ _ d rest type_row_ULINT fmt_Q eq_refl H) by lia. reflexivity. Qed.

(* the arithmetic encodings of the Spec decode to the number that was encoded *)
Lemma dec_UINT v rest : elem_decode T_UINT (spec_u16le v ++ rest) = Ok (v, rest).
Proof.
  rewrite dec_UINT_raw by reflexivity. unfold spec_u16le. cbn [le_dec]. f_equal. f_equal. lia.
Qed.
Lemma dec_UDINT v rest : elem_decode T_UDINT (spec_u32le v ++ rest) = Ok (v, rest).
Proof.
  rewrite dec_UDINT_raw by reflexivity. unfold spec_u32le. cbn [le_dec]. f_equal. f_equal. lia.
Qed.

Lemma elem_encode_gen name size fmt lt enc w v :
  type_row name = Some (size, fmt, lt, enc) -> fmt_sem fmt = Some (false, w) -> in_urange w v = true ->
  elem_encode name v = Ok (le_enc w v).
Proof. intros Hr Hf Hv. unfold elem_encode. rewrite Hr, Hf. unfold pack. rewrite Hv. reflexivity. Qed.

Lemma enc_USINT v : 0 <= v < 256 -> elem_encode T_USINT v = Ok [v].
Proof.
  intros H. rewrite (elem_encode_gen _ _ _ _ _ 1%nat v type_row_USINT fmt_B).
  - cbn [le_enc]. f_equal. list_lia.
  - unfold in_urange. change (pow256 1) with 256. lia.
Qed.
Lemma enc_UINT v : 0 <= v < 65536 -> elem_encode T_UINT v = Ok (spec_u16le v).
Proof.
  intros H. rewrite (elem_encode_gen _ _ _ _ _ 2%nat v type_row_UINT fmt_H).
  - cbn [le_enc]. unfold spec_u16le. f_equal. list_lia.
  - unfold in_urange. change (pow256 2) with 65536. lia.
Qed.
Lemma enc_UDINT v : 0 <= v < 4294967296 -> elem_encode T_UDINT v = Ok (spec_u32le v).
Proof.
  intros H. rewrite (elem_encode_gen _ _ _ _ _ 4%nat v type_row_UDINT fmt_I).
  - cbn [le_enc]. unfold spec_u32le. f_equal. list_lia.
  - unfold in_urange. change (pow256 4) with 4294967296. lia.
Qed.

Lemma dec_SHORT_STRING s rest :
  (length s <= 255)%nat -> string_decode T_SHORT_STRING (spec_short_string s ++ rest) = Ok (s, rest).
Proof.
  intros Hl. unfold string_decode. rewrite type_row_SHORT_STRING.
  change (zs_eqb ENC_LATIN1 ENC_LATIN1) with true. cbv iota.
  unfold spec_short_string. rewrite <- app_comm_cons. rewrite dec_USINT. cbn [bind wrap_decode].
  destruct s as [|c s].
  - reflexivity.
  - destruct (Z.of_nat (length (c :: s)) =? 0) eqn:E; [cbn [length] in E; lia|].
    rewrite Nat2Z.id. rewrite stream_read_app by congruence. reflexivity.
Qed.

Lemma enc_SHORT_STRING s :
  (length s <= 255)%nat -> latin1_ok s = true -> string_encode T_SHORT_STRING s = Ok (spec_short_string s).
Proof.
  intros Hl Hs. unfold string_encode. rewrite type_row_SHORT_STRING.
  change (zs_eqb ENC_LATIN1 ENC_LATIN1) with true. cbv iota.
  rewrite enc_USINT by lia. unfold latin1_encode. rewrite Hs. reflexivity.
Qed.

Lemma dec_bytes n d rest : length d = n -> (0 < n)%nat -> bytes_decode n (d ++ rest) = Ok (d, rest).
Proof.
  intros Hl Hn. unfold bytes_decode. subst n.
  rewrite stream_read_app by (destruct d; cbn [length] in Hn; [lia|congruence]). reflexivity.
Qed.

Lemma dec_Revision a b rest : Revision_decode (a :: b :: rest) = Ok ((a, b), rest).
Proof. unfold Revision_decode. rewrite dec_USINT. cbn [bind]. rewrite dec_USINT. reflexivity. Qed.

Lemma enc_Revision a b : 0 <= a < 256 -> 0 <= b < 256 -> Revision_encode a b = Ok [a; b].
Proof. intros Ha Hb. unfold Revision_encode. rewrite !enc_USINT by assumption. reflexivity. Qed.

Lemma str_octet o : 0 <= o < 256 -> py_str_int o = dec_octet o.
Proof.
  intros H. apply text_eqb_eq.
  apply (forallb_zrange (fun o => text_eqb (py_str_int o) (dec_octet o)) 256); [vm_compute; reflexivity|lia].
Qed.

Lemma dec_IPAddress ip rest :
  0 <= ip < 4294967296 -> IPAddress_decode (spec_u32be ip ++ rest) = Ok (ip_text ip, rest).
Proof.
  intros H. unfold IPAddress_decode.
  change 4%nat with (length (spec_u32be ip)) at 1.
  rewrite stream_read_app by (unfold spec_u32be; congruence).
  cbn [bind]. change (length (spec_u32be ip) =? 4)%nat with true. cbv iota.
  unfold spec_u32be. cbn [map join]. rewrite !str_octet by lia. reflexivity.
Qed.
