(* Proofs/LifecycleReplyBridge.v — the reply classification the lifecycle model uses (Model/Lifecycle.v:
   [register_valid], [valid KRR], [valid KUnit], [register_session_of], [data_of]) is the one
   Model/Reply.v computes (property C13) and therefore the one C13 proves correct against the
   status words of the wire layout (Spec/ReplyReader.v) — for EVERY byte string. *)
From Coq Require Import ZifyBool.
From PV Require Import Base.Bytes Base.BytesLemmas Base.Res.
From PV Require Import Gen.Consts Gen.LifecycleGen Gen.ReplyTables.
From PV Require Import Model.Lifecycle.
From PV Require Model.Reply Spec.ReplyReader Proofs.ReplyBase Proofs.ReplyValid.
Open Scope Z_scope.

Lemma in_multi_continues v : in_multi v = ReplyReader.continues v.
Proof.
  unfold in_multi, ReplyReader.continues, ReplyReader.continuing_services, multi_packet_services.
  cbn [existsb snd]. rewrite !(Z.eqb_sym v). reflexivity.
Qed.

Lemma u32_at_slice i raw :
  match ReplyReader.u32_at i raw with
  | Some e => (i + 4 <= length raw)%nat /\ le_dec (slice i (i + 4) raw) = e
  | None => (length raw < i + 4)%nat
  end.
Proof.
  rewrite ReplyBase.u32_at_skipn. unfold slice. replace (i + 4 - i)%nat with 4%nat by lia.
  pose proof (skipn_length i raw) as L.
  destruct (skipn i raw) as [| a [| b [| c [| d r]]]]; cbn [length] in L; try lia.
  split; [lia | cbn [firstn le_dec]; lia].
Qed.

Lemma nthz_spec o raw :
  match nth_error raw o with
  | Some b => (length raw <=? o)%nat = false /\ nthz o raw = b
  | None => (length raw <=? o)%nat = true
  end.
Proof.
  destruct (nth_error raw o) as [b |] eqn:E.
  - split; [apply Nat.leb_gt, (ReplyBase.nth_error_some_lt _ _ _ E) | exact (nth_error_nth _ _ 0 E)].
  - apply Nat.leb_le, nth_error_None, E.
Qed.

Lemma command_status_spec raw :
  match ReplyReader.encap_status raw with
  | Some e => base_error raw = false /\ command_status raw = to_signed 4 e
  | None => base_error raw = true
  end.
Proof.
  unfold ReplyReader.encap_status, base_error, command_status. pose proof (u32_at_slice 8 raw) as H.
  destruct (ReplyReader.u32_at 8 raw).
  - destruct H as [L <-]. split; [apply Nat.ltb_ge, L | reflexivity].
  - apply Nat.ltb_lt, H.
Qed.

Lemma cip_error_spec o1 o2 raw :
  cip_error o1 o2 raw = negb match ReplyReader.encap_status raw, nth_error raw o1, nth_error raw o2 with
                             | Some _, Some s, Some _ => 128 <=? s
                             | _, _, _ => false
                             end.
Proof.
  unfold cip_error. pose proof (command_status_spec raw) as H0.
  pose proof (nthz_spec o1 raw) as H1. pose proof (nthz_spec o2 raw) as H2.
  destruct (ReplyReader.encap_status raw); [destruct H0 as [-> _] | rewrite H0; reflexivity].
  destruct (nth_error raw o1) as [s |]; [destruct H1 as [-> ->] | rewrite H1; reflexivity].
  destruct (nth_error raw o2); [destruct H2 as [-> _] | rewrite H2; apply Bool.orb_true_r].
  cbn [orb]. rewrite Bool.orb_false_r. apply Z.ltb_antisym.
Qed.

Lemma register_valid_spec raw : bytes_ok raw = true -> register_valid raw = ReplyValid.encap_zero raw.
Proof.
  intros Hok. unfold register_valid, ReplyValid.encap_zero. pose proof (command_status_spec raw) as H.
  destruct (ReplyReader.encap_status raw) as [e |] eqn:E; [destruct H as [-> ->] | rewrite H; reflexivity].
  apply (ReplyBase.to_signed4_zero e), (ReplyBase.u32_range 8 raw e Hok E).
Qed.

Lemma cip_valid_at (partial : bool) L raw : bytes_ok raw = true ->
  let st := nthz (ReplyReader.l_status L) raw in
  negb (cip_error (ReplyReader.l_svc L) (ReplyReader.l_status L) raw) && (command_status raw =? SUCCESS)
  && ((st =? SUCCESS) || partial && ((st =? INSUFFICIENT_PACKETS) && in_multi (nthz (ReplyReader.l_svc L) raw - 128)))
  = ReplyReader.spec_success partial L raw.
Proof.
  intros Hok. rewrite cip_error_spec, Bool.negb_involutive, in_multi_continues.
  unfold ReplyReader.spec_success, ReplyReader.status_ok, ReplyReader.status_words, ReplyReader.reply_bit, ReplyReader.byte_at.
  pose proof (command_status_spec raw) as H0.
  pose proof (nthz_spec (ReplyReader.l_svc L) raw) as H1. pose proof (nthz_spec (ReplyReader.l_status L) raw) as H2.
  destruct (ReplyReader.encap_status raw) as [e |] eqn:E; [destruct H0 as [_ ->] | reflexivity].
  destruct (nth_error raw (ReplyReader.l_svc L)) as [s |] eqn:Es; [destruct H1 as [_ ->] | reflexivity].
  destruct (nth_error raw (ReplyReader.l_status L)) as [g |]; [destruct H2 as [_ ->] | reflexivity].
  pose proof (ReplyBase.nth_error_bytes_ok raw _ s Hok Es) as Bs.
  unfold SUCCESS, INSUFFICIENT_PACKETS. rewrite (ReplyBase.to_signed4_zero e (ReplyBase.u32_range 8 raw e Hok E)).
  destruct (128 <=? s) eqn:E128; [| rewrite Bool.andb_false_r; reflexivity].
  replace (s mod 128) with (s - 128) by lia. rewrite Bool.andb_true_r, Bool.andb_assoc. reflexivity.
Qed.

Lemma cip_valid_spec (k : rkind) raw : bytes_ok raw = true ->
  valid k raw = ReplyReader.spec_success (match k with KUnit => true | KRR => false end)
                  (match k with KUnit => ReplyReader.unit_layout | KRR => ReplyReader.rr_layout end) raw.
Proof.
  intros Hok. destruct k.
  - rewrite <- (cip_valid_at false ReplyReader.rr_layout raw Hok). cbn [andb]. rewrite Bool.orb_false_r. reflexivity.
  - rewrite <- (cip_valid_at true ReplyReader.unit_layout raw Hok). reflexivity.
Qed.

Definition rk (k : rkind) : Reply.rkind := match k with KRR => Reply.KRR | KUnit => Reply.KUnit end.
Definition parse_k (k : rkind) (raw : bytes) : Reply.resp :=
  match k with KRR => Reply.parse_rr raw | KUnit => Reply.parse_unit raw end.

Lemma parse_k_cip k raw : parse_k k raw = Reply.parse_cip (off_svc k) (off_st k) (off_data k) raw.
Proof. destruct k; reflexivity. Qed.

(* RegisterSessionResponsePacket: same validity, same session *)
Theorem register_reply_agrees raw : bytes_ok raw = true ->
  register_valid raw = Reply.is_valid Reply.KRegister (Reply.parse_register raw)
  /\ Reply.register_session raw = if register_valid raw then Some (register_session_of raw) else None.
Proof.
  intros Hok. destruct (ReplyValid.parse_register_spec raw Hok) as [Hv Hs].
  rewrite (register_valid_spec raw Hok). split; [symmetry; exact Hv |].
  unfold Reply.register_session. rewrite Hv.
  destruct (ReplyValid.encap_zero raw); [| reflexivity].
  destruct (Hs eq_refl) as [-> Hn]. pose proof (u32_at_slice 4 raw) as H.
  destruct (ReplyReader.u32_at 4 raw); [destruct H as [_ <-]; reflexivity | contradiction].
Qed.

(* SendRRData / SendUnitData (and the Generic* subclasses with data_type None): same validity *)
Theorem cip_reply_agrees k raw : bytes_ok raw = true ->
  valid k raw = Reply.is_valid (rk k) (parse_k k raw)
  /\ (valid k raw = true -> Reply.r_data (parse_k k raw) = Some (data_of k raw)).
Proof.
  intros Hok. split.
  - rewrite (cip_valid_spec k raw Hok).
    destruct k; [symmetry; apply ReplyValid.rr_valid_iff, Hok | symmetry; apply ReplyValid.unit_valid_iff, Hok].
  - (* a valid reply has no parse error, so the parser reached the data *)
    intros Hv. rewrite parse_k_cip.
    destruct (ReplyValid.parse_cip_spec (off_svc k) (off_st k) (off_data k) raw Hok) as (_ & _ & _ & _ & P).
    assert (parse_error k raw = false) as He by (unfold valid in Hv; destruct (parse_error k raw); [discriminate | reflexivity]).
    unfold parse_error in He. rewrite cip_error_spec in He.
    destruct (ReplyReader.encap_status raw); [| discriminate].
    destruct (nth_error raw (off_svc k)) as [s |]; [| discriminate]. destruct (nth_error raw (off_st k)); [| discriminate].
    destruct (128 <=? s); [apply P | discriminate].
Qed.

Lemma ges_agrees msg start :
  match Reply.get_extended_status msg start with
  | Reply.RErr e _ => ext_status_raises (skipn start msg) = Some e
  | Reply.ROk _ => ext_status_raises (skipn start msg) = None
  end.
Proof.
  unfold Reply.get_extended_status. generalize (skipn start msg) as s. intros s.
  unfold Reply.decode_elem_stream. rewrite ReplyBase.USINT_eq, ReplyBase.UINT_eq, ReplyBase.UDINT_eq.
  cbn [Reply.ety_size Reply.ety_signed Reply.ety_name].
  destruct s as [| a [| n rest]]; cbn [firstn skipn length Nat.ltb Nat.leb ext_status_raises]; try reflexivity.
  unfold Reply.elem_value. cbn [Reply.ety_signed Reply.ety_size le_dec].
  replace (n + 256 * 0) with n by lia.
  destruct (n * 2 =? 0) eqn:E0.
  { replace (2 * n =? 2) with false by lia. replace (2 * n =? 4) with false by lia. reflexivity. }
  destruct (n * 2 =? 1) eqn:E1; [lia |].
  destruct (n * 2 =? 2) eqn:E2.
  { replace (2 * n =? 2) with true by lia.
    destruct rest as [| r0 [| r1 rest]]; cbn [firstn skipn length Nat.ltb Nat.leb]; reflexivity. }
  replace (2 * n =? 2) with false by lia.
  destruct (n * 2 =? 4) eqn:E4.
  { replace (2 * n =? 4) with true by lia.
    destruct rest as [| r0 [| r1 [| r2 [| r3 rest]]]]; cbn [firstn skipn length Nat.ltb Nat.leb]; reflexivity. }
  replace (2 * n =? 4) with false by lia. reflexivity.
Qed.

Lemma extended_status_agrees k r raw code : Reply.r_raw r = Some raw ->
  match Reply.some_text (Reply.extended_status (rk k) r code) with
  | Reply.RErr e _ => ext_status_raises (skipn (off_ext k) raw) = Some e
  | Reply.ROk o => ext_status_raises (skipn (off_ext k) raw) = None /\ Reply.is_none o = false
  end.
Proof.
  intros Hraw. pose proof (ges_agrees raw (off_ext k)) as G.
  destruct k; unfold Reply.extended_status; cbn [rk]; rewrite Hraw;
    (destruct (Reply.get_extended_status raw _); [split; [exact G | reflexivity] | exact G]).
Qed.

Lemma parse_error_agrees k raw : bytes_ok raw = true ->
  parse_error k raw = Reply.is_some (Reply.r_error (parse_k k raw)).
Proof.
  intros Hok. rewrite parse_k_cip. unfold parse_error. rewrite cip_error_spec.
  destruct (ReplyValid.parse_cip_spec (off_svc k) (off_st k) (off_data k) raw Hok) as (_ & _ & _ & _ & P).
  unfold ReplyReader.encap_status.
  destruct (nth_error raw (off_svc k)) as [s |], (nth_error raw (off_st k));
    try (destruct P as [-> _]; destruct (ReplyReader.u32_at 8 raw); reflexivity).
  destruct (128 <=? s); [destruct P as (_ & _ & _ & ->) | destruct P as [-> _]];
    destruct (ReplyReader.u32_at 8 raw); reflexivity.
Qed.

Lemma error_agrees k raw : bytes_ok raw = true ->
  match Reply.error (rk k) (parse_k k raw) with
  | Reply.RErr e _ => error_raises k raw = Some e
  | Reply.ROk err => error_raises k raw = None /\ Reply.is_none err = valid k raw
  end.
Proof.
  intros Hok. destruct (cip_reply_agrees k raw Hok) as [Hv _]. pose proof (parse_error_agrees k raw Hok) as Hpe.
  unfold Reply.error, error_raises. rewrite <- Hv, Hpe.
  destruct (valid k raw); [split; reflexivity |].
  destruct (Reply.r_error (parse_k k raw)) eqn:Ee; [split; reflexivity |]. cbn [orb Reply.is_some].
  (* no parse error: both status words are there, and one of them is not success *)
  symmetry in Hv. unfold Reply.is_valid, Reply.is_valid_base in Hv. rewrite Ee in Hv. rewrite parse_k_cip in *.
  destruct (ReplyValid.parse_cip_spec (off_svc k) (off_st k) (off_data k) raw Hok) as (Hraw & Hc & _ & Hcs & P).
  rewrite Ee in P. rewrite Hc, Hcs in Hv. rewrite Hcs.
  destruct (nth_error raw (off_svc k)) as [s |], (nth_error raw (off_st k)) as [g |]; try (destruct P; discriminate).
  destruct (128 <=? s); [destruct P as (_ & Hg & _ & Hn) | destruct P; discriminate].
  rewrite Hg in *. destruct (ReplyReader.u32_at 8 raw) as [e |]; [| discriminate].
  cbn [option_map Reply.not_none_or_success Reply.opt_is Reply.is_none Reply.is_some andb] in *.
  destruct (to_signed 4 e =? SUCCESS); [| apply extended_status_agrees, Hraw].
  destruct (g =? SUCCESS); [destruct k; discriminate Hv | apply extended_status_agrees, Hraw].
Qed.

(* CIPDriver.generic_message as a whole: same exception class, or the same Tag truthiness and value *)
Theorem classify_agrees k raw : bytes_ok raw = true ->
  match Reply.generic_message (rk k) None raw with
  | Reply.RErr e _ => classify k raw = Err e
  | Reply.ROk t => classify k raw = Ok (Reply.tag_truthy t, data_of k raw)
  end.
Proof.
  intros Hok. destruct (cip_reply_agrees k raw Hok) as [_ Hd]. pose proof (error_agrees k raw Hok) as He.
  unfold Reply.generic_message, Reply.parse_generic, classify.
  replace (match rk k with Reply.KRR => Reply.parse_rr raw | _ => Reply.parse_unit raw end) with (parse_k k raw)
    by (destruct k; reflexivity).
  cbn [Reply.g_r Reply.g_value].
  destruct (Reply.error (rk k) (parse_k k raw)) as [err | e m]; [| rewrite He; reflexivity].
  destruct He as [-> He]. unfold Reply.tag_truthy. cbn [Reply.t_value Reply.t_error]. rewrite He.
  destruct (valid k raw); [rewrite (Hd eq_refl); reflexivity | rewrite Bool.andb_false_r; reflexivity].
Qed.

(* CIPDriver.generic_message: whenever C13's model returns a Tag, its truthiness is the lifecycle
   model's [valid] and its value the lifecycle model's [data_of] (so _forward_open reads the same
   connection id from the same reply in both models) *)
Theorem generic_message_agrees k raw t : bytes_ok raw = true ->
  Reply.generic_message (rk k) None raw = Reply.ROk t ->
  Reply.tag_truthy t = valid k raw
  /\ (valid k raw = true -> Reply.t_value t = Some (Reply.VBytes (data_of k raw))).
Proof.
  intros Hok Ht. pose proof (classify_agrees k raw Hok) as Hc. rewrite Ht in Hc.
  unfold classify in Hc. destruct (error_raises k raw); [discriminate |].
  split; [congruence |]. intros Hv. destruct (cip_reply_agrees k raw Hok) as [_ Hd].
  revert Ht. unfold Reply.generic_message, Reply.parse_generic.
  replace (match rk k with Reply.KRR => Reply.parse_rr raw | _ => Reply.parse_unit raw end) with (parse_k k raw)
    by (destruct k; reflexivity).
  cbn [Reply.g_r Reply.g_value]. rewrite (Hd Hv).
  destruct (Reply.error (rk k) (parse_k k raw)); [| discriminate]. intros [= <-]. reflexivity.
Qed.

Print Assumptions register_reply_agrees.
Print Assumptions cip_reply_agrees.
Print Assumptions generic_message_agrees.
Print Assumptions classify_agrees.
