(* Proofs/UploadTarget.v — C05: the reference target (Spec/TargetLogix.v) is a paging peer and a
   fragment peer in the sense of Proofs/UploadParse.v / UploadTemplate.v, for EVERY page policy,
   template-fragment policy and reply capacity that lets one symbol through:
   * the request paths the model client emits resolve, in the target, to the symbol list of the
     scope from the start instance / to the template ([request_of_scope], [template_request_resolves]);
   * [target_symbols_reply]: what svc_symbols answers: a non-empty prefix of the remaining symbols
     of the scope in the layout Proofs/UploadParse.enc_wentry, status 6 iff symbols remain;
   * [target_call_attrs]: Get_Attribute_List of a template parses to its attributes;
   * [target_call_read]: a piece of the definition bytes, status 6 iff more remains. *)
From Coq Require Import ZifyBool String.
From PV Require Import Base.Bytes Base.BytesLemmas Base.Proto Base.PyStr Base.PyStrLemmas Base.Res.
From PV Require Import Spec.EncapParser Spec.MRParser Spec.TargetIface Spec.TargetCore Spec.Project Spec.Expect Spec.TargetLogix Spec.UploadObs.
From PV Require Import Model.LogixUpload.
From PV Require Import Proofs.TargetCoreP Proofs.TargetLogixP Proofs.UploadDefs Proofs.UploadParse Proofs.UploadFilter Proofs.UploadTemplate Proofs.UploadBlob.
From PV Require Gen.Consts.
Open Scope string_scope.
Open Scope list_scope.
Open Scope Z_scope.

(* services: 85 Get_Instance_Attribute_List, 3 Get_Attribute_List, 76 Read Tag (used for Read
   Template); classes: 107 Symbol, 108 Template.  In the request paths below: 32 = 8-bit class
   segment, 36 / 37 / 38 = 8- / 16- / 32-bit instance segment, 145 = ANSI extended symbol segment *)
Lemma table_constants :
  SVC_GET_INSTANCE_ATTRIBUTE_LIST = 85 /\ SVC_GET_ATTRIBUTE_LIST = 3 /\ SVC_READ_TAG = 76
  /\ CLASS_SYMBOL_OBJECT = 107 /\ CLASS_TEMPLATE_OBJECT = 108.
Proof. vm_compute. auto. Qed.

Lemma enc_u_ok w v : 0 <= v < pow256 w -> enc_u w v = Ok (le_enc w v).
Proof. intros H. unfold enc_u, in_urange. replace ((0 <=? v) && (v <? pow256 w)) with true by lia. reflexivity. Qed.

Lemma le_enc_2 z : le_enc 2 z = [z mod 256; (z / 256) mod 256]. Proof. reflexivity. Qed.
Lemma le_enc_4 z : le_enc 4 z = [z mod 256; (z / 256) mod 256; (z / 256 / 256) mod 256; (z / 256 / 256 / 256) mod 256].
Proof. reflexivity. Qed.

(* the instance segment of [i] and how the target reads it back *)
Definition inst_seg_ok (i : Z) (seg : bytes) : Prop :=
  (2 <= length seg <= 6)%nat /\ exists b r, seg = b :: r /\ forall rest, parse_pseg b (r ++ rest) = Some (PLog 1 i, rest).

(* one width of LogicalSegment: type byte [f], the pad byte (or none), the value in [w] bytes *)
Lemma instance_segment_width w f pad i :
  0 <= i < pow256 w -> (1 <= length pad + w <= 5)%nat ->
  (forall rest, parse_pseg f (pad ++ le_enc w i ++ rest) = Some (PLog 1 i, rest)) ->
  exists seg, (let* b := enc_u w i in Ok (f :: pad ++ b)) = Ok seg /\ inst_seg_ok i seg.
Proof.
  intros Hi Hl Hp. rewrite enc_u_ok by exact Hi. eexists. split; [reflexivity|]. split.
  - cbn [length]. rewrite app_length, le_enc_length. lia.
  - exists f, (pad ++ le_enc w i). split; [reflexivity|]. intros rest. rewrite <- app_assoc. apply Hp.
Qed.

Lemma instance_segment i : 0 <= i < 4294967296 ->
  exists seg, logical_segment_int LT_INSTANCE i = Ok seg /\ inst_seg_ok i seg.
Proof.
  intros Hi. unfold logical_segment_int, LT_INSTANCE.
  destruct (i <=? 255) eqn:E1; [|destruct (i <=? 65535) eqn:E2; [|replace (i <=? 4294967295) with true by lia]].
  - apply (instance_segment_width 1 36 []); [rewrite pow256_1; lia | cbn; lia |].
    intros rest. rewrite le_enc_1 by lia. reflexivity.
  - apply (instance_segment_width 2 37 [0]); [rewrite pow256_2; lia | cbn; lia |].
    intros rest. rewrite le_enc_2. rewrite <- (u16_enc i) at 3 by lia. reflexivity.
  - apply (instance_segment_width 4 38 [0]); [rewrite pow256_4; lia | cbn; lia |].
    intros rest. rewrite le_enc_4. rewrite <- (u32_enc i) at 5 by lia. reflexivity.
Qed.

Lemma parse_class_segment c rest : parse_pseg 32 (c :: rest) = Some (PLog 0 c, rest).
Proof. reflexivity. Qed.

Lemma parse_two_segments f c i seg :
  inst_seg_ok i seg -> (2 <= f)%nat -> parse_psegs f ([32; c] ++ seg) = Some [PLog 0 c; PLog 1 i].
Proof.
  intros (_ & b & r & -> & Hp) Hf. destruct f as [|[|f]]; try lia.
  cbn [app parse_psegs]. rewrite parse_class_segment.
  specialize (Hp []). rewrite app_nil_r in Hp. rewrite Hp. destruct f; reflexivity.
Qed.

Definition sym_attr_data (wa : bool) : bytes :=
  le_enc 2 (Z.of_nat (length (symbol_attributes wa))) ++ flat_map (le_enc 2) (symbol_attributes wa).

Lemma epath_with_length_ok p : (length p <= 511)%nat -> epath_with_length p = Ok p.
Proof. intros H. unfold epath_with_length. rewrite enc_u_ok by (rewrite pow256_1; lia). reflexivity. Qed.

Lemma symbols_request_path wa (prog : option text) i scope :
  0 <= i < 4294967296 ->
  match prog with
  | Some p => if match p with [] => true | _ => false end then Ok [] else data_segment_str (program_path_name p)
  | None => Ok []
  end = Ok scope ->
  (length scope <= 500)%nat ->
  exists seg, symbols_request wa prog i = Ok (mkReq 85 (scope ++ [32; 107] ++ seg) (sym_attr_data wa))
              /\ inst_seg_ok i seg.
Proof.
  intros Hi Es Hl. destruct (instance_segment i Hi) as (seg & E & Hok).
  exists seg. split; [|exact Hok]. destruct Hok as ((_ & H2) & _).
  unfold symbols_request. rewrite Es, E. cbn [bind]. destruct table_constants as (-> & _ & _ & -> & _).
  rewrite epath_with_length_ok by (rewrite !app_length; cbn [length logical_segment_byte]; lia). cbn [bind].
  rewrite enc_u_ok by (rewrite pow256_2; destruct wa; cbn; lia). reflexivity.
Qed.

Definition prog_seg (name : text) : bytes :=
  145 :: Z.of_nat (length name) :: name ++ (if Z.odd (Z.of_nat (length name)) then [0] else []).

Lemma data_segment_str_ok name : (length name <= 255)%nat -> data_segment_str name = Ok (prog_seg name).
Proof.
  intros H. unfold data_segment_str, prog_seg. cbv zeta.
  rewrite enc_u_ok, le_enc_1 by (rewrite ?pow256_1; lia). reflexivity.
Qed.

Lemma template_request_resolves p svc tid t data :
  0 <= tid < 4294967296 -> find_template (p_templates p) tid = Some t ->
  exists path, template_request svc tid data = Ok (mkReq svc path data) /\ resolve_path p false path = TgTemplate t.
Proof.
  intros Hi Hf. destruct (instance_segment tid Hi) as (seg & E & Hok).
  exists ([32; 108] ++ seg). pose proof Hok as ((_ & H2) & _). split.
  - unfold template_request. rewrite E. cbn [bind]. destruct table_constants as (_ & _ & _ & _ & ->).
    rewrite epath_with_length_ok by (rewrite app_length; cbn [length logical_segment_byte]; lia). reflexivity.
  - unfold resolve_path. rewrite (parse_two_segments _ 108 tid seg Hok) by (cbn [app length]; lia). rewrite Hf. reflexivity.
Qed.

Lemma parse_prog_seg name rest :
  name <> [] -> (length name <= 255)%nat ->
  parse_pseg 145 (tl (prog_seg name) ++ rest) = Some (PSym name, rest).
Proof.
  intros Hne Hl. unfold prog_seg. cbn [tl app]. unfold parse_pseg. change (145 =? 145) with true. cbv iota.
  destruct (Z.of_nat (length name) =? 0) eqn:E0; [destruct name; [contradiction | cbn in E0; lia]|].
  rewrite <- app_assoc.
  change (Z.of_nat (length name)) with (EncapParser.blen name) at 1.
  rewrite takez_app.
  destruct (Z.odd (Z.of_nat (length name))); reflexivity.
Qed.

(* the scope argument of get_tag_list and the target's scope *)
Definition scope_arg_ok (p : project) (prog : option text) (sc : scope) : Prop :=
  match prog with
  | None => sc = ScCtrl
  | Some pn => sc = ScProg pn /\ pn <> [] /\ starts_with txt_Program pn = false /\ (length pn <= 247)%nat
               /\ In pn (program_names p)
  end.

Lemma request_of_scope p wa prog sc start :
  scope_arg_ok p prog sc -> 0 <= start < 4294967296 ->
  exists path, symbols_request wa prog start = Ok (mkReq 85 path (sym_attr_data wa))
               /\ resolve_path p true path = TgSymbols sc start.
Proof.
  intros Hsc Hs. unfold resolve_path. destruct prog as [pn|]; cbn [scope_arg_ok] in Hsc.
  - destruct Hsc as (-> & Hne & Hsw & Hl & Hin). set (name := txt_Program ++ pn).
    assert (Hlen : (length name <= 255)%nat) by (subst name; rewrite app_length; cbn [length txt_Program]; lia).
    destruct (symbols_request_path wa (Some pn) start (prog_seg name) Hs) as (seg & E & Hseg).
    { destruct pn; [contradiction|]. unfold program_path_name. rewrite txt_Program_eq, Hsw. apply data_segment_str_ok, Hlen. }
    { unfold prog_seg. cbn [length]. rewrite app_length. destruct (Z.odd _); cbn [length]; lia. }
    eexists. split; [exact E|].
    change (prog_seg name ++ [32; 107] ++ seg) with (145 :: (tl (prog_seg name) ++ [32; 107] ++ seg)).
    cbn [length parse_psegs]. rewrite parse_prog_seg by (subst name; try discriminate; exact Hlen).
    rewrite (parse_two_segments _ 107 start seg Hseg) by (rewrite app_length; cbn [app length]; lia).
    subst name. cbv beta iota. rewrite starts_with_app, skipn_app, Nat.sub_diag. cbn [length txt_Program skipn app].
    replace (existsb (name_eqb pn) (program_names p)) with true; [reflexivity|].
    symmetry. apply existsb_exists. exists pn. split; [exact Hin | apply name_eqb_refl].
  - subst sc. destruct (symbols_request_path wa None start [] Hs eq_refl) as (seg & E & Hseg); [cbn [length]; lia|].
    eexists. split; [exact E|]. rewrite (parse_two_segments _ 107 start seg Hseg) by (cbn [app length]; lia). reflexivity.
Qed.

Definition wentry_of_tag (g : tagdef) : wentry :=
  mkW (g_inst g) (g_name g) (sym_type_word g) (g_attr3 g) (g_attr5 g) (g_attr6 g)
      (nth 0 (g_dims g) 0) (nth 1 (g_dims g) 0) (nth 2 (g_dims g) 0) (g_access g mod 256).

Lemma pad3_nth (l : list Z) : pad3 3 l = [nth 0 l 0; nth 1 l 0; nth 2 l 0].
Proof. destruct l as [|a [|b [|c r]]]; reflexivity. Qed.

Definition sym_entry (wa : bool) (g : tagdef) : bytes := enc_wentry wa (wentry_of_tag g).

Lemma sym_entry_attrs_eq p wa g :
  exists a, sym_entry_attrs p g (symbol_attributes wa) = Some a /\ le_enc 4 (g_inst g) ++ a = sym_entry wa g.
Proof.
  unfold sym_entry, enc_wentry, wentry_of_tag, symbol_attributes.
  destruct wa; cbn [app sym_entry_attrs sym_attr Z.eqb Pos.eqb we_inst we_name we_stype we_a3 we_a5 we_a6 we_d1 we_d2 we_d3 we_access];
    rewrite pad3_nth; cbn [flat_map]; eexists; (split; [reflexivity|]);
    unfold Expect.blen; rewrite <- ?app_assoc; cbn [app]; reflexivity.
Qed.

Lemma concat_rev_spec : forall l acc, concat_rev l acc = concat (rev l) ++ acc.
Proof.
  induction l as [|x l IH]; intros acc; [reflexivity|].
  cbn [concat_rev rev]. rewrite IH, concat_app. cbn [concat]. rewrite app_nil_r, <- app_assoc. reflexivity.
Qed.

Lemma sym_page_spec p wa : forall gs room limit acc,
  exists k,
    sym_page p (symbol_attributes wa) gs room limit acc
    = (rev (map (sym_entry wa) (firstn k gs)) ++ acc, Nat.ltb k (length gs))
    /\ (k <= length gs)%nat
    /\ (gs <> [] -> 1 <= limit -> (forall g, In g gs -> Expect.blen (sym_entry wa g) <= room) -> (1 <= k)%nat).
Proof.
  induction gs as [|g gs IH]; intros room limit acc.
  - exists O. cbn. split; [reflexivity|]. split; [lia|]. intros H; contradiction.
  - cbn [sym_page]. destruct (sym_entry_attrs_eq p wa g) as (a & Ea & Eentry). rewrite Ea, Eentry.
    destruct ((limit <? 1) || (room <? Expect.blen (sym_entry wa g))) eqn:Estop.
    + exists O. cbn [firstn map rev app length]. split; [reflexivity|]. split; [lia|].
      intros _ Hl Hr. specialize (Hr g (or_introl eq_refl)). lia.
    + destruct (IH (room - Expect.blen (sym_entry wa g)) (limit - 1) (sym_entry wa g :: acc)) as (k & Ek & Hk & _).
      exists (S k). split; [|split; [cbn [length]; lia | intros; lia]].
      etransitivity; [exact Ek|]. cbn [firstn map rev length]. rewrite <- app_assoc. reflexivity.
Qed.

Lemma multi_85 : multi_packet_service 85 = true. Proof. reflexivity. Qed.
Lemma multi_3 : multi_packet_service 3 = true. Proof. reflexivity. Qed.

Lemma svc_symbols_data st sc start cap wa :
  svc_symbols st sc start cap (sym_attr_data wa)
  = let p := ls_proj st in
    let gs := filter (fun g => scope_eqb (g_scope g) sc && (start <=? g_inst g)) (p_tags p) in
    let want := pol_entry (po_page (ls_pol st)) start in
    let limit := if want <=? 0 then 4294967296 else want in
    let '(acc, more) := sym_page p (symbol_attributes wa) gs (cap - 4) limit [] in
    match acc, gs with
    | [], _ :: _ => (mr_error 17 [], [EvReplyTooLarge cap 0])
    | _, _ => (reply6 more (concat_rev acc []), [])
    end.
Proof. destruct wa; reflexivity. Qed.

(* what the target answers to the symbol-list request of the model client *)
Theorem target_symbols_reply st sc start cap wa :
  let p := ls_proj st in
  let gs := filter (fun g => scope_eqb (g_scope g) sc && (start <=? g_inst g)) (p_tags p) in
  (forall g, In g gs -> Expect.blen (sym_entry wa g) <= cap - 4) ->
  exists k,
    svc_symbols st sc start cap (sym_attr_data wa)
    = (reply6 (Nat.ltb k (length gs)) (flat_map (sym_entry wa) (firstn k gs)), [])
    /\ (k <= length gs)%nat /\ (gs <> [] -> (1 <= k)%nat).
Proof.
  intros p gs Hfit. rewrite svc_symbols_data. cbv zeta. fold p. fold gs.
  set (want := pol_entry (po_page (ls_pol st)) start).
  set (limit := if want <=? 0 then 4294967296 else want).
  assert (Hlimit : 1 <= limit) by (subst limit; destruct (want <=? 0) eqn:E; lia).
  destruct (sym_page_spec p wa gs (cap - 4) limit []) as (k & -> & Hk & Hk1).
  pose proof (fun H => Hk1 H Hlimit Hfit) as Hk1'.
  exists k. split; [|split; assumption].
  rewrite app_nil_r, concat_rev_spec, rev_involutive, app_nil_r, <- flat_map_concat_map.
  (* the error branch would need an empty page of a non-empty list *)
  destruct (rev (map (sym_entry wa) (firstn k gs))) eqn:Eacc, gs as [|g0 gs0]; try reflexivity.
  exfalso. destruct k; [specialize (Hk1' ltac:(discriminate)); lia|].
  cbn [firstn map rev] in Eacc. apply app_eq_nil in Eacc as [_ Eacc]. discriminate.
Qed.

(* the reply data of Get_Attribute_List for attributes 4, 5, 2, 1: count, then id, status, value *)
Definition attrs_reply_data (t : template) : bytes :=
  [4; 0; 4; 0; 0; 0] ++ le_enc 4 (template_defsize t) ++ [5; 0; 0; 0] ++ le_enc 4 (t_size t)
  ++ [2; 0; 0; 0] ++ le_enc 2 (template_member_count t) ++ [1; 0; 0; 0] ++ le_enc 2 (t_handle t).

Lemma svc_tmpl_attrs_data t cap : 34 <= cap ->
  svc_tmpl_attrs t cap template_attrs_data = ({| rp_status := 0; rp_ext := []; rp_data := attrs_reply_data t |}, []).
Proof.
  intros Hcap. unfold svc_tmpl_attrs, template_attrs_data.
  change (u16 4 0) with 4. cbv beta iota zeta.
  change (Expect.blen [4; 0; 5; 0; 2; 0; 1; 0] <? 2 * 4) with false.
  change (2 * 4 <? Expect.blen [4; 0; 5; 0; 2; 0; 1; 0]) with false. cbv iota.
  change (rd_offsets (Z.to_nat 4) [4; 0; 5; 0; 2; 0; 1; 0]) with (Some [4; 5; 2; 1]). cbv iota.
  change (forallb tmpl_attr_known [4; 5; 2; 1]) with true. cbv iota.
  assert (Hd : le_enc 2 4 ++ flat_map (tmpl_attr t) [4; 5; 2; 1] = attrs_reply_data t).
  { cbn [flat_map tmpl_attr Z.eqb Pos.eqb app]. rewrite app_nil_r.
    change (le_enc 2 4) with [4; 0]. change (le_enc 2 5) with [5; 0]. change (le_enc 2 2) with [2; 0]. change (le_enc 2 1) with [1; 0].
    unfold attrs_reply_data. cbn [app]. rewrite <- ?app_assoc. cbn [app]. reflexivity. }
  rewrite Hd.
  assert (Hlen : Expect.blen (attrs_reply_data t) = 30).
  { unfold Expect.blen, attrs_reply_data. rewrite !app_length, !le_enc_length. reflexivity. }
  rewrite Hlen. replace (cap - 4 <? 30) with false by lia. reflexivity.
Qed.

Lemma parse_makeup_attrs t :
  0 <= template_defsize t < 4294967296 -> 0 <= t_size t < 4294967296 ->
  0 <= template_member_count t < 65536 -> 0 <= t_handle t < 65536 ->
  parse_structure_makeup (attrs_reply_data t) = Ok (template_attrs_of t).
Proof.
  intros H1 H2 H3 H4. unfold parse_structure_makeup, attrs_reply_data.
  rewrite !le_enc_4, !le_enc_2. cbn [app length Nat.ltb Nat.leb slice Nat.sub firstn skipn].
  rewrite <- !le_enc_4, <- !le_enc_2.
  rewrite !le_dec_enc_id by (rewrite ?pow256_2, ?pow256_4; lia). reflexivity.
Qed.

Lemma enc_s_nonneg off : 0 <= off < 2147483648 -> enc_s 4 off = Ok (le_enc 4 off).
Proof.
  intros H. unfold enc_s, in_srange, of_signed. rewrite pow256_4.
  replace ((- (4294967296 / 2) <=? off) && (off <? 4294967296 / 2)) with true by lia.
  rewrite Z.mod_small by lia. reflexivity.
Qed.

Lemma svc_tmpl_read_data pol t cap off cnt :
  5 <= cap -> 0 <= off < 4294967296 -> 0 <= cnt < 65536 ->
  let blob := template_blob (po_array_bit pol) t in
  off <= Expect.blen blob ->
  let want := Z.min cnt (Expect.blen blob - off) in
  exists k,
    svc_tmpl_read pol t cap (le_enc 4 off ++ le_enc 2 cnt)
    = (reply6 (k <? want) (firstn (Z.to_nat k) (skipn (Z.to_nat off) blob)), [])
    /\ 0 <= k <= want /\ (0 < want -> 1 <= k).
Proof.
  intros Hcap Hoff Hcnt blob Hle want.
  unfold svc_tmpl_read. rewrite le_enc_4, le_enc_2. cbn [app]. fold blob.
  rewrite u32_enc, u16_enc by lia.
  replace (Expect.blen blob <? off) with false by lia.
  fold want.
  set (pw := pol_entry (po_tmpl pol) off).
  set (lim := Z.max 1 (if pw <=? 0 then cap - 4 else Z.min pw (cap - 4))).
  assert (Hlim : 1 <= lim <= cap - 4) by (subst lim; destruct (pw <=? 0); lia).
  replace (cap - 4 <? lim) with false by lia.
  exists (Z.min want lim).
  assert (Hw : 0 <= want) by (subst want; lia).
  unfold get_bytes.
  replace ((0 <=? off) && (0 <=? Z.min want lim) && (off + Z.min want lim <=? Expect.blen blob)) with true by (subst want; lia).
  split; [reflexivity | lia].
Qed.

(* a request whose path resolves to the symbol list or to a template is answered by that object's
   service, in the same state *)
Lemma target_call_resolved cap st svc path data tg rp ev :
  resolve_path (ls_proj st) (svc =? 85) path = tg ->
  match tg with
  | TgSymbols sc start => svc = 85 /\ svc_symbols st sc start cap data = (rp, ev)
  | TgTemplate t => svc = 3 /\ svc_tmpl_attrs t cap data = (rp, ev)
                    \/ svc = 76 /\ svc_tmpl_read (ls_pol st) t cap data = (rp, ev)
  | _ => False
  end ->
  target_call cap st (mkReq svc path data) = (st, Some (urep_of svc rp)).
Proof.
  intros Hres H. unfold target_call, logix_request. cbn [q_service q_path q_data mr_service mr_path mr_data].
  rewrite Hres. destruct tg; try contradiction.
  - destruct H as [-> E]. cbn [Z.eqb Pos.eqb]. rewrite E. reflexivity.
  - destruct H as [[-> E] | [-> E]]; cbn [Z.eqb Pos.eqb]; rewrite E; reflexivity.
Qed.

Lemma urep_of_reply6 svc more d :
  urep_of svc (reply6 more d)
  = mkRep (negb more || multi_packet_service svc) (if more then Consts.INSUFFICIENT_PACKETS else Consts.SUCCESS) d false.
Proof. destruct more; reflexivity. Qed.

Lemma target_call_symbols cap st wa sc start path :
  resolve_path (ls_proj st) true path = TgSymbols sc start ->
  let p := ls_proj st in
  let gs := filter (fun g => scope_eqb (g_scope g) sc && (start <=? g_inst g)) (p_tags p) in
  (forall g, In g gs -> Expect.blen (sym_entry wa g) <= cap - 4) ->
  exists k,
    target_call cap st (mkReq 85 path (sym_attr_data wa))
    = (st, Some (mkRep true (if Nat.ltb k (length gs) then Consts.INSUFFICIENT_PACKETS else Consts.SUCCESS)
                       (flat_map (sym_entry wa) (firstn k gs)) false))
    /\ (k <= length gs)%nat /\ (gs <> [] -> (1 <= k)%nat).
Proof.
  intros Hres p gs Hfit.
  destruct (target_symbols_reply st sc start cap wa Hfit) as (k & E & Hk).
  exists k. split; [|exact Hk].
  rewrite (target_call_resolved cap st 85 path _ _ _ _ Hres (conj eq_refl E)), urep_of_reply6, multi_85, orb_true_r.
  reflexivity.
Qed.

Lemma target_call_attrs cap st t path :
  34 <= cap -> resolve_path (ls_proj st) false path = TgTemplate t ->
  0 <= template_defsize t < 4294967296 -> 0 <= t_size t < 4294967296 ->
  0 <= template_member_count t < 65536 -> 0 <= t_handle t < 65536 ->
  exists d, target_call cap st (mkReq 3 path template_attrs_data) = (st, Some (mkRep true 0 d false))
            /\ parse_structure_makeup d = Ok (template_attrs_of t).
Proof.
  intros Hcap Hres H1 H2 H3 H4.
  eexists. split; [|apply (parse_makeup_attrs t H1 H2 H3 H4)].
  apply (target_call_resolved cap st 3 path _ _ _ _ Hres (or_introl (conj eq_refl (svc_tmpl_attrs_data t cap Hcap)))).
Qed.

Lemma target_call_read cap st t path off cnt :
  5 <= cap -> resolve_path (ls_proj st) false path = TgTemplate t ->
  0 <= off < 4294967296 -> 0 <= cnt < 65536 ->
  let blob := template_blob (po_array_bit (ls_pol st)) t in
  off <= Expect.blen blob ->
  let want := Z.min cnt (Expect.blen blob - off) in
  exists k v,
    target_call cap st (mkReq 76 path (le_enc 4 off ++ le_enc 2 cnt))
    = (st, Some (mkRep v (if k <? want then Consts.INSUFFICIENT_PACKETS else Consts.SUCCESS)
                       (firstn (Z.to_nat k) (skipn (Z.to_nat off) blob)) false))
    /\ 0 <= k <= want /\ (0 < want -> 1 <= k).
Proof.
  intros Hcap Hres Hoff Hcnt blob Hle want.
  destruct (svc_tmpl_read_data (ls_pol st) t cap off cnt Hcap Hoff Hcnt Hle) as (k & E & Hk).
  exists k. eexists. split; [|exact Hk].
  rewrite (target_call_resolved cap st 76 path _ _ _ _ Hres (or_intror (conj eq_refl E))), urep_of_reply6. reflexivity.
Qed.
