(* Proofs/CodecWireBase.v — C07: the reference's arithmetic (Spec/Wire.v: div/mod, sums of powers,
   positional sums) against the model's primitives (Base/Bytes.v le_enc/le_dec: iterated division;
   Model/Codec.v bits_value/value_bits: iterated doubling/halving; dict and key functions; the
   character encodings), as far as both directions (CodecWireEnc.v, CodecWireDec.v) use it; and the
   induction on the types the reference defines ([wire_ty_ind]). *)
From PV Require Import Base.Bytes Base.BytesLemmas Base.Res Model.Codec Spec.WireFloat Spec.Wire.
From Coq Require Import ZifyBool.
Open Scope Z_scope.
Ltac Zify.zify_post_hook ::= Z.to_euclidean_division_equations.

Lemma wpow_pow256 w : wpow w = pow256 w.
Proof. symmetry. apply pow256_pow2. Qed.

Lemma seq_shift_map {A} (f : nat -> A) a n : map f (seq (S a) n) = map (fun i => f (S i)) (seq a n).
Proof. rewrite <- seq_shift, map_map. reflexivity. Qed.

Lemma le_enc_digits w y : map (fun i => (y / 256 ^ Z.of_nat i) mod 256) (seq 0 w) = le_enc w y.
Proof.
  revert y. induction w as [|w IH]; intros y; [reflexivity|].
  cbn [seq map le_enc]. f_equal.
  - cbn. now rewrite Z.div_1_r.
  - rewrite seq_shift_map, <- IH. apply map_ext. intros i.
    rewrite Nat2Z.inj_succ, Z.pow_succ_r by lia. rewrite Z.div_div by lia. reflexivity.
Qed.

Lemma spec_le_le_enc w z : spec_le w z = le_enc w z.
Proof.
  unfold spec_le, spec_byte. rewrite le_enc_digits, wpow_pow256. apply le_enc_mod.
Qed.

Lemma spec_le_val_from_le_dec i bs : spec_le_val_from i bs = 256 ^ Z.of_nat i * le_dec bs.
Proof.
  revert i. induction bs as [|b r IH]; intros i; cbn [spec_le_val_from le_dec]; [now rewrite Z.mul_0_r|].
  rewrite IH, Nat2Z.inj_succ, Z.pow_succ_r by lia. ring.
Qed.

Lemma spec_le_val_le_dec bs : spec_le_val bs = le_dec bs.
Proof. unfold spec_le_val. rewrite spec_le_val_from_le_dec. change (Z.of_nat 0) with 0. now rewrite Z.pow_0_r, Z.mul_1_l. Qed.

Lemma half_pow w : (0 < w)%nat -> 2 ^ (8 * Z.of_nat w - 1) = pow256 w / 2.
Proof.
  intros Hw.
  assert (H : wpow w = 2 * 2 ^ (8 * Z.of_nat w - 1)).
  { unfold wpow. rewrite <- Z.pow_succ_r by lia. f_equal. lia. }
  rewrite <- wpow_pow256, H. rewrite (Z.mul_comm 2), Z.div_mul by lia. reflexivity.
Qed.

Lemma spec_int_range_model sg w z : (0 < w)%nat -> spec_int_range sg w z = int_in_range sg w z.
Proof.
  intros Hw. unfold spec_int_range, int_in_range, in_srange, in_urange.
  rewrite half_pow by exact Hw. rewrite wpow_pow256. reflexivity.
Qed.

Lemma spec_int_val_model sg w bs :
  (0 < w)%nat -> spec_int_val sg w bs = if sg then to_signed w (le_dec bs) else le_dec bs.
Proof.
  intros Hw. unfold spec_int_val, to_signed. rewrite spec_le_val_le_dec, half_pow, wpow_pow256 by exact Hw.
  destruct sg; cbn [andb]; [|reflexivity].
  destruct (pow256 w / 2 <=? le_dec bs) eqn:E1, (le_dec bs <? pow256 w / 2) eqn:E2; try reflexivity; lia.
Qed.

Lemma spec_int_model sg w z bs :
  (0 < w)%nat -> spec_int w sg z = Some bs -> int_in_range sg w z = true /\ bs = le_enc w z.
Proof.
  intros Hw. unfold spec_int. rewrite spec_int_range_model by exact Hw.
  destruct (int_in_range sg w z); [|discriminate]. intros H. injection H as <-. split; [reflexivity|apply spec_le_le_enc].
Qed.

Lemma blen_zlen {A} (l : list A) : blen l = zlen l.
Proof. reflexivity. Qed.

Lemma stext_eqb_model a b : stext_eqb a b = text_eqb a b.
Proof. revert b. induction a as [|c a IH]; intros [|d b]; cbn [stext_eqb text_eqb]; try reflexivity; now rewrite IH. Qed.

Lemma skey_eqb_model a b : skey_eqb a b = keyb a b.
Proof. destruct a, b; cbn [skey_eqb keyb]; try reflexivity; apply stext_eqb_model. Qed.

Lemma slookup_model d k :
  dict_get d k = match slookup d k with Some v => Ok v | None => Err (Foreign KeyError) end.
Proof.
  induction d as [|[k' v] d IH]; cbn [dict_get slookup]; [reflexivity|].
  (* the reference's key and text comparisons are the model's fixpoints written again: convertible *)
  change (skey_eqb k' k) with (keyb k' k). destruct (keyb k' k); [reflexivity|exact IH].
Qed.

Lemma skey_in_model k priv : skey_in k priv = key_in k priv.
Proof.
  destruct k as [s|]; cbn; [|reflexivity]. unfold mem_text.
  induction priv as [|p r IH]; cbn [existsb]; [reflexivity|]. change (stext_eqb s p) with (text_eqb s p). now rewrite IH.
Qed.

Lemma sunnamed_model k : sunnamed k = match k with None => true | Some [] => true | Some _ => false end.
Proof. reflexivity. Qed.

Lemma sp_is_nan64_model b : 0 <= b < 2 ^ 64 -> sp_is_nan64 b = is_nan64 b.
Proof.
  intros Hb. unfold sp_is_nan64, is_nan64, exp64, man64.
  change (2 ^ 63) with 9223372036854775808. change (2 ^ 52) with 4503599627370496. change (2 ^ 11) with 2048.
  change (2 ^ 64) with 18446744073709551616 in Hb.
  lia.
Qed.

Lemma sp_canon64_model b : 0 <= b < 2 ^ 64 -> sp_canon64 b = canon64 b.
Proof. intros Hb. unfold sp_canon64, canon64. now rewrite sp_is_nan64_model. Qed.

Lemma sp_f64_ok_canon b : sp_f64_ok b = true -> 0 <= b < 2 ^ 64 /\ canon64 b = b.
Proof.
  unfold sp_f64_ok. intros H. apply andb_prop in H as [H H3]. apply andb_prop in H as [H1 H2].
  assert (Hb : 0 <= b < 2 ^ 64) by lia. split; [exact Hb|].
  unfold canon64. rewrite <- sp_is_nan64_model by exact Hb.
  destruct (sp_is_nan64 b); [|reflexivity]. cbn in H3. unfold sp_nan64 in H3. unfold nan64. lia.
Qed.

Lemma bools_of_vbools l bl : bools_of l = Some bl -> l = map VBool bl.
Proof.
  revert bl. induction l as [|v l IH]; intros bl; cbn [bools_of].
  - intros H. injection H as <-. reflexivity.
  - destruct v; try discriminate. destruct (bools_of l) as [bl'|]; [|discriminate].
    cbn [option_map]. intros H. injection H as <-. cbn [map]. f_equal. now apply IH.
Qed.

Lemma bools_of_map bl : bools_of (map VBool bl) = Some bl.
Proof. induction bl as [|b r IH]; cbn [map bools_of]; [reflexivity|]. now rewrite IH. Qed.

Lemma bits_value_vbools bl : bits_value (map VBool bl) = bval bl.
Proof. induction bl as [|b r IH]; cbn [map bits_value bval truthy]; [reflexivity|]. now rewrite IH. Qed.

Lemma bval_split n bl : bval bl = bval (firstn n bl) + 2 ^ Z.of_nat n * bval (skipn n bl).
Proof.
  revert bl. induction n as [|n IH]; intros bl; [cbn [firstn skipn bval]; change (2 ^ Z.of_nat 0) with 1; lia|].
  destruct bl as [|b r]; [cbn [firstn skipn bval]; lia|].
  cbn [firstn skipn bval]. rewrite (IH r), Nat2Z.inj_succ, Z.pow_succ_r by lia. ring.
Qed.

Lemma bval_firstn_range n bl : 0 <= bval (firstn n bl) < 2 ^ Z.of_nat n.
Proof.
  pose proof (bval_range (firstn n bl)) as H. pose proof (firstn_le_length n bl) as Hl.
  assert (2 ^ Z.of_nat (length (firstn n bl)) <= 2 ^ Z.of_nat n) by (apply Z.pow_le_mono_r; lia). lia.
Qed.

Lemma bit_sum_bval n : forall bl i,
  fold_right Z.add 0 (map (fun j => if nth j bl false then 2 ^ Z.of_nat (i + j) else 0) (seq 0 n))
  = 2 ^ Z.of_nat i * bval (firstn n bl).
Proof.
  (* the offset [i] (0 at the one use) is what the induction moves *)
  induction n as [|n IH]; intros bl i; [cbn; ring|].
  cbn [seq map fold_right]. rewrite seq_shift_map, Nat.add_0_r.
  destruct bl as [|b r].
  - rewrite (map_ext _ (fun j => if nth j [] false then 2 ^ Z.of_nat (S i + j) else 0)) by (intros [|j]; reflexivity).
    rewrite IH, firstn_nil. cbn. ring.
  - cbn [nth firstn bval].
    rewrite (map_ext _ (fun j => if nth j r false then 2 ^ Z.of_nat (S i + j) else 0))
      by (intros j; now rewrite Nat.add_succ_r).
    rewrite IH, Nat2Z.inj_succ, Z.pow_succ_r by lia. destruct b; cbn [Z.b2z]; ring.
Qed.

Lemma spec_bits_byte_bval bl k : spec_bits_byte bl k = bval (firstn 8 (skipn (8 * k) bl)).
Proof.
  unfold spec_bits_byte. rewrite <- (Z.mul_1_l (bval _)). change 1 with (2 ^ Z.of_nat 0).
  rewrite <- bit_sum_bval. f_equal. apply map_ext. intros j. now rewrite nth_skipn.
Qed.

Lemma spec_bits_S w bl : spec_bits (S w) bl = bval (firstn 8 bl) :: spec_bits w (skipn 8 bl).
Proof.
  unfold spec_bits. cbn [seq map]. rewrite seq_shift_map, spec_bits_byte_bval, Nat.mul_0_r. f_equal.
  apply map_ext. intros k. rewrite !spec_bits_byte_bval, skipn_skipn. do 3 f_equal. lia.
Qed.

Lemma le_enc_bval w : forall bl, le_enc w (bval bl) = spec_bits w bl.
Proof.
  induction w as [|w IH]; intros bl; [reflexivity|].
  pose proof (bval_split 8 bl) as Hs. pose proof (bval_firstn_range 8 bl) as Hr.
  change (2 ^ Z.of_nat 8) with 256 in Hs, Hr.
  rewrite spec_bits_S, <- IH. cbn [le_enc]. f_equal; [|f_equal]; lia.
Qed.

Lemma spec_bits_split w1 w2 a b :
  length a = (8 * w1)%nat -> spec_bits (w1 + w2) (a ++ b) = spec_bits w1 a ++ spec_bits w2 b.
Proof.
  revert a. induction w1 as [|w1 IH]; intros a Ha.
  - destruct a; [reflexivity|discriminate].
  - cbn [Nat.add]. rewrite !spec_bits_S. cbn [app]. rewrite <- IH by (rewrite skipn_length; lia).
    rewrite firstn_app, skipn_app. replace (8 - length a)%nat with 0%nat by lia. cbn [firstn skipn]. now rewrite app_nil_r.
Qed.

Lemma value_bits_map n z :
  value_bits n z = map (fun i => VBool (Z.odd (z / 2 ^ Z.of_nat i))) (seq 0 n).
Proof.
  revert z. induction n as [|n IH]; intros z; [reflexivity|].
  cbn [value_bits seq map]. f_equal.
  - cbn. now rewrite Z.div_1_r.
  - rewrite IH, seq_shift_map. apply map_ext. intros i.
    rewrite Nat2Z.inj_succ, Z.pow_succ_r by lia. rewrite Z.div_div by lia. reflexivity.
Qed.

Lemma odd_div_testbit v i : 0 <= i -> Z.odd (v / 2 ^ i) = Z.testbit v i.
Proof. intros Hi. now rewrite Z.testbit_odd, Z.shiftr_div_pow2. Qed.

Lemma le_dec_testbit d : bytes_ok d = true -> forall i, Z.testbit (le_dec d) (Z.of_nat i) = spec_bit_at d i.
Proof.
  unfold spec_bit_at. induction d as [|b r IH]; intros Hok i; rewrite odd_div_testbit by lia.
  - cbn [le_dec]. destruct (i / 8)%nat; cbn [nth]; now rewrite !Z.bits_0.
  - rewrite bytes_ok_cons in Hok. apply andb_prop in Hok as [Hb Hr]. apply byte_ok_iff in Hb. cbn [le_dec].
    destruct (Nat.lt_ge_cases i 8) as [Hi|Hi].
    + rewrite Nat.div_small, Nat.mod_small by exact Hi. cbn [nth].
      rewrite <- (Z.mod_pow2_bits_low (b + 256 * le_dec r) 8) by lia. f_equal. change (2 ^ 8) with 256. lia.
    + replace i with (i - 8 + 1 * 8)%nat at 2 3 by lia. rewrite Nat.div_add, Nat.mod_add, Nat.add_1_r by lia. cbn [nth].
      rewrite <- (odd_div_testbit (nth ((i - 8) / 8) r 0)), <- IH by (try exact Hr; lia).
      replace (Z.of_nat i) with (Z.of_nat (i - 8) + 8) by lia. rewrite <- Z.div_pow2_bits by lia. f_equal.
      change (2 ^ 8) with 256. lia.
Qed.

Lemma value_bits_spec d : bytes_ok d = true -> value_bits (8 * length d) (le_dec d) = spec_bits_dec d.
Proof.
  intros Hok. rewrite value_bits_map. apply map_ext. intros i. now rewrite odd_div_testbit, le_dec_testbit by (try exact Hok; lia).
Qed.

Lemma spec_bit_at_testbit raw off bit b :
  (bit < 8)%nat -> nth_error raw off = Some b -> spec_bit_at raw (8 * off + bit) = Z.testbit b (Z.of_nat bit).
Proof.
  intros Hb Hn. unfold spec_bit_at. rewrite (Nat.add_comm (8 * off)), (Nat.mul_comm 8).
  rewrite Nat.div_add, Nat.mod_add, Nat.div_small, Nat.mod_small by lia. cbn [Nat.add].
  rewrite (nth_error_nth raw off 0 Hn). apply odd_div_testbit. lia.
Qed.

Lemma wpow_1 : wpow 1 = 256. Proof. reflexivity. Qed.
Lemma wpow_2 : wpow 2 = 65536. Proof. reflexivity. Qed.
Lemma wpow_4 : wpow 4 = 4294967296. Proof. reflexivity. Qed.

Lemma char_ok_scalar cw c : char_ok cw c = true -> scalar_ok c = true /\ 0 <= c < wpow cw.
Proof. unfold char_ok, is_surr, scalar_ok, is_surrogate. lia. Qed.

Lemma Some_inj {A} (a b : A) : Some a = Some b -> a = b.
Proof. congruence. Qed.

Lemma both_some {A B C} (o1 : option A) (o2 : option B) (f : A -> B -> C) r :
  match o1, o2 with Some a, Some b => Some (f a b) | _, _ => None end = Some r ->
  exists a b, o1 = Some a /\ o2 = Some b /\ r = f a b.
Proof. destruct o1 as [a|], o2 as [b|]; try discriminate. intros [= <-]. now exists a, b. Qed.

Lemma char_width_size e cw : char_width e = Some cw -> enc_char_size e = Z.of_nat cw.
Proof. destruct e; cbn; intros H; try discriminate; injection H as <-; reflexivity. Qed.

(* one character on its documented width (a surrogate pair on 2-byte characters) is what str.encode produces *)
Lemma enc_char_spec e cw c bs :
  char_width e = Some cw -> spec_char cw c = Some bs -> enc_char e c = Some bs /\ bytes_ok bs = true.
Proof.
  intros He. unfold spec_char. destruct (char_ok cw c) eqn:Hc.
  - intros H. apply Some_inj in H. subst bs. apply char_ok_scalar in Hc as [Hs Hr]. rewrite spec_le_le_enc.
    split; [|apply le_enc_ok].
    destruct e; cbn [char_width] in He; try discriminate; injection He as <-; cbn [enc_char].
    + rewrite wpow_1 in Hr. replace ((0 <=? c) && (c <? 256)) with true by lia. now rewrite le_enc_1.
    + rewrite wpow_2 in Hr. rewrite Hs. cbn [negb]. destruct (c <? 65536) eqn:E; [reflexivity|lia].
    + now rewrite Hs.
  - destruct ((cw =? 2)%nat && (65536 <=? c) && (c <=? 1114111)) eqn:Hp; [|discriminate].
    intros H. apply Some_inj in H. subst bs. apply andb_prop in Hp as [Hp H3]. apply andb_prop in Hp as [H1 H2].
    rewrite !spec_le_le_enc. split; [|now rewrite bytes_ok_app, !le_enc_ok].
    apply Nat.eqb_eq in H1. subst cw. destruct e; cbn [char_width] in He; try discriminate. cbn [enc_char].
    assert (Hs : scalar_ok c = true) by (unfold scalar_ok, is_surrogate; lia). rewrite Hs. cbn [negb].
    destruct (c <? 65536) eqn:E; [lia|reflexivity].
Qed.

Lemma text_encode_spec e cw s bs :
  char_width e = Some cw -> spec_chars cw s = Some bs -> text_encode e s = Ok bs /\ bytes_ok bs = true.
Proof.
  intros He. revert bs. induction s as [|c s IH]; intros bs H; cbn [spec_chars] in H.
  - injection H as <-. split; reflexivity.
  - apply both_some in H as (a & b & Ha & Hb & ->).
    destruct (enc_char_spec e cw c a He Ha) as [Ea Oa]. destruct (IH b Hb) as [Eb Ob].
    cbn [text_encode]. rewrite Ea, Eb. split; [reflexivity|now rewrite bytes_ok_app, Oa, Ob].
Qed.

Lemma spec_chars_1 s bs : spec_chars 1 s = Some bs -> bs = s.
Proof.
  revert bs. induction s as [|c s IH]; intros bs H; cbn [spec_chars] in H.
  - injection H as <-. reflexivity.
  - unfold spec_char in H. destruct (char_ok 1 c) eqn:Hc; [|discriminate H].
    destruct (spec_chars 1 s) as [b|] eqn:Hb; [|discriminate]. apply Some_inj in H. subst bs.
    apply char_ok_scalar in Hc as [_ Hr]. rewrite wpow_1 in Hr.
    rewrite spec_le_le_enc, le_enc_1 by lia. cbn [app]. f_equal. now apply IH.
Qed.

(* bytes.decode of the three fixed-unit encodings *)
Lemma spec_chars_dec_latin1 d fuel :
  bytes_ok d = true -> (length d <= fuel)%nat -> spec_chars_dec 1 fuel d = Some d.
Proof.
  revert fuel. induction d as [|b r IH]; intros fuel Hok Hf; [destruct fuel; reflexivity|].
  destruct fuel as [|f]; [cbn in Hf; lia|].
  rewrite bytes_ok_cons in Hok. apply andb_prop in Hok as [Hb Hr]. apply byte_ok_iff in Hb.
  cbn [spec_chars_dec length firstn skipn]. cbn [Nat.ltb Nat.leb Nat.eqb andb].
  rewrite spec_le_val_le_dec. cbn [le_dec]. replace (b + 256 * 0) with b by lia.
  assert (Hc : char_ok 1 b = true) by (unfold char_ok, is_surr; rewrite wpow_1; lia).
  rewrite Hc, IH by (try exact Hr; cbn in Hf; lia). reflexivity.
Qed.

Lemma spec_chars_dec_utf16 d fuel :
  bytes_ok d = true -> spec_chars_dec 2 fuel d = utf16_decode fuel d.
Proof.
  revert d. induction fuel as [|f IH]; intros d Hok.
  - destruct d; reflexivity.
  - destruct d as [|l0 [|h0 r0]]; [reflexivity|reflexivity|].
    rewrite !bytes_ok_cons in Hok. apply andb_prop in Hok as [Hl Hok]. apply andb_prop in Hok as [Hh Hr0].
    apply byte_ok_iff in Hl, Hh.
    cbn [spec_chars_dec utf16_decode length firstn skipn]. cbn [Nat.ltb Nat.leb Nat.eqb andb].
    rewrite spec_le_val_le_dec. cbn [le_dec]. replace (l0 + 256 * (h0 + 256 * 0)) with (l0 + 256 * h0) by lia.
    set (u := l0 + 256 * h0).
    destruct ((55296 <=? u) && (u <=? 56319)) eqn:Ehi.
    + destruct r0 as [|l1 [|h1 r1]]; [reflexivity|reflexivity|].
      rewrite !bytes_ok_cons in Hr0. apply andb_prop in Hr0 as [Hl1 Hr0]. apply andb_prop in Hr0 as [Hh1 Hr1].
      cbn [length Nat.ltb Nat.leb firstn skipn]. rewrite spec_le_val_le_dec. cbn [le_dec].
      replace (l1 + 256 * (h1 + 256 * 0)) with (l1 + 256 * h1) by lia.
      destruct ((56320 <=? l1 + 256 * h1) && (l1 + 256 * h1 <=? 57343)); [|reflexivity]. now rewrite IH.
    + destruct ((56320 <=? u) && (u <=? 57343)) eqn:Elo.
      * assert (Hc : char_ok 2 u = false) by (unfold char_ok, is_surr; lia). now rewrite Hc.
      * assert (Hc : char_ok 2 u = true) by (unfold char_ok, is_surr; rewrite wpow_2; unfold u; lia).
        rewrite Hc. now rewrite IH.
Qed.

Lemma spec_chars_dec_utf32 d fuel :
  bytes_ok d = true -> spec_chars_dec 4 fuel d = utf32_decode fuel d.
Proof.
  revert d. induction fuel as [|f IH]; intros d Hok.
  - destruct d; reflexivity.
  - destruct d as [|b0 [|b1 [|b2 [|b3 r]]]]; try reflexivity.
    assert (Hr : bytes_ok r = true) by (rewrite !bytes_ok_cons in Hok; repeat (apply andb_prop in Hok as [_ Hok]); exact Hok).
    assert (Hd : bytes_ok [b0; b1; b2; b3] = true).
    { rewrite !bytes_ok_cons in Hok |- *. apply andb_prop in Hok as [H0 Hok]. apply andb_prop in Hok as [H1 Hok].
      apply andb_prop in Hok as [H2 Hok]. apply andb_prop in Hok as [H3 _]. now rewrite H0, H1, H2, H3. }
    cbn [spec_chars_dec utf32_decode length firstn skipn]. cbn [Nat.ltb Nat.leb Nat.eqb andb].
    rewrite spec_le_val_le_dec. set (c := le_dec [b0; b1; b2; b3]).
    pose proof (le_dec_range _ Hd) as Hc. fold c in Hc. change (pow256 (length [b0; b1; b2; b3])) with 4294967296 in Hc.
    assert (Heq : char_ok 4 c = scalar_ok c) by (unfold char_ok, is_surr, scalar_ok, is_surrogate; rewrite wpow_4; lia).
    rewrite Heq. destruct (scalar_ok c); [|reflexivity]. now rewrite IH.
Qed.

Lemma text_decode_spec e cw d :
  char_width e = Some cw -> bytes_ok d = true ->
  text_decode e d = match spec_chars_dec cw (length d) d with Some s => Ok s | None => Err (Foreign UnicodeError) end.
Proof.
  intros He Hok. destruct e; cbn [char_width] in He; try discriminate; injection He as <-; cbn [text_decode].
  - now rewrite spec_chars_dec_latin1.
  - now rewrite spec_chars_dec_utf16.
  - now rewrite spec_chars_dec_utf32.
Qed.

Definition on_wire (Q : ty -> Prop) (t : ty) : Prop := wire_ty t = true -> Q t.

(* structural induction on [ty] (members of structures included), the types outside [wire_ty] discharged *)
Section WireInd.
  Variable Q : ty -> Prop.
  Hypothesis HBool : on_wire Q TBool.
  Hypothesis HInt : forall sg w, on_wire Q (TInt sg w).
  Hypothesis HReal : forall dbl, on_wire Q (TReal dbl).
  Hypothesis HDateTime : on_wire Q TDateTime.
  Hypothesis HStr : forall lsg lw enc, on_wire Q (TStr lsg lw enc).
  Hypothesis HStringN : on_wire Q TStringN.
  Hypothesis HNBytes : forall n, on_wire Q (TNBytes n).
  Hypothesis HBits : forall w, on_wire Q (TBits w).
  Hypothesis HArrFixed : forall n e, Q e -> on_wire Q (TArrFixed n e).
  Hypothesis HArrAll : forall e, Q e -> on_wire Q (TArrAll e).
  Hypothesis HStruct : forall ms, Forall (fun m => Q (snd m)) ms -> on_wire Q (TStruct SPlain ms).
  Hypothesis HFixedStr : forall size lsg lw cap, on_wire Q (TFixedStr size lsg lw cap).
  Hypothesis HStructTag : forall ms bits priv size, Forall (fun m => Q (snd m)) ms -> on_wire Q (TStructTag ms bits priv size).

  Let no_wire t : wire_ty t = false -> on_wire Q t.
  Proof. intros H Hw. congruence. Qed.

  Definition Forall_snd {A} (f : forall t, on_wire Q t) :
    forall l : list (A * ty), forallb (fun m => wire_ty (snd m)) l = true -> Forall (fun m => Q (snd m)) l :=
    fix go l := match l with
                | [] => fun _ => Forall_nil _
                | m :: r => fun H => Forall_cons m (f (snd m) (proj1 (andb_prop _ _ H))) (go r (proj2 (andb_prop _ _ H)))
                end.

  Fixpoint wire_ty_ind (t : ty) : on_wire Q t :=
    match t with
    | TBool => HBool
    | TInt sg w => HInt sg w
    | TReal dbl => HReal dbl
    | TDateTime => HDateTime
    | TStr a b c => HStr a b c
    | TStringN => HStringN
    | TNBytes n => HNBytes n
    | TBits w => HBits w
    | TArrFixed n e => fun Hw => HArrFixed n e (wire_ty_ind e (proj1 (andb_prop _ _ Hw))) Hw
    | TArrAll e => fun Hw => HArrAll e (wire_ty_ind e (proj1 (andb_prop _ _ (proj1 (andb_prop _ _ Hw))))) Hw
    | TStruct SPlain ms =>
        fun Hw => HStruct ms (Forall_snd wire_ty_ind ms (proj1 (andb_prop _ _ (proj1 (andb_prop _ _ Hw))))) Hw
    | TFixedStr a b c d => HFixedStr a b c d
    | TStructTag ms bits priv size =>
        fun Hw => HStructTag ms bits priv size (Forall_snd wire_ty_ind ms (proj1 (andb_prop _ _ Hw))) Hw
    | t' => no_wire t' eq_refl
    end.
End WireInd.

Definition inside (size : nat) (m : (key * nat) * ty) : bool :=
  match sfixed (snd m) with Some w => (snd (fst m) + w <=? size)%nat | None => false end.

Lemma tmpl_inside_aux size ms exts :
  all_some (map (extent_of size) ms) = Some exts -> forallb (inside size) ms = true.
Proof.
  revert exts. induction ms as [|m ms IH]; intros exts H; [reflexivity|].
  cbn [map all_some] in H. unfold extent_of at 1 in H. cbn [forallb]. unfold inside at 1.
  destruct (sfixed (snd m)) as [w|]; [|discriminate].
  destruct (snd (fst m) + w <=? size)%nat; [|discriminate].
  destruct (all_some (map (extent_of size) ms)) as [r|] eqn:E; [|discriminate]. cbn [andb]. now apply (IH r).
Qed.

Lemma tmpl_inside ms bits priv size : tmpl_ok ms bits priv size = true -> forallb (inside size) ms = true.
Proof.
  unfold tmpl_ok. intros H. apply andb_prop in H as [H _]. apply andb_prop in H as [H _]. apply andb_prop in H as [H _]. apply andb_prop in H as [H _].
  destruct (all_some (map (extent_of size) ms)) as [exts|] eqn:E; [|discriminate]. now apply (tmpl_inside_aux size ms exts).
Qed.
