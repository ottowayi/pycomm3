(* Proofs/CodecRTBuf.v — C06: byte-buffer lemmas for StructTag (slice assignment into a bytearray,
   setting / clearing one bit of one byte, reading a slice back). *)
From PV Require Import Base.Bytes Base.BytesLemmas Base.Res Model.Codec Model.CodecDom.
From Coq Require Import ZifyBool.
Open Scope Z_scope.

Definition inside (off w i : nat) : Prop := (off <= i < off + w)%nat.

Lemma inside_add off w j : (j < w)%nat -> inside off w (off + j).
Proof. unfold inside. lia. Qed.

Lemma splice_length buf a e : (a + length e <= length buf)%nat -> length (splice buf a e) = length buf.
Proof.
  intros H. unfold splice. rewrite !app_length, firstn_length, skipn_length. lia.
Qed.

Lemma splice_nth_outside buf a e i :
  (a + length e <= length buf)%nat -> ~ inside a (length e) i ->
  nth_error (splice buf a e) i = nth_error buf i.
Proof.
  unfold inside, splice. intros H Hi. destruct (Nat.lt_ge_cases i a) as [Hlt|Hge].
  - rewrite nth_error_app1 by (rewrite firstn_length; lia). now apply nth_error_firstn.
  - rewrite nth_error_app2 by (rewrite firstn_length; lia). rewrite firstn_length.
    replace (Nat.min a (length buf)) with a by lia.
    rewrite nth_error_app2 by lia. rewrite nth_error_skipn. f_equal. lia.
Qed.

Lemma splice_nth_inside buf a e j :
  (a + length e <= length buf)%nat -> (j < length e)%nat ->
  nth_error (splice buf a e) (a + j) = nth_error e j.
Proof.
  intros H Hj. unfold splice. rewrite nth_error_app2 by (rewrite firstn_length; lia).
  rewrite firstn_length. replace (a + j - Nat.min a (length buf))%nat with j by lia.
  now rewrite nth_error_app1 by lia.
Qed.

Lemma skipn_slice_ext (buf e : bytes) off :
  (off + length e <= length buf)%nat ->
  (forall j, (j < length e)%nat -> nth_error buf (off + j) = nth_error e j) ->
  skipn off buf = e ++ skipn (off + length e) buf.
Proof.
  revert off. induction e as [|x e IH]; intros off Hl H; cbn [length app] in *.
  - now rewrite Nat.add_0_r.
  - pose proof (H 0%nat ltac:(lia)) as H0. rewrite Nat.add_0_r in H0.
    rewrite (skipn_nth_error _ _ _ H0), (IH (S off)); [now rewrite Nat.add_succ_r|lia|].
    intros j Hj. specialize (H (S j) ltac:(lia)). cbn [nth_error] in H. rewrite <- H. now rewrite Nat.add_succ_r.
Qed.

Lemma set_nth_at buf i f b :
  nth_error buf i = Some b ->
  exists buf', set_nth buf i f = Some buf' /\ length buf' = length buf
               /\ (forall j, j <> i -> nth_error buf' j = nth_error buf j) /\ nth_error buf' i = Some (f b).
Proof.
  revert i. induction buf as [|x r IH]; intros [|i] H; try discriminate H; cbn [set_nth].
  - injection H as ->. eexists. split; [reflexivity|]. repeat split. intros [|j] Hj; [congruence|reflexivity].
  - destruct (IH i H) as (r' & -> & H1 & H2 & H3). eexists. split; [reflexivity|]. cbn [length nth_error].
    split; [now rewrite H1|]. split; [|exact H3]. intros [|j] Hj; [reflexivity|]. apply H2. congruence.
Qed.

Lemma byte_high_bits x m : 0 <= x < 256 -> 8 <= m -> Z.testbit x m = false.
Proof. intros H Hm. rewrite <- (Z.mod_small x (2 ^ 8)) by lia. apply Z.mod_pow2_bits_high. lia. Qed.

Lemma byte_of_high_bits x : 0 <= x -> (forall m, 8 <= m -> Z.testbit x m = false) -> x < 256.
Proof.
  intros H0 H. replace x with (x mod 2 ^ 8); [apply Z.mod_pos_bound; lia|].
  apply Z.bits_inj'. intros m Hm. destruct (Z.lt_ge_cases m 8).
  - now apply Z.mod_pow2_bits_low.
  - rewrite Z.mod_pow2_bits_high by lia. symmetry. now apply H.
Qed.

(* [b] with bit [n] set or cleared, the two expressions of StructTag._encode *)
Definition with_bit (b : Z) (n : nat) (v : bool) : Z :=
  if v then Z.lor b (2 ^ Z.of_nat n) else Z.land b (Z.lnot (2 ^ Z.of_nat n)).

Lemma with_bit_spec b n v m :
  0 <= m -> Z.testbit (with_bit b n v) m = if Z.of_nat n =? m then v else Z.testbit b m.
Proof.
  intros Hm. unfold with_bit. destruct v.
  - rewrite Z.lor_spec, Z.pow2_bits_eqb by lia. destruct (Z.of_nat n =? m); [apply orb_true_r|apply orb_false_r].
  - rewrite Z.land_spec, Z.lnot_spec, Z.pow2_bits_eqb by lia.
    destruct (Z.of_nat n =? m); [apply andb_false_r|apply andb_true_r].
Qed.

Lemma with_bit_same b n v : Z.testbit (with_bit b n v) (Z.of_nat n) = v.
Proof. rewrite with_bit_spec by lia. now rewrite Z.eqb_refl. Qed.

Lemma with_bit_other b n v m : m <> n -> Z.testbit (with_bit b n v) (Z.of_nat m) = Z.testbit b (Z.of_nat m).
Proof. intros H. rewrite with_bit_spec by lia. destruct (Z.of_nat n =? Z.of_nat m) eqn:E; [lia|reflexivity]. Qed.

Lemma with_bit_byte b n v : 0 <= b < 256 -> (n < 8)%nat -> 0 <= with_bit b n v < 256.
Proof.
  intros Hb Hn. assert (H0 : 0 <= with_bit b n v).
  { unfold with_bit. destruct v; [apply Z.lor_nonneg; split; [lia|apply Z.pow_nonneg; lia]|apply Z.land_nonneg; left; lia]. }
  split; [exact H0|]. apply byte_of_high_bits; [exact H0|]. intros m Hm.
  rewrite with_bit_spec by lia. destruct (Z.of_nat n =? m) eqn:E; [lia|]. now apply byte_high_bits.
Qed.
