(* Proofs/WriteMsg.v — the write request messages (C02): assembled once, laid out as the
   SPECIFICATION side reads them.

     build_message_once     RequestPacket.build_message is idempotent: building a built packet again
                            returns the same packet with the same message (what the `_msg_setup` flag
                            is for; a tree that cleared the flag doubled the message)
     write_message / frag_message / rmw_message
                            the bytes of the three write requests: sequence count, service, path, type
                            (code | A0 02 handle), element count, [offset], data / mask size, masks
     parse_mr_message       the target's message-router parser splits them into service, path, data
     svc_write_accepts / svc_write_frag_accepts / svc_rmw_accepts
                            the target's (strict) services execute exactly the store the message
                            describes when type, count and length are those of the addressed tag
     write_request_executes a Write Tag request from the packet constructor to the target's store;
                            request_stores names the conclusion the write_correct_* theorems for data places share
     rmw_executes           one Read-Modify-Write, from the masks of the bit writes to the word the target stores *)
From Coq Require Import ZifyBool.
From PV Require Import Base.Bytes Base.BytesLemmas Base.Res Base.PyStr Model.Path Model.LogixWrite.
From PV Require Import Spec.EncapParser Spec.MRParser Spec.TargetIface Spec.TargetCore Spec.Project Spec.Expect Spec.TargetLogix.
From PV Require Import Proofs.PathStr Proofs.TargetCoreP Proofs.TargetLogixP Proofs.WriteBits Proofs.WriteEnc.
Open Scope Z_scope.
Ltac Zify.zify_post_hook ::= Z.to_euclidean_division_equations.

(* the service codes the model reads from the regenerated Services table *)
Lemma svc_codes : SVC_WRITE = [77] /\ SVC_WRITE_FRAG = [83] /\ SVC_RMW = [78] /\ SVC_MULTI = [10].
Proof. vm_compute. repeat split; reflexivity. Qed.

Lemma build_fixpoint q m path f :
  build_message (set_msg q true m (concat m) path f) = Ok (set_msg q true m (concat m) path f).
Proof. destruct q. reflexivity. Qed.

Theorem build_message_once p p1 :
  build_message p = Ok p1 ->
  build_message p1 = Ok p1 /\ k_msg_setup p1 = true /\ k_message p1 = concat (k_msg p1).
Proof.
  unfold build_message. intros H.
  assert (G : exists q m path f, p1 = set_msg q true m (concat m) path f).
  { destruct (k_msg_setup p) eqn:E.
    - injection H as <-. exists p, (k_msg p), (k_path p), (k_failed p). rewrite E. reflexivity.
    - destruct (setup_message p) as [p0|e]; [|discriminate]. injection H as <-.
      eexists _, _, _, _. cbn [k_msg_setup k_msg k_path k_failed set_msg]. reflexivity. }
  destruct G as (q & m & path & f & ->). split; [apply build_fixpoint|]. destruct q. split; reflexivity.
Qed.

(* the second build (at send time) sends the message that was sized at planning time *)
Corollary build_message_twice p p1 p2 :
  build_message p = Ok p1 -> build_message p1 = Ok p2 -> k_message p2 = k_message p1.
Proof. intros H1 H2. destruct (build_message_once _ _ H1) as [E _]. rewrite E in H2. injection H2 as <-. reflexivity. Qed.

Definition write_data (pt : bytes) (elements : Z) (value : bytes) : bytes := pt ++ le_enc 2 elements ++ value.
Definition frag_data (pt : bytes) (elements offset : Z) (seg : bytes) : bytes := pt ++ le_enc 2 elements ++ le_enc 4 offset ++ seg.
Definition rmw_data (size : Z) (o a : bytes) : bytes := le_enc 2 size ++ o ++ a.

Theorem write_message seq tag elements info id ui value pt path :
  packed_data_type info = Ok pt -> path_of tag info ui = Ok (Some path) ->
  0 <= seq < 65536 -> 0 <= elements < 65536 ->
  exists p p1, new_write_packet KWrite seq tag elements info id ui 0 value = Ok p /\ build_message p = Ok p1
    /\ k_message p1 = le_enc 2 seq ++ [77] ++ path ++ write_data pt elements value.
Proof.
  intros Hpt Hp Hs He. unfold new_write_packet. rewrite Hpt. eexists _, _. split; [reflexivity|].
  unfold build_message, setup_message, tag_only_message. cbn [k_msg_setup k_seq k_kind k_path k_tag k_info k_use_inst k_msg k_elements
    k_added k_message k_failed k_value k_packed_type set_msg].
  rewrite (UINT_ok seq Hs), Hp.
  cbn [k_msg_setup k_seq k_kind k_path k_tag k_info k_use_inst k_msg k_elements k_added k_message k_failed k_value k_packed_type set_msg].
  rewrite (UINT_ok elements He). split; [reflexivity|]. cbn [k_message k_msg set_msg concat app].
  destruct svc_codes as (-> & _). unfold write_data. rewrite ?app_nil_r, <- ?app_assoc. reflexivity.
Qed.

Theorem frag_message seq r off seg p :
  frag_from_request seq r off seg = Ok p -> seg <> [] -> k_path r <> None ->
  0 <= seq < 65536 -> 0 <= k_elements r < 65536 -> 0 <= off < 4294967296 ->
  exists p1 path, k_path r = Some path /\ build_message p = Ok p1
    /\ k_message p1 = le_enc 2 seq ++ [83] ++ path ++ frag_data (k_packed_type p) (k_elements r) off seg.
Proof.
  intros Hn Hseg Hpath Hs He Ho. unfold frag_from_request, new_write_packet in Hn.
  destruct (packed_data_type (k_info r)) as [pt|]; [|discriminate]. injection Hn as <-.
  destruct (k_path r) as [path|] eqn:EP; [|congruence].
  destruct seg as [|b seg']; [congruence|].
  unfold build_message, setup_message, tag_only_message. cbn [k_msg_setup k_seq k_kind k_path k_tag k_info k_use_inst k_msg k_elements
    k_added k_message k_failed k_value k_packed_type k_offset set_msg].
  rewrite (UINT_ok seq Hs).
  cbn [k_msg_setup k_seq k_kind k_path k_tag k_info k_use_inst k_msg k_elements k_added k_message k_failed k_value k_packed_type k_offset set_msg].
  rewrite (UINT_ok _ He), (UDINT_ok off Ho).
  eexists _, path. split; [reflexivity|]. split; [reflexivity|].
  cbn [k_message k_packed_type set_msg k_msg concat app].
  destruct svc_codes as (_ & -> & _). unfold frag_data. rewrite ?app_nil_r, <- ?app_assoc. reflexivity.
Qed.

Theorem rmw_message p size o a path ob ab :
  k_kind p = KRmw -> k_msg_setup p = false -> k_msg p = [] -> k_added p = [] -> k_path p = Some path ->
  k_mask_size p = size -> k_or p = o -> k_and p = a ->
  0 <= k_seq p < 65536 -> 0 <= size < 65536 -> mask_bytes o size = Ok ob -> mask_bytes a size = Ok ab ->
  exists p1, build_message p = Ok p1 /\ k_message p1 = le_enc 2 (k_seq p) ++ [78] ++ path ++ rmw_data size ob ab.
Proof.
  intros Hk Hsu Hm Had Hp Hsz Hor Han Hs Hsize Ho Ha.
  unfold build_message, setup_message. rewrite Hsu, Hk, Hm, Hp, Hsz, Hor, Han, (UINT_ok _ Hs), (UINT_ok _ Hsize), Ho, Ha.
  cbn [k_msg k_added k_message k_path k_failed k_msg_setup set_msg]. rewrite Had.
  eexists. split; [reflexivity|]. cbn [k_message set_msg concat app].
  destruct svc_codes as (_ & _ & -> & _). unfold rmw_data. rewrite ?app_nil_r, <- ?app_assoc. reflexivity.
Qed.

(* a counted padded path: word count, then that many words *)
Definition counted_path (path : bytes) (body : bytes) : Prop :=
  exists w, path = w :: body /\ EncapParser.blen body = 2 * w.

Theorem parse_mr_message svc path body data :
  0 <= svc < 128 -> counted_path path body ->
  parse_mr ([svc] ++ path ++ data) = RcOk {| mr_service := svc; mr_path := body; mr_data := data |}.
Proof.
  intros Hs (w & -> & Hw). unfold parse_mr. cbn [app].
  replace (128 <=? svc) with false by lia. rewrite <- Hw, takez_app. reflexivity.
Qed.

Lemma parse_wtype_atom c r : 0 <= c < 65536 -> c mod 256 <> 160 ->
  parse_wtype (le_enc 2 c ++ r) = Some (inl c, r).
Proof.
  intros Hc Hne. cbn [le_enc app]. set (c0 := c mod 256) in *. set (c1 := (c / 256) mod 256).
  assert (E : u16 c0 c1 = c) by (subst c0 c1; apply u16_enc, Hc).
  unfold parse_wtype.
  (* parse_wtype tests the first byte against the literal 160: walk its binary digits until that is decided *)
  destruct c0 as [|q|q]; try (rewrite E; reflexivity).
  do 8 (destruct q as [q|q|]; try (rewrite E; reflexivity)).
  all: try (exfalso; apply Hne; reflexivity).
Qed.

Lemma parse_wtype_struct h r : 0 <= h < 65536 ->
  parse_wtype (160 :: 2 :: le_enc 2 h ++ r) = Some (inr h, r).
Proof. intros Hh. cbn [le_enc app parse_wtype]. rewrite u16_enc by exact Hh. reflexivity. Qed.

Lemma packed_type_struct name ty h i : 0 <= h < 65536 ->
  packed_data_type (mkInfo true name ty h i) = Ok (160 :: 2 :: le_enc 2 h).
Proof. intros Hh. unfold packed_data_type. cbn [ti_struct ti_handle]. rewrite (UINT_ok h Hh). reflexivity. Qed.

Theorem svc_write_accepts p m img l data ty n value s :
  parse_wtype data = Some (ty, le_enc 2 n ++ value) ->
  type_matches p l ty = true -> loc_esize p l = Some s ->
  1 <= n <= w_avail l -> n < 65536 -> Expect.blen value = n * s ->
  svc_write p m img l data = do_store 77 m img l 0 value.
Proof.
  intros Hp Ht Hs Hn Hn2 Hl. unfold svc_write. rewrite Hp. cbn [le_enc app]. rewrite Hs, Ht. cbn [negb].
  rewrite u16_enc by lia.
  replace ((n <? 1) || (w_avail l <? n)) with false by lia.
  replace (Expect.blen value <? n * s) with false by lia.
  replace (n * s <? Expect.blen value) with false by lia. reflexivity.
Qed.

(* Write Tag Fragmented 0x53: the memory and the reply are those of the store (an information
   event is added when the fragment splits an element) *)
Theorem svc_write_frag_accepts p m img l data ty n off seg s :
  parse_wtype data = Some (ty, le_enc 2 n ++ le_enc 4 off ++ seg) ->
  type_matches p l ty = true -> loc_esize p l = Some s ->
  1 <= n <= w_avail l -> n < 65536 -> 0 <= off < 4294967296 ->
  1 <= Expect.blen seg -> off < n * s -> off + Expect.blen seg <= n * s ->
  fst (svc_write_frag p m img l data) = fst (do_store 83 m img l off seg)
  /\ exists extra, snd (svc_write_frag p m img l data) = snd (do_store 83 m img l off seg) ++ extra
       /\ Forall (fun e => match e with EvApp 3 _ _ => True | _ => False end) extra.
Proof.
  intros Hp Ht Hs Hn Hn2 Ho Hl1 Hl2 Hl3. unfold svc_write_frag. rewrite Hp. cbn [le_enc app]. rewrite Hs, Ht. cbn [negb].
  rewrite u16_enc by lia.
  replace (u32 (off mod 256) ((off / 256) mod 256) ((off / 256 / 256) mod 256) ((off / 256 / 256 / 256) mod 256)) with off
    by (symmetry; apply u32_enc, Ho).
  replace ((n <? 1) || (w_avail l <? n)) with false by lia.
  replace (Expect.blen seg <? 1) with false by lia.
  replace (n * s <=? off) with false by lia.
  replace (n * s <? off + Expect.blen seg) with false by lia.
  destruct (do_store 83 m img l off seg) as [[m' rp] evs].
  destruct (negb (loc_is_struct l) && (negb (off mod s =? 0) || negb (Expect.blen seg mod s =? 0))); cbn [fst snd].
  - split; [reflexivity|]. eexists. split; [reflexivity|]. repeat constructor.
  - split; [reflexivity|]. exists []. rewrite app_nil_r. split; [reflexivity|constructor].
Qed.

Theorem svc_rmw_accepts p m img l size o a old :
  loc_esize p l = Some size -> rmw_ok_type l = true -> 0 <= size < 65536 ->
  Expect.blen o = size -> Expect.blen a = size ->
  get_bytes img (w_off l) size = Some old ->
  svc_rmw p m img l (le_enc 2 size ++ o ++ a) = do_store 78 m img l 0 (rmw_bytes old o a).
Proof.
  intros Hs Hok Hsize Ho Ha Hg. unfold svc_rmw. cbn [le_enc app]. rewrite u16_enc by lia. rewrite Hs, Hok.
  cbn [negb orb]. rewrite Z.eqb_refl. cbn [negb].
  assert (Hl : Expect.blen (o ++ a) = 2 * size) by (rewrite blen_app; lia).
  replace (Expect.blen (o ++ a) <? 2 * size) with false by lia.
  replace (2 * size <? Expect.blen (o ++ a)) with false by lia.
  rewrite Hg.
  assert (Hn : Z.to_nat size = length o) by (unfold Expect.blen in Ho; lia).
  rewrite Hn, firstn_app_exact, skipn_app_exact. reflexivity.
Qed.

Theorem tag_service_write st l cap path data img :
  mem_get (ls_mem st) (w_inst l) = Some img ->
  TargetLogix.tag_service st l cap {| mr_service := 77; mr_path := path; mr_data := data |}
  = let '(m', rp, ev) := svc_write (ls_proj st) (ls_mem st) img l data in (set_mem m' st, rp, ev).
Proof. intros H. unfold TargetLogix.tag_service. rewrite H. reflexivity. Qed.

Theorem tag_service_frag st l cap path data img :
  mem_get (ls_mem st) (w_inst l) = Some img ->
  TargetLogix.tag_service st l cap {| mr_service := 83; mr_path := path; mr_data := data |}
  = let '(m', rp, ev) := svc_write_frag (ls_proj st) (ls_mem st) img l data in (set_mem m' st, rp, ev).
Proof. intros H. unfold TargetLogix.tag_service. rewrite H. reflexivity. Qed.

Theorem tag_service_rmw st l cap path data img :
  mem_get (ls_mem st) (w_inst l) = Some img ->
  TargetLogix.tag_service st l cap {| mr_service := 78; mr_path := path; mr_data := data |}
  = let '(m', rp, ev) := svc_rmw (ls_proj st) (ls_mem st) img l data in (set_mem m' st, rp, ev).
Proof. intros H. unfold TargetLogix.tag_service. rewrite H. reflexivity. Qed.

Theorem logix_request_tag st tr cap rq l :
  resolve_path (ls_proj st) (mr_service rq =? 85) (mr_path rq) = TgTag l ->
  logix_request st tr cap rq = Some (TargetLogix.tag_service st l cap rq).
Proof. intros H. unfold logix_request. rewrite H. reflexivity. Qed.

Theorem do_store_plain svc m img l from d img' :
  w_bit l = None -> put_bytes img (w_off l + from) d = Some img' ->
  do_store svc m img l from d = (mem_set m (w_inst l) img', mr_ok [], [EvApp 1 [w_inst l; w_off l + from; svc] d]).
Proof. intros Hb Hp. unfold do_store, loc_store. rewrite Hb, Hp. reflexivity. Qed.

Lemma store_at l m img data img' svc :
  w_bit l = None -> put_bytes img (w_off l) data = Some img' ->
  do_store svc m img l 0 data = (mem_set m (w_inst l) img', mr_ok [], [EvApp 1 [w_inst l; w_off l; svc] data]).
Proof.
  intros Hb Hp. rewrite (do_store_plain svc m img l 0 data img' Hb) by (rewrite Z.add_0_r; exact Hp).
  rewrite Z.add_0_r. reflexivity.
Qed.

Theorem write_request_executes p m img l info id tag ui seq path pt tyv n d s :
  packed_data_type info = Ok pt -> path_of tag info ui = Ok (Some path) -> 0 <= seq < 65536 ->
  (forall rest, parse_wtype (pt ++ rest) = Some (tyv, rest)) -> type_matches p l tyv = true ->
  loc_esize p l = Some s -> 1 <= n <= w_avail l -> n < 65536 -> Expect.blen d = n * s ->
  exists pk pk1,
    new_write_packet KWrite seq tag n info id ui 0 d = Ok pk
    /\ build_message pk = Ok pk1
    /\ k_message pk1 = le_enc 2 seq ++ [77] ++ path ++ write_data pt n d
    /\ svc_write p m img l (write_data pt n d) = do_store 77 m img l 0 d.
Proof.
  intros Hpt Hpath Hseq Hparse Htm Hs Hn Hn2 Hl.
  destruct (write_message seq tag n info id ui d pt path Hpt Hpath Hseq ltac:(lia)) as (pk & pk1 & H1 & H2 & H3).
  exists pk, pk1. split; [exact H1|]. split; [exact H2|]. split; [exact H3|].
  apply (svc_write_accepts p m img l _ tyv n d s); try assumption. apply Hparse.
Qed.

(* One Read-Modify-Write carrying the masks of the bit writes [bl], executed on a word of [size] bytes:
   the masks are encodable at that width, and the word the target stores is the old word with the
   reference's bit writes (those inside the width) applied in order. *)
Theorem rmw_executes p m img l dword bl size old :
  loc_esize p l = Some size -> rmw_ok_type l = true -> w_bit l = None -> 0 < size <= 8 ->
  get_bytes img (w_off l) size = Some old -> bytes_ok old = true ->
  Forall (fun bv => 0 <= eff_bit dword (fst bv) < 64) bl ->
  let w := Z.to_nat size in
  let ob := le_enc w (fst (rmw_masks dword bl)) in
  let ab := le_enc w (snd (rmw_masks dword bl)) in
  let new := le_enc w (apply_bits (le_dec old) (filter (in_width size) (eff dword bl))) in
  mask_bytes (fst (rmw_masks dword bl)) size = Ok ob /\ mask_bytes (snd (rmw_masks dword bl)) size = Ok ab
  /\ exists P S, img = P ++ old ++ S /\ Z.of_nat (length P) = w_off l /\ length old = w
       /\ svc_rmw p m img l (rmw_data size ob ab)
          = (mem_set m (w_inst l) (P ++ new ++ S), mr_ok [], [EvApp 1 [w_inst l; w_off l; 78] new]).
Proof.
  intros Hs Hok Hb Hsize Hg Hokb Hall w ob ab new.
  destruct (get_bytes_decomp img (w_off l) size old Hg) as (P & S & -> & HP & Hlo).
  assert (Hlw : length old = w) by (unfold w; lia).
  assert (HVr : 0 <= le_dec old < pow256 w) by (rewrite <- Hlw; apply le_dec_range, Hokb).
  destruct (rmw_effect dword bl size _ Hall Hsize HVr) as (Mo & Ma & Lo & La & _).
  pose proof (rmw_stored dword bl size _ Hall Hsize HVr) as Hst. cbv zeta in Hst. fold w ob ab new in Mo, Ma, Lo, La, Hst.
  rewrite <- Hlw, (le_enc_dec old Hokb) in Hst at 1.
  split; [exact Mo|]. split; [exact Ma|]. exists P, S. split; [reflexivity|]. split; [exact HP|]. split; [exact Hlw|].
  unfold rmw_data. rewrite (svc_rmw_accepts p m _ l size ob ab old Hs Hok); [|lia|unfold Expect.blen; lia|unfold Expect.blen; lia|exact Hg].
  rewrite Hst. apply store_at; [exact Hb|]. rewrite <- HP. apply put_bytes_decomp.
  unfold new. rewrite le_enc_length. exact (eq_sym Hlw).
Qed.

(* The request [q], sent with sequence count [seq]: encode_value yields [n] elements of data, the
   Write Tag packet is built around them with type field [pt], and the target executing the
   message's data at [l] answers success, is left with memory [m_ref], and logs one executed write
   of the data at [l]. *)
Definition request_stores (p : project) (m : mem) (img : bytes) (l : wloc) (q : wparsed) (ui : bool) (seq : Z)
  (path pt : bytes) (n : Z) (m_ref : mem) : Prop :=
  exists data pk pk1,
    encode_value q = Ok (data, n)
    /\ new_write_packet KWrite seq (q_plc_tag q) n (q_info q) (q_id q) ui 0 data = Ok pk
    /\ build_message pk = Ok pk1
    /\ k_message pk1 = le_enc 2 seq ++ [77] ++ path ++ write_data pt n data
    /\ svc_write p m img l (write_data pt n data) = (m_ref, mr_ok [], [EvApp 1 [w_inst l; w_off l; 77] data]).

Lemma request_stores_intro p m img l q ui seq path pt tyv n d s img' :
  encode_value q = Ok (d, n) ->
  packed_data_type (q_info q) = Ok pt -> path_of (q_plc_tag q) (q_info q) ui = Ok (Some path) -> 0 <= seq < 65536 ->
  (forall rest, parse_wtype (pt ++ rest) = Some (tyv, rest)) -> type_matches p l tyv = true ->
  loc_esize p l = Some s -> 1 <= n <= w_avail l -> n < 65536 -> Expect.blen d = n * s ->
  w_bit l = None -> put_bytes img (w_off l) d = Some img' ->
  request_stores p m img l q ui seq path pt n (mem_set m (w_inst l) img').
Proof.
  intros Hev Hpt Hpath Hseq Hparse Htm Hs Hn Hn2 Hl Hb Hput.
  destruct (write_request_executes p m img l (q_info q) (q_id q) (q_plc_tag q) ui seq path pt tyv n d s
              Hpt Hpath Hseq Hparse Htm Hs Hn Hn2 Hl) as (pk & pk1 & T1 & T2 & T3 & T4).
  exists d, pk, pk1. rewrite T4, (store_at l m img d img' 77 Hb Hput). repeat split; assumption.
Qed.
