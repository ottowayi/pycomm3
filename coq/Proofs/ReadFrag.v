(* Proofs/ReadFrag.v — _send_read_fragmented against the reference target: for EVERY fragment-length
   policy of the target the loop terminates (fuel > number of bytes suffices), asks each time for
   the number of bytes received so far, and the reassembled bytes are the whole addressed data;
   the result is parse_read_reply on type field ++ data, exactly as for an unfragmented read.
   (The arithmetic of the offsets for arbitrary fragment lists is PlanP.read_frag_offsets; here the
   peer is the target and the lengths are what its policy dictates.) *)
From Coq Require Import ZifyBool.
From PV Require Import Base.Bytes Base.BytesLemmas Base.Res Base.PyStr.
From PV Require Import Gen.Consts Model.Path Model.Reply Model.LogixRead.
From PV Require Import Spec.EncapParser Spec.MRParser Spec.TargetIface Spec.TargetCore Spec.Project Spec.Expect Spec.TargetLogix.
From PV Require Import Proofs.TargetCoreP Proofs.TargetLogixP Proofs.ReadBits Proofs.ReadDecode Proofs.ReadTarget Proofs.ReadValue.
Open Scope Z_scope.
(* The imported files add the division equations to lia's preprocessing (zify_post_hook; an Ltac redefinition is global
   and reaches every importer), which is slow on every call. Off in this file, where the few goals about / and mod call
   Z.to_euclidean_division_equations themselves; the last line sets it again for the files that import this one. *)
Ltac Zify.zify_post_hook ::= idtac.

(* the type field of a reply is recognised and cut off *)
Definition tb_ok (tb : bytes) : Prop :=
  forall d, (if is_struct_reply (tb ++ d) then skipn 4 (tb ++ d) else skipn 2 (tb ++ d)) = d
            /\ (if is_struct_reply (tb ++ d) then firstn 4 (tb ++ d) else firstn 2 (tb ++ d)) = tb.

Lemma type_field_tb_ok p ty tb : type_field p ty tb -> tb_ok tb.
Proof. intros H d. destruct (type_field_stream p ty tb d H) as (H1 & _ & H3). split; assumption. Qed.

(* one round of _send_read_fragmented when the peer answers the request for offset [off] with the
   type field and the bytes [d], status 6 (more follows) or 0 (that was the last) *)
Lemma frag_loop_step {St} (peer : St -> bytes -> St * option bytes) fuel st path q off joined sent st1 (more : bool) tb d :
  0 <= pq_elements q < 65536 -> 0 <= off < 4294967296 -> tb_ok tb ->
  let msg := 82 :: path ++ le_enc 2 (pq_elements q) ++ le_enc 4 off in
  peer st msg = (st1, Some (210 :: 0 :: (if more then 6 else 0) :: 0 :: tb ++ d)) ->
  frag_loop peer (S fuel) st path q off true joined sent
  = if more then frag_loop peer fuel st1 path q (off + Path.len d) true (joined ++ d) (sent ++ [msg])
    else (st1, sent ++ [msg], Done (reply_opt (tb ++ joined ++ d) (pq_info q) (pq_elements q))).
Proof.
  intros Hn Ho Htb msg Hpeer. subst msg. cbn [frag_loop].
  rewrite (frag_message_ok path _ off Hn Ho). cbv beta iota. rewrite (send_some _ _ _ _ _ Hpeer).
  destruct (parse_unit_210 more (tb ++ d)) as (Hvalid & Hdata & Hstatus).
  cbv beta iota zeta. rewrite Hdata. destruct (Htb d) as [Hvb Hdt]. rewrite Hvb, Hdt, Hstatus, Hvalid.
  destruct more; reflexivity.
Qed.

Lemma loc_bytes_length pol img l from k d : loc_bytes pol img l from k = Some d ->
  (w_bit l = None -> Path.len d = k) /\ (w_bit l <> None -> Path.len d = 1).
Proof.
  unfold loc_bytes. destruct (w_bit l).
  - destruct (get_bytes img (w_off l) 1) as [[|x [|y t]]|]; try discriminate. intros H; injection H as <-.
    split; [discriminate|reflexivity].
  - intros H. apply get_bytes_len in H. split; [intros _; exact H|congruence].
Qed.

Section Frag.
  Variables (app : lstate) (ms : bool) (conn : Z).
  Variables (path pb : bytes) (q : preq) (l : wloc) (img : bytes) (s : Z) (tb full : bytes).
  Let n := pq_elements q.
  Let total := n * s.
  Let room := conn - 2 - 4 - Expect.blen tb.
  Hypothesis Hpw : path_wf path pb.
  Hypothesis Hcia : tag_cia pb.
  Hypothesis Hres : resolve_path (ls_proj app) false pb = TgTag l.
  Hypothesis Hmem : mem_get (ls_mem app) (w_inst l) = Some img.
  Hypothesis Hn : 0 <= n < 65536.
  Hypothesis Hs : loc_esize (ls_proj app) l = Some s.
  Hypothesis Htb : type_bytes (ls_proj app) l = Some tb.
  Hypothesis Htbok : tb_ok tb.
  Hypothesis Hs1 : 1 <= s.
  Hypothesis Hav : 1 <= n <= w_avail l.
  Hypothesis Hroom : s <= room.
  Hypothesis Hmsg : 2 + (1 + EncapParser.blen path + 6) <= conn.
  Hypothesis Htot : total < 4294967296.
  Hypothesis Hfull : loc_bytes (ls_pol app) img l 0 total = Some full.
  Hypothesis Hbit : w_bit l <> None -> total = 1.

  Lemma full_len : Path.len full = total.
  Proof.
    destruct (loc_bytes_length _ _ _ _ _ _ Hfull) as [H0 H1].
    destruct (w_bit l) as [b|]; [rewrite Hbit by discriminate; apply H1; discriminate|apply H0; reflexivity].
  Qed.

  Lemma frag_loop_ok : forall fuel st off sent,
    quiet app ms st -> 0 <= off < total -> (loc_is_struct l = false -> off mod s = 0) ->
    total - off < Z.of_nat fuel ->
    exists st' sent',
      frag_loop (target_peer conn) fuel st path q off true (firstn (Z.to_nat off) full) sent
      = (st', sent', Done (reply_opt (tb ++ full) (pq_info q) n)) /\ quiet app ms st'.
  Proof.
    induction fuel as [|fuel IH]; intros st off sent Hq Hoff Hal Hfuel; [lia|].
    destruct (frag_lim_bounds (ls_pol app) l s room off Hs1 Hroom) as [Hlim Hlimmod].
    set (k := Z.min (total - off) (frag_lim (ls_pol app) l s room off)).
    assert (Hk : 1 <= k <= total - off) by lia.
    assert (Ho : 0 <= off < 4294967296) by lia.
    destruct (loc_bytes_slice _ _ _ _ _ off k Hfull Hbit (proj1 Hoff) Hk) as [Hd Hld].
    set (d := firstn (Z.to_nat k) (skipn (Z.to_nat off) full)) in Hd, Hld.
    destruct (peer_frag app ms st conn path pb n l img s tb off d Hq Hpw Hcia Hres Hmem Hn Ho Hs Htb Hs1 Hav
                (proj2 Hoff) Hal Hroom Hd Hmsg) as (st1 & Hpeer & Hq1).
    rewrite (frag_loop_step _ fuel st path q off _ sent st1 (k <? total - off) tb d Hn Ho Htbok Hpeer).
    replace (firstn (Z.to_nat off) full ++ d) with (firstn (Z.to_nat (off + k)) full)
      by (rewrite Z2Nat.inj_add by lia; apply firstn_add).
    destruct (k <? total - off) eqn:Emore.
    - rewrite Hld. apply IH; [exact Hq1|lia| |lia].
      intros Hns. replace k with (frag_lim (ls_pol app) l s room off) by lia.
      rewrite Z.add_mod, (Hal Hns), (Hlimmod Hns) by lia. reflexivity.
    - rewrite firstn_all2 by (pose proof full_len; unfold Path.len in *; lia). eauto.
  Qed.

  (* _send_read_fragmented from offset 0 *)
  Theorem frag_read_ok fuel st sent : quiet app ms st -> (Z.to_nat total < fuel)%nat ->
    exists st' sent',
      frag_loop (target_peer conn) fuel st path q 0 true [] sent
      = (st', sent', Done (reply_opt (tb ++ full) (pq_info q) n)) /\ quiet app ms st'.
  Proof.
    intros Hq Hfuel. apply (frag_loop_ok fuel st 0 sent Hq); [subst total; nia| |lia].
    intros _. apply Z.mod_0_l. lia.
  Qed.
End Frag.

Ltac Zify.zify_post_hook ::= Z.to_euclidean_division_equations.
