(* Proofs/ReplyError.v — falsy replies carry a non-empty error text that names the CIP status
   (table text or two-digit hex code) and the extended status when the table has a text for it.
   Everything is structural (arbitrary reply bytes, 16/32-bit extended status values) except the
   checks that the regenerated tables have no duplicate keys and no empty text. *)
From Coq Require Import String ZifyBool.
From PV Require Import Base.Bytes Base.BytesLemmas Base.PyStr.
From PV Require Import Gen.Status Gen.Consts.
From PV Require Import Model.EnumMapDefs Model.EnumMap Model.Reply Spec.ReplyReader.
From PV Require Import Proofs.ReplyBase Proofs.ReplyValid.
Open Scope Z_scope.
Ltac Zify.zify_post_hook ::= Z.to_euclidean_division_equations.

Lemma is_prefix_app p r : is_prefix p (p ++ r) = true.
Proof. induction p as [|x p IH]; cbn; [reflexivity|]. now rewrite Z.eqb_refl, IH. Qed.
Lemma contains_unfold p s : contains p s = is_prefix p s || match s with [] => false | _ :: s' => contains p s' end.
Proof. destruct s; reflexivity. Qed.
Lemma contains_app_r p a s : contains p s = true -> contains p (a ++ s) = true.
Proof.
  induction a as [|y a IH]; intros H; [exact H|].
  cbn [app]. rewrite contains_unfold. rewrite (IH H). apply orb_true_r.
Qed.
Lemma contains_self p r : contains p (p ++ r) = true.
Proof. rewrite contains_unfold. now rewrite is_prefix_app. Qed.
Lemma contains_mid t a b : contains t (a ++ t ++ b) = true.
Proof. apply contains_app_r, contains_self. Qed.

Fixpoint nodupb (ks : list Z) : bool :=
  match ks with [] => true | k :: r => negb (existsb (Z.eqb k) r) && nodupb r end.

Lemma ilookup_none d k : existsb (Z.eqb k) (map fst d) = false -> ilookup d k = None.
Proof.
  induction d as [|[k' v] r IH]; [reflexivity|]. cbn [map fst existsb ilookup]. intros H.
  apply orb_false_iff in H as [H1 H2]. rewrite (IH H2).
  destruct (k' =? k) eqn:E; [lia|reflexivity].
Qed.
Lemma ilookup_tlookup d k : nodupb (map fst d) = true -> ilookup d k = tlookup d k.
Proof.
  induction d as [|[k' v] r IH]; [reflexivity|]. cbn [map fst nodupb ilookup tlookup]. intros H.
  apply andb_true_iff in H as [H1 H2]. rewrite (IH H2).
  destruct (k' =? k) eqn:E.
  - assert (k' = k) by lia. subst k'. rewrite <- (IH H2).
    rewrite ilookup_none; [reflexivity|]. now apply negb_true_iff in H1.
  - destruct (tlookup r k); reflexivity.
Qed.
Lemma ilookup2_none d k : existsb (Z.eqb k) (map fst d) = false -> ilookup2 d k = None.
Proof.
  induction d as [|[k' v] r IH]; [reflexivity|]. cbn [map fst existsb ilookup2]. intros H.
  apply orb_false_iff in H as [H1 H2]. rewrite (IH H2).
  destruct (k' =? k) eqn:E; [lia|reflexivity].
Qed.
Lemma ilookup2_tlookup2 d k : nodupb (map fst d) = true -> ilookup2 d k = tlookup2 d k.
Proof.
  induction d as [|[k' v] r IH]; [reflexivity|]. cbn [map fst nodupb ilookup2 tlookup2]. intros H.
  apply andb_true_iff in H as [H1 H2]. rewrite (IH H2).
  destruct (k' =? k) eqn:E.
  - assert (k' = k) by lia. subst k'. rewrite <- (IH H2).
    rewrite ilookup2_none; [reflexivity|]. now apply negb_true_iff in H1.
  - destruct (tlookup2 r k); reflexivity.
Qed.
Lemma tlookup2_in d k sub : tlookup2 d k = Some sub -> In sub (map snd d).
Proof.
  induction d as [|[k' v] r IH]; [discriminate|]. cbn [tlookup2 map snd].
  destruct (k' =? k); [intros [= <-]; now left|intros H; right; auto].
Qed.

Lemma service_status_nodup : nodupb (map fst service_status) = true.
Proof. vm_compute. reflexivity. Qed.
Lemma extend_codes_nodup : nodupb (map fst extend_codes) = true.
Proof. vm_compute. reflexivity. Qed.
Lemma extend_codes_sub_nodup : forallb (fun sub => nodupb (map fst sub)) (map snd extend_codes) = true.
Proof. vm_compute. reflexivity. Qed.

Lemma extend_text_spec g x :
  extend_text g x = match tlookup2 extend_codes g with Some sub => tlookup sub x | None => None end.
Proof.
  unfold extend_text. rewrite (ilookup2_tlookup2 extend_codes g extend_codes_nodup).
  destruct (tlookup2 extend_codes g) as [sub|] eqn:E; [|reflexivity].
  apply ilookup_tlookup. pose proof extend_codes_sub_nodup as H. rewrite forallb_forall in H.
  apply H. eapply tlookup2_in; eauto.
Qed.

Definition names1 (g : Z) (text : list Z) : bool :=
  match tlookup service_status g with Some t => contains t text | None => contains (hex_fixed 2 g) text end.

Lemma hex_min2_byte g : 0 <= g < 256 -> hex_min2_z g = hex_fixed 2 g.
Proof.
  intros H. unfold hex_min2_z, hex_min2. replace (g <? 0) with false by lia. cbn [hex_fixed app].
  destruct (g <? 16) eqn:E.
  - cbn [hex_digits]. rewrite E. replace (g / 16) with 0 by lia. reflexivity.
  - (* two digits need two rounds of fuel: log2 g >= 4 *)
    assert (L : 4 <= Z.log2 g) by (change 4 with (Z.log2 16); apply Z.log2_le_mono; lia).
    destruct (Z.to_nat (Z.log2 g)) as [|f] eqn:En; [lia|]. cbn [hex_digits]. rewrite E.
    replace (g / 16 <? 16) with true by lia. reflexivity.
Qed.

Lemma names1_status g r : 0 <= g < 256 -> names1 g (get_service_status_z g ++ r) = true.
Proof.
  intros H. unfold names1, get_service_status_z. rewrite (ilookup_tlookup _ g service_status_nodup).
  destruct (tlookup service_status g) as [t|]; [apply contains_self|].
  rewrite (hex_min2_byte g H), <- !app_assoc. apply contains_mid.
Qed.

Lemma texts_nonempty : forallb (fun '(_, v) => match v with [] => false | _ => true end) service_status = true.
Proof. vm_compute. reflexivity. Qed.
Lemma ilookup_in d k v : ilookup d k = Some v -> In (k, v) d.
Proof.
  induction d as [|[k' v'] r IH]; [discriminate|]. cbn [ilookup].
  destruct (ilookup r k) as [w|].
  - intros [= <-]. right. now apply IH.
  - destruct (k' =? k) eqn:E; [|discriminate]. intros [= <-]. left. f_equal. lia.
Qed.
Lemma service_status_text_nonempty z : get_service_status_z z <> [].
Proof.
  unfold get_service_status_z. destruct (ilookup service_status z) as [s|] eqn:E.
  - apply ilookup_in in E. pose proof texts_nonempty as H. rewrite forallb_forall in H.
    specialize (H _ E). cbv beta iota in H. destruct s; [discriminate|discriminate].
  - unfold unknown_error_prefix. cbn. discriminate.
Qed.

Lemma with_ext_nonempty s e : s <> [] -> with_ext s e <> [].
Proof.
  intros H. unfold with_ext. destruct e as [[|x e]|]; auto.
  destruct s; [congruence|discriminate].
Qed.
Lemma with_ext_prefix s e : exists r, with_ext s e = s ++ r.
Proof.
  unfold with_ext. destruct e as [[|x e]|]; [exists []; now rewrite app_nil_r|eexists; reflexivity|exists []; now rewrite app_nil_r].
Qed.

Definition fmt_ext (status ext : Z) : option text :=
  match extend_text status ext with
  | Some t => Some (t ++ T "  (" ++ hex_min2_z status ++ T ", " ++ hex_min2_z ext ++ T ")")
  | None => None
  end.
Definition ext_result (g n : Z) (raw : bytes) (d : nat) : option text :=
  if n * 2 =? 0 then fmt_ext g 0
  else if n * 2 =? 2 then match u16_at d raw with Some x => fmt_ext g x | None => None end
  else if n * 2 =? 4 then match u32_at d raw with Some x => fmt_ext g x | None => None end
  else Some ext_size_unknown.

Lemma ges_wf raw st g n : bytes_ok raw = true ->
  nth_error raw st = Some g -> nth_error raw (S st) = Some n ->
  (S (S st) + 2 * Z.to_nat n <= length raw)%nat ->
  get_extended_status raw st = ROk (ext_result g n raw (S (S st))).
Proof.
  intros Hok Hg Hn Hlen.
  pose proof (nth_error_bytes_ok raw _ n Hok Hn) as Hnr.
  unfold get_extended_status. rewrite (skipn_nth_error raw st g Hg), (skipn_nth_error raw (S st) n Hn).
  set (rest := skipn (S (S st)) raw).
  assert (Hrl : length rest = (length raw - S (S st))%nat) by apply skipn_length.
  rewrite USINT_eq.
  unfold decode_elem_stream at 1. cbn [ety_size ety_signed ety_name firstn length Nat.ltb Nat.leb skipn elem_value le_dec].
  unfold decode_elem_stream at 1. cbn [ety_size ety_signed ety_name firstn length Nat.ltb Nat.leb skipn elem_value le_dec].
  replace (g + 256 * 0) with g by lia. replace (n + 256 * 0) with n by lia.
  unfold ext_result. replace (n * 2 =? 1) with false by lia.
  destruct (n * 2 =? 0); [reflexivity|].
  destruct (n * 2 =? 2) eqn:E1.
  { rewrite UINT_eq. rewrite decode_elem_stream_full by (cbn [ety_size]; lia).
    cbn [ety_size ety_signed elem_value]. rewrite u16_at_skipn. fold rest.
    destruct rest as [|a [|b r]]; cbn [length] in Hrl; try lia.
    cbn [firstn le_dec]. replace (a + 256 * (b + 256 * 0)) with (a + 256 * b) by lia. reflexivity. }
  destruct (n * 2 =? 4) eqn:E2; [|reflexivity].
  rewrite UDINT_eq. rewrite decode_elem_stream_full by (cbn [ety_size]; lia).
  cbn [ety_size ety_signed elem_value]. rewrite u32_at_skipn. fold rest.
  destruct rest as [|a [|b [|c [|d r]]]]; cbn [length] in Hrl; try lia.
  cbn [firstn le_dec].
  replace (a + 256 * (b + 256 * (c + 256 * (d + 256 * 0)))) with (a + 256 * b + 65536 * c + 16777216 * d) by lia.
  reflexivity.
Qed.

Lemma ext_value_result (L : layout) raw g n x :
  l_extsize L = S (l_status L) -> l_data L = S (S (l_status L)) -> nth_error raw (S (l_status L)) = Some n ->
  ext_value (ext_status L raw) = Some x -> ext_result g n raw (S (S (l_status L))) = fmt_ext g x.
Proof.
  intros He Hd Hn. unfold ext_status, ext_result, byte_at. rewrite He, Hn, Hd.
  destruct n as [|[[|[]|]|[|[]|]|]|]; cbn [ext_value Z.eqb Pos.eqb Z.mul Pos.mul]; try discriminate; now intros ->.
Qed.

Lemma fmt_ext_named s g x sub t : tlookup2 extend_codes g = Some sub -> tlookup sub x = Some t ->
  contains t (with_ext s (fmt_ext g x)) = true.
Proof.
  intros Hs Ht. unfold fmt_ext. rewrite extend_text_spec, Hs, Ht. unfold with_ext.
  destruct (t ++ _) as [|c q] eqn:E; [destruct t; discriminate|].
  rewrite <- E, app_assoc. apply contains_app_r, contains_self.
Qed.

Lemma names_status_text (L : layout) raw g n :
  l_extsize L = S (l_status L) -> l_data L = S (S (l_status L)) -> 0 <= g < 256 -> nth_error raw (S (l_status L)) = Some n ->
  names_status service_status extend_codes g (ext_value (ext_status L raw))
    (with_ext (get_service_status_z g) (ext_result g n raw (S (S (l_status L))))) = true.
Proof.
  intros He Hd Hg En. unfold names_status. apply andb_true_iff. split.
  - destruct (with_ext_prefix (get_service_status_z g) (ext_result g n raw (S (S (l_status L))))) as [q ->].
    exact (names1_status g q Hg).
  - destruct (ext_value (ext_status L raw)) as [x|] eqn:Ex; [|reflexivity].
    rewrite (ext_value_result L raw g n x He Hd En Ex).
    destruct (tlookup2 extend_codes g) as [sub|] eqn:Hs; [|reflexivity].
    destruct (tlookup sub x) as [t|] eqn:Ht; [|reflexivity]. exact (fmt_ext_named _ g x sub t Hs Ht).
Qed.

Definition parse_k (k : rkind) (raw : bytes) : resp := match k with KRR => parse_rr raw | _ => parse_unit raw end.
Definition partial_k (k : rkind) : bool := match k with KRR => false | _ => true end.

Lemma error_text_gen k L raw :
  (k = KUnit /\ L = unit_layout) \/ (k = KRR /\ L = rr_layout) ->
  bytes_ok raw = true -> wf_cip_reply L raw = true -> spec_success (partial_k k) L raw = false ->
  exists t, error k (parse_k k raw) = ROk (Some t) /\ t <> []
    /\ (encap_status raw = Some 0 ->
        exists gs, byte_at (l_status L) raw = Some gs /\ gs <> 0
          /\ names_status service_status extend_codes gs (ext_value (ext_status L raw)) t = true).
Proof.
  intros HkL Hok Hwf Hns.
  assert (HL : l_extsize L = S (l_status L) /\ l_data L = S (S (l_status L))
               /\ parse_k k raw = parse_cip (l_svc L) (l_status L) (l_data L) raw
               /\ is_valid k (parse_k k raw) = spec_success (partial_k k) L raw).
  { destruct HkL as [[-> ->]|[-> ->]]; (split; [reflexivity|split; [reflexivity|split; [reflexivity|]]]).
    - apply unit_valid_iff, Hok.
    - apply rr_valid_iff, Hok. }
  destruct HL as (He & Hd & Hp & Hv).
  (* the words are present *)
  unfold wf_cip_reply in Hwf.
  destruct (encap_status raw) as [e|] eqn:Ee; [|discriminate].
  destruct (byte_at (l_extsize L) raw) as [n|] eqn:En; [|discriminate].
  apply andb_true_iff in Hwf as [Hrb Hlen].
  unfold reply_bit in Hrb. destruct (byte_at (l_svc L) raw) as [s|] eqn:Es; [|discriminate].
  unfold byte_at in *. rewrite He in En.
  pose proof (nth_error_bytes_ok raw _ n Hok En) as Hnr.
  assert (Hlen' : (S (S (l_status L)) + 2 * Z.to_nat n <= length raw)%nat) by (rewrite Hd in Hlen; lia).
  assert (exists g, nth_error raw (l_status L) = Some g) as [g Eg].
  { destruct (nth_error raw (l_status L)) eqn:E; [eauto|]. apply nth_error_None in E. lia. }
  pose proof (nth_error_bytes_ok raw _ g Hok Eg) as Hgr.
  pose proof (u32_range 8 raw e Hok Ee) as Her.
  unfold encap_status in Ee. assert (Hs : 128 <= s) by lia. rewrite Hp in Hv |- *.
  rewrite (parse_cip_complete _ _ _ raw e s g Hok Ee Es Hs Eg) in Hv |- *.
  set (r := mkResp _ _ _ _ _ _ _ _) in *.
  assert (Hex : forall c, some_text (extended_status k r c)
                         = ROk (Some (with_ext (get_service_status_z c) (ext_result g n raw (S (S (l_status L)))))))
    by (intros c; unfold extended_status; destruct HkL as [[-> ->]|[-> ->]]; cbn [r r_raw];
        [rewrite (ges_wf raw 48 g n Hok Eg En Hlen')|rewrite (ges_wf raw 42 g n Hok Eg En Hlen')]; reflexivity).
  unfold error. rewrite Hv, Hns. cbn [r r_error r_command_status r_service_status not_none_or_success].
  unfold SUCCESS. rewrite (to_signed4_zero e Her).
  destruct (e =? 0) eqn:E0.
  2:{ rewrite Hex. eexists. split; [reflexivity|]. split; [apply with_ext_nonempty, service_status_text_nonempty|].
      intros [= ->]. lia. }
  (* encapsulation status 0: the CIP status decides, and it is not 0 *)
  assert (Hg0 : g <> 0).
  { intros ->. unfold spec_success, status_ok, status_words, reply_bit, encap_status, byte_at in Hns.
    rewrite Ee, Es, Eg, Hrb, E0 in Hns. discriminate Hns. }
  replace (g =? 0) with false by lia. rewrite Hex.
  eexists. split; [reflexivity|]. split; [apply with_ext_nonempty, service_status_text_nonempty|].
  intros _. exists g. split; [exact Eg|]. split; [exact Hg0|]. exact (names_status_text L raw g n He Hd Hgr En).
Qed.

Theorem error_text_unit raw :
  bytes_ok raw = true -> wf_cip_reply unit_layout raw = true -> spec_success true unit_layout raw = false ->
  exists t, error KUnit (parse_unit raw) = ROk (Some t) /\ t <> []
    /\ (encap_status raw = Some 0 ->
        exists gs, byte_at 48 raw = Some gs /\ gs <> 0
          /\ names_status service_status extend_codes gs (ext_value (ext_status unit_layout raw)) t = true).
Proof. intros. apply (error_text_gen KUnit unit_layout raw); auto. Qed.

Theorem error_text_rr raw :
  bytes_ok raw = true -> wf_cip_reply rr_layout raw = true -> spec_success false rr_layout raw = false ->
  exists t, error KRR (parse_rr raw) = ROk (Some t) /\ t <> []
    /\ (encap_status raw = Some 0 ->
        exists gs, byte_at 42 raw = Some gs /\ gs <> 0
          /\ names_status service_status extend_codes gs (ext_value (ext_status rr_layout raw)) t = true).
Proof. intros. apply (error_text_gen KRR rr_layout raw); auto. Qed.

Lemma error_of_recorded k r t : r_error r = Some t -> is_valid k r = false /\ error k r = ROk (Some t).
Proof.
  intros H. assert (Hv : is_valid k r = false) by (destruct k; unfold is_valid, is_valid_base; now rewrite H).
  split; [exact Hv|]. unfold error. now rewrite Hv, H.
Qed.

Lemma parse_cip_short o1 o2 o3 raw : bytes_ok raw = true -> (length raw <= o1)%nat ->
  exists t, r_error (parse_cip o1 o2 o3 raw) = Some t /\ t <> [].
Proof.
  intros Hok Hl. unfold parse_cip. pose proof (from_reply_slice o1 raw Hok) as HF.
  rewrite (proj2 (nth_error_None raw o1) Hl) in HF.
  destruct (from_reply (slice o1 (S o1) raw)) as [v|x m]; [discriminate|].
  eexists. split; [reflexivity|]. discriminate.
Qed.

Theorem header_only_error k raw : k = KUnit \/ k = KRR ->
  bytes_ok raw = true -> wf_header_only_error raw = true ->
  is_valid k (parse_k k raw) = false /\ exists t, error k (parse_k k raw) = ROk (Some t) /\ t <> [].
Proof.
  intros Hk Hok Hwf. unfold wf_header_only_error in Hwf. apply andb_true_iff in Hwf as [Hl _]. apply Nat.eqb_eq in Hl.
  assert (H : exists o1 o2 o3, (24 <= o1)%nat /\ parse_k k raw = parse_cip o1 o2 o3 raw).
  { destruct Hk as [->| ->]; [exists 46%nat, 48%nat, 50%nat|exists 40%nat, 42%nat, 44%nat]; split; try reflexivity; lia. }
  destruct H as (o1 & o2 & o3 & Ho & ->).
  destruct (parse_cip_short o1 o2 o3 raw Hok) as (t & Ht & Hne); [lia|].
  destruct (error_of_recorded k _ t Ht) as [Hv He]. eauto.
Qed.
