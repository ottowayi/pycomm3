(* Proofs/ReadResolve2.v — requests [Program:P.]tag[i..].member[j..]. ... .member[k..][.bit][{n}]:
   the request path (one symbolic segment per name, member segments per index) and the target's walk over it;
   reference (Expect.walk_members), target (member_step / apply_idx) and client (_get_tag_info through the data-type
   dicts of the upload) reach the same member ([walk_agree], [final_agree]); the client's parse of the string
   (Section GenParse); [gen_request_ok] and, from the same ingredients with both addressing modes,
   [single_request_ok] for a single controller-scope segment; the reference grammar reads the rendered request. *)
From Coq Require Import ZifyBool String.
From PV Require Import Base.Bytes Base.BytesLemmas Base.Res Base.Proto Base.PyStr Base.PyStrLemmas.
From PV Require Import Gen.Consts Gen.PathTables Model.Path Model.Reply Model.LogixPlan Model.LogixRead.
From PV Require Import Spec.EncapParser Spec.MRParser Spec.TargetIface Spec.TargetCore Spec.Project Spec.Expect Spec.TargetLogix.
From PV Require Import Proofs.PathStr Proofs.TargetCoreP Proofs.TargetLogixP Proofs.ReadDecode Proofs.ReadTarget
  Proofs.ReadValue Proofs.ReadCorrect Proofs.ReadResolve Proofs.ReadResolve1.
Open Scope list_scope.
Open Scope Z_scope.
Ltac Zify.zify_post_hook ::= Z.to_euclidean_division_equations.

Lemma join_cons2 sep a b (r : list text) : join sep (a :: b :: r) = a ++ sep ++ join sep (b :: r).
Proof. reflexivity. Qed.

Lemma join_snoc sep x : forall l, l <> [] -> join sep (l ++ [x]) = join sep l ++ sep ++ x.
Proof.
  induction l as [|a [|b r] IH]; intros Hne; [congruence|reflexivity|].
  change ((a :: b :: r) ++ [x]) with (a :: (b :: r) ++ [x]).
  change ((b :: r) ++ [x]) with (b :: r ++ [x]) at 1. rewrite join_cons2.
  change (b :: r ++ [x]) with ((b :: r) ++ [x]). rewrite IH by discriminate.
  rewrite join_cons2. rewrite <- !app_assoc. reflexivity.
Qed.

Lemma join_prog p0 t1 (X : list text) : join [46] (p0 :: t1 :: X) = join [46] ((p0 ++ 46 :: t1) :: X).
Proof. rewrite join_cons2. destruct X; cbn [join]; rewrite <- ?app_assoc; reflexivity. Qed.

Lemma nosep_nonempty_join c p ps : p <> [] -> join [c] (p :: ps) <> [].
Proof. intros Hp. destruct ps; cbn [join]; [exact Hp|]. destruct p; [congruence|discriminate]. Qed.

(* a name in a path: ASCII, none of . [ ] { }, 1..255 characters ("Program:P" is one) *)
Definition pchar (c : Z) : bool :=
  (0 <=? c) && (c <? 128) && negb (c =? 46) && negb (c =? 91) && negb (c =? 93) && negb (c =? 123) && negb (c =? 125).
Definition pname (n : text) : bool :=
  forallb pchar n && negb (match n with [] => true | _ => false end) && (Path.len n <? 256).

Lemma pchar_nosep c n : forallb pchar n = true -> (c = 46 \/ c = 91 \/ c = 93 \/ c = 123 \/ c = 125) -> nosep c n = true.
Proof.
  intros H Hc. unfold nosep. apply (forallb_impl pchar); [|exact H]. unfold pchar. lia.
Qed.

Lemma pname_facts n : pname n = true -> forallb pchar n = true /\ n <> [] /\ 1 <= Path.len n < 256 /\ ascii_ok n = true.
Proof.
  unfold pname. intros H. apply andb_prop in H. destruct H as [H Hl]. apply andb_prop in H. destruct H as [Hc Hne].
  split; [exact Hc|]. split; [destruct n; [discriminate|discriminate]|].
  split; [destruct n; [discriminate|unfold Path.len in *; cbn [length] in *; lia]|].
  unfold ascii_ok. apply (forallb_impl pchar); [|exact Hc]. unfold pchar. lia.
Qed.

Lemma plain_pname n : plain_name n = true -> pname n = true.
Proof.
  unfold plain_name, pname. intros H. apply andb_prop in H. destruct H as [H Hl]. apply andb_prop in H. destruct H as [Hc Hne].
  rewrite Hl, Hne, !andb_true_r. apply (forallb_impl plain_char); [|exact Hc]. unfold plain_char, pchar. lia.
Qed.

(* a path part: name, index texts, index values *)
Definition ppart := (text * list text * list Z)%type.
Definition pp_name (x : ppart) : text := fst (fst x).
Definition pp_idv (x : ppart) : list Z := snd x.
Definition seg_txt (x : ppart) : text := pp_name x ++ idx_txt (snd (fst x)).
Definition ppart_ok (x : ppart) : Prop :=
  pname (pp_name x) = true /\ Forall2 num_ok (snd (fst x)) (pp_idv x) /\ idx32 (pp_idv x).

Definition gsegs (pp : list ppart) : list seg := flat_map (fun x => DataSym (pp_name x) :: member_segs (pp_idv x)) pp.
Definition gbytes (pp : list ppart) : bytes := flat_map (fun x => sym_seg_bytes (pp_name x) ++ mems_bytes (pp_idv x)) pp.
Definition gpsegs (pp : list ppart) : list pseg := flat_map (fun x => PSym (pp_name x) :: map (PLog 2) (pp_idv x)) pp.

Lemma seg_txt_nosep c x : ppart_ok x -> (c = 46 \/ c = 123 \/ c = 125) -> nosep c (seg_txt x) = true.
Proof.
  intros (Hn & Hids & _) Hc. destruct (pname_facts _ Hn) as (Hpc & _). unfold seg_txt. rewrite nosep_app.
  rewrite (pchar_nosep c _ Hpc) by tauto. cbn [andb].
  apply idx_txt_nosep; [apply (ids_nosep _ _ Hids); lia|lia|lia|lia].
Qed.

Lemma segs_nosep c pp : Forall ppart_ok pp -> (c = 46 \/ c = 123 \/ c = 125) -> forallb (nosep c) (map seg_txt pp) = true.
Proof.
  intros HF Hc. induction HF as [|x r Hx _ IH]; [reflexivity|]. cbn [map forallb]. rewrite (seg_txt_nosep c x Hx Hc). exact IH.
Qed.

Lemma split_dot_parts x pp : Forall ppart_ok (x :: pp) ->
  split_chr 46 (join [46] (map seg_txt (x :: pp))) = map seg_txt (x :: pp).
Proof.
  intros HF. pose proof (segs_nosep 46 _ HF (or_introl eq_refl)) as H. cbn [map forallb] in *.
  apply andb_prop in H. apply split_join; tauto.
Qed.

Lemma find_tag_index_seg x : ppart_ok x -> find_tag_index (seg_txt x) = (pp_name x, snd (fst x)).
Proof.
  intros (Hn & Hids & _). destruct (pname_facts _ Hn) as (Hpc & _).
  apply find_tag_index_idx; [apply (pchar_nosep 91 _ Hpc); tauto|apply (ids_nosep _ _ Hids); lia].
Qed.

Lemma attr_segments_gen pp : Forall ppart_ok pp -> attr_segments (map seg_txt pp) = Ok (gsegs pp).
Proof.
  induction 1 as [|x r Hx Hr IH]; [reflexivity|].
  cbn [map attr_segments]. rewrite (find_tag_index_seg x Hx). destruct Hx as (_ & Hids & _).
  rewrite (map_res_ids _ _ Hids). cbn [bind]. rewrite IH. reflexivity.
Qed.

Lemma tag_segments_gen x pp inst use_ids : Forall ppart_ok (x :: pp) ->
  (match inst with Some i => use_ids && negb (starts_with (txt "Program:") (seg_txt x)) && negb (i =? 0) | None => false end) = false ->
  tag_segments (join [46] (map seg_txt (x :: pp))) inst use_ids = Ok (Some (gsegs (x :: pp))).
Proof.
  intros HF Hsym. unfold tag_segments. rewrite (split_dot_parts x pp HF). cbn [map].
  inversion HF as [|x' pp' Hx Hpp]; subst.
  rewrite (find_tag_index_seg x Hx). destruct Hx as (_ & Hids & _).
  rewrite (map_res_ids _ _ Hids). cbn [bind]. rewrite (attr_segments_gen pp Hpp). cbn [bind].
  destruct inst as [i|]; [rewrite Hsym|]; reflexivity.
Qed.

Lemma encode_segs_mems_app idv rest : idx32 idv ->
  encode_segs true (member_segs idv ++ rest) = (let* b := encode_segs true rest in Ok (mems_bytes idv ++ b)).
Proof.
  induction 1 as [|i r Hi Hr IH].
  - cbn [member_segs map app mems_bytes concat]. destruct (encode_segs true rest); reflexivity.
  - unfold member_segs in *. cbn [map app encode_segs encode_seg]. rewrite (encode_member_seg i Hi). cbn [wrap_all bind].
    rewrite IH. destruct (encode_segs true rest); cbn [bind]; [|reflexivity].
    unfold mems_bytes. cbn [map concat]. rewrite <- app_assoc. reflexivity.
Qed.

Lemma encode_gsegs pp : Forall ppart_ok pp -> encode_segs true (gsegs pp) = Ok (gbytes pp).
Proof.
  induction 1 as [|x r Hx Hr IH]; [reflexivity|].
  unfold gsegs, gbytes in *. cbn [flat_map]. destruct Hx as (Hn & _ & H32). destruct (pname_facts _ Hn) as (_ & _ & Hl & Ha).
  cbn [app encode_segs encode_seg]. unfold encode_data_sym. rewrite (utf8_encode_ascii _ Ha). cbn [bind].
  change (Z.lor data_segment_type data_extended_symbol) with 145.
  rewrite (USINT_small 145) by lia. cbn [bind]. rewrite (USINT_small (Path.len (pp_name x))) by lia. cbn [bind wrap_all].
  rewrite (encode_segs_mems_app _ _ H32), IH. cbn [bind]. unfold sym_seg_bytes. rewrite <- !app_assoc. reflexivity.
Qed.

Lemma gbytes_len pp : Z.even (Path.len (gbytes pp)) = true /\ (length (gpsegs pp) <= length (gbytes pp))%nat.
Proof.
  induction pp as [|x r [IHe IHl]]; [split; [reflexivity|cbn; lia]|].
  unfold gbytes, gpsegs in *. cbn [flat_map]. unfold Path.len in *. rewrite !app_length. cbn [length]. rewrite ?app_length, map_length.
  pose proof (even_len_sym (pp_name x)) as H1. destruct (mems_len (pp_idv x)) as [H2 H3]. unfold Path.len in *.
  assert (H4 : (2 <= length (sym_seg_bytes (pp_name x)))%nat) by (unfold sym_seg_bytes; rewrite !app_length; cbn; lia).
  split; [|lia]. rewrite !Nat2Z.inj_add, !Z.even_add, H1, H2, IHe. reflexivity.
Qed.

Lemma parse_gpsegs pp : Forall ppart_ok pp -> parse_psegs (length (gpsegs pp)) (gbytes pp) = Some (gpsegs pp).
Proof.
  induction 1 as [|x r Hx Hr IH]; [reflexivity|].
  unfold gbytes, gpsegs in *. cbn [flat_map]. destruct Hx as (Hn & _ & H32). destruct (pname_facts _ Hn) as (_ & _ & Hl & _).
  cbn [app length]. rewrite <- app_assoc. rewrite app_length, map_length.
  rewrite (parse_psegs_sym _ _ _ Hl). rewrite (parse_psegs_mems_app _ _ _ H32), IH. reflexivity.
Qed.

Theorem path_gen x pp inst use_ids : Forall ppart_ok (x :: pp) ->
  (match inst with Some i => use_ids && negb (starts_with (txt "Program:") (seg_txt x)) && negb (i =? 0) | None => false end) = false ->
  let pb := gbytes (x :: pp) in
  tag_request_path (join [46] (map seg_txt (x :: pp))) inst use_ids
  = (if Path.len pb / 2 <? 256 then Ok (Some ((Path.len pb / 2) :: pb)) else Err DataError)
  /\ (Path.len pb / 2 < 256 -> path_wf ((Path.len pb / 2) :: pb) pb)
  /\ parse_psegs (length pb) pb = Some (gpsegs (x :: pp))
  /\ tag_cia pb /\ 4 <= EncapParser.blen pb.
Proof.
  intros HF Hsym pb. destruct (gbytes_len (x :: pp)) as [He Hl]. fold pb in He, Hl.
  assert (H4 : 4 <= Path.len pb).
  { inversion HF as [|x' pp' Hx _]; subst. destruct Hx as (Hn & _). destruct (pname_facts _ Hn) as (_ & _ & Hl1 & _).
    pose proof (sym_seg_len4 (pp_name x) (proj1 Hl1)). unfold pb, gbytes. cbn [flat_map]. unfold Path.len in *. rewrite !app_length. lia. }
  split; [|split; [|split; [|split]]].
  - unfold tag_request_path. rewrite (tag_segments_gen x pp inst use_ids HF Hsym). cbn [bind].
    unfold epath_encode. change padded_PADDED_EPATH with true. rewrite (encode_gsegs _ HF). cbn [bind]. fold pb.
    destruct (Path.len pb / 2 <? 256) eqn:E.
    + rewrite (USINT_small (Path.len pb / 2)) by lia. reflexivity.
    + unfold USINT_encode, uint_encode, in_urange. change (pow256 1) with 256.
      replace ((0 <=? Path.len pb / 2) && (Path.len pb / 2 <? 256)) with false by lia. reflexivity.
  - intros Hlt. unfold path_wf. change (EncapParser.blen pb) with (Path.len pb). split; [reflexivity|]. split; [exact He|lia].
  - apply (parse_psegs_mono (length (gpsegs (x :: pp)))); [apply parse_gpsegs; exact HF|exact Hl].
  - left. unfold path_cia, pb, gbytes. cbn [flat_map]. rewrite <- app_assoc.
    destruct (length (sym_seg_bytes (pp_name x) ++ mems_bytes (pp_idv x) ++ flat_map (fun x0 => sym_seg_bytes (pp_name x0) ++ mems_bytes (pp_idv x0)) pp)) eqn:E.
    + unfold sym_seg_bytes in E. cbn in E. discriminate.
    + rewrite parse_logicals_sym. reflexivity.
  - change (EncapParser.blen pb) with (Path.len pb). exact H4.
Qed.

Fixpoint twalk (p : project) (l : wloc) (more : list ppart) : rres wloc :=
  match more with
  | [] => ROk l
  | x :: r =>
      match member_step p l (pp_name x) with
      | ROk l1 => match apply_idx p l1 (pp_idv x) with
                  | ROk l2 => twalk p l2 r
                  | RErr a b c => RErr a b c
                  end
      | RErr a b c => RErr a b c
      end
  end.

Lemma resolve_segs_idx p l idv : forall acc rest,
  resolve_segs p l acc (map (PLog 2) idv ++ rest) = resolve_segs p l (rev idv ++ acc) rest.
Proof.
  induction idv as [|i r IH]; intros acc rest; [reflexivity|].
  cbn [map app resolve_segs rev]. rewrite IH. rewrite <- app_assoc. reflexivity.
Qed.

Lemma resolve_segs_walk p : forall more l acc,
  resolve_segs p l acc (gpsegs more)
  = match apply_idx p l (rev acc) with ROk l1 => twalk p l1 more | RErr a b c => RErr a b c end.
Proof.
  induction more as [|x r IH]; intros l acc.
  - cbn [gpsegs flat_map resolve_segs twalk]. destruct (apply_idx p l (rev acc)); reflexivity.
  - unfold gpsegs in *. cbn [flat_map app resolve_segs twalk].
    destruct (apply_idx p l (rev acc)) as [l1|a b c]; [|reflexivity].
    destruct (member_step p l1 (pp_name x)) as [l2|a b c]; [|reflexivity].
    rewrite resolve_segs_idx, IH. rewrite app_nil_r, rev_involutive. reflexivity.
Qed.

Definition prog_of (sc : scope) : option text := match sc with ScCtrl => None | ScProg P => Some P end.
Definition prog_parts (sc : scope) : list ppart :=
  match sc with ScCtrl => [] | ScProg P => [(txt_Program_ ++ P, [], [])] end.

Lemma skipn8_program P : skipn 8 (txt_Program_ ++ P) = P.
Proof. reflexivity. Qed.

Lemma resolve_path_gen p g x more l :
  In g (p_tags p) -> tag_ok p g = true -> distinct_by tag_key_eqb (p_tags p) = true ->
  pp_name x = g_name g -> starts_with txt_Program_ (g_name g) = false ->
  tag_wloc g = ROk l -> Forall ppart_ok (prog_parts (g_scope g) ++ x :: more) ->
  resolve_path p false (gbytes (prog_parts (g_scope g) ++ x :: more))
  = of_rres (match apply_idx p l (pp_idv x) with ROk l1 => twalk p l1 more | RErr a b c => RErr a b c end).
Proof.
  intros Hin Hok Hdist Hname Hnp Hl HF.
  assert (Hsym : (match @None Z with Some i => false && negb (starts_with (txt "Program:") (seg_txt x)) && negb (i =? 0) | None => false end) = false)
    by reflexivity.
  assert (Hfind : find_tag_name (p_tags p) (g_scope g) (g_name g) = Some g) by (apply find_tag_name_distinct; assumption).
  unfold resolve_path.
  destruct (g_scope g) as [|P] eqn:Esc.
  - cbn [prog_parts app] in *.
    destruct (path_gen x more None false HF Hsym) as (_ & _ & Hps & _ & _). rewrite Hps.
    unfold gpsegs. cbn [flat_map app]. fold (gpsegs more). rewrite Hname.
    change txt_Program with txt_Program_. rewrite Hnp.
    assert (E : resolve_in_scope p false ScCtrl (PSym (g_name g) :: map (PLog 2) (pp_idv x) ++ gpsegs more)
                = of_rres (match apply_idx p l (pp_idv x) with ROk l1 => twalk p l1 more | RErr a b c => RErr a b c end)).
    { unfold resolve_in_scope. rewrite Hfind, Hl. rewrite resolve_segs_idx, resolve_segs_walk.
      rewrite app_nil_r, rev_involutive. reflexivity. }
    destruct (map (PLog 2) (pp_idv x) ++ gpsegs more); exact E.
  - cbn [prog_parts app] in *.
    destruct (path_gen (txt_Program_ ++ P, [], []) (x :: more) None false HF Hsym) as (_ & _ & Hps & _ & _). rewrite Hps.
    unfold gpsegs. cbn [flat_map app pp_name pp_idv fst snd map]. fold (gpsegs more). rewrite Hname.
    change txt_Program with txt_Program_. rewrite PyStrLemmas.starts_with_app. cbv zeta. rewrite skipn8_program.
    assert (Hprog : existsb (name_eqb P) (program_names p) = true).
    { unfold tag_ok in Hok. repeat (apply andb_prop in Hok; destruct Hok as [Hok ?]).
      rewrite Esc in *. cbn [scope_ok] in *. assumption. }
    rewrite Hprog. unfold resolve_in_scope. rewrite Hfind, Hl. rewrite resolve_segs_idx, resolve_segs_walk.
    rewrite app_nil_r, rev_involutive.
    destruct (apply_idx p l (pp_idv x)) as [l1|a b c]; [|reflexivity]. destruct (twalk p l1 more); reflexivity.
Qed.

(* the client's info dict of something of type [ty]: [n_el] elements when [is_arr] *)
Definition tinfo_of (p : project) (ty : base_ty) (n_el : Z) (is_arr : bool) (info : tinfo) : Prop :=
  match ty with
  | BAtom c => exists nm sz k, atom_class c = Some (nm, sz, k) /\ ti_struct info = false /\ ti_dtname info = nm
                 /\ ti_esize info = sz /\ ti_class info = (if is_arr then KArr n_el (KAtom c) else KAtom c)
  | BStruct tid => exists f nm tc sz attrs mem, struct_dtype (S f) p tid = Some (nm, tc, sz, attrs, mem)
                 /\ ti_struct info = true /\ ti_dtname info = nm /\ ti_esize info = sz /\ ti_attrs info = attrs
                 /\ ti_members info = mem /\ ti_class info = (if is_arr then KArr n_el tc else tc)
  | BOpaque _ => False
  end.

Definition no_dims (dims : list Z) : bool := match dims with [] => true | _ => false end.

(* an array (or scalar) of [ty] at [off] of the image, not yet indexed *)
Definition data_rel (p : project) (total inst off : Z) (ty : base_ty) (dims : list Z) (avail : Z) (info : tinfo) : Prop :=
  0 <= off /\ avail = dims_count dims /\ forallb (fun d => 0 <? d) dims = true
  /\ (exists s, base_size p ty = Some s /\ 0 < s /\ off + s * avail <= total)
  /\ tinfo_of p ty avail (negb (no_dims dims)) info
  /\ match ty with BAtom c => (c =? C_BOOL) = false | _ => True end.

(* BOOL arrays are arrays: a DWORD tag or member has a dimension (`x[i]` on a scalar DWORD has a place in
   Expect.index_place, but the client sends x[0], which the target rejects) *)
Definition dword_arrays (p : project) : bool :=
  forallb (fun g => negb (is_dword (g_ty g)) || negb (no_dims (g_dims g))) (p_tags p)
  && forallb (fun t => forallb (fun m => negb (is_dword (m_ty m)) || negb (m_arr m =? 0)) (t_members t)) (p_templates p).

Definition dims_dw (pl : place) : Prop :=
  match pl with PlData _ _ ty dims _ => is_dword ty = true -> no_dims dims = false | _ => True end.

Definition pre_rel (p : project) (total inst : Z) (pl : place) (l : wloc) (info : tinfo) : Prop :=
  (exists off ty dims avail, pl = PlData inst off ty dims avail /\ l = mkWLoc inst off ty dims avail None
                                  /\ data_rel p total inst off ty dims avail info)
  \/ (exists off b, pl = PlBit inst off b /\ l = mkWLoc inst off (BAtom C_BOOL) [] 1 (Some b)
                         /\ ti_struct info = false /\ ti_dtname info = txt_BOOL /\ ti_class info = KAtom 193 /\ ti_esize info = 1).

Lemma tag_pre_rel p g info :
  layout_ok p = true -> In g (p_tags p) -> tag_ok p g = true -> tag_info p g = Some info ->
  exists total pl l, tag_size p g = Some total /\ tag_place g = Some pl /\ tag_wloc g = ROk l /\ pre_rel p total (g_inst g) pl l info.
Proof.
  intros Hlay Hgin Hok Hinfo. destruct (tag_ok_dims p g Hok) as [_ Hdpos].
  unfold tag_ok in Hok. repeat (apply andb_prop in Hok; destruct Hok as [Hok ?]).
  unfold tag_info in Hinfo. unfold tag_place, tag_wloc, tag_size.
  destruct (g_ty g) as [c|tid|w] eqn:Ety; [| |discriminate].
  - apply andb_prop in H. destruct H as [H Hbooldims]. apply andb_prop in H. destruct H as [H Hbp]. apply andb_prop in H. destruct H as [Hsz Hbp0].
    cbn [base_size].
    destruct (atom_size c) as [sz|] eqn:Esz; [|discriminate].
    destruct (atom_client_name c sz Esz) as (nm & k & Hcls & Hnm & Hcn & Hdw & Hbool).
    rewrite Hcls in Hinfo. injection Hinfo as <-. exists (sz * tag_elems g).
    destruct (c =? C_BOOL) eqn:Eb.
    + eexists. eexists. split; [reflexivity|]. split; [reflexivity|]. split; [reflexivity|]. right.
      assert (c = 193) by (unfold C_BOOL in Eb; lia). subst c.
      assert (Hd : g_dims g = []) by (destruct (g_dims g); [reflexivity|cbn in Hbooldims; discriminate]).
      rewrite Hd. vm_compute in Hcls. injection Hcls as <- <- <-.
      exists 0, (g_bitpos g). repeat split; reflexivity.
    + eexists. eexists. split; [reflexivity|]. split; [reflexivity|]. split; [reflexivity|]. left.
      exists 0, (BAtom c), (g_dims g), (tag_elems g). split; [reflexivity|]. split; [reflexivity|].
      unfold data_rel. split; [lia|]. split; [reflexivity|]. split; [exact Hdpos|].
      split; [exists sz; cbn [base_size]; split; [exact Esz|]; split; [destruct (atom_size_cases c sz Esz) as [|[|[|]]]; lia|lia]|].
      split; [|exact Eb].
      cbn [tinfo_of]. exists nm, sz, k. cbn [ti_struct ti_dtname ti_esize ti_class].
      repeat split; try assumption; try reflexivity. unfold tag_elems. destruct (g_dims g); reflexivity.
  - apply andb_prop in H. destruct H as [Hft Hbp0]. cbn [base_size].
    destruct (find_template (p_templates p) tid) as [t|] eqn:Eft; [|discriminate]. exists (t_size t * tag_elems g).
    destruct (struct_dtype (client_fuel p) p tid) as [[[[[nm tc] sz] attrs] mem']|] eqn:Esd; [|discriminate].
    injection Hinfo as <-.
    eexists. eexists. split; [reflexivity|]. split; [reflexivity|]. split; [reflexivity|]. left.
    exists 0, (BStruct tid), (g_dims g), (tag_elems g). split; [reflexivity|]. split; [reflexivity|].
    unfold data_rel. split; [lia|]. split; [reflexivity|]. split; [exact Hdpos|].
    split.
    { exists (t_size t). cbn [base_size]. rewrite Eft. split; [reflexivity|].
      destruct (find_template_in _ _ _ Eft) as [Hint _].
      pose proof (forallb_In _ _ _ Hlay Hint) as Hlt. split; [apply (sc_lay p t Hlt)|lia]. }
    split; [|exact I].
    cbn [tinfo_of]. exists (S (length (p_templates p))), nm, tc, sz, attrs, mem'. cbn [ti_struct ti_dtname ti_esize ti_class ti_attrs ti_members].
    split; [exact Esd|]. repeat split; try reflexivity. unfold tag_elems. destruct (g_dims g); reflexivity.
Qed.

Lemma index_data_gen p inst off ty dims idv sz pl1 :
  is_dword ty = false -> forallb (fun d => 0 <? d) dims = true -> base_size p ty = Some sz -> 0 < sz -> 0 <= off ->
  index_place p (PlData inst off ty dims (dims_count dims)) idv = Some pl1 ->
  exists off' av dl,
    pl1 = PlData inst off' ty dl av
    /\ apply_idx p (mkWLoc inst off ty dims (dims_count dims) None) idv = ROk (mkWLoc inst off' ty dl av None)
    /\ 0 <= off' /\ 1 <= av /\ off' + sz * av = off + sz * dims_count dims
    /\ ((idv = [] /\ av = dims_count dims /\ dl = dims /\ off' = off) \/ (dl = [] /\ Forall2 (fun i d => 0 <= i < d) idv dims)).
Proof.
  intros Hnd Hpos Hsz Hsp Hoff H. unfold index_place in H. rewrite Hnd in H.
  pose proof (dims_count_pos dims Hpos) as Hc.
  destruct idv as [|i ir].
  - injection H as <-. exists off, (dims_count dims), dims. repeat split; try reflexivity; try lia. left. repeat split; reflexivity.
  - destruct (flat_index dims (i :: ir) 0) as [k|] eqn:Ef; [|discriminate]. rewrite Hsz in H. injection H as <-.
    destruct (flat_index_bound dims Hpos (i :: ir) 0 k (Z.le_refl 0) Ef) as [Hb HF].
    pose proof (flat_index_len dims _ _ _ Ef) as Hlen.
    exists (off + k * sz), (dims_count dims - k), []. split; [reflexivity|]. split.
    + unfold apply_idx. cbn [w_bit w_dims w_ty w_inst w_off].
      destruct dims as [|d dr]; [cbn in Ef; discriminate|].
      rewrite Hlen, Nat.eqb_refl. cbn [negb]. rewrite Ef, Hsz. reflexivity.
    + split; [nia|]. split; [lia|]. split; [nia|]. right. split; [reflexivity|exact HF].
Qed.

Lemma find_member_in ms n m : find_member ms n = Some m -> In m ms.
Proof.
  induction ms as [|x r IH]; [discriminate|]. cbn [find_member]. destruct (name_eqb (m_name x) n).
  - intros H. injection H as <-. left. reflexivity.
  - intros H. right. exact (IH H).
Qed.

Lemma member_step_agree p total inst off tid av dw info n pl2 :
  layout_ok p = true -> dword_arrays p = true ->
  0 <= off -> 1 <= av ->
  (exists s, base_size p (BStruct tid) = Some s /\ off + s * av <= total) ->
  (exists ne ia, tinfo_of p (BStruct tid) ne ia info) ->
  member_place p (PlData inst off (BStruct tid) [] av) n = Some pl2 ->
  (forall t m, find_template (p_templates p) tid = Some t -> find_member (t_members t) n = Some m -> m_name m = n) ->
  dw = [] ->
  exists l2 info2,
    member_step p (mkWLoc inst off (BStruct tid) dw av None) n = ROk l2
    /\ ti_struct info = true /\ dget n (ti_members info) = Some info2
    /\ pre_rel p total inst pl2 l2 info2 /\ ti_inst info2 = None /\ dims_dw pl2.
Proof.
  intros Hlay Hda Hoff Hav (s & Hs & Hbound) (ne & ia & Hti) Hmp Hexact ->.
  unfold member_place in Hmp. unfold member_step. cbn [w_bit w_dims w_ty w_inst w_off].
  cbn [base_size] in Hs.
  destruct (find_template (p_templates p) tid) as [t|] eqn:Eft; [|discriminate]. injection Hs as <-.
  destruct (find_member (t_members t) n) as [m|] eqn:Efm; [|discriminate].
  pose proof (Hexact t m eq_refl Efm) as Hnm.
  cbn [tinfo_of] in Hti. destruct Hti as (f & nm & tc & sz & attrs & mem' & Hsd & Hst & _ & _ & _ & Hmem & _).
  rewrite struct_dtype_S, Eft in Hsd.
  destruct (member_infos (struct_dtype f p) (t_members t)) as [infos|] eqn:Emi; [|discriminate].
  injection Hsd as _ _ _ _ Hmem'.
  destruct (find_template_in _ _ _ Eft) as [Hint Htid].
  pose proof (forallb_In _ _ _ Hlay Hint) as Hlt.
  pose proof (decode_elem_spec p Hlay f) as IH.
  pose proof (find_member_in _ _ _ Efm) as Hmin. rewrite <- (sc_fst p f t infos Emi) in Hmin.
  destruct (in_map_fst _ _ Hmin) as (i & Hin).
  destruct (sc_member p f t infos Hlt Emi (m, i) Hin) as [Hmok Hmi]. cbn [fst snd] in Hmok, Hmi.
  pose proof (sc_itag p f t infos Hlt Emi (m, i) Hin) as Hget. unfold mi_name in Hget. cbn [fst snd] in Hget.
  assert (Hdget : dget n (ti_members info) = Some i).
  { rewrite Hmem, <- Hmem'. unfold dtype_of. cbn [fst snd]. rewrite (sc_scan p f t infos Hlt Emi). cbn [sc_itags].
    rewrite <- Hnm. exact Hget. }
  pose proof (sc_lay p t Hlt) as (_ & _ & _ & _ & Htsz).
  unfold member_ok in Hmok. repeat (apply andb_prop in Hmok; destruct Hmok as [Hmok ?]).
  unfold member_info in Hmi.
  destruct (is_bool_member m) eqn:Eb.
  - (* a BOOL member *)
    injection Hmp as <-. eexists. exists i. split; [reflexivity|]. split; [exact Hst|]. split; [exact Hdget|].
    unfold is_bool_member in Eb. destruct (m_ty m) as [c| |] eqn:Ety; try discriminate.
    assert (c = 193) by (unfold C_BOOL in Eb; lia). subst c.
    change (atom_class 193) with (Some (txt_BOOL, 1, ABool)) in Hmi. change (text_eqb txt_BOOL txt_BOOL) with true in Hmi.
    injection Hmi as <-. split; [|split; [reflexivity|exact I]]. right. exists (off + m_off m), (m_bit m). repeat split; reflexivity.
  - (* data *)
    injection Hmp as <-. eexists. exists i. split; [reflexivity|]. split; [exact Hst|]. split; [exact Hdget|].
    assert (Hinone : ti_inst i = None).
    { destruct (m_ty m) as [c|tid'|w]; [| |discriminate].
      - destruct (atom_class c) as [[[? ?] ?]|]; [|discriminate]. injection Hmi as <-. reflexivity.
      - destruct (struct_dtype f p tid') as [[[[[? ?] ?] ?] ?]|]; [|discriminate]. injection Hmi as <-. reflexivity. }
    assert (Hdwd : is_dword (m_ty m) = true -> no_dims (if m_arr m =? 0 then [] else [m_arr m]) = false).
    { unfold dword_arrays in Hda. apply andb_prop in Hda. destruct Hda as [_ Hda].
      pose proof (forallb_In _ _ _ Hda Hint) as Hx. cbv beta in Hx.
      assert (Hmin' : In m (t_members t)) by (apply (find_member_in _ _ _ Efm)).
      pose proof (forallb_In _ _ _ Hx Hmin') as Hy. cbv beta in Hy. intros E. rewrite E in Hy. cbn in Hy.
      apply negb_true_iff in Hy. rewrite Hy. reflexivity. }
    split; [|split; [exact Hinone|exact Hdwd]].
    left. exists (off + m_off m), (m_ty m), (if m_arr m =? 0 then [] else [m_arr m]), (member_elems m).
    split; [reflexivity|]. split; [reflexivity|].
    cbv beta iota in H. unfold member_size in H. apply andb_prop in H. destruct H as [Hb0 H].
    destruct (base_size p (m_ty m)) as [es|] eqn:Ees; [|discriminate]. apply andb_prop in H. destruct H as [Hspos Hfit].
    assert (Hel : 1 <= member_elems m) by (unfold member_elems; destruct (m_arr m =? 0) eqn:E; lia).
    unfold data_rel. split; [lia|].
    split; [unfold member_elems, dims_count; destruct (m_arr m =? 0); cbn [fold_right]; lia|].
    split; [destruct (m_arr m =? 0) eqn:E; cbn [forallb]; [reflexivity|lia]|].
    split; [exists es; split; [exact Ees|]; split; nia|].
    split.
    + unfold is_bool_member in Eb.
      destruct (m_ty m) as [c|tid'|w] eqn:Ety; [| |discriminate].
      * destruct (atom_class c) as [[[nm' sz'] k]|] eqn:Ecls; [|discriminate]. injection Hmi as <-.
        cbn [tinfo_of]. exists nm', sz', k. cbn [ti_struct ti_dtname ti_esize ti_class].
        split; [exact Ecls|]. repeat split.
        cbn [base_size] in Ees. destruct (atom_client_name c es Ees) as (nm2 & k2 & Hcls2 & _ & _ & _ & Hbool).
        rewrite Ecls in Hcls2. injection Hcls2 as -> -> ->. rewrite Hbool, Eb.
        unfold wrap_arr, member_elems, no_dims. destruct (m_arr m =? 0); reflexivity.
      * destruct (struct_dtype f p tid') as [[[[[nm' tc'] sz'] attrs'] mem2]|] eqn:Esd2; [|discriminate]. injection Hmi as <-.
        cbn [tinfo_of]. destruct f as [|f']; [discriminate|].
        exists f', nm', tc', sz', attrs', mem2. cbn [ti_struct ti_dtname ti_esize ti_class ti_attrs ti_members].
        split; [exact Esd2|]. repeat split.
        unfold wrap_arr, member_elems, no_dims. destruct (m_arr m =? 0); reflexivity.
    + unfold is_bool_member in Eb. destruct (m_ty m); [exact Eb|exact I|exact I].
Qed.

Definition seg_ast (x : ppart) : rseg := mkSeg (pp_name x) (pp_idv x).

(* the request spells member names as the templates do (README: names are case-sensitive; the
   reference, like Logix, compares them case-insensitively) *)
Fixpoint exact_members (p : project) (pl : place) (more : list ppart) : Prop :=
  match more with
  | [] => True
  | y :: r =>
      match pl with
      | PlData _ _ (BStruct tid) _ _ =>
          match find_template (p_templates p) tid with
          | Some t =>
              match find_member (t_members t) (pp_name y) with
              | Some m => m_name m = pp_name y
                          /\ match member_place p pl (pp_name y) with
                             | Some pl2 => match index_place p pl2 (pp_idv y) with
                                           | Some pl3 => exact_members p pl3 r
                                           | None => True
                                           end
                             | None => True
                             end
              | None => True
              end
          | None => True
          end
      | _ => True
      end
  end.

Definition tall (p : project) (l : wloc) (xs : list ppart) : rres wloc :=
  match xs with
  | [] => ROk l
  | x :: more => match apply_idx p l (pp_idv x) with ROk l1 => twalk p l1 more | RErr a b c => RErr a b c end
  end.

Lemma twalk_cons p l y r :
  twalk p l (y :: r) = match member_step p l (pp_name y) with ROk l1 => tall p l1 (y :: r) | RErr a b c => RErr a b c end.
Proof. reflexivity. Qed.

(* client: the info dicts along the path *)
Fixpoint cwalk (info : tinfo) (more : list ppart) : option tinfo :=
  match more with
  | [] => Some info
  | y :: r => if ti_struct info
              then match dget (pp_name y) (ti_members info) with Some i => cwalk i r | None => None end
              else None
  end.

Lemma strip_array_idx n ids : nosep 91 n = true -> strip_array (n ++ idx_txt ids) = n.
Proof.
  intros Hns. unfold strip_array, idx_txt. destruct ids as [|i0 ir].
  - rewrite app_nil_r, find_nosep by exact Hns. reflexivity.
  - cbn [app]. unfold find. rewrite find_from_nosep by exact Hns. cbn [Nat.add]. apply firstn_app_exact.
Qed.

Lemma strip_seg x : pname (pp_name x) = true -> strip_array (seg_txt x) = pp_name x.
Proof.
  intros Hn. destruct (pname_facts _ Hn) as (Hpc & _). apply strip_array_idx, (pchar_nosep 91 _ Hpc). tauto.
Qed.

Lemma recurse_cwalk : forall r y data i0 infol, Forall ppart_ok (y :: r) ->
  dget (pp_name y) data = Some i0 -> cwalk i0 r = Some infol ->
  recurse_attrs (map seg_txt (y :: r)) data = Some infol.
Proof.
  induction r as [|z r IH]; intros y data i0 infol HF Hd Hc; inversion HF as [|y' r' Hy Hr]; subst.
  - cbn [map recurse_attrs]. rewrite (strip_seg y (proj1 Hy)), Hd. cbn in Hc. exact Hc.
  - cbn [map]. cbn [recurse_attrs]. rewrite (strip_seg y (proj1 Hy)), Hd.
    cbn [cwalk] in Hc. destruct (ti_struct i0); [|discriminate].
    destruct (dget (pp_name z) (ti_members i0)) as [i1|] eqn:E1; [|discriminate].
    change (seg_txt z :: map seg_txt r) with (map seg_txt (z :: r)). apply (IH z (ti_members i0) i1 infol Hr E1 Hc).
Qed.

Lemma get_tag_info_walk tags base x more info infol : Forall ppart_ok more ->
  strip_array base = x -> dget x tags = Some info -> cwalk info more = Some infol ->
  get_tag_info tags base (map seg_txt more) = Ok infol.
Proof.
  intros HF Hb Hd Hc. unfold get_tag_info. rewrite Hb, Hd. destruct more as [|y r].
  - cbn in *. congruence.
  - cbn [cwalk] in Hc. destruct (ti_struct info); [|discriminate].
    destruct (dget (pp_name y) (ti_members info)) as [i1|] eqn:E1; [|discriminate].
    cbn [map]. change (seg_txt y :: map seg_txt r) with (map seg_txt (y :: r)).
    rewrite (recurse_cwalk r y (ti_members info) i1 infol HF E1 Hc). reflexivity.
Qed.

Lemma snoc_head_name (x : ppart) more A xl xl' : x :: more = A ++ [xl] -> pp_name xl' = pp_name xl ->
  exists z rest, A ++ [xl'] = z :: rest /\ pp_name z = pp_name x.
Proof. intros EA Hn. destruct A as [|a A']; cbn [app] in *; injection EA as -> _; eauto. Qed.

(* the three walks agree; [A ++ [xl]] is the path, [xl] its last segment.  The target's walk is stated for any last
   segment [xl'] of the same name: the client replaces the index of a BOOL array ([dw_last]) *)
Lemma walk_agree p total inst : layout_ok p = true -> dword_arrays p = true ->
  forall more x pl l info plf,
  pre_rel p total inst pl l info -> dims_dw pl ->
  match index_place p pl (pp_idv x) with Some pl' => walk_members p pl' (map seg_ast more) | None => None end = Some plf ->
  match index_place p pl (pp_idv x) with Some pl' => exact_members p pl' more | None => True end ->
  exists A xl pll ll infol,
    x :: more = A ++ [xl] /\ pre_rel p total inst pll ll infol /\ dims_dw pll /\ index_place p pll (pp_idv xl) = Some plf
    /\ cwalk info more = Some infol /\ (more <> [] -> ti_inst infol = None)
    /\ forall xl', pp_name xl' = pp_name xl -> tall p l (A ++ [xl']) = apply_idx p ll (pp_idv xl').
Proof.
  intros Hlay Hda. induction more as [|y r IH]; intros x pl l info plf Hpre Hdw Href Hex.
  - exists [], x, pl, l, info. split; [reflexivity|]. split; [exact Hpre|]. split; [exact Hdw|].
    split; [destruct (index_place p pl (pp_idv x)); [cbn in Href; exact Href|discriminate]|].
    split; [reflexivity|]. split; [congruence|]. intros xl' _. cbn [app tall twalk]. destruct (apply_idx p l (pp_idv xl')); reflexivity.
  - destruct (index_place p pl (pp_idv x)) as [pl'|] eqn:Eip; [|discriminate].
    cbn [map walk_members seg_ast s_name s_idx] in Href.
    destruct (member_place p pl' (pp_name y)) as [pl2|] eqn:Emp; [|discriminate].
    (* the current place is a structure, not a BOOL, not a BOOL array *)
    destruct Hpre as [(off & ty & dims & avail & -> & -> & Hdr)|(off & b & -> & -> & _)].
    2:{ unfold index_place in Eip. destruct (pp_idv x); [|discriminate]. injection Eip as <-. cbn in Emp. discriminate. }
    destruct Hdr as (Hoff & Hav & Hpos & (s & Hs & Hspos & Hbound) & Hti & Hnb).
    destruct (is_dword ty) eqn:Edw.
    { destruct ty as [c| |]; try discriminate. cbn [is_dword] in Edw. assert (c = C_DWORD) by lia. subst c.
      destruct (index_dword _ _ _ _ _ _ _ Eip) as [[_ ->]|(? & ? & _ & _ & _ & ->)];
        [intros ->; discriminate (Hdw eq_refl)|discriminate Emp|discriminate Emp]. }
    rewrite Hav in Eip.
    destruct (index_data_gen p inst off ty dims (pp_idv x) s pl' Edw Hpos Hs Hspos Hoff Eip)
      as (off' & av' & dl & -> & Hai & Hoff' & Hav' & Hsum & Hshape).
    (* member_place needs a structure without pending dimensions *)
    assert (Hst : exists tid, ty = BStruct tid /\ dl = []).
    { unfold member_place in Emp. destruct ty as [c|tid|w]; try discriminate. destruct dl; [|discriminate]. eauto. }
    destruct Hst as (tid & -> & ->).
    assert (Hexm : forall t m, find_template (p_templates p) tid = Some t -> find_member (t_members t) (pp_name y) = Some m ->
                               m_name m = pp_name y).
    { intros t m Eft Efm. cbn [exact_members] in Hex. rewrite Eft, Efm in Hex. tauto. }
    destruct (member_step_agree p total inst off' tid av' [] info (pp_name y) pl2 Hlay Hda Hoff' Hav')
      as (l2 & info2 & Hms & Hstr & Hdg & Hpre2 & Hinone & Hdw2); try assumption; try reflexivity.
    { exists s. split; [exact Hs|]. rewrite Hav in Hbound. lia. }
    { eauto. }
    destruct (IH y pl2 l2 info2 plf Hpre2 Hdw2 Href) as (A & xl & pll & ll & infol & EA & Hprel & Hdwl & Hipl & Hcw & Hinl & Htall).
    { cbn [exact_members] in Hex.
      unfold member_place in Emp.
      destruct (find_template (p_templates p) tid) as [t|] eqn:Eft; [|discriminate].
      destruct (find_member (t_members t) (pp_name y)) as [m|] eqn:Efm; [|discriminate].
      destruct Hex as [_ Hex]. unfold member_place in Hex. rewrite Eft, Efm in Hex.
      destruct (is_bool_member m); injection Emp as <-; exact Hex. }
    exists (x :: A), xl, pll, ll, infol.
    split; [rewrite EA; reflexivity|]. split; [exact Hprel|]. split; [exact Hdwl|]. split; [exact Hipl|].
    split; [cbn [cwalk]; rewrite Hstr, Hdg; exact Hcw|].
    split.
    { intros _. destruct r as [|z r']; [cbn in Hcw; injection Hcw as <-; exact Hinone|apply Hinl; discriminate]. }
    intros xl' Hn'. specialize (Htall xl' Hn').
    change ((x :: A) ++ [xl']) with (x :: (A ++ [xl'])). cbn [tall].
    rewrite Hav. rewrite Hai.
    destruct (snoc_head_name y r A xl xl' EA Hn') as (z & rest & Ez & Hnz). rewrite Ez in *. rewrite twalk_cons, Hnz, Hms. exact Htall.
Qed.

Lemma tinfo_facts p ty ne ia info s : layout_ok p = true -> tinfo_of p ty ne ia info -> base_size p ty = Some s ->
  info_for p ty s info /\ info_is_arr info = ia
  /\ (is_dword ty = false -> upload_ok p = true -> text_eqb (ti_dtname info) txt_DWORD = false)
  /\ (is_dword ty = true -> ti_struct info = false /\ ti_dtname info = txt_DWORD /\ ti_esize info = 4
                            /\ info_elem info = KAtom C_DWORD).
Proof.
  intros Hlay Hti Hs. destruct ty as [c|tid|w]; cbn [tinfo_of] in Hti; [| |contradiction].
  - destruct Hti as (nm & sz & k & Hcls & Hst & Hdt & Hes & Hcl). cbn [base_size] in Hs.
    destruct (atom_client_name c s Hs) as (n2 & k2 & Hcls2 & Hnm & Hcn & Hdw & Hbool).
    rewrite Hcls in Hcls2. injection Hcls2 as -> -> ->.
    assert (Hie : info_elem info = KAtom c) by (unfold info_elem; rewrite Hcl; destruct ia; reflexivity).
    split; [|split; [|split]].
    + unfold info_for. split; [exists 1%nat; rewrite Hie; cbn [elem_tc]; rewrite Hcls; reflexivity|].
      split; [exact Hes|]. split; [exists n2; cbn [ty_name]; split; [exact Hnm|rewrite Hdt; symmetry; exact Hcn]|exact Hst].
    + unfold info_is_arr. rewrite Hcl. destruct ia; reflexivity.
    + intros E _. cbn [is_dword] in E. rewrite Hdt, Hdw. exact E.
    + intros E. cbn [is_dword] in E. assert (c = 211) by (unfold C_DWORD in E; lia). subst c.
      vm_compute in Hcls. injection Hcls as <- <- <-. repeat split; try assumption.
  - destruct Hti as (f & nm & tc & sz & attrs & mem' & Hsd & Hst & Hdt & Hes & Hat & Hmem & Hcl). cbn [base_size] in Hs.
    destruct (find_template (p_templates p) tid) as [t|] eqn:Eft; [|discriminate]. injection Hs as <-.
    pose proof Hsd as Hsd'. rewrite struct_dtype_S, Eft in Hsd'.
    destruct (member_infos (struct_dtype f p) (t_members t)) as [infos|] eqn:Emi; [|discriminate].
    injection Hsd' as Hnm Htc Hsz Hattrs Hmem'.
    destruct (find_template_in _ _ _ Eft) as [Hint Htid].
    pose proof (forallb_In _ _ _ Hlay Hint) as Hlt.
    assert (Hnotarr : match tc with KArr _ _ => false | _ => true end = true).
    { rewrite <- Htc. unfold dtype_of. destruct (is_string_dtype _); reflexivity. }
    assert (Hie : info_elem info = tc).
    { unfold info_elem. rewrite Hcl. destruct ia; [reflexivity|]. destruct tc; try reflexivity. discriminate. }
    split; [|split; [|split]].
    + unfold info_for. split; [exists (S f); rewrite Hie; cbn [elem_tc]; rewrite Hsd; reflexivity|].
      split; [rewrite Hes, <- Hsz; reflexivity|].
      split; [exists (t_name t); cbn [ty_name]; rewrite Eft; split; [reflexivity|rewrite Hdt, <- Hnm; reflexivity]|].
      split; [exact Hst|]. exists t. split; [exact Eft|]. rewrite Hat, <- Hattrs. unfold dtype_of. cbn [fst snd].
      rewrite (sc_scan p f t infos Hlt Emi). cbn [sc_attrs]. apply (sc_attrs_visible p f t infos Hlt Emi).
    + unfold info_is_arr. rewrite Hcl. destruct ia; [reflexivity|]. destruct tc; try reflexivity. discriminate.
    + intros _ Hup. rewrite Hdt, <- Hnm. unfold upload_ok in Hup. apply andb_prop in Hup. destruct Hup as [_ Hnd].
      pose proof (forallb_In _ _ _ Hnd Hint) as Hx. cbv beta in Hx. apply negb_true_iff in Hx. exact Hx.
    + intros E. discriminate E.
Qed.

Definition idx_start (idvl : list Z) : option Z := match idvl with [] => None | i :: _ => Some i end.
Definition is_dw (info : tinfo) : bool := negb (ti_struct info) && text_eqb (ti_dtname info) txt_DWORD.

(* [idv']: the last indices as the client sends them — for a BOOL array `[0]` in place of the index ([dw_last]);
   the hypothesis on [pll]: an undimensioned BOOL array is not indexed *)
Lemma final_agree p total inst0 pll ll infol idvl plf (bit cnt : option Z) img :
  layout_ok p = true -> upload_ok p = true ->
  pre_rel p total inst0 pll ll infol -> index_place p pll idvl = Some plf ->
  match pll with PlData _ _ ty dims _ => is_dword ty = true -> no_dims dims = true -> idvl = [] | _ => True end ->
  read_place p img plf bit cnt <> None ->
  let idv' := if is_dw infol then match idvl with [] => [] | _ => [0] end else idvl in
  (is_dw infol = true -> (length idvl <= 1)%nat /\ bit = None) /\
  exists lf, apply_idx p ll idv' = ROk lf /\
    (forall q, pq_info q = infol ->
       (if is_dw infol
        then pq_bit q = idx_start idvl /\ pq_bools q = bools_of_cnt cnt
             /\ pq_elements q = dword_elements (match idx_start idvl with Some b => b | None => 0 end) (cnt_n cnt)
        else pq_bit q = bit /\ pq_bools q = None /\ pq_elements q = cnt_n cnt) ->
       agree p plf bit cnt lf q)
    /\ match plf with PlBools i off nbits _ => i = inst0 /\ off + nbits / 8 <= total | _ => True end
    /\ (is_dw infol = false ->
        idvl = [] \/ match pll with
                     | PlData _ _ ty dims _ => is_dword ty = false /\ Forall2 (fun i d => 0 <= i < d) idvl dims
                     | _ => False
                     end).
Proof.
  intros Hlay Hup Hpre Hip Hdd Href idv'. rename inst0 into inst.
  destruct Hpre as [(off & ty & dims & avail & -> & -> & Hdr)|(off & b & -> & -> & Hst & Hdt & Hcl & Hes)].
  2:{ (* a BOOL *)
    assert (Hdw : is_dw infol = false) by (unfold is_dw; rewrite Hst, Hdt; reflexivity).
    unfold idv'. rewrite Hdw. split; [discriminate|].
    unfold index_place in Hip. destruct idvl; [|discriminate]. injection Hip as <-.
    exists (mkWLoc inst off (BAtom C_BOOL) [] 1 (Some b)). split; [reflexivity|]. split; [|split; [exact I|left; reflexivity]].
    intros q Hq (Hqb & Hqbools & Hqn). unfold read_place in Href.
    destruct bit; [congruence|]. destruct cnt; [congruence|].
    cbn [agree w_inst w_off w_bit w_ty w_avail]. rewrite Hq. repeat split; try assumption; try reflexivity; lia. }
  destruct Hdr as (Hoff & Hav & Hpos & (s & Hs & Hspos & Hbound) & Hti & Hnb).
  destruct (tinfo_facts p ty avail _ infol s Hlay Hti Hs) as (Hifor & Hisarr & Hnodw & Hisdw).
  destruct (is_dword ty) eqn:Edw.
  - (* a BOOL array *)
    destruct (Hisdw eq_refl) as (Hst & Hdt & Hes & Hie).
    assert (Hdw : is_dw infol = true) by (unfold is_dw; rewrite Hst, Hdt; reflexivity).
    unfold idv'. rewrite Hdw.
    destruct ty as [c| |]; cbn [is_dword] in Edw; try discriminate.
    assert (c = C_DWORD) by lia. subst c. cbn [base_size] in Hs. change (atom_size C_DWORD) with (Some 4) in Hs. injection Hs as <-.
    (* the place is a BOOL range, on which a bit has no value *)
    destruct (index_dword p inst off dims avail idvl plf Hip) as [[-> ->]|(kk & i & -> & -> & Hi0 & ->)];
      [intros ->; exact (Hdd eq_refl eq_refl)| |]; (destruct bit; [exfalso; apply Href; reflexivity|]).
    + split; [intros _; split; [cbn; lia|reflexivity]|].
      exists (mkWLoc inst off (BAtom C_DWORD) dims avail None). split; [reflexivity|]. split.
      * intros q Hq (Hqb & Hqbools & Hqn). cbn [idx_start] in *.
        cbn [agree w_inst w_off w_bit w_ty w_avail]. rewrite Hq, Hav.
        repeat split; try assumption; try reflexivity; try lia.
        -- right. split; [exact Hqb|reflexivity].
        -- exists 1%nat. rewrite Hie. reflexivity.
        -- intros Ena. rewrite Hisarr in Ena. apply negb_false_iff in Ena. destruct dims; [reflexivity|discriminate].
      * split; [split; [reflexivity|rewrite <- Hav; lia]|discriminate].
    + split; [intros _; split; [cbn; lia|reflexivity]|].
      assert (Hkk : 0 < kk) by (cbn [forallb] in Hpos; lia).
      assert (Havk : avail = kk) by (rewrite Hav; unfold dims_count; cbn [fold_right]; lia).
      exists (mkWLoc inst off (BAtom C_DWORD) [] kk None). split.
      { unfold apply_idx. cbn [w_bit w_dims w_ty w_inst w_off length Nat.eqb negb flat_index].
        replace ((0 <=? 0) && (0 <? kk)) with true by lia. cbn [base_size]. change (atom_size C_DWORD) with (Some 4).
        unfold dims_count. cbn [fold_right]. f_equal. f_equal; lia. }
      split.
      * intros q Hq (Hqb & Hqbools & Hqn). cbn [idx_start] in *.
        cbn [agree w_inst w_off w_bit w_ty w_avail]. rewrite Hq.
        repeat split; try assumption; try reflexivity; try lia.
        -- left. exact Hqb.
        -- exists 1%nat. rewrite Hie. reflexivity.
        -- intros Ena. rewrite Hisarr in Ena. discriminate.
      * split; [split; [reflexivity|lia]|discriminate].
  - (* data *)
    assert (Hdw : is_dw infol = false).
    { unfold is_dw. rewrite (Hnodw eq_refl Hup). apply andb_false_r. }
    unfold idv'. rewrite Hdw. split; [discriminate|].
    rewrite Hav in Hip.
    destruct (index_data_gen p inst off ty dims idvl s plf Edw Hpos Hs Hspos Hoff Hip)
      as (off' & av' & dl & -> & Hai & Hoff' & Hav' & Hsum & Hshape).
    exists (mkWLoc inst off' ty dl av' None). rewrite Hav. split; [exact Hai|].
    split; [|split; [exact I|intros _; destruct Hshape as [(-> & _)|[_ HF]]; [left; reflexivity|right; split; [reflexivity|exact HF]]]].
    intros q Hq (Hqb & Hqbools & Hqn).
    cbn [agree w_inst w_off w_bit w_ty w_avail]. rewrite Hq.
    split; [exact Edw|]. repeat split; try assumption; try reflexivity.
    + exists s. split; assumption.
    + intros Ena. rewrite Hisarr in Ena. apply negb_false_iff in Ena. destruct dims; [|discriminate].
      assert (Hav1 : av' = 1).
      { destruct Hshape as [(_ & -> & _)|[_ HF]]; [reflexivity|].
        inversion HF; subst idvl. unfold index_place in Hip. rewrite Edw in Hip. injection Hip as _ _ <-. reflexivity. }
      subst av'. unfold read_place in Href. rewrite Hs in Href.
      destruct cnt as [cv|]; [|left; reflexivity]. right. destruct bit; [congruence|].
      destruct ((1 <=? cv) && (cv <=? 1)) eqn:E; [|congruence]. f_equal. lia.
    + apply (Hnodw eq_refl Hup).
Qed.

Definition g_base (pre : option text) (t1 : text) : text :=
  match pre with Some P => (txt_Program_ ++ P) ++ 46 :: t1 | None => t1 end.
Definition g_body0 (pre : option text) (t1 : text) (X : list text) : text := join [46] (g_base pre t1 :: X).
Definition g_text (pre : option text) (t1 : text) (X : list text) (bit cnt : option (text * Z)) : text :=
  (g_body0 pre t1 X ++ bit_txt bit) ++ cnt_txt cnt.

Lemma seg_txt_prog P : seg_txt (txt_Program_ ++ P, [], []) = txt_Program_ ++ P.
Proof. unfold seg_txt, pp_name. cbn [fst snd idx_txt]. apply app_nil_r. Qed.

Lemma g_body0_parts sc x1 more :
  g_body0 (prog_of sc) (seg_txt x1) (map seg_txt more) = join [46] (map seg_txt (prog_parts sc ++ x1 :: more)).
Proof.
  unfold g_body0, g_base. destruct sc as [|P]; [reflexivity|].
  cbn [prog_of prog_parts app map]. rewrite seg_txt_prog. symmetry. apply join_prog.
Qed.

Definition pfx (B : list ppart) : text := concat (map (fun b => seg_txt b ++ [46]) B).

Lemma join_last B xl : join [46] (map seg_txt (B ++ [xl])) = pfx B ++ seg_txt xl.
Proof.
  induction B as [|b r IH]; [reflexivity|].
  change ((b :: r) ++ [xl]) with (b :: (r ++ [xl])). cbn [map]. unfold pfx in *. cbn [map concat].
  destruct (map seg_txt (r ++ [xl])) as [|z zs] eqn:E.
  - destruct r; discriminate.
  - rewrite join_cons2. rewrite IH. rewrite <- !app_assoc. reflexivity.
Qed.

Lemma strip_base sc x1 g : ppart_ok x1 -> pp_name x1 = g_name g -> g_scope g = sc ->
  match sc with ScProg P => pname (txt_Program_ ++ P) = true | ScCtrl => True end ->
  strip_array (g_base (prog_of sc) (seg_txt x1)) = full_name g.
Proof.
  intros Hx Hn Hsc HP. unfold g_base, full_name. rewrite Hsc. destruct sc as [|P]; cbn [prog_of].
  - rewrite (strip_seg x1 (proj1 Hx)). exact Hn.
  - destruct Hx as (Hpn & _). destruct (pname_facts _ Hpn) as (Hpc & _). destruct (pname_facts _ HP) as (HPc & _).
    unfold seg_txt. rewrite <- Hn. change txt_Program with txt_Program_. unfold DOT.
    change ((txt_Program_ ++ P) ++ 46 :: pp_name x1 ++ idx_txt (snd (fst x1)))
      with ((txt_Program_ ++ P) ++ (46 :: pp_name x1) ++ idx_txt (snd (fst x1))).
    rewrite (app_assoc (txt_Program_ ++ P)), strip_array_idx; [rewrite <- app_assoc; reflexivity|].
    rewrite nosep_app, (pchar_nosep 91 _ HPc) by tauto. exact (pchar_nosep 91 _ Hpc ltac:(tauto)).
Qed.

(* the client's plc tag for a BOOL array: the last index becomes [0] *)
Definition dw_last (xl : ppart) : ppart :=
  match pp_idv xl with [] => xl | _ => (pp_name xl, [[48]], [0]) end.

Lemma get_array_index_last B xl : pname (pp_name xl) = true -> Forall2 num_ok (snd (fst xl)) (pp_idv xl) ->
  (length (pp_idv xl) <= 1)%nat ->
  get_array_index (pfx B ++ seg_txt xl) = Ok (pfx B ++ pp_name xl, idx_start (pp_idv xl))
  /\ match idx_start (pp_idv xl) with
     | Some _ => (pfx B ++ pp_name xl) ++ zs_of_string "[0]"
     | None => pfx B ++ seg_txt xl
     end = pfx B ++ seg_txt (dw_last xl).
Proof.
  intros Hn Hids Hl1. destruct (pname_facts _ Hn) as (Hpc & Hne & _).
  destruct xl as [[n ids] idv]. unfold seg_txt, pp_name, pp_idv, dw_last, idx_start in *. cbn [fst snd] in *.
  unfold get_array_index.
  destruct Hids as [|t v ts vs Hv HF].
  - cbn [idx_txt]. rewrite !app_nil_r. split; [|reflexivity].
    rewrite ends_with_app_nosep; [reflexivity|exact Hne|apply (pchar_nosep 93 n Hpc); tauto].
  - destruct HF; [|cbn in Hl1; lia]. unfold idx_txt. cbn [join fst snd].
    split; [|rewrite <- app_assoc; reflexivity].
    replace (pfx B ++ n ++ [91] ++ t ++ [93]) with (((pfx B ++ n) ++ 91 :: t) ++ [93]) by (rewrite <- !app_assoc; reflexivity).
    rewrite ends_with_snoc. rewrite <- app_assoc. cbn [app].
    rewrite contains_chr_app. cbn [contains_chr existsb Z.eqb Pos.eqb orb]. rewrite orb_true_r. cbn [andb].
    assert (Hns : nosep 91 (t ++ [93]) = true).
    { rewrite nosep_app, (num_nosep 91 t v Hv) by lia. reflexivity. }
    rewrite (rsplit1_app 91 (pfx B ++ n) (t ++ [93]) Hns). rewrite removelast_snoc, (num_int t v Hv). reflexivity.
Qed.

Lemma starts_with_app_false a n r : starts_with a (n ++ r) = false -> starts_with a n = false.
Proof.
  destruct (starts_with a n) eqn:E; [|reflexivity]. apply PathStr.starts_with_app in E. destruct E as [r' ->].
  rewrite <- app_assoc, PyStrLemmas.starts_with_app. discriminate.
Qed.

Lemma dw_last_ok xl : ppart_ok xl -> ppart_ok (dw_last xl) /\ pp_name (dw_last xl) = pp_name xl
  /\ pp_idv (dw_last xl) = match pp_idv xl with [] => [] | _ => [0] end.
Proof.
  intros Hx. unfold dw_last. destruct (pp_idv xl) eqn:E.
  - split; [exact Hx|]. split; [reflexivity|exact E].
  - split; [|split; reflexivity]. destruct Hx as (Hn & _ & _). split; [exact Hn|]. split; [exact num_ok_zero|].
    constructor; [lia|constructor].
Qed.

Lemma parts_text sc x1 more : Forall ppart_ok (prog_parts sc ++ x1 :: more) ->
  forallb (fun y => negb (isdigit (seg_txt y))) more = true ->
  (forall c, c = 46 \/ c = 123 \/ c = 125 ->
     forallb (nosep c) (seg_txt x1 :: map seg_txt more) = true
     /\ match prog_of sc with Some P => nosep c (txt_Program_ ++ P) = true | None => True end)
  /\ seg_txt x1 <> [] /\ forallb (fun x => negb (isdigit x)) (map seg_txt more) = true.
Proof.
  intros HF Hdig. apply Forall_app in HF. destruct HF as [HFprog HF1]. inversion HF1 as [|x1' more' Hx1 HFmore]; subst.
  split; [|split].
  - intros c Hc. split.
    + exact (segs_nosep c (x1 :: more) HF1 Hc).
    + destruct sc as [|P]; [exact I|]. cbn [prog_of prog_parts] in *. inversion HFprog as [|y ys Hy _]; subst.
      destruct Hy as (Hpn & _). destruct (pname_facts _ Hpn) as (Hpc & _). apply (pchar_nosep c _ Hpc). tauto.
  - destruct Hx1 as (Hpn & _). destruct (pname_facts _ Hpn) as (_ & Hne & _). unfold seg_txt. intros E. apply app_eq_nil in E. tauto.
  - rewrite forallb_forall. intros y Hy. apply in_map_iff in Hy. destruct Hy as (z & <- & Hz). apply (forallb_In _ _ _ Hdig Hz).
Qed.

Section GenParse.
  Variables (pre : option text) (t1 : text) (X : list text) (bit cnt : option (text * Z)).
  Let parts : list text := (match pre with Some P => [txt_Program_ ++ P] | None => [] end) ++ t1 :: X.
  Let body0 : text := g_body0 pre t1 X.
  Let body : text := body0 ++ bit_txt bit.

  Hypothesis Hsep : forall c, c = 46 \/ c = 123 \/ c = 125 ->
    forallb (nosep c) (t1 :: X) = true /\ match pre with Some P => nosep c (txt_Program_ ++ P) = true | None => True end.
  Hypothesis Hne : t1 <> [].
  Hypothesis HX : forallb (fun x => negb (isdigit x)) X = true.
  Hypothesis Hnp : pre = None -> starts_with txt_Program_ t1 = false.
  Hypothesis Hbit : opt_ok bit.
  Hypothesis Hcnt : opt_ok cnt.

  Lemma gp_body0 : body0 = join [46] parts.
  Proof.
    unfold body0, g_body0, g_base, parts. destruct pre as [P|]; [|reflexivity].
    symmetry. apply join_prog.
  Qed.

  Lemma gp_parts_nosep c : c = 46 \/ c = 123 \/ c = 125 -> forallb (nosep c) parts = true.
  Proof.
    intros Hc. destruct (Hsep c Hc) as [H1 H2]. unfold parts. destruct pre as [P|]; [|exact H1].
    cbn [app forallb]. rewrite H2. exact H1.
  Qed.

  Lemma gp_body_nosep c : c = 123 \/ c = 125 -> nosep c body = true.
  Proof.
    intros Hc. unfold body. rewrite nosep_app, gp_body0. rewrite nosep_join; [| |apply gp_parts_nosep; tauto].
    2:{ unfold nosep. cbn [forallb]. replace (46 =? c) with false by lia. reflexivity. }
    cbn [andb]. unfold bit_txt.
    destruct bit as [[b bv]|]; [|reflexivity]. cbn [nosep forallb]. replace (46 =? c) with false by lia. cbn [negb andb].
    apply (num_nosep c b bv Hbit). lia.
  Qed.

  Lemma gp_body_nonempty : body <> [].
  Proof.
    unfold body, body0, g_body0, g_base. intros E. apply app_eq_nil in E. destruct E as [E _].
    revert E. apply nosep_nonempty_join. destruct pre as [P|]; [discriminate|exact Hne].
  Qed.

  (* the left sides of [gp_split_count] and [gp_bit] are the count step and the bit step of
     LogixRead.parse_tag_request written out, so that [parse_gen] can rewrite with them after unfolding it *)
  Lemma gp_split_count :
    (if ends_with [125] (g_text pre t1 X bit cnt) && contains_chr 123 (g_text pre t1 X bit cnt) then
       match split_chr 123 (g_text pre t1 X bit cnt) with
       | [t; tmp] => let* k := py_int_full (removelast tmp) in Ok (t, k, false)
       | _ => Err (Foreign ValueError)
       end
     else Ok (g_text pre t1 X bit cnt, 1, true))
    = Ok (body, cnt_val cnt, match cnt with Some _ => false | None => true end).
  Proof.
    unfold g_text. fold body0. fold body. unfold cnt_txt, cnt_val.
    destruct cnt as [[c cv]|].
    - replace (body ++ [123] ++ c ++ [125]) with ((body ++ 123 :: c) ++ [125]) by (rewrite <- app_assoc; reflexivity).
      rewrite ends_with_snoc. rewrite <- app_assoc. cbn [app].
      rewrite contains_chr_app. cbn [contains_chr existsb Z.eqb Pos.eqb orb]. rewrite orb_true_r. cbn [andb].
      rewrite split2.
      + rewrite removelast_snoc. rewrite (num_int c cv Hcnt). reflexivity.
      + apply gp_body_nosep. tauto.
      + rewrite nosep_app. rewrite (num_nosep 123 c cv Hcnt) by lia. reflexivity.
    - rewrite app_nil_r. rewrite <- (app_nil_l body). rewrite ends_with_app_nosep; [reflexivity|apply gp_body_nonempty|apply gp_body_nosep; tauto].
  Qed.

  Lemma gp_split_dot : split_chr 46 body = parts ++ match bit with Some (b, _) => [b] | None => [] end.
  Proof.
    unfold body, bit_txt. rewrite gp_body0. pose proof (gp_parts_nosep 46 (or_introl eq_refl)) as Hp.
    assert (Hparts : exists p0 ps, parts = p0 :: ps) by (unfold parts; destruct pre; cbn [app]; eauto).
    destruct Hparts as (p0 & ps & Ep). rewrite Ep in *.
    destruct bit as [[b bv]|].
    - change (join [46] (p0 :: ps) ++ 46 :: b) with (join [46] (p0 :: ps) ++ [46] ++ b).
      rewrite <- join_snoc by discriminate. change ((p0 :: ps) ++ [b]) with (p0 :: ps ++ [b]).
      cbn [forallb] in Hp. apply andb_prop in Hp. destruct Hp as [H0 Hps].
      apply split_join; [exact H0|]. rewrite forallb_snoc, Hps. apply (num_nosep 46 b bv Hbit). lia.
    - rewrite !app_nil_r. cbn [forallb] in Hp. apply andb_prop in Hp. destruct Hp as [H0 Hps]. apply split_join; assumption.
  Qed.

  Let bp : list text := match bit with Some (b, _) => [b] | None => [] end.

  Lemma gp_bit :
    (match rev (X ++ bp) with
     | [] => Ok (None, X ++ bp, body)
     | l :: initr =>
         if isdigit l then let* b := py_int_full l in Ok (Some b, rev initr, dot_join (g_base pre t1) (rev initr))
         else Ok (None, X ++ bp, body)
     end) = Ok (opt_val bit, X, body0).
  Proof.
    unfold bp, body, bit_txt. destruct bit as [[b bv]|].
    - rewrite rev_app_distr. cbn [rev app]. destruct Hbit as (Hd & Hl & Hv). rewrite Hd.
      rewrite (num_int b bv Hbit). cbn [bind opt_val]. rewrite rev_involutive. reflexivity.
    - rewrite !app_nil_r. cbn [opt_val]. destruct (rev X) as [|l initr] eqn:E; [reflexivity|].
      assert (Hin : In l X) by (apply in_rev; rewrite E; left; reflexivity).
      pose proof (forallb_In _ _ _ HX Hin) as Hl. cbv beta in Hl. apply negb_true_iff in Hl. rewrite Hl. reflexivity.
  Qed.

  (* everything up to _get_tag_info *)
  Theorem parse_gen tags info : get_tag_info tags (g_base pre t1) X = Ok info ->
    parse_tag_request tags (g_text pre t1 X bit cnt) =
    wrap_all RequestError
      (if is_dw info then
         let* (t, idx) := get_array_index body0 in
         let tag2 := match idx with Some _ => t ++ zs_of_string "[0]" | None => body0 end in
         let bools := if (match cnt with Some _ => false | None => true end) || (cnt_val cnt =? 1) then None else Some (cnt_val cnt) in
         let total := (match idx with Some b => b | None => 0 end) + cnt_val cnt in
         let elements' := total / 32 + (if total mod 32 =? 0 then 0 else 1) in
         Ok (mkPreq body tag2 idx elements' bools info)
       else Ok (mkPreq body body0 (opt_val bit) (cnt_val cnt) None info)).
  Proof.
    intros Hg. unfold parse_tag_request. rewrite gp_split_count. cbn [bind]. rewrite gp_split_dot. fold bp.
    unfold parts. pose proof gp_bit as Hb. unfold g_base in Hb, Hg. destruct pre as [P|].
    - cbn [app]. rewrite PyStrLemmas.starts_with_app. cbn [bind]. rewrite Hb. cbn [bind]. rewrite Hg. reflexivity.
    - cbn [app]. rewrite (Hnp eq_refl). cbn [bind]. rewrite Hb. cbn [bind]. rewrite Hg. reflexivity.
  Qed.

  (* ... and through the BOOL-array rewriting of the last segment [xl] (body0 = B.xl) *)
  Lemma parse_gen_last tags infol B xl : get_tag_info tags (g_base pre t1) X = Ok infol ->
    body0 = pfx B ++ seg_txt xl -> pname (pp_name xl) = true -> Forall2 num_ok (snd (fst xl)) (pp_idv xl) ->
    (is_dw infol = true -> (length (pp_idv xl) <= 1)%nat) ->
    exists q, parse_tag_request tags (g_text pre t1 X bit cnt) = Ok q /\ pq_info q = infol
      /\ pq_plc q = pfx B ++ seg_txt (if is_dw infol then dw_last xl else xl)
      /\ (if is_dw infol
          then pq_bit q = idx_start (pp_idv xl) /\ pq_bools q = bools_of_cnt (opt_val cnt)
               /\ pq_elements q = dword_elements (match idx_start (pp_idv xl) with Some b => b | None => 0 end) (cnt_n (opt_val cnt))
          else pq_bit q = opt_val bit /\ pq_bools q = None /\ pq_elements q = cnt_n (opt_val cnt)).
  Proof.
    intros Hg Hb0 Hn Hids Hl1. rewrite (parse_gen tags infol Hg), Hb0. destruct (is_dw infol).
    - destruct (get_array_index_last B xl Hn Hids (Hl1 eq_refl)) as [Hgai Hplc]. rewrite Hgai. cbn [bind]. rewrite Hplc.
      eexists. split; [reflexivity|]. cbn [pq_info pq_plc pq_bit pq_bools pq_elements]. repeat split.
      + unfold bools_of_cnt, cnt_val. destruct cnt as [[c cv]|]; cbn [opt_val orb]; [|reflexivity]. destruct (cv =? 1); reflexivity.
      + unfold dword_elements. rewrite cnt_val_n. reflexivity.
    - eexists. split; [reflexivity|]. cbn [pq_info pq_plc pq_bit pq_bools pq_elements]. rewrite cnt_val_n. repeat split.
  Qed.
End GenParse.

Lemma ref_read_some p mem r : ref_read p mem r <> None ->
  exists plf img, resolve p r = Some plf /\ mem_get mem (place_inst plf) = Some img
                  /\ read_place p img plf (r_bit r) (r_count r) <> None.
Proof.
  unfold ref_read. intros H. destruct (resolve p r) as [plf|]; [|congruence].
  destruct (mem_get mem (place_inst plf)) as [img|] eqn:E; [|congruence]. exists plf, img. auto.
Qed.

Lemma covers_tag p mem g r plf total : wf_mem p mem = true -> In g (p_tags p) -> tag_size p g = Some total ->
  resolve p r = Some plf ->
  match plf with PlBools i off nbits _ => i = g_inst g /\ off + nbits / 8 <= total | _ => True end ->
  image_covers p mem r.
Proof.
  intros Hwm Hgin Hts Hres Hc. unfold image_covers. rewrite Hres. destruct plf as [| |i off nbits start]; try exact I.
  destruct Hc as [-> Hc]. destruct (mem_get mem (g_inst g)) as [img|] eqn:Em; [|exact I].
  pose proof (wf_mem_size p mem g _ img Hwm Hgin Hts Em). lia.
Qed.

Definition greq_text (g : tagdef) (x1 : ppart) (more : list ppart) (bit cnt : option (text * Z)) : text :=
  g_text (prog_of (g_scope g)) (seg_txt x1) (map seg_txt more) bit cnt.
Definition greq_ast (g : tagdef) (x1 : ppart) (more : list ppart) (bit cnt : option (text * Z)) : request_ast :=
  mkReq (prog_of (g_scope g)) (map seg_ast (x1 :: more)) (opt_val bit) (opt_val cnt).

(* what the client ends with for such a request: its parse, symbolic addressing, and, once the path is built,
   client, target and reference at the same place *)
Lemma gen_resolves p mem cfg g x1 more bit cnt :
  wf_project p = true -> wf_mem p mem = true -> layout_ok p = true -> upload_ok p = true -> dword_arrays p = true ->
  In g (visible_tags p) -> pp_name x1 = g_name g ->
  Forall ppart_ok (prog_parts (g_scope g) ++ x1 :: more) ->
  starts_with txt_Program_ (seg_txt x1) = false ->
  forallb (fun y => negb (isdigit (seg_txt y))) more = true ->
  opt_ok bit -> opt_ok cnt ->
  Forall (fun d => d <= 4294967296) (g_dims g) ->
  (more <> [] \/ g_scope g <> ScCtrl \/ c_use_ids cfg = false) ->
  (forall pl0 pl1, tag_place g = Some pl0 -> index_place p pl0 (pp_idv x1) = Some pl1 -> exact_members p pl1 more) ->
  ref_read p mem (greq_ast g x1 more bit cnt) <> None ->
  exists q, parse_tag_request (client_tags p) (greq_text g x1 more bit cnt) = Ok q
    /\ (more <> [] -> ti_inst (pq_info q) = None)
    /\ match ti_inst (pq_info q) with
       | Some i => c_use_ids cfg && negb (starts_with (txt "Program:") (hd [] (split_chr 46 (pq_plc q)))) && negb (i =? 0)
       | None => false
       end = false
    /\ (forall path, read_path (c_use_ids cfg) q = Ok path ->
          resolves p (client_tags p) (c_use_ids cfg) (greq_text g x1 more bit cnt) (greq_ast g x1 more bit cnt) q path)
    /\ image_covers p mem (greq_ast g x1 more bit cnt).
Proof.
  intros Hwf Hwm Hlay Hup Hda Hvis Hx1n HF Hnp Hdig Hbit Hcnt H32 Hsym Hex Href.
  set (s := greq_text g x1 more bit cnt) in *. set (r := greq_ast g x1 more bit cnt) in *.
  pose proof (pl_in_tags p g Hvis) as Hgin.
  destruct (pl_wf p g Hwf Hvis) as (Hok & Hdi & Hdk).
  destruct (proj1 (Forall_app _ _ _) HF) as [HFprog HF1]. inversion HF1 as [|x1' more' Hx1 HFmore]; subst x1' more'.
  destruct (pl_info p g Hvis Hup) as (info & Hinfo & Hget).
  destruct (tag_pre_rel p g info Hlay Hgin Hok Hinfo) as (total & pl0 & l0 & Hts & Htp & Htw & Hpre).
  assert (Hdw0 : dims_dw pl0).
  { unfold tag_place in Htp. destruct (g_ty g) as [c| |] eqn:Ety; [destruct (c =? C_BOOL)| |discriminate]; injection Htp as <-;
      try exact I; cbn [dims_dw]; intros E; unfold dword_arrays in Hda; apply andb_prop in Hda; destruct Hda as [Hda _];
      pose proof (forallb_In _ _ _ Hda Hgin) as Hx; cbv beta in Hx; rewrite Ety, E in Hx; apply negb_true_iff in Hx; exact Hx. }
  pose proof (pl_find_name p g Hwf Hvis) as Hfind.
  assert (Hscope : req_scope r = g_scope g) by (unfold req_scope, r, greq_ast; cbn [r_prog]; destruct (g_scope g); reflexivity).
  destruct (ref_read_some p mem r Href) as (plf & img & Hres & Emem & Hread).
  assert (Hwalk : match index_place p pl0 (pp_idv x1) with Some pl' => walk_members p pl' (map seg_ast more) | None => None end = Some plf).
  { rewrite <- Hres. unfold resolve. rewrite Hscope. unfold r, greq_ast. cbn [r_segs map seg_ast s_name s_idx].
    rewrite Hx1n, Hfind, Htp. reflexivity. }
  assert (Hex' : match index_place p pl0 (pp_idv x1) with Some pl' => exact_members p pl' more | None => True end).
  { destruct (index_place p pl0 (pp_idv x1)) as [pl'|] eqn:E; [|exact I]. apply (Hex pl0 pl' Htp E). }
  destruct (walk_agree p total (g_inst g) Hlay Hda more x1 pl0 l0 info plf Hpre Hdw0 Hwalk Hex')
    as (A & xl & pll & ll & infol & EA & Hprel & Hdwl & Hipl & Hcw & Hinone & Htall).
  destruct (final_agree p total (g_inst g) pll ll infol (pp_idv xl) plf (opt_val bit) (opt_val cnt) img Hlay Hup Hprel Hipl) as (Hdwc & lf & Hai & Hag & Hcover & _);
    [destruct pll; try exact I; intros E1 E2; rewrite (Hdwl E1) in E2; discriminate|exact Hread|].
  assert (Hxl : ppart_ok xl /\ Forall ppart_ok A).
  { assert (HFa : Forall ppart_ok (A ++ [xl])) by (rewrite <- EA; exact HF1).
    destruct (proj1 (Forall_app _ _ _) HFa) as [Ha Hl]. inversion Hl; subst. split; assumption. }
  destruct Hxl as [Hxl HFA].
  assert (Hstrip : strip_array (g_base (prog_of (g_scope g)) (seg_txt x1)) = full_name g).
  { apply (strip_base (g_scope g) x1 g Hx1 Hx1n eq_refl).
    destruct (g_scope g) as [|P]; [exact I|]. cbn [prog_parts] in HFprog. inversion HFprog as [|y ys Hy _]; subst. apply Hy. }
  pose proof (get_tag_info_walk (client_tags p) _ _ more info infol HFmore Hstrip Hget Hcw) as Hgti.
  destruct (parts_text (g_scope g) x1 more HF Hdig) as (Hsep & Hne & HX).
  (* the path the client builds: the parts with the last one as the client sends it *)
  set (B := prog_parts (g_scope g) ++ A).
  assert (Hall : prog_parts (g_scope g) ++ x1 :: more = B ++ [xl]) by (unfold B; rewrite <- app_assoc; f_equal; exact EA).
  assert (Hbody0 : g_body0 (prog_of (g_scope g)) (seg_txt x1) (map seg_txt more) = pfx B ++ seg_txt xl).
  { rewrite g_body0_parts, Hall. apply join_last. }
  set (xl' := if is_dw infol then dw_last xl else xl).
  assert (Hxl' : ppart_ok xl' /\ pp_name xl' = pp_name xl
                 /\ pp_idv xl' = (if is_dw infol then match pp_idv xl with [] => [] | _ => [0] end else pp_idv xl)).
  { unfold xl'. destruct (is_dw infol); [apply dw_last_ok; exact Hxl|]. split; [exact Hxl|]. split; reflexivity. }
  destruct Hxl' as (Hxl'ok & Hxl'n & Hxl'i).
  destruct (parse_gen_last (prog_of (g_scope g)) (seg_txt x1) (map seg_txt more) bit cnt Hsep Hne HX (fun _ => Hnp) Hbit Hcnt
              (client_tags p) infol B xl Hgti Hbody0 (proj1 Hxl) (proj1 (proj2 Hxl)) (fun E => proj1 (Hdwc E)))
    as (q & Hparse & Hqi & Hqplc & Hqf).
  fold xl' in Hqplc. rewrite <- join_last in Hqplc. fold (greq_text g x1 more bit cnt) in Hparse. fold s in Hparse.
  destruct (snoc_head_name x1 more A xl xl' EA Hxl'n) as (z & rest & Ez & Hzn). rewrite Hx1n in Hzn.
  assert (HFall : Forall ppart_ok (prog_parts (g_scope g) ++ z :: rest)).
  { rewrite <- Ez. apply Forall_app. split; [exact HFprog|]. apply Forall_app. split; [exact HFA|]. constructor; [exact Hxl'ok|constructor]. }
  assert (HBz : B ++ [xl'] = prog_parts (g_scope g) ++ z :: rest) by (unfold B; rewrite <- app_assoc, Ez; reflexivity).
  assert (Hfirst : exists f0 pp0, prog_parts (g_scope g) ++ z :: rest = f0 :: pp0
            /\ (match ti_inst infol with
                | Some i => c_use_ids cfg && negb (starts_with (txt "Program:") (seg_txt f0)) && negb (i =? 0)
                | None => false end) = false).
  { destruct (g_scope g) as [|P] eqn:Esc.
    - cbn [prog_parts app]. exists z, rest. split; [reflexivity|].
      destruct Hsym as [Hm|[Hs|Hu]]; [rewrite (Hinone Hm); reflexivity|congruence|].
      rewrite Hu. destruct (ti_inst infol); reflexivity.
    - cbn [prog_parts app]. eexists. eexists. split; [reflexivity|]. rewrite seg_txt_prog.
      change (txt "Program:") with txt_Program_. rewrite PyStrLemmas.starts_with_app. cbn [negb]. rewrite andb_false_r.
      destruct (ti_inst infol); reflexivity. }
  destruct Hfirst as (f0 & pp0 & Efp & Hsymc). rewrite Efp in HFall.
  destruct (path_gen f0 pp0 (ti_inst infol) (c_use_ids cfg) HFall Hsymc) as (Hpath & Hpw & _ & Hcia & Hpb4).
  rewrite <- Efp in Hpath, Hpw, Hcia, Hpb4. rewrite HBz in Hqplc.
  set (pb := gbytes (prog_parts (g_scope g) ++ z :: rest)) in *.
  exists q. split; [exact Hparse|]. split; [intros Hm; rewrite Hqi; exact (Hinone Hm)|]. split; [|split].
  - rewrite Hqi, Hqplc, Efp, (split_dot_parts f0 pp0 HFall). exact Hsymc.
  - intros path Hrp.
    assert (Hpathv : path = (Path.len pb / 2) :: pb /\ Path.len pb / 2 < 256).
    { unfold read_path in Hrp. rewrite Hqi, Hqplc, Hpath in Hrp. destruct (Path.len pb / 2 <? 256) eqn:E.
      - cbn [bind] in Hrp. injection Hrp as <-. split; [reflexivity|lia].
      - cbn [bind] in Hrp. discriminate Hrp. }
    destruct Hpathv as [-> Hlt].
    exists plf, pb, lf. split; [exact Hres|]. split; [exact Hparse|]. split; [exact Hrp|]. split; [exact (Hpw Hlt)|].
    split; [exact Hcia|]. split; [exact Hpb4|]. split.
    + assert (Hnpn : starts_with txt_Program_ (g_name g) = false) by (rewrite <- Hx1n; exact (starts_with_app_false _ _ _ Hnp)).
      unfold pb. rewrite (resolve_path_gen p g z rest l0 Hgin Hok Hdk Hzn Hnpn Htw).
      2:{ rewrite Efp. exact HFall. }
      specialize (Htall xl' Hxl'n). rewrite Ez in Htall. cbn [tall] in Htall. rewrite Htall, Hxl'i.
      fold (is_dw infol) in Hai. rewrite Hai. reflexivity.
    + unfold r, greq_ast. cbn [r_bit r_count]. apply Hag; [exact Hqi|exact Hqf].
  - exact (covers_tag p mem g r plf total Hwm Hgin Hts Hres Hcover).
Qed.

Theorem gen_request_ok p mem cfg fuel g x1 more bit cnt :
  wf_project p = true -> wf_mem p mem = true -> layout_ok p = true -> upload_ok p = true -> dword_arrays p = true ->
  In g (visible_tags p) -> pp_name x1 = g_name g ->
  Forall ppart_ok (prog_parts (g_scope g) ++ x1 :: more) ->
  starts_with txt_Program_ (seg_txt x1) = false ->
  forallb (fun y => negb (isdigit (seg_txt y))) more = true ->
  opt_ok bit -> opt_ok cnt ->
  Forall (fun d => d <= 4294967296) (g_dims g) ->
  (more <> [] \/ g_scope g <> ScCtrl \/ c_use_ids cfg = false) ->
  (forall pl0 pl1, tag_place g = Some pl0 -> index_place p pl0 (pp_idv x1) = Some pl1 -> exact_members p pl1 more) ->
  ref_read p mem (greq_ast g x1 more bit cnt) <> None ->
  (forall q, parse_tag_request (client_tags p) (greq_text g x1 more bit cnt) = Ok q ->
             exists path, read_path (c_use_ids cfg) q = Ok path) ->
  (forall q path, parse_tag_request (client_tags p) (greq_text g x1 more bit cnt) = Ok q ->
                  read_path (c_use_ids cfg) q = Ok path -> fits (c_conn cfg) fuel q path) ->
  request_ok p mem cfg fuel (greq_text g x1 more bit cnt) (greq_ast g x1 more bit cnt).
Proof.
  intros Hwf Hwm Hlay Hup Hda Hvis Hx1n HF Hnp Hdig Hbit Hcnt H32 Hsym Hex Href Hbuild Hfits.
  destruct (gen_resolves p mem cfg g x1 more bit cnt) as (q & Hparse & _ & _ & Hres & Hcov); try assumption.
  destruct (Hbuild q Hparse) as (path & Hrp).
  exists q, path. split; [exact (Hres path Hrp)|]. split; [exact (Hfits q path Hparse Hrp)|]. split; assumption.
Qed.

Print Assumptions gen_request_ok.

(* a single controller-scope segment name[i,j,k].bit{n} on any tag type (BOOL, BOOL array, data), by symbol
   instance or symbolically; the BOOL-array index is not sent (the client sends [0]), so it is not bounded *)
Theorem single_request_ok p mem cfg fuel g ids idv bit cnt :
  wf_project p = true -> wf_mem p mem = true -> layout_ok p = true -> upload_ok p = true ->
  In g (visible_tags p) -> g_scope g = ScCtrl -> plain_name (g_name g) = true ->
  Forall2 num_ok ids idv -> opt_ok bit -> opt_ok cnt ->
  (is_dword (g_ty g) = true -> (length idv <= length (g_dims g))%nat) ->
  (is_dword (g_ty g) = false -> idv = [] \/ Forall (fun d => d <= 4294967296) (g_dims g)) ->
  let s := single_req (g_name g) ids bit cnt in
  let r := mkReq None [mkSeg (g_name g) idv] (opt_val bit) (opt_val cnt) in
  ref_read p mem r <> None ->
  (forall q path, parse_tag_request (client_tags p) s = Ok q -> read_path (c_use_ids cfg) q = Ok path ->
                  fits (c_conn cfg) fuel q path) ->
  request_ok p mem cfg fuel s r.
Proof.
  intros Hwf Hwm Hlay Hup Hvis Hsc Hname Hids Hbit Hcnt Hdwl Hd32 s r Href Hfits.
  set (n := g_name g) in *. set (xl := (n, ids, idv) : ppart).
  destruct (pl_info p g Hvis Hup) as (info & Hinfo & Hget). unfold full_name in Hget. rewrite Hsc in Hget. fold n in Hget.
  pose proof (pl_in_tags p g Hvis) as Hgin. destruct (pl_wf p g Hwf Hvis) as (Hok & _ & _).
  destruct (tag_pre_rel p g info Hlay Hgin Hok Hinfo) as (total & pl0 & l0 & Hts & Htp & Htw & Hpre).
  destruct (ref_read_some p mem r Href) as (plf & img & Hres & Emem & Hread).
  assert (Hip : index_place p pl0 idv = Some plf).
  { rewrite <- Hres. unfold resolve. cbn [r_segs r req_scope r_prog s_name s_idx]. unfold n.
    rewrite <- Hsc, (pl_find_name p g Hwf Hvis), Htp. destruct (index_place p pl0 idv); reflexivity. }
  assert (Hpl0 : match pl0 with PlData _ _ ty dims _ => ty = g_ty g /\ dims = g_dims g | _ => True end).
  { unfold tag_place in Htp. destruct (g_ty g) as [c| |]; [destruct (c =? C_BOOL)| |discriminate]; injection Htp as <-;
      try exact I; split; reflexivity. }
  destruct (final_agree p total (g_inst g) pl0 l0 info idv plf (opt_val bit) (opt_val cnt) img Hlay Hup Hpre Hip)
    as (Hdwc & lf & Hai & Hag & Hcover & Hrange).
  { destruct pl0 as [i o ty dims av| |]; try exact I. destruct Hpl0 as [-> ->]. intros E1 E2. specialize (Hdwl E1).
    destruct (g_dims g); [|discriminate]. destruct idv; [reflexivity|cbn in Hdwl; lia]. }
  { exact Hread. }
  (* the indices the client sends *)
  set (xl' := if is_dw info then dw_last xl else xl).
  assert (Hxl' : pp_name xl' = n /\ Forall2 num_ok (snd (fst xl')) (pp_idv xl') /\ idx32 (pp_idv xl') /\ (length (pp_idv xl') <= 3)%nat
                 /\ pp_idv xl' = if is_dw info then match idv with [] => [] | _ => [0] end else idv).
  { unfold xl'. destruct (is_dw info).
    - unfold dw_last, xl. cbn [pp_idv pp_name fst snd]. destruct idv; cbn [pp_idv pp_name fst snd].
      + repeat split; [exact Hids|constructor|lia].
      + repeat split; [exact num_ok_zero|repeat constructor; lia|cbn; lia].
    - unfold xl. cbn [pp_idv pp_name fst snd]. split; [reflexivity|]. split; [exact Hids|].
      assert (H : idx32 idv /\ (length idv <= 3)%nat); [|tauto].
      destruct (Hrange eq_refl) as [->|Hr]; [split; [constructor|cbn; lia]|].
      destruct pl0 as [i o ty dims av| |]; try contradiction. destruct Hpl0 as [-> ->]. destruct Hr as [Edw HF].
      destruct (tag_ok_dims p g Hok) as [Hd3 _]. pose proof (Forall2_length _ _ _ HF) as Hl. split; [|lia].
      destruct (Hd32 Edw) as [->|H32]; [constructor|]. clear - HF H32.
      induction HF as [|i d ir dr Hi HF IH]; [constructor|]. inversion H32; subst. constructor; [lia|apply IH; assumption]. }
  destruct Hxl' as (Hn' & Hids' & H32' & Hlen3' & Hidv').
  assert (Etx : seg_txt xl = n ++ idx_txt ids) by reflexivity.
  assert (Hsep : forall c, c = 46 \/ c = 123 \/ c = 125 -> forallb (nosep c) [seg_txt xl] = true /\ True).
  { intros c Hc. cbn [forallb]. rewrite Etx, (body0_nosep n ids idv Hname Hids c) by tauto. split; reflexivity. }
  assert (Hne : seg_txt xl <> []).
  { rewrite Etx. intros E. apply app_eq_nil in E. destruct E as [E _]. rewrite E in Hname. discriminate. }
  assert (Hgti : get_tag_info (client_tags p) (g_base None (seg_txt xl)) [] = Ok info).
  { unfold get_tag_info. cbn [g_base]. rewrite (strip_seg xl (plain_pname n Hname)). cbn [pp_name xl fst]. rewrite Hget. reflexivity. }
  destruct (parse_gen_last None (seg_txt xl) [] bit cnt Hsep Hne eq_refl (fun _ => body0_not_program n ids idv Hname Hids) Hbit Hcnt
              (client_tags p) info [] xl Hgti eq_refl (plain_pname n Hname) Hids (fun E => proj1 (Hdwc E)))
    as (q & Hparse & Hqi & Hqplc & Hqf).
  fold xl' in Hqplc. cbn [pfx map concat app] in Hqplc.
  assert (Es : g_text None (seg_txt xl) [] bit cnt = s).
  { unfold g_text, g_body0, g_base, s, single_req. rewrite Etx. cbn [join]. rewrite <- app_assoc. reflexivity. }
  rewrite Es in Hparse.
  pose proof (pl_inst_range p g Hwf Hvis) as Hir.
  destruct (path_single n (snd (fst xl')) (pp_idv xl') Hname Hids' H32' Hlen3' (g_inst g) (c_use_ids cfg) Hir) as (Hpath & Hpw & _ & Hcia & Hpb4).
  set (pb := first_bytes n (g_inst g) (c_use_ids cfg) ++ mems_bytes (pp_idv xl')) in *.
  assert (Hrp : read_path (c_use_ids cfg) q = Ok ((Path.len pb / 2) :: pb)).
  { unfold read_path. rewrite Hqi, Hqplc, (tag_info_inst p g info Hinfo). unfold seg_txt. rewrite Hn', Hpath. reflexivity. }
  exists q, ((Path.len pb / 2) :: pb). split; [|split; [exact (Hfits _ _ Hparse Hrp)|split]].
  - exists plf, pb, lf. split; [exact Hres|]. split; [exact Hparse|]. split; [exact Hrp|]. split; [exact Hpw|].
    split; [exact Hcia|]. split; [exact Hpb4|]. split.
    + unfold pb, n. rewrite (sd_resolve_path p cfg g _ _ Hwf Hvis Hsc Hname Hids' l0 Htw H32' Hlen3'), Hidv', Hai. reflexivity.
    + apply Hag; [exact Hqi|exact Hqf].
  - exact (covers_tag p mem g r plf total Hwm Hgin Hts Hres Hcover).
  - exact Href.
Qed.

Corollary plain_request_ok p mem cfg fuel g :
  wf_project p = true -> wf_mem p mem = true -> layout_ok p = true -> upload_ok p = true ->
  In g (visible_tags p) -> g_scope g = ScCtrl -> plain_name (g_name g) = true ->
  ref_read p mem (mkReq None [mkSeg (g_name g) []] None None) <> None ->
  (forall q path, parse_tag_request (client_tags p) (g_name g) = Ok q -> read_path (c_use_ids cfg) q = Ok path ->
                  fits (c_conn cfg) fuel q path) ->
  request_ok p mem cfg fuel (g_name g) (mkReq None [mkSeg (g_name g) []] None None).
Proof.
  intros Hwf Hwm Hlay Hup Hvis Hsc Hname Href Hfits.
  assert (E : single_req (g_name g) [] None None = g_name g) by (unfold single_req; cbn; rewrite !app_nil_r; reflexivity).
  rewrite <- E at 1. rewrite <- E in Hfits.
  apply (single_request_ok p mem cfg fuel g [] [] None None); try assumption; try exact I; [constructor|cbn; lia|left; reflexivity].
Qed.

Print Assumptions plain_request_ok.

Theorem sreq_request_ok p mem cfg fuel x :
  wf_project p = true -> wf_mem p mem = true -> layout_ok p = true -> upload_ok p = true ->
  sreq_ok p mem cfg fuel x -> request_ok p mem cfg fuel (sreq_text x) (sreq_ast x).
Proof.
  intros Hwf Hwm Hlay Hup (Hvis & Hsc & Hname & Hids & Hbit & Hcnt & Hshape & Href & Hfits).
  apply single_request_ok; try assumption; unfold sreq_shape in Hshape; destruct (g_ty (sr_g x)) as [c| |]; cbn [is_dword];
    try discriminate; try contradiction; try (intros _; right; exact Hshape); destruct (c =? C_BOOL) eqn:Eb.
  - intros E. assert (c = C_DWORD) by lia. subst c. discriminate.
  - intros E. rewrite E in Hshape. apply Hshape.
  - intros _. left. destruct Hshape as (E & _). rewrite E in Hids. inversion Hids. reflexivity.
  - intros E. rewrite E in Hshape. right. exact Hshape.
Qed.

Print Assumptions sreq_request_ok.

Record greq := mkGreq {
  gq_g : tagdef; gq_x1 : ppart; gq_more : list ppart; gq_bit : option (text * Z); gq_cnt : option (text * Z) }.
Definition gq_text (x : greq) : text := greq_text (gq_g x) (gq_x1 x) (gq_more x) (gq_bit x) (gq_cnt x).
Definition gq_ast (x : greq) : request_ast := greq_ast (gq_g x) (gq_x1 x) (gq_more x) (gq_bit x) (gq_cnt x).

(* [Program:P.]tag[..].member[..]...[.bit][{n}] names a visible tag and members as the controller spells them,
   exists (ref_read <> None), can be built and fits the connection; addressed symbolically (a member path, a
   program-scoped tag, or a driver that does not use symbol instance ids: the remaining case is [sreq]) *)
Definition greq_ok (p : project) (mem : Project.mem) (cfg : ccfg) (fuel : nat) (x : greq) : Prop :=
  In (gq_g x) (visible_tags p) /\ pp_name (gq_x1 x) = g_name (gq_g x)
  /\ Forall ppart_ok (prog_parts (g_scope (gq_g x)) ++ gq_x1 x :: gq_more x)
  /\ starts_with txt_Program_ (seg_txt (gq_x1 x)) = false
  /\ forallb (fun y => negb (isdigit (seg_txt y))) (gq_more x) = true
  /\ opt_ok (gq_bit x) /\ opt_ok (gq_cnt x)
  /\ Forall (fun d => d <= 4294967296) (g_dims (gq_g x))
  /\ (gq_more x <> [] \/ g_scope (gq_g x) <> ScCtrl \/ c_use_ids cfg = false)
  /\ (forall pl0 pl1, tag_place (gq_g x) = Some pl0 -> index_place p pl0 (pp_idv (gq_x1 x)) = Some pl1 ->
                      exact_members p pl1 (gq_more x))
  /\ ref_read p mem (gq_ast x) <> None
  /\ (forall q, parse_tag_request (client_tags p) (gq_text x) = Ok q -> exists path, read_path (c_use_ids cfg) q = Ok path)
  /\ (forall q path, parse_tag_request (client_tags p) (gq_text x) = Ok q -> read_path (c_use_ids cfg) q = Ok path ->
                     fits (c_conn cfg) fuel q path).

Theorem greq_request_ok p mem cfg fuel x :
  wf_project p = true -> wf_mem p mem = true -> layout_ok p = true -> upload_ok p = true -> dword_arrays p = true ->
  greq_ok p mem cfg fuel x -> request_ok p mem cfg fuel (gq_text x) (gq_ast x).
Proof.
  intros Hwf Hwm Hlay Hup Hda (H1 & H2 & H3 & H4 & H5 & H6 & H7 & H8 & H9 & H10 & H11 & H12 & H13).
  apply gen_request_ok; assumption.
Qed.

(* any request: single-segment controller-scope (symbol-instance or symbolic addressing), or a path *)
Definition ritem := (sreq + greq)%type.
Definition item_text (x : ritem) : text := match x with inl a => sreq_text a | inr b => gq_text b end.
Definition item_ast (x : ritem) : request_ast := match x with inl a => sreq_ast a | inr b => gq_ast b end.
Definition item_ok (p : project) (mem : Project.mem) (cfg : ccfg) (fuel : nat) (x : ritem) : Prop :=
  match x with inl a => sreq_ok p mem cfg fuel a | inr b => greq_ok p mem cfg fuel b end.

Theorem item_request_ok p mem cfg fuel x :
  wf_project p = true -> wf_mem p mem = true -> layout_ok p = true -> upload_ok p = true -> dword_arrays p = true ->
  item_ok p mem cfg fuel x -> request_ok p mem cfg fuel (item_text x) (item_ast x).
Proof.
  intros Hwf Hwm Hlay Hup Hda H. destruct x as [a|b].
  - apply sreq_request_ok; assumption.
  - apply greq_request_ok; assumption.
Qed.

Print Assumptions item_request_ok.

Lemma split_last_snoc {A} (l : list A) x : split_last (l ++ [x]) = Some (l, x).
Proof. unfold split_last. rewrite rev_app_distr. cbn [rev app]. rewrite rev_involutive. reflexivity. Qed.

Lemma all_some_parse_nat ids idv : Forall2 num_ok ids idv -> all_some (map parse_nat ids) = Some idv.
Proof.
  induction 1 as [|t v ts vs (Hd & _ & Hv) HF IH]; [reflexivity|].
  cbn [map all_some]. unfold parse_nat at 1. rewrite Hd, Hv, IH. reflexivity.
Qed.

Lemma parse_seg_txt x : ppart_ok x -> (length (pp_idv x) <= 3)%nat -> parse_seg (seg_txt x) = Some (seg_ast x).
Proof.
  intros (Hn & Hids & _) Hl3. destruct (pname_facts _ Hn) as (Hpc & Hne & _).
  destruct x as [[n ids] idv]. unfold seg_txt, seg_ast, pp_name, pp_idv in *. cbn [fst snd] in *.
  unfold parse_seg, LBRACK, RBRACK, COMMA.
  assert (Hnn : nonempty n = true) by (destruct n; [congruence|reflexivity]).
  destruct Hids as [|t v ts vs Hv HF].
  - cbn [idx_txt]. rewrite app_nil_r. rewrite split_nosep by (apply (pchar_nosep 91 n Hpc); tauto).
    rewrite Hnn, (contains_chr_nosep 93 n) by (apply (pchar_nosep 93 n Hpc); tauto). reflexivity.
  - pose proof (Forall2_cons _ _ Hv HF) as Hall.
    pose proof (ids_nosep _ _ Hall 44 (or_introl eq_refl)) as H44.
    pose proof (ids_nosep _ _ Hall 91 (or_intror eq_refl)) as H91.
    pose proof (ids_nosep _ _ Hall 93 (or_intror eq_refl)) as H93.
    assert (S1 : forall c x, x <> c -> nosep c [x] = true).
    { intros c x Hx. unfold nosep. cbn [forallb]. replace (x =? c) with false by lia. reflexivity. }
    unfold idx_txt. cbn [app].
    rewrite split2; [|apply (pchar_nosep 91 n Hpc); tauto|].
    2:{ rewrite nosep_app, nosep_join by (try exact H91; apply S1; lia). apply S1. lia. }
    rewrite split_last_snoc. cbn [Z.eqb Pos.eqb]. rewrite Hnn. cbn [andb].
    rewrite (contains_chr_nosep 93) by (apply nosep_join; [apply S1; lia|exact H93]). cbn [negb].
    cbn [forallb] in H44. apply andb_prop in H44. destruct H44 as [H0 Hr].
    rewrite split_join by assumption. rewrite (all_some_parse_nat _ _ Hall).
    replace (Nat.leb (length (v :: vs)) 3) with true by (symmetry; apply Nat.leb_le; exact Hl3). reflexivity.
Qed.

Lemma all_some_parse_segs l : Forall ppart_ok l -> Forall (fun x => (length (pp_idv x) <= 3)%nat) l ->
  all_some (map parse_seg (map seg_txt l)) = Some (map seg_ast l).
Proof.
  induction 1 as [|x r Hx Hr IH]; intros H3; [reflexivity|]. inversion H3; subst.
  cbn [map all_some]. rewrite (parse_seg_txt x Hx) by assumption. rewrite IH by assumption. reflexivity.
Qed.

Theorem parse_request_gtext sc x1 more bit cnt :
  Forall ppart_ok (prog_parts sc ++ x1 :: more) ->
  Forall (fun x => (length (pp_idv x) <= 3)%nat) (x1 :: more) ->
  match sc with ScProg P => P <> [] | ScCtrl => True end ->
  starts_with txt_Program_ (seg_txt x1) = false ->
  forallb (fun y => negb (isdigit (seg_txt y))) more = true ->
  opt_ok bit -> opt_ok cnt ->
  parse_request (g_text (prog_of sc) (seg_txt x1) (map seg_txt more) bit cnt)
  = Some (mkReq (prog_of sc) (map seg_ast (x1 :: more)) (opt_val bit) (opt_val cnt)).
Proof.
  intros HF H3 HP Hnp Hdig Hbit Hcnt.
  destruct (proj1 (Forall_app _ _ _) HF) as [HFprog HF1]. inversion HF1 as [|x1' more' Hx1 HFmore]; subst x1' more'.
  destruct (parts_text sc x1 more HF Hdig) as (Hsep & Hne & HX).
  set (body := g_body0 (prog_of sc) (seg_txt x1) (map seg_txt more) ++ bit_txt bit).
  assert (Hdot : split_chr 46 body = ((match prog_of sc with Some P => [txt_Program_ ++ P] | None => [] end) ++ seg_txt x1 :: map seg_txt more)
                                     ++ match bit with Some (b, _) => [b] | None => [] end)  by (apply gp_split_dot; auto).
  assert (Hbns : forall c, c = 123 \/ c = 125 -> nosep c body = true) by (intros c Hc; apply gp_body_nosep; auto).
  assert (Hbne : body <> []) by (apply gp_body_nonempty; auto).
  unfold parse_request, g_text. fold body.
  assert (Hsc : split_count (body ++ cnt_txt cnt) = Some (body, opt_val cnt)).
  { unfold split_count, cnt_txt, LBRACE, RBRACE. destruct cnt as [[c cv]|].
    - replace (body ++ [123] ++ c ++ [125]) with ((body ++ 123 :: c) ++ [125]) by (rewrite <- !app_assoc; reflexivity).
      rewrite split_last_snoc. cbn [Z.eqb Pos.eqb]. rewrite split2.
      + destruct Hcnt as (Hd & _ & Hv). unfold parse_nat. rewrite Hd, Hv. reflexivity.
      + apply Hbns. tauto.
      + apply (num_nosep 123 c cv Hcnt). lia.
    - rewrite app_nil_r. destruct (exists_last_snoc body Hbne) as (bi & bx & Eb). rewrite Eb, split_last_snoc. rewrite <- Eb.
      assert (H125 : nosep 125 body = true) by (apply Hbns; tauto).
      assert (Hbx : (bx =? 125) = false).
      { rewrite Eb in H125. rewrite nosep_app in H125. apply andb_prop in H125. destruct H125 as [_ H]. unfold nosep in H. cbn in H. lia. }
      rewrite Hbx. rewrite (contains_chr_nosep 123 body) by (apply Hbns; tauto). rewrite (contains_chr_nosep 125 body) by exact H125.
      reflexivity. }
  rewrite Hsc. unfold DOT. rewrite Hdot.
  set (bp := match bit with Some (b, _) => [b] | None => [] end).
  assert (Hbitstep : forall parts1, parts1 = (seg_txt x1 :: map seg_txt more) ++ bp ->
            (let '(bit0, parts2) := match split_last parts1 with
                                    | Some (init, l) => if nonempty init && isdigit l then (digits_val l 0, init) else (None, parts1)
                                    | None => (None, parts1) end in
             match all_some (map parse_seg parts2) with
             | Some (sg :: segs) => Some (mkReq (prog_of sc) (sg :: segs) bit0 (opt_val cnt))
             | _ => None end)
            = Some (mkReq (prog_of sc) (map seg_ast (x1 :: more)) (opt_val bit) (opt_val cnt))).
  { intros parts1 ->. unfold bp. destruct bit as [[b bv]|].
    - rewrite split_last_snoc. destruct Hbit as (Hd & _ & Hv). rewrite Hd, Hv. cbn [nonempty andb opt_val].
      change (seg_txt x1 :: map seg_txt more) with (map seg_txt (x1 :: more)).
      rewrite (all_some_parse_segs _ HF1 H3). reflexivity.
    - rewrite app_nil_r. cbn [opt_val].
      assert (Hs : match split_last (seg_txt x1 :: map seg_txt more) with
                   | Some (init, l) => if nonempty init && isdigit l then (digits_val l 0, init) else (None, seg_txt x1 :: map seg_txt more)
                   | None => (None, seg_txt x1 :: map seg_txt more) end = (None, seg_txt x1 :: map seg_txt more)).
      { destruct more as [|y r].
        - reflexivity.
        - change (seg_txt x1 :: map seg_txt (y :: r)) with (map seg_txt (x1 :: y :: r)).
          destruct (exists_last_snoc (y :: r) ltac:(discriminate)) as (mi & mx & Em). rewrite Em.
          change (x1 :: mi ++ [mx]) with ((x1 :: mi) ++ [mx]). rewrite map_app. cbn [map]. rewrite split_last_snoc.
          assert (Hin : In mx (y :: r)) by (rewrite Em; apply in_or_app; right; left; reflexivity).
          pose proof (forallb_In _ _ _ Hdig Hin) as Hx. cbv beta in Hx. apply negb_true_iff in Hx. rewrite Hx, andb_false_r. reflexivity. }
      rewrite Hs. change (seg_txt x1 :: map seg_txt more) with (map seg_txt (x1 :: more)).
      rewrite (all_some_parse_segs _ HF1 H3). reflexivity. }
  destruct sc as [|P].
  - cbn [prog_of app]. change txt_Program with txt_Program_. rewrite Hnp. cbv iota beta.
    apply Hbitstep. reflexivity.
  - cbn [prog_of app]. change txt_Program with txt_Program_. rewrite PyStrLemmas.starts_with_app. rewrite skipn8_program.
    destruct P as [|pc pr]; [congruence|]. cbv iota beta. apply Hbitstep. reflexivity.
Qed.

(* well-formedness the reference parser asks for: at most three indices per segment (fitting a member
   segment), a program name that is not empty *)
Definition parts_wf (sc : scope) (l : list ppart) : Prop :=
  Forall (fun x => (length (pp_idv x) <= 3)%nat /\ idx32 (pp_idv x)) l /\ match sc with ScProg P => P <> [] | ScCtrl => True end.
Definition item_wf (x : ritem) : Prop :=
  match x with
  | inl a => parts_wf ScCtrl [(g_name (sr_g a), sr_ids a, sr_idv a)]
  | inr b => parts_wf (g_scope (gq_g b)) (gq_x1 b :: gq_more b)
  end.

Lemma sreq_parse_request a : plain_name (g_name (sr_g a)) = true -> Forall2 num_ok (sr_ids a) (sr_idv a) ->
  opt_ok (sr_bit a) -> opt_ok (sr_cnt a) -> (length (sr_idv a) <= 3)%nat -> idx32 (sr_idv a) ->
  parse_request (sreq_text a) = Some (sreq_ast a).
Proof.
  intros Hname Hids Hbit Hcnt H3 H32. unfold sreq_text, sreq_ast, single_req.
  pose proof (parse_request_gtext ScCtrl (g_name (sr_g a), sr_ids a, sr_idv a) [] (sr_bit a) (sr_cnt a)) as H.
  unfold g_text, g_body0, g_base in H. cbn [prog_of prog_parts app map join seg_ast pp_name pp_idv fst snd] in H.
  unfold seg_txt in H at 2 3. cbn [pp_name fst snd] in H. rewrite <- app_assoc in H. apply H; try assumption.
  - constructor; [|constructor]. split; [apply plain_pname; exact Hname|]. split; assumption.
  - constructor; [exact H3|constructor].
  - exact I.
  - apply (body0_not_program _ _ _ Hname Hids).
  - reflexivity.
Qed.

Theorem item_parse_request p mem cfg fuel x : item_ok p mem cfg fuel x -> item_wf x ->
  parse_request (item_text x) = Some (item_ast x).
Proof.
  destruct x as [a|b]; cbn [item_ok item_wf item_text item_ast].
  - intros (Hvis & Hsc & Hname & Hids & Hbit & Hcnt & _) (Hwf & _).
    inversion Hwf as [|y ys [H3 H32] _]; subst. apply sreq_parse_request; assumption.
  - intros (Hvis & Hn & HF & Hnp & Hdig & Hbit & Hcnt & _) (Hwf & HP).
    unfold gq_text, gq_ast, greq_text, greq_ast. apply parse_request_gtext; try assumption.
    clear - Hwf. induction Hwf as [|y ys [H3 _] _ IH]; constructor; assumption.
Qed.
