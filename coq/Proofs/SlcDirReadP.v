(* Proofs/SlcDirReadP.v — the reads _read_whole_file_directory issues tile the image: for every
   size and every even chunk size (the code's is 0x50), by induction on the bytes still to read. *)
From PV Require Import Base.Bytes Base.BytesLemmas Base.Res Model.Slc Model.SlcDir Spec.SlcDirSpec.
From Coq Require Import ZifyBool.
Ltac Zify.zify_post_hook ::= Z.to_euclidean_division_equations.
Open Scope Z_scope.

(* the loop from a state in which the first k bytes have been read *)
Lemma read_loop_tiles image chunk (sz : nat) :
  0 < chunk <= 255 -> chunk mod 2 = 0 -> (sz <= length image)%nat -> Z.of_nat sz < 131072 ->
  forall fuel (k : nat) off reads0,
    (sz - k < fuel)%nat -> (k <= sz)%nat -> ((k < sz)%nat -> 2 * off = Z.of_nat k) ->
    exists tail,
      read_loop fuel chunk (Z.of_nat sz) (serve_image image) (firstn k image) off reads0
        = ROk (firstn sz image) (reads0 ++ tail)
      /\ tiles (Z.of_nat k) tail (Z.of_nat sz).
Proof.
  intros Hc Hev Hsz Hmax.
  induction fuel as [|fuel IH]; intros k off reads0 Hf Hk Hoff; [lia|].
  assert (Hlen : length (firstn k image) = k) by (rewrite firstn_length; lia).
  cbn [read_loop]. rewrite Hlen.
  destruct (Z.of_nat k <? Z.of_nat sz) eqn:Elt.
  - assert (Hks : (k < sz)%nat) by lia. specialize (Hoff Hks).
    set (rem := Z.of_nat sz - Z.of_nat k).
    set (size := if rem >? chunk then chunk else rem).
    assert (Hsize : 0 < size <= 255 /\ size <= rem /\ (size = chunk \/ size = rem)).
    { unfold size. destruct (rem >? chunk) eqn:E; unfold rem in *; lia. }
    destruct Hsize as [Hs1 [Hs2 Hs3]].
    rewrite (proj2 (in_urange_iff 1 size)) by (rewrite pow256_1; lia).
    rewrite (proj2 (in_urange_iff 2 off)) by (rewrite pow256_2; lia). cbn [negb]. rewrite andb_false_r.
    unfold serve_image at 1.
    replace (Z.to_nat (2 * off)) with k by lia.
    set (s := Z.to_nat size).
    assert (Hdl : length (firstn s (skipn k image)) = s).
    { rewrite firstn_length, skipn_length. unfold s, rem in *. lia. }
    rewrite Hdl. rewrite <- firstn_add.
    destruct (IH (k + s)%nat (off + Z.of_nat s / 2) (reads0 ++ [(size, off)])) as [tail [Hrun Htl]].
    + unfold s. lia.
    + unfold s, rem in *. lia.
    + intros Hlt. unfold s, rem in *.
      destruct Hs3 as [Hs3|Hs3]; [|lia].
      rewrite Hs3 in *. lia.
    + exists ((size, off) :: tail). split.
      * rewrite Hrun. rewrite <- app_assoc. reflexivity.
      * cbn [tiles]. split; [lia|]. split; [exact Hoff|].
        replace (Z.of_nat k + size) with (Z.of_nat (k + s)) by (unfold s; lia). exact Htl.
  - assert (k = sz) by lia. subst k. exists []. split; [now rewrite app_nil_r|]. reflexivity.
Qed.

Lemma tiles_served image : forall reads start total,
  0 <= start -> total <= Z.of_nat (length image) -> tiles start reads total ->
  start <= total /\
  served image reads = firstn (Z.to_nat (total - start)) (skipn (Z.to_nat start) image).
Proof.
  induction reads as [|[size off] reads IH]; intros start total Hs Ht Hti.
  - cbn [tiles] in Hti. subst. split; [lia|]. rewrite Z.sub_diag. reflexivity.
  - cbn [tiles] in Hti. destruct Hti as [Hsz [Ho Hti]].
    destruct (IH (start + size) total ltac:(lia) Ht Hti) as [Hle Hsv].
    split; [lia|]. cbn [served flat_map fst snd]. fold (served image reads). rewrite Hsv.
    rewrite Ho.
    replace (Z.to_nat (total - start)) with (Z.to_nat size + Z.to_nat (total - (start + size)))%nat by lia.
    rewrite firstn_add. f_equal. rewrite skipn_skipn.
    replace (Z.to_nat start + Z.to_nat size)%nat with (Z.to_nat (start + size)) by lia. reflexivity.
Qed.

(* the whole call: from nothing read, for every image, every size within the image, every even
   chunk that fits the one-byte size field *)
Theorem dir_reads_tile image chunk (sz : nat) fuel :
  0 < chunk <= 255 -> chunk mod 2 = 0 -> (sz <= length image)%nat -> Z.of_nat sz < 131072 -> (sz < fuel)%nat ->
  exists reads,
    read_loop fuel chunk (Z.of_nat sz) (serve_image image) [] 0 [] = ROk (firstn sz image) reads
    /\ tiles 0 reads (Z.of_nat sz)
    /\ served image reads = firstn sz image.
Proof.
  intros Hc Hev Hsz Hmax Hf.
  destruct (read_loop_tiles image chunk sz Hc Hev Hsz Hmax fuel 0%nat 0 []) as [tail [Hrun Hti]]; try lia.
  exists tail. cbn [firstn app] in Hrun. split; [exact Hrun|]. split; [exact Hti|].
  destruct (tiles_served image tail 0 (Z.of_nat sz)) as [_ Hsv]; try lia; [exact Hti|].
  rewrite Hsv. rewrite Z.sub_0_r, Nat2Z.id. reflexivity.
Qed.

Corollary whole_directory_reads_tile image (sz : nat) :
  (sz <= length image)%nat -> Z.of_nat sz < 131072 ->
  exists reads,
    read_whole_file_directory (S sz) (Z.of_nat sz) (serve_image image) = ROk (firstn sz image) reads
    /\ tiles 0 reads (Z.of_nat sz) /\ served image reads = firstn sz image.
Proof.
  intros H1 H2. unfold read_whole_file_directory, DIR_CHUNK.
  apply dir_reads_tile; try lia.
Qed.

(* an odd chunk does NOT tile: the offset is counted in words (chunk 3, 6 bytes: second read
   starts at byte 2) *)
Example odd_chunk_overlaps :
  read_loop 10 3 6 (serve_image [1; 2; 3; 4; 5; 6]) [] 0 [] = ROk [1; 2; 3; 3; 4; 5] [(3, 0); (3, 1)].
Proof. vm_compute. reflexivity. Qed.
