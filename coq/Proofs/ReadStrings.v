(* Proofs/ReadStrings.v — from request STRINGS to the structured requests of Proofs/ReadResolve2.v.
   [plain_request p s] is a computable predicate of the string and the project: the string is split
   ([struct_core]: count, '.', Program: prefix, bit, '[' ... ']' — no proof about the splitter is needed),
   the tag is looked up by its exact name, the structured request is rendered back and compared with the
   string, and the side conditions of [item_ok] are checked by boolean functions.
     plain_item    plain_request s = true, Expect.parse_request s = Some r, the request exists, can be built,
                   travels and is outside the guard  ->  s = item_text x, r = item_ast x, item_ok x *)
From Coq Require Import ZifyBool String.
From PV Require Import Base.Bytes Base.BytesLemmas Base.Res Base.PyStr.
From PV Require Import Gen.Consts Model.Path Model.Reply Model.LogixPlan Model.LogixRead.
From PV Require Import Spec.TargetIface Spec.TargetCore Spec.Project Spec.Expect Spec.TargetLogix.
From PV Require Import Proofs.PathStr Proofs.TargetCoreP Proofs.TargetLogixP Proofs.ReadDecode Proofs.ReadTarget
  Proofs.ReadValue Proofs.ReadCorrect Proofs.ReadResolve Proofs.ReadResolve1
  Proofs.ReadResolve2.
Open Scope list_scope.
Open Scope Z_scope.

(* a decimal field: digits, at most sys.int_max_str_digits = 4300 of them *)
Definition okd (t : text) : bool := isdigit t && (Path.len t <=? 4300).

Fixpoint vals (ids : list text) : option (list Z) :=
  match ids with
  | [] => Some []
  | t :: r => match digits_val t 0, vals r with Some v, Some vs => Some (v :: vs) | _, _ => None end
  end.

Definition opt_of (o : option text) : option (option (text * Z)) :=
  match o with
  | None => Some None
  | Some t => match digits_val t 0 with Some v => Some (Some (t, v)) | None => None end
  end.

Definition seg_split (part : text) : text * list text :=
  match split_chr 91 part with
  | [n; rest] => (n, split_chr 44 (removelast rest))
  | _ => (part, [])
  end.

Definition mk_part (nl : text * list text) : option ppart :=
  match vals (snd nl) with Some idv => Some (fst nl, snd nl, idv) | None => None end.
Fixpoint mk_parts (l : list (text * list text)) : option (list ppart) :=
  match l with
  | [] => Some []
  | x :: r => match mk_part x, mk_parts r with Some a, Some b => Some (a :: b) | _, _ => None end
  end.

Definition cnt_split (s : text) : text * option text :=
  if ends_with [125] s then
    match split_chr 123 s with [b; c] => (b, Some (removelast c)) | _ => (s, None) end
  else (s, None).

Definition prog_split (parts : list text) : option text * list text :=
  match parts with
  | p0 :: r => if starts_with txt_Program_ p0 then (Some (skipn 8 p0), r) else (None, parts)
  | [] => (None, [])
  end.

Definition bit_split (parts1 : list text) : option text * list text :=
  match rev parts1 with
  | l :: (x :: ri) => if isdigit l then (Some l, rev (x :: ri)) else (None, parts1)
  | _ => (None, parts1)
  end.

Definition core := (option text * ppart * list ppart * option (text * Z) * option (text * Z))%type.

Definition struct_core (s : text) : option core :=
  let bc := cnt_split s in
  let pp := prog_split (split_chr 46 (fst bc)) in
  let bp := bit_split (snd pp) in
  match snd bp with
  | [] => None
  | s1 :: ms =>
      match mk_part (seg_split s1), mk_parts (map seg_split ms), opt_of (fst bp), opt_of (snd bc) with
      | Some x1, Some more, Some bit, Some cnt => Some (fst pp, x1, more, bit, cnt)
      | _, _, _, _ => None
      end
  end.

Definition vals_ok (x : ppart) : Prop := vals (snd (fst x)) = Some (pp_idv x).
Definition optc (o : option (text * Z)) : Prop := match o with Some (t, v) => digits_val t 0 = Some v | None => True end.

Lemma mk_part_ok nl x : mk_part nl = Some x -> vals_ok x.
Proof. unfold mk_part, vals_ok. destruct (vals (snd nl)) eqn:E; [|discriminate]. intros H. injection H as <-. exact E. Qed.

Lemma mk_parts_ok l : forall xs, mk_parts l = Some xs -> Forall vals_ok xs.
Proof.
  induction l as [|a r IH]; intros xs H; cbn [mk_parts] in H; [injection H as <-; constructor|].
  destruct (mk_part a) as [x|] eqn:Ea; [|discriminate]. destruct (mk_parts r) as [b|] eqn:Eb; [|discriminate].
  injection H as <-. constructor; [exact (mk_part_ok _ _ Ea)|exact (IH _ eq_refl)].
Qed.

Lemma opt_of_ok o r : opt_of o = Some r -> optc r.
Proof.
  unfold opt_of. destruct o as [t|]; [|intros H; injection H as <-; exact I].
  destruct (digits_val t 0) eqn:E; [|discriminate]. intros H. injection H as <-. exact E.
Qed.

Lemma struct_core_ok s prog x1 more bit cnt : struct_core s = Some (prog, x1, more, bit, cnt) ->
  vals_ok x1 /\ Forall vals_ok more /\ optc bit /\ optc cnt.
Proof.
  unfold struct_core. cbv zeta.
  destruct (snd (bit_split (snd (prog_split (split_chr 46 (fst (cnt_split s))))))) as [|s1 ms]; [discriminate|].
  destruct (mk_part (seg_split s1)) as [a|] eqn:E1; [|discriminate].
  destruct (mk_parts (map seg_split ms)) as [b|] eqn:E2; [|discriminate].
  destruct (opt_of (fst (bit_split _))) as [c|] eqn:E3; [|discriminate].
  destruct (opt_of (snd (cnt_split s))) as [d|] eqn:E4; [|discriminate].
  intros H. injection H as _ <- <- <- <-.
  split; [exact (mk_part_ok _ _ E1)|]. split; [exact (mk_parts_ok _ _ E2)|]. split; [exact (opt_of_ok _ _ E3)|exact (opt_of_ok _ _ E4)].
Qed.

Definition in32 (i : Z) : bool := (0 <=? i) && (i <? 4294967296).
Definition ppart_okb (x : ppart) : bool :=
  pname (pp_name x) && forallb okd (snd (fst x)) && forallb in32 (pp_idv x) && Nat.leb (length (pp_idv x)) 3.
Definition optb (o : option (text * Z)) : bool := match o with Some (t, _) => okd t | None => true end.
Definition dims32b (g : tagdef) : bool := forallb (fun d => d <=? 4294967296) (g_dims g).

Lemma okd_num t v : okd t = true -> digits_val t 0 = Some v -> num_ok t v.
Proof.
  unfold okd, num_ok, int_max_str_digits. intros H Hv. apply andb_prop in H. destruct H as [Hd Hl].
  split; [exact Hd|]. split; [lia|exact Hv].
Qed.

Lemma in32_idx32 l : forallb in32 l = true -> idx32 l.
Proof. intros H. apply Forall_forall. intros i Hin. pose proof (forallb_In _ _ _ H Hin) as Hx. unfold in32 in Hx. lia. Qed.

Lemma vals_num_ok ids : forall idv, vals ids = Some idv -> forallb okd ids = true -> Forall2 num_ok ids idv.
Proof.
  induction ids as [|t r IH]; intros idv H Hb; cbn [vals] in H; [injection H as <-; constructor|].
  destruct (digits_val t 0) as [v|] eqn:Ev; [|discriminate]. destruct (vals r) as [vs|] eqn:Er; [|discriminate].
  injection H as <-. cbn [forallb] in Hb. apply andb_prop in Hb. destruct Hb as [Ht Hr].
  constructor; [exact (okd_num t v Ht Ev)|exact (IH _ eq_refl Hr)].
Qed.

Lemma ppart_okb_ok x : ppart_okb x = true -> vals_ok x -> ppart_ok x /\ (length (pp_idv x) <= 3)%nat /\ idx32 (pp_idv x).
Proof.
  unfold ppart_okb. intros H Hv. apply andb_prop in H. destruct H as [H H3]. apply andb_prop in H. destruct H as [H H32].
  apply andb_prop in H. destruct H as [Hn Hd]. pose proof (in32_idx32 _ H32) as Hi.
  split; [|split; [apply Nat.leb_le; exact H3|exact Hi]].
  split; [exact Hn|]. split; [exact (vals_num_ok _ _ Hv Hd)|exact Hi].
Qed.

Lemma optb_ok o : optb o = true -> optc o -> opt_ok o.
Proof.
  destruct o as [[t v]|]; [exact (okd_num t v)|intros; exact I].
Qed.

Lemma dims32b_ok g : dims32b g = true -> Forall (fun d => d <= 4294967296) (g_dims g).
Proof. unfold dims32b. intros H. apply Forall_forall. intros d Hin. pose proof (forallb_In _ _ _ H Hin) as Hx. cbv beta in Hx. lia. Qed.

Fixpoint exact_membersb (p : project) (pl : place) (more : list ppart) : bool :=
  match more with
  | [] => true
  | y :: r =>
      match pl with
      | PlData _ _ (BStruct tid) _ _ =>
          match find_template (p_templates p) tid with
          | Some t =>
              match find_member (t_members t) (pp_name y) with
              | Some m => text_eqb (m_name m) (pp_name y)
                          && match member_place p pl (pp_name y) with
                             | Some pl2 => match index_place p pl2 (pp_idv y) with
                                           | Some pl3 => exact_membersb p pl3 r
                                           | None => true
                                           end
                             | None => true
                             end
              | None => true
              end
          | None => true
          end
      | _ => true
      end
  end.

Lemma exact_membersb_ok p : forall more pl, exact_membersb p pl more = true -> exact_members p pl more.
Proof.
  induction more as [|y r IH]; intros pl H; [exact I|]. cbn [exact_membersb exact_members] in *.
  destruct pl as [inst off ty dims av| |]; try exact I. destruct ty as [|tid|]; try exact I.
  destruct (find_template (p_templates p) tid) as [t|]; [|exact I].
  destruct (find_member (t_members t) (pp_name y)) as [m|]; [|exact I].
  apply andb_prop in H. destruct H as [Hn Hr]. split; [apply teqb_eq; exact Hn|].
  destruct (member_place p (PlData inst off (BStruct tid) dims av) (pp_name y)) as [pl2|]; [|exact I].
  destruct (index_place p pl2 (pp_idv y)) as [pl3|]; [|exact I]. apply IH. exact Hr.
Qed.

Definition sreq_shapeb (x : sreq) : bool :=
  match g_ty (sr_g x) with
  | BAtom c =>
      if c =? C_BOOL then
        match sr_ids x, sr_bit x, sr_cnt x with [], None, None => true | _, _, _ => false end
      else if c =? C_DWORD then
        match sr_bit x with None => Nat.leb (length (sr_idv x)) (length (g_dims (sr_g x))) | Some _ => false end
      else dims32b (sr_g x)
  | BStruct _ => dims32b (sr_g x)
  | BOpaque _ => false
  end.

Lemma sreq_shapeb_ok x : sreq_shapeb x = true -> sreq_shape x.
Proof.
  unfold sreq_shapeb, sreq_shape. destruct (g_ty (sr_g x)) as [c|tid|w]; [| |discriminate].
  - destruct (c =? C_BOOL).
    + destruct (sr_ids x); [|discriminate]. destruct (sr_bit x); [discriminate|]. destruct (sr_cnt x); [discriminate|].
      intros _. repeat split; reflexivity.
    + destruct (c =? C_DWORD).
      * destruct (sr_bit x); [discriminate|]. intros H. split; [reflexivity|apply Nat.leb_le; exact H].
      * apply dims32b_ok.
  - apply dims32b_ok.
Qed.

Definition scope_exact (a b : scope) : bool :=
  match a, b with ScCtrl, ScCtrl => true | ScProg x, ScProg y => text_eqb x y | _, _ => false end.
Lemma scope_exact_eq a b : scope_exact a b = true -> a = b.
Proof. destruct a, b; cbn; try discriminate; [reflexivity|]. intros H. f_equal. apply teqb_eq. exact H. Qed.

Definition core_item (p : project) (c : core) : option ritem :=
  let '(prog, x1, more, bit, cnt) := c in
  let sc := match prog with Some P => ScProg P | None => ScCtrl end in
  match List.find (fun g => scope_exact (g_scope g) sc && text_eqb (g_name g) (pp_name x1)) (visible_tags p) with
  | Some g => Some (match prog, more with
                    | None, [] => inl (mkSreq g (snd (fst x1)) (pp_idv x1) bit cnt)
                    | _, _ => inr (mkGreq g x1 more bit cnt)
                    end)
  | None => None
  end.

Definition nonempty_prog (sc : scope) : bool := match sc with ScProg [] => false | _ => true end.

Definition item_okb (p : project) (x : ritem) : bool :=
  match x with
  | inl a => plain_name (g_name (sr_g a)) && forallb okd (sr_ids a) && forallb in32 (sr_idv a)
             && Nat.leb (length (sr_idv a)) 3 && optb (sr_bit a) && optb (sr_cnt a) && sreq_shapeb a
  | inr b => forallb ppart_okb (prog_parts (g_scope (gq_g b)) ++ gq_x1 b :: gq_more b)
             && negb (starts_with txt_Program_ (seg_txt (gq_x1 b)))
             && forallb (fun y => negb (isdigit (seg_txt y))) (gq_more b)
             && optb (gq_bit b) && optb (gq_cnt b) && dims32b (gq_g b) && nonempty_prog (g_scope (gq_g b))
             && match tag_place (gq_g b) with
                | Some pl0 => match index_place p pl0 (pp_idv (gq_x1 b)) with
                              | Some pl1 => exact_membersb p pl1 (gq_more b)
                              | None => true
                              end
                | None => true
                end
  end.

Definition plain_request (p : project) (s : text) : bool :=
  match struct_core s with
  | Some c => match core_item p c with
              | Some x => text_eqb (item_text x) s && item_okb p x
              | None => false
              end
  | None => false
  end.

(* a core whose decimal fields carry their values, whose tag is found and whose side conditions hold is a
   structured request: the shared part of [plain_item] and ReadResolve3.request_item *)
Lemma core_item_ok p mem cfg fuel s r prog x1 more bit cnt x :
  vals_ok x1 -> Forall vals_ok more -> optc bit -> optc cnt ->
  core_item p (prog, x1, more, bit, cnt) = Some x -> item_okb p x = true -> item_text x = s ->
  parse_request s = Some r -> ref_read p mem r <> None ->
  (exists q path, parse_tag_request (client_tags p) s = Ok q /\ read_path (c_use_ids cfg) q = Ok path
                  /\ fits (c_conn cfg) fuel q path) ->
  item_ast x = r /\ item_ok p mem cfg fuel x.
Proof.
  intros Hv1 Hvm Hcb Hcc Ei Hokb Htxt Hpr Href (q0 & path0 & Hq0 & Hrp0 & Hfit0). unfold core_item in Ei.
  destruct (List.find _ (visible_tags p)) as [g|] eqn:Ef; [|discriminate].
  destruct (List.find_some _ _ Ef) as [Hvis Hpred]. apply andb_prop in Hpred. destruct Hpred as [Hsc Hnm].
  apply scope_exact_eq in Hsc. apply teqb_eq in Hnm.
  assert (Hfit : forall q path, parse_tag_request (client_tags p) s = Ok q -> read_path (c_use_ids cfg) q = Ok path ->
                                fits (c_conn cfg) fuel q path).
  { intros q path Hq Hrp. assert (q = q0) by congruence. subst q. replace path with path0 by congruence. exact Hfit0. }
  assert (Hx : prog = None /\ more = [] /\ x = inl (mkSreq g (snd (fst x1)) (pp_idv x1) bit cnt)
               \/ (more <> [] \/ g_scope g <> ScCtrl) /\ x = inr (mkGreq g x1 more bit cnt)).
  { destruct prog as [P|]; [|destruct more as [|y ys]]; injection Ei as <-.
    - right. split; [right; rewrite Hsc; discriminate|reflexivity].
    - left. repeat split.
    - right. split; [left; discriminate|reflexivity]. }
  destruct Hx as [(-> & -> & ->)|[Hsym ->]].
  - (* a single controller-scope segment *)
    cbn [item_okb sr_g sr_ids sr_idv sr_bit sr_cnt] in Hokb. remember (plain_name (g_name g)) as pn eqn:Epn.
    repeat (apply andb_prop in Hokb; destruct Hokb as [Hokb ?]). subst pn.
    assert (Hids : Forall2 num_ok (snd (fst x1)) (pp_idv x1)) by (apply vals_num_ok; assumption).
    assert (H32 : idx32 (pp_idv x1)) by (apply in32_idx32; assumption).
    assert (Hast : parse_request (sreq_text (mkSreq g (snd (fst x1)) (pp_idv x1) bit cnt)) = Some (sreq_ast (mkSreq g (snd (fst x1)) (pp_idv x1) bit cnt))).
    { apply sreq_parse_request; cbn [sr_g sr_ids sr_idv sr_bit sr_cnt]; try assumption.
      - apply optb_ok; assumption.
      - apply optb_ok; assumption.
      - apply Nat.leb_le. assumption. }
    cbn [item_text] in Htxt. rewrite Htxt, Hpr in Hast. injection Hast as Hr. split; [symmetry; exact Hr|].
    cbn [item_ok]. unfold sreq_ok. cbn [sr_g sr_ids sr_idv sr_bit sr_cnt].
    split; [exact Hvis|]. split; [exact Hsc|]. split; [assumption|]. split; [exact Hids|].
    split; [apply optb_ok; assumption|]. split; [apply optb_ok; assumption|].
    split; [apply sreq_shapeb_ok; assumption|]. split; [rewrite <- Hr; exact Href|]. rewrite Htxt. exact Hfit.
  - (* a member path or a program-scoped tag *)
    cbn [item_okb gq_g gq_x1 gq_more gq_bit gq_cnt] in Hokb. repeat (apply andb_prop in Hokb; destruct Hokb as [Hokb ?]).
    assert (HFv : Forall vals_ok (prog_parts (g_scope g) ++ x1 :: more)).
    { apply Forall_app. split; [destruct (g_scope g); repeat constructor|constructor; assumption]. }
    assert (HF : Forall (fun z => ppart_ok z /\ (length (pp_idv z) <= 3)%nat /\ idx32 (pp_idv z)) (prog_parts (g_scope g) ++ x1 :: more)).
    { apply Forall_forall. intros z Hz. rewrite Forall_forall in HFv. apply ppart_okb_ok; [exact (forallb_In _ _ _ Hokb Hz)|exact (HFv z Hz)]. }
    assert (HFok : Forall ppart_ok (prog_parts (g_scope g) ++ x1 :: more)) by (eapply Forall_impl; [|exact HF]; cbv beta; tauto).
    assert (HF3 : Forall (fun z => (length (pp_idv z) <= 3)%nat) (x1 :: more)).
    { apply Forall_app in HF. eapply Forall_impl; [|apply HF]. cbv beta. tauto. }
    assert (Hast : parse_request (gq_text (mkGreq g x1 more bit cnt)) = Some (gq_ast (mkGreq g x1 more bit cnt))).
    { unfold gq_text, gq_ast, greq_text, greq_ast. cbn [gq_g gq_x1 gq_more gq_bit gq_cnt].
      apply parse_request_gtext; try assumption.
      - destruct (g_scope g) as [|[|]]; [exact I|discriminate|discriminate].
      - apply negb_true_iff. assumption.
      - apply optb_ok; assumption.
      - apply optb_ok; assumption. }
    cbn [item_text item_ast] in *. rewrite Htxt, Hpr in Hast. injection Hast as Hr. split; [symmetry; exact Hr|].
    cbn [item_ok]. unfold greq_ok. cbn [gq_g gq_x1 gq_more gq_bit gq_cnt].
    split; [exact Hvis|]. split; [symmetry; exact Hnm|]. split; [exact HFok|].
    split; [apply negb_true_iff; assumption|]. split; [assumption|].
    split; [apply optb_ok; assumption|]. split; [apply optb_ok; assumption|]. split; [apply dims32b_ok; assumption|].
    split; [tauto|]. split.
    { intros pl0 pl1 E0 E1. rewrite E0, E1 in *. apply exact_membersb_ok. assumption. }
    split; [rewrite <- Hr; exact Href|]. rewrite Htxt.
    split; [intros q Hq; assert (q = q0) by congruence; subst q; eauto|exact Hfit].
Qed.

Theorem plain_item p mem cfg fuel s r :
  plain_request p s = true -> parse_request s = Some r -> ref_read p mem r <> None ->
  (exists q path, parse_tag_request (client_tags p) s = Ok q /\ read_path (c_use_ids cfg) q = Ok path
                  /\ fits (c_conn cfg) fuel q path) ->
  exists x, item_text x = s /\ item_ast x = r /\ item_ok p mem cfg fuel x.
Proof.
  intros Hp Hpr Href Hex. unfold plain_request in Hp.
  destruct (struct_core s) as [[[[[prog x1] more] bit] cnt]|] eqn:Ec; [|discriminate].
  destruct (core_item p _) as [x|] eqn:Ei; [|discriminate].
  apply andb_prop in Hp. destruct Hp as [Htxt Hokb]. apply teqb_eq in Htxt.
  destruct (struct_core_ok s prog x1 more bit cnt Ec) as (Hv1 & Hvm & Hcb & Hcc).
  exists x. split; [exact Htxt|]. exact (core_item_ok p mem cfg fuel s r prog x1 more bit cnt x Hv1 Hvm Hcb Hcc Ei Hokb Htxt Hpr Href Hex).
Qed.

Print Assumptions plain_item.
