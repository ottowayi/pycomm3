(* Proofs/WriteStruct.v — whole structures written from a dict (C02): StructTag._encode (members
   spliced at their offsets, then the bit members set in their host bytes, private members skipped on
   a zeroed image) produces the reference encoding Spec/Expect.encode_val (visible members in order,
   BOOL members as bits), by induction over template nesting.

   Covered class ([ty_guard], computable): members of integer / REAL / LREAL types, arrays of them,
   strings on the standard layout, nested structures and arrays of those; BOOL members visible, on bytes
   that no non-BOOL member LATER in the member list covers (hidden hosts, padding, or a VISIBLE host that
   precedes them: module-defined types; host and bits are then both in the dict and the bits win, in the
   code as in the reference); member names distinct.
   BOOL[32k] members (DWORD / DWORD arrays, 32 booleans per word) are covered.
   Not covered: BYTE / WORD / LWORD bit-string members; a BOOL member listed BEFORE a visible member covering its byte;
   hidden BOOL members.
   The two request theorems for values of the class, write_correct_one (a single value) and
   write_correct_many (`{n}` values), are at the end; the write_correct_* theorems for data places (value, string, struct, array, slice,
   element, slice1) are their instances. *)
From Coq Require Import ZifyBool String.
From PV Require Import Base.Bytes Base.BytesLemmas Base.Res Base.Proto Base.PyStr Base.PyStrLemmas Model.CodecFloat Model.Path Model.LogixPlan Model.LogixWrite.
From PV Require Import Spec.EncapParser Spec.MRParser Spec.TargetIface Spec.TargetCore Spec.Project Spec.Expect Spec.TargetLogix.
From PV Require Import Proofs.TargetCoreP Proofs.TargetLogixP Proofs.WriteBits Proofs.WriteMsg Proofs.WriteEnc Proofs.WriteFull Proofs.WriteBools.
Open Scope Z_scope.
Ltac Zify.zify_post_hook ::= Z.to_euclidean_division_equations.

Lemma put_bytes_some img off d : 0 <= off -> off + Expect.blen d <= Expect.blen img -> exists i, put_bytes img off d = Some i.
Proof. intros H1 H2. unfold put_bytes. replace ((0 <=? off) && (off + Expect.blen d <=? Expect.blen img)) with true by lia. eexists. reflexivity. Qed.

Lemma put_bytes_cond img off d i : put_bytes img off d = Some i -> 0 <= off /\ off + Expect.blen d <= Expect.blen img.
Proof. unfold put_bytes. destruct ((0 <=? off) && (off + Expect.blen d <=? Expect.blen img)) eqn:E; [lia|discriminate]. Qed.

Lemma put_bytes_inside img off d i k : put_bytes img off d = Some i ->
  (Z.to_nat off <= k < Z.to_nat off + length d)%nat -> nth k i 0 = nth (k - Z.to_nat off) d 0.
Proof.
  intros H Hk. pose proof (put_bytes_cond _ _ _ _ H) as [C1 C2]. revert H. unfold put_bytes.
  replace ((0 <=? off) && (off + Expect.blen d <=? Expect.blen img)) with true by lia. intros H; injection H as <-.
  unfold Expect.blen in *.
  assert (Hf : length (firstn (Z.to_nat off) img) = Z.to_nat off) by (rewrite firstn_length; lia).
  rewrite app_nth2 by lia. rewrite Hf. rewrite app_nth1 by lia. reflexivity.
Qed.

Lemma put_bytes_nth img off d i k : put_bytes img off d = Some i ->
  nth k i 0 = if (Z.to_nat off <=? k)%nat && (k <? Z.to_nat off + length d)%nat then nth (k - Z.to_nat off) d 0 else nth k img 0.
Proof.
  intros H. destruct ((Z.to_nat off <=? k)%nat && (k <? Z.to_nat off + length d)%nat) eqn:E.
  - apply (put_bytes_inside _ _ _ _ _ H). lia.
  - apply (put_bytes_outside _ _ _ _ _ H). lia.
Qed.

(* the reference's BOOL-member write *)
Definition bit_op (img : bytes) (off bit : Z) (x : bool) : option bytes :=
  match get_bytes img off 1 with
  | Some [b] => put_bytes img off [set_bit_byte b bit x]
  | _ => None
  end.

Lemma get_bytes_one img off : 0 <= off -> off + 1 <= Expect.blen img -> get_bytes img off 1 = Some [nth (Z.to_nat off) img 0].
Proof.
  intros H1 H2. unfold Expect.blen in H2. rewrite (nth_cut img 0 (Z.to_nat off)) at 1 by lia.
  rewrite <- (get_bytes_mid (firstn (Z.to_nat off) img) [nth (Z.to_nat off) img 0] (skipn (S (Z.to_nat off)) img) 1 eq_refl).
  f_equal. rewrite firstn_length. lia.
Qed.

Lemma bit_op_eq img off bit x : bit_op img off bit x =
  if (0 <=? off) && (off + 1 <=? Z.of_nat (length img)) then put_bytes img off [set_bit_byte (nth (Z.to_nat off) img 0) bit x] else None.
Proof.
  unfold bit_op. destruct ((0 <=? off) && (off + 1 <=? Z.of_nat (length img))) eqn:E.
  - rewrite get_bytes_one by (unfold Expect.blen; lia). reflexivity.
  - unfold get_bytes, Expect.blen. replace ((0 <=? off) && (0 <=? 1) && (off + 1 <=? Z.of_nat (length img))) with false by lia. reflexivity.
Qed.

Definition obind (o : option bytes) (f : bytes -> option bytes) : option bytes := match o with Some i => f i | None => None end.

(* a bit set, then a put that does not cover its byte: the put can go first *)
Lemma bit_put_commute img off d ob bit x j r :
  ob < off \/ off + Expect.blen d <= ob ->
  bit_op img ob bit x = Some j -> put_bytes j off d = Some r ->
  exists i, put_bytes img off d = Some i /\ bit_op i ob bit x = Some r.
Proof.
  intros Hsep Hb Hr. rewrite bit_op_eq in Hb.
  destruct ((0 <=? ob) && (ob + 1 <=? Z.of_nat (length img))) eqn:E; [|discriminate].
  pose proof (put_bytes_len _ _ _ _ Hb) as Lj. pose proof (put_bytes_len _ _ _ _ Hr) as Lr.
  pose proof (put_bytes_cond _ _ _ _ Hr) as [C1 C2]. unfold Expect.blen in C2.
  destruct (put_bytes_some img off d) as [i Hi]; [lia|unfold Expect.blen; lia|].
  pose proof (put_bytes_len _ _ _ _ Hi) as Li.
  exists i. split; [exact Hi|]. rewrite bit_op_eq, Li, E.
  rewrite (put_bytes_outside _ _ _ _ (Z.to_nat ob) Hi) by (unfold Expect.blen in Hsep; lia).
  destruct (put_bytes_some i ob [set_bit_byte (nth (Z.to_nat ob) img 0) bit x]) as [r' Hr']; [lia|unfold Expect.blen; cbn [length]; lia|].
  rewrite Hr'. f_equal. apply (nth_ext _ _ 0 0); [rewrite (put_bytes_len _ _ _ _ Hr'); congruence|]. intros k Hk.
  rewrite (put_bytes_nth _ _ _ _ k Hr'), (put_bytes_nth _ _ _ _ k Hi), (put_bytes_nth _ _ _ _ k Hr), (put_bytes_nth _ _ _ _ k Hb).
  cbn [length]. unfold Expect.blen in Hsep.
  destruct ((Z.to_nat ob <=? k)%nat && (k <? Z.to_nat ob + 1)%nat) eqn:E1;
  destruct ((Z.to_nat off <=? k)%nat && (k <? Z.to_nat off + length d)%nat) eqn:E2; try reflexivity; lia.
Qed.

Inductive op := OpPut (off : Z) (d : bytes) | OpBit (off bit : Z) (x : bool).
Definition run_op (o : op) (img : bytes) : option bytes :=
  match o with OpPut off d => put_bytes img off d | OpBit off bit x => bit_op img off bit x end.
Fixpoint run_ops (ops : list op) (img : bytes) : option bytes :=
  match ops with [] => Some img | o :: r => obind (run_op o img) (run_ops r) end.

Definition is_put (o : op) : bool := match o with OpPut _ _ => true | _ => false end.
Definition puts (ops : list op) := filter is_put ops.
Definition bits (ops : list op) := filter (fun o => negb (is_put o)) ops.

(* every bit operation's byte lies outside the range of every put that comes AFTER it (a put before
   it — its host member — may cover it: the bit set then lands on the host's byte in both orders) *)
Definition outside_put (ob : Z) (o : op) : Prop :=
  match o with OpPut off d => ob < off \/ off + Expect.blen d <= ob | OpBit _ _ _ => True end.
Fixpoint separated (ops : list op) : Prop :=
  match ops with
  | [] => True
  | OpPut _ _ :: r => separated r
  | OpBit ob _ _ :: r => Forall (outside_put ob) r /\ separated r
  end.

Lemma bit_after_puts ob bit x ops : Forall (outside_put ob) ops -> forall img j r,
  bit_op img ob bit x = Some j -> run_ops (puts ops) j = Some r ->
  exists i, run_ops (puts ops) img = Some i /\ bit_op i ob bit x = Some r.
Proof.
  induction 1 as [|o ops Ho _ IH]; intros img j r Hb Hr; [injection Hr as <-; exists img; auto|].
  destruct o as [off d|]; [|exact (IH img j r Hb Hr)]. cbn [puts filter is_put run_ops run_op] in *. fold (puts ops) in *.
  destruct (put_bytes j off d) as [j'|] eqn:Hp; [|discriminate].
  destruct (bit_put_commute img off d ob bit x j j' Ho Hb Hp) as (i' & -> & Hb'). exact (IH i' j' r Hb' Hr).
Qed.

(* executing a structure's operations in member order = all puts first, then all bit sets *)
Theorem run_ops_reorder ops : separated ops -> forall img r, run_ops ops img = Some r ->
  exists i, run_ops (puts ops) img = Some i /\ run_ops (bits ops) i = Some r.
Proof.
  induction ops as [|o ops IH]; intros Hsep img r H; [exists img; auto|].
  cbn [run_ops] in H. destruct (run_op o img) as [j|] eqn:Ho; [|discriminate]. cbn [obind] in H.
  destruct o as [off d|ob bit x]; cbn [separated] in Hsep; cbn [run_op] in Ho; cbn [puts bits filter is_put negb run_ops run_op].
  - rewrite Ho. exact (IH Hsep j r H).
  - destruct Hsep as [Hout Hsep]. destruct (IH Hsep j r H) as (i & Hp & Hbs).
    destruct (bit_after_puts ob bit x ops Hout img j i Ho Hp) as (i' & Hp' & Hb'). exists i'. split; [exact Hp'|].
    rewrite Hb'. exact Hbs.
Qed.

Section Ops.
  Variable ev : base_ty -> rvalue -> option bytes.
  Variable p : project.

  Definition member_data (m : member) (v : rvalue) : option bytes :=
    match base_size p (m_ty m) with
    | None => None
    | Some s =>
        match (if m_arr m =? 0 then ev (m_ty m) v else encode_array_with ev (m_ty m) s (m_arr m) v) with
        | Some d => if Expect.blen d =? s * member_elems m then Some d else None
        | None => None
        end
    end.

  Definition op_of (m : member) (v : rvalue) : option op :=
    if is_bool_member m then match v with RBool x => Some (OpBit (m_off m) (m_bit m) x) | _ => None end
    else option_map (OpPut (m_off m)) (member_data m v).

  Lemma encode_member_as_op m v img :
    encode_member_with ev p m v img = match op_of m v with Some o => run_op o img | None => None end.
  Proof.
    unfold encode_member_with, op_of, member_data. destruct (is_bool_member m).
    - destruct v; reflexivity.
    - destruct (base_size p (m_ty m)) as [s|]; [|reflexivity].
      destruct (if m_arr m =? 0 then ev (m_ty m) v else encode_array_with ev (m_ty m) s (m_arr m) v) as [d|]; [|reflexivity].
      destruct (Expect.blen d =? s * member_elems m); reflexivity.
  Qed.

  (* the operations of the visible members [ms] with the fields [fs] (names must agree, in order) *)
  Fixpoint spec_ops (ms : list member) (fs : list (text * rvalue)) : option (list op) :=
    match ms, fs with
    | [], [] => Some []
    | m :: ms', (n, v) :: fs' =>
        if Project.text_eqb (m_name m) n then
          match op_of m v, spec_ops ms' fs' with
          | Some o, Some os => Some (o :: os)
          | _, _ => None
          end
        else None
    | _, _ => None
    end.

  Lemma spec_ops_cons m ms fs ops : spec_ops (m :: ms) fs = Some ops ->
    exists v fs' o os, fs = (m_name m, v) :: fs' /\ op_of m v = Some o /\ spec_ops ms fs' = Some os /\ ops = o :: os.
  Proof.
    destruct fs as [|[n v] fs']; cbn [spec_ops]; [discriminate|].
    destruct (Project.text_eqb (m_name m) n) eqn:En; [|discriminate]. apply teqb_eq in En. subst n.
    destruct (op_of m v) as [o|] eqn:Eo; [|discriminate]. destruct (spec_ops ms fs') as [os|] eqn:Es; [|discriminate].
    intros H; injection H as <-. exists v, fs', o, os. auto.
  Qed.

  Lemma encode_members_as_ops ms : forall fs img r,
    encode_members_with ev p ms fs img = Some r ->
    exists ops, spec_ops ms fs = Some ops /\ run_ops ops img = Some r.
  Proof.
    induction ms as [|m ms IH]; intros fs img r H; destruct fs as [|[n v] fs]; cbn [encode_members_with spec_ops] in *; try discriminate.
    - injection H as <-. exists []. split; reflexivity.
    - destruct (Project.text_eqb (m_name m) n); [|discriminate].
      rewrite encode_member_as_op in H. destruct (op_of m v) as [o|]; [|discriminate].
      destruct (run_op o img) as [i|] eqn:Ho; [|discriminate].
      destruct (IH fs i r H) as (ops & Hs & Hr). rewrite Hs. exists (o :: ops). split; [reflexivity|].
      cbn [run_ops]. rewrite Ho. exact Hr.
  Qed.
End Ops.

(* the inner loop of LogixWrite.encode_ty on a StructTag, under a name (encode_struct_unfold) *)
Fixpoint members_loop (d : list (text * pv)) (priv : list text) (ms : list (text * Z * wty)) (img : bytes) : res bytes :=
  match ms with
  | [] => Ok img
  | m :: r =>
      if mem_text (fst (fst m)) priv then members_loop d priv r img
      else match dict_get d (fst (fst m)) with
           | None => Err (Foreign KeyError)
           | Some x => match encode_ty (snd m) x with
                       | Ok enc => members_loop d priv r (splice (snd (fst m)) enc img)
                       | Err e => Err e
                       end
           end
  end.

Lemma encode_struct_unfold ms bs priv size d :
  encode_ty (WStructTag ms bs priv size) (PDict d)
  = wrap_all DataError (match members_loop d priv ms (zeros (Z.to_nat size)) with
                        | Ok img => struct_bits d bs img
                        | Err e => Err e
                        end).
Proof.
  cbn [encode_ty]. f_equal. generalize (zeros (Z.to_nat size)) as img.
  induction ms as [|m r IH]; intros img; [reflexivity|]. cbn [members_loop].
  destruct (mem_text (fst (fst m)) priv); [apply IH|].
  destruct (dict_get d (fst (fst m))) as [xv|]; [|reflexivity]. destruct (encode_ty (snd m) xv); [apply IH|reflexivity].
Qed.

Lemma splice_put img off d i : put_bytes img off d = Some i -> splice off d img = i.
Proof.
  intros H. pose proof (put_bytes_cond _ _ _ _ H) as [C _]. revert H. unfold put_bytes, splice.
  destruct ((0 <=? off) && (off + Expect.blen d <=? Expect.blen img)); [|discriminate]. intros H; injection H as <-. reflexivity.
Qed.

(* the model's bit access = the reference's, on a byte image *)
Lemma set_bit_byte_lor b k x : 0 <= k ->
  set_bit_byte b k x = if x then Z.lor b (Z.shiftl 1 k) else Z.land b (Z.lnot (Z.shiftl 1 k)).
Proof.
  intros Hk. unfold set_bit_byte. destruct x.
  - apply Z.bits_inj'. intros n Hn. rewrite Z.setbit_eqb, Z.lor_spec, testbit_one_shift by lia. apply orb_comm.
  - apply Z.bits_inj'. intros n Hn. rewrite Z.clearbit_eqb, Z.land_spec, Z.lnot_spec, testbit_one_shift by lia. reflexivity.
Qed.

Lemma bytes_ok_put img off d i : bytes_ok img = true -> bytes_ok d = true -> put_bytes img off d = Some i -> bytes_ok i = true.
Proof.
  intros H1 H2 H. revert H. unfold put_bytes. destruct ((0 <=? off) && (off + Expect.blen d <=? Expect.blen img)); [|discriminate].
  intros H; injection H as <-. rewrite !bytes_ok_app, H2.
  rewrite bytes_ok_firstn by exact H1.
  rewrite bytes_ok_skipn by exact H1. reflexivity.
Qed.

Lemma set_byte_bit_op img off bit x r :
  bytes_ok img = true -> 0 <= bit < 8 -> bit_op img off bit x = Some r -> set_byte_bit img off bit x = Ok r /\ bytes_ok r = true.
Proof.
  intros Hok Hb H. rewrite bit_op_eq in H.
  destruct ((0 <=? off) && (off + 1 <=? Z.of_nat (length img))) eqn:E; [|discriminate].
  set (old := nth (Z.to_nat off) img 0) in *.
  assert (Ho : 0 <= old < 256) by (apply (bytes_ok_In img _ Hok), nth_In; lia).
  pose proof (set_bit_byte_range old bit x Ho Hb) as R.
  split; [|apply (bytes_ok_put img off [set_bit_byte old bit x] r Hok); [cbn [bytes_ok forallb]; unfold byte_ok; lia|exact H]].
  unfold set_byte_bit, LogixWrite.zlen. replace ((off <? 0) || (Z.of_nat (length img) <=? off)) with false by lia.
  fold old. rewrite <- (set_bit_byte_lor old bit x) by lia.
  replace ((0 <=? set_bit_byte old bit x) && (set_bit_byte old bit x <? 256)) with true by lia.
  f_equal. rewrite <- (splice_put _ _ _ _ H). unfold splice. cbn [length app]. do 3 f_equal. lia.
Qed.

Inductive denotes : pv -> rvalue -> Prop :=
  | DnI z : denotes (PInt z) (RInt z)
  | DnR b64 b32 : round32 b64 = Some b32 -> 0 <= b32 < 4294967296 -> denotes (PFloat b64) (RReal b32)
  | DnL b : 0 <= b < 18446744073709551616 -> denotes (PFloat b) (RLReal b)
  | DnB b : denotes (PBool b) (RBool b)
  | DnS s : denotes (PStr s) (RStr s)
  | DnList l vs : Forall2 denotes l vs -> denotes (PList l) (RList vs)
  | DnStruct dl fs : Forall2 (fun a b => fst a = fst b /\ denotes (snd a) (snd b)) dl fs -> denotes (PDict dl) (RStruct fs).

Definition plain_outside (p : project) (b m : member) : bool :=
  match member_size p m with
  | Some s => (m_off b <? m_off m) || (m_off m + s <=? m_off b)
  | None => false
  end.

(* a BOOL member: bit 0..7, and no non-BOOL member that comes LATER in the member list covers its byte
   (an earlier one may: the host the bit overlays, as in module-defined types) *)
Fixpoint bits_guard (p : project) (vis : list member) : bool :=
  match vis with
  | [] => true
  | b :: r => (negb (is_bool_member b)
               || ((0 <=? m_bit b) && (m_bit b <? 8) && forallb (fun m => is_bool_member m || plain_outside p b m) r))
              && bits_guard p r
  end.

Fixpoint ty_guard (fuel : nat) (p : project) (ty : base_ty) : bool :=
  match fuel with
  | O => false
  | S f =>
      match ty with
      | BAtom c => value_atom c || (c =? C_DWORD)          (* DWORD: 32 BOOLs (a BOOL[32k] member) *)
      | BOpaque _ => false
      | BStruct tid =>
          match find_template (p_templates p) tid with
          | None => false
          | Some t =>
              match string_shape t with
              | Some (lm, dm) => (m_off lm =? 0) && (m_off dm =? 4) && (0 <=? m_arr dm) && (4 + m_arr dm <=? t_size t) && (0 <=? t_size t)
              | None =>
                  let vis := visible_members t in
                  (0 <=? t_size t)
                  && forallb (fun m => negb (is_bool_member m && m_hidden m)) (t_members t)
                  && distinct_by Project.text_eqb (map m_name (t_members t))
                  && forallb (fun m => is_bool_member m || (ty_guard f p (m_ty m) && (0 <=? m_arr m))) vis
                  && bits_guard p vis
              end
          end
      end
  end.

Lemma dict_get_self dl : NoDup (map fst dl) -> Forall (fun a => dict_get dl (fst a) = Some (snd a)) dl.
Proof.
  intros Hnd. apply Forall_forall. intros a Hin.
  induction dl as [|[k v] r IH]; [destruct Hin|]. cbn [map fst] in Hnd. inversion Hnd as [|? ? Hn Hr]; subst.
  cbn [dict_get]. destruct Hin as [<-|Hin].
  - cbn [fst snd]. replace (PyStr.text_eqb k k) with true by (symmetry; apply text_eqb_eq; reflexivity). reflexivity.
  - destruct (PyStr.text_eqb k (fst a)) eqn:E.
    + apply text_eqb_eq in E. subst k. exfalso. apply Hn. apply in_map, Hin.
    + apply IH; assumption.
Qed.

Lemma mem_text_in s l : mem_text s l = true <-> In s l.
Proof.
  unfold mem_text. rewrite existsb_exists. split.
  - intros [x [Hin E]]. apply text_eqb_eq in E. subst. exact Hin.
  - intros Hin. exists s. split; [exact Hin|apply text_eqb_eq; reflexivity].
Qed.

Lemma elem_chunk_none f p ty e : ty_guard f p ty = true -> is_bits_ty ty = false -> wty_of f p ty = Some e -> elem_chunk e = None.
Proof.
  destruct f as [|f]; [discriminate|]. cbn [ty_guard wty_of]. destruct ty as [c|tid|w]; [| |discriminate].
  - intros Hv Hb H. destruct (atom_name c) as [name|] eqn:En; [|discriminate]. injection H as <-. cbn [elem_chunk].
    cbn [is_bits_ty] in Hb.
    assert (Hv' : value_atom c = true).
    { destruct (value_atom c); [reflexivity|]. cbn [orb] in Hv. assert (c = C_DWORD) by lia. subst c. discriminate. }
    exact (proj1 (proj2 (value_atom_class c name En Hv'))).
  - intros _ _ H. destruct (find_template (p_templates p) tid) as [t|]; [|discriminate].
    destruct (string_shape t) as [[lm dm]|]; [injection H as <-; reflexivity|].
    match type of H with context [all_some ?l] => destruct (all_some l) end; [injection H as <-; reflexivity|discriminate].
Qed.

Lemma guard_bits_dword f p ty : ty_guard f p ty = true -> is_bits_ty ty = true -> ty = BAtom C_DWORD.
Proof.
  destruct f as [|f]; [discriminate|]. cbn [ty_guard]. destruct ty as [c|tid|w]; cbn [is_bits_ty]; try discriminate.
  intros Hv Hb. f_equal. destruct (value_atom c) eqn:E; [|cbn [orb] in Hv; lia].
  rewrite (proj2 (value_atom_plain c E)) in Hb. discriminate.
Qed.

(* a value denoting k words of 32 booleans: a list of 32 k items with those truth values; the reference
   packs the booleans as the little-endian image of their number *)
Lemma dword_level x v bl k : denotes x v -> as_bools v = Some bl -> length bl = (32 * k)%nat ->
  exists l, x = PList l /\ length l = (32 * k)%nat /\ map truthy l = bl
    /\ bytes_of_bools (32 * k) bl = le_enc (4 * k) (bval bl).
Proof.
  intros Hx H Hl. destruct v as [| | | | | |vs]; try discriminate. inversion Hx as [| | | | |l vs' F|]; subst.
  assert (Hbl : map truthy l = bl).
  { clear Hx Hl. revert bl H. cbn [as_bools]. induction F as [|x v l vs Hxv F IH]; intros bl H; cbn [map all_some] in H.
    - injection H as <-. reflexivity.
    - destruct v; try discriminate.
      destruct (all_some (map (fun x0 => match x0 with RBool b0 => Some b0 | _ => None end) vs)) as [r|] eqn:E; [|discriminate].
      injection H as <-. inversion Hxv; subst. cbn [map truthy]. rewrite (IH r eq_refl). reflexivity. }
  exists l. split; [reflexivity|]. split; [rewrite <- (map_length truthy l), Hbl; exact Hl|]. split; [exact Hbl|].
  apply bytes_of_bools_le_enc; lia.
Qed.

Lemma atom_level c name x rv d : atom_name c = Some name -> value_atom c = true ->
  encode_atom c rv = Some d -> denotes x rv -> elem_encode name x = Ok d /\ bytes_ok d = true.
Proof.
  intros Hn Hv He Hx. destruct (value_atom_plain c Hv) as [Hnb1 Hnb2].
  assert (Hd : denotes_atom c x rv /\ bytes_ok d = true).
  { revert He. unfold encode_atom. destruct (atom_size c) as [s|]; [|discriminate].
    destruct Hx as [z|b64 b32 Hr Hb|b Hb|b|s0|l vs F|dl fs F]; rewrite ?Hnb1, ?Hnb2; try discriminate.
    - intros He. split.
      + constructor. unfold atom_integer. destruct (atom_signed c), (atom_unsigned c); try reflexivity; discriminate.
      + destruct (atom_signed c); [destruct (in_srange _ z)|destruct (atom_unsigned c); [destruct (in_urange _ z)|]];
          try discriminate; injection He as <-; apply le_enc_ok.
    - destruct (c =? C_REAL) eqn:E; [|discriminate]. apply Z.eqb_eq in E. subst c.
      destruct (in_urange 4 b32); [|discriminate]. intros He; injection He as <-. split; [exact (DnReal _ _ Hr Hb)|exact (le_enc_ok 4 b32)].
    - destruct (c =? C_LREAL) eqn:E; [|discriminate]. apply Z.eqb_eq in E. subst c.
      destruct (in_urange 8 b); [|discriminate]. intros He; injection He as <-. split; [exact (DnLReal _ Hb)|exact (le_enc_ok 8 b)]. }
  destruct Hd as [Hd Hok]. pose proof (elem_encode_spec c name x rv Hn Hv Hd) as Hm. rewrite He in Hm. exact (conj Hm Hok).
Qed.

Definition PT (f : nat) (p : project) : Prop :=
  forall bty w rv d x, ty_guard f p bty = true -> wty_of f p bty = Some w ->
    encode_val f p bty rv = Some d -> denotes x rv -> encode_ty w x = Ok d /\ bytes_ok d = true.

Lemma bytes_ok_concat ds : Forall (fun d => bytes_ok d = true) ds -> bytes_ok (concat ds) = true.
Proof. induction 1 as [|d r Hd Hr IH]; [reflexivity|]. cbn [concat]. rewrite bytes_ok_app, Hd, IH. reflexivity. Qed.

Lemma elements_level f p ty e l vs ds : PT f p -> ty_guard f p ty = true -> wty_of f p ty = Some e ->
  Forall2 denotes l vs -> all_some (map (encode_val f p ty) vs) = Some ds ->
  map_res (encode_ty e) l = Ok ds /\ Forall (fun d => bytes_ok d = true) ds.
Proof.
  intros HPT Hg Hw F. revert ds. induction F as [|x v l vs Hxv F IH]; intros ds H; cbn [map all_some] in H.
  - injection H as <-. split; [reflexivity|constructor].
  - destruct (encode_val f p ty v) as [d|] eqn:E; [|discriminate].
    destruct (all_some (map (encode_val f p ty) vs)) as [r|] eqn:E2; [|discriminate]. injection H as <-.
    destruct (HPT ty e v d x Hg Hw E Hxv) as [H1 H2]. destruct (IH r eq_refl) as [I1 I2].
    cbn [map_res]. rewrite H1, I1. split; [reflexivity|constructor; assumption].
Qed.

Lemma member_level f p m e v dm xv : PT f p ->
  ty_guard f p (m_ty m) = true -> 0 <= m_arr m -> wty_of f p (m_ty m) = Some e ->
  member_data (encode_val f p) p m v = Some dm -> denotes xv v ->
  encode_ty (if m_arr m =? 0 then e else WArray (m_arr m) e) xv = Ok dm /\ bytes_ok dm = true.
Proof.
  intros HPT Hg Ha Hw Hd Hx. unfold member_data in Hd.
  destruct (base_size p (m_ty m)) as [s|] eqn:Ebs; [|discriminate].
  destruct (m_arr m =? 0) eqn:E0.
  - destruct (encode_val f p (m_ty m) v) as [d|] eqn:E; [|discriminate].
    destruct (Expect.blen d =? s * member_elems m); [|discriminate]. injection Hd as <-.
    exact (HPT _ _ _ _ _ Hg Hw E Hx).
  - unfold encode_array_with in Hd. destruct (is_bits_ty (m_ty m)) eqn:Ebits.
    + (* a BOOL[32 k] member: DWORD array *)
      pose proof (guard_bits_dword f p _ Hg Ebits) as Ety. rewrite Ety in *.
      assert (Hs4 : s = 4) by (cbn [base_size] in Ebs; change (atom_size C_DWORD) with (Some 4) in Ebs; congruence).
      subst s.
      destruct (as_bools v) as [bl|] eqn:Eab; [|discriminate].
      destruct (Z.of_nat (length bl) =? 8 * 4 * m_arr m) eqn:El; [|discriminate].
      destruct (Expect.blen (bytes_of_bools (length bl) bl) =? 4 * member_elems m); [|discriminate]. injection Hd as <-.
      assert (Hw' : e = WElem n_DWORD).
      { destruct f as [|f0]; [discriminate|]. cbn [wty_of] in Hw. injection Hw as <-. reflexivity. }
      subst e. set (k := Z.to_nat (m_arr m)).
      destruct (dword_level xv v bl k Hx Eab ltac:(lia)) as (l & -> & Hll & Hbl & Hle).
      replace (m_arr m) with (Z.of_nat k) by lia. rewrite (dword_member_encode l k Hll ltac:(lia)), Hbl.
      replace (length bl) with (32 * k)%nat by lia. rewrite Hle. split; [reflexivity|apply le_enc_ok].
    + destruct v as [| | | | | |vs]; try discriminate.
      destruct (Z.of_nat (length vs) =? m_arr m) eqn:El; [|discriminate].
      destruct (all_some (map (encode_val f p (m_ty m)) vs)) as [ds|] eqn:Eds; [|discriminate].
      destruct (forallb (fun d0 => Expect.blen d0 =? s) ds); [|discriminate].
      destruct (Expect.blen (concat ds) =? s * member_elems m); [|discriminate]. injection Hd as <-.
      inversion Hx as [| | | | |l vs' F|]; subst.
      destruct (elements_level f p (m_ty m) e l vs ds HPT Hg Hw F Eds) as [M1 M2].
      pose proof (Forall2_length _ _ _ F) as Hll.
      cbn [encode_ty]. rewrite (elem_chunk_none f p _ e Hg Ebits Hw).
      rewrite (array_encode_each (encode_ty e) (m_arr m) l None (m_arr m) ds eq_refl);
        [split; [reflexivity|apply bytes_ok_concat, M2]|unfold LogixWrite.zlen; lia|].
      rewrite firstn_all2 by lia. exact M1.
Qed.

Definition tyof (f : nat) (p : project) (m : member) : option (text * Z * wty) :=
  match wty_of f p (m_ty m) with
  | Some e => Some (m_name m, m_off m, if m_arr m =? 0 then e else WArray (m_arr m) e)
  | None => None
  end.
Definition bitof (m : member) : text * (Z * Z) := (m_name m, (m_off m, m_bit m)).
Definition visible (m : member) : bool := negb (m_hidden m).
Definition nonbool (m : member) : bool := negb (is_bool_member m).

Lemma tyof_cons f p m l ms_w : all_some (map (tyof f p) (m :: l)) = Some ms_w ->
  exists e ms', wty_of f p (m_ty m) = Some e /\ all_some (map (tyof f p) l) = Some ms'
    /\ ms_w = (m_name m, m_off m, if m_arr m =? 0 then e else WArray (m_arr m) e) :: ms'.
Proof.
  cbn [map all_some]. unfold tyof at 1. destruct (wty_of f p (m_ty m)) as [e|]; [|discriminate].
  destruct (all_some (map (tyof f p) l)) as [ms'|]; [|discriminate]. intros H; injection H as <-. exists e, ms'. auto.
Qed.

(* the model's two loops against the reference's operations: the non-BOOL members are the puts, in
   order (hidden ones skipped as private), and the BOOL members are the bit operations, in order.
   [rest] runs over ALL members of the template; the reference's fields [fs] and operations [ops]
   follow the visible ones, the model's member classes [ms_w] the non-BOOL ones.  [D] is the whole
   dict (where the model looks names up), [dl] the part of it that pairs with [fs]. *)
Lemma loops f p D priv (HPT : PT f p) rest : forall fs dl ms_w ops img r,
  Forall (fun m => mem_text (m_name m) priv = m_hidden m) rest ->
  Forall2 (fun a b => fst a = fst b /\ denotes (snd a) (snd b)) dl fs ->
  Forall (fun a => dict_get D (fst a) = Some (snd a)) dl ->
  spec_ops (encode_val f p) p (filter visible rest) fs = Some ops ->
  all_some (map (tyof f p) (filter nonbool rest)) = Some ms_w ->
  forallb (fun m => is_bool_member m || (ty_guard f p (m_ty m) && (0 <=? m_arr m))) (filter visible rest) = true ->
  forallb (fun b => negb (is_bool_member b) || ((0 <=? m_bit b) && (m_bit b <? 8))) (filter visible rest) = true ->
  forallb (fun m => negb (is_bool_member m && m_hidden m)) rest = true ->
  bytes_ok img = true -> run_ops (puts ops) img = Some r ->
  (members_loop D priv ms_w img = Ok r /\ bytes_ok r = true)
  /\ forall img2 r2, bytes_ok img2 = true -> run_ops (bits ops) img2 = Some r2 ->
       struct_bits D (map bitof (filter is_bool_member rest)) img2 = Ok r2 /\ bytes_ok r2 = true.
Proof.
  induction rest as [|m rest IH]; intros fs dl ms_w ops img r Hpriv Hal Hself Hops Hms Hg Hgb Hnb Hok Hrun.
  - cbn [filter spec_ops map all_some] in *. destruct fs; [|discriminate]. injection Hops as <-. injection Hms as <-.
    cbn [puts bits filter run_ops members_loop struct_bits] in *. injection Hrun as <-.
    split; [auto|]. intros img2 r2 Hok2 H2. injection H2 as <-. auto.
  - inversion Hpriv as [|? ? Hpm Hpriv']; subst.
    cbn [forallb] in Hnb. apply andb_true_iff in Hnb as [Hnb0 Hnb].
    cbn [filter] in *. change (visible m) with (negb (m_hidden m)) in *. change (nonbool m) with (negb (is_bool_member m)) in *.
    destruct (m_hidden m) eqn:Eh; cbn [negb] in *.
    + (* hidden: a non-BOOL member, skipped by the model; not in the reference's list *)
      destruct (is_bool_member m) eqn:Eb; [discriminate|]. cbn [negb] in Hms.
      destruct (tyof_cons _ _ _ _ _ Hms) as (e & ms' & _ & Ems & ->).
      cbn [members_loop fst snd]. rewrite Hpm.
      apply (IH fs dl ms' ops img r Hpriv' Hal Hself Hops Ems Hg Hgb Hnb Hok Hrun).
    + destruct (spec_ops_cons _ _ _ _ _ _ Hops) as (v & fs' & o & os & -> & Eo & Eos & ->).
      inversion Hal as [|[n' xv] ? dl' ? (Hn' & Hden) Hal']; subst. inversion Hself as [|? ? Hget Hself']; subst.
      cbn [fst snd] in *. subst n'.
      cbn [forallb] in Hg, Hgb. apply andb_true_iff in Hg as [Hg0 Hg]. apply andb_true_iff in Hgb as [Hgb0 Hgb].
      unfold op_of in Eo. destruct (is_bool_member m) eqn:Eb.
      * (* a BOOL member: no put; one bit of the model's second loop *)
        destruct v as [|xb| | | | |]; try discriminate. injection Eo as <-. cbn [puts filter is_put] in Hrun. fold (puts os) in Hrun.
        cbn [negb] in Hms. destruct (IH fs' dl' ms_w os img r Hpriv' Hal' Hself' Eos Hms Hg Hgb Hnb Hok Hrun) as [L1 L2].
        split; [exact L1|]. intros img2 r2 Hok2 H2.
        cbn [bits filter is_put negb run_ops run_op] in H2. fold (bits os) in H2.
        destruct (bit_op img2 (m_off m) (m_bit m) xb) as [i|] eqn:Hbo; [|discriminate]. cbn [obind] in H2.
        cbn [negb orb] in Hgb0. assert (Hbit : 0 <= m_bit m < 8) by lia.
        inversion Hden; subst.
        cbn [map struct_bits bitof]. rewrite Hget. cbn [truthy].
        destruct (set_byte_bit_op img2 (m_off m) (m_bit m) _ i Hok2 Hbit Hbo) as [-> Hoki].
        apply (L2 i r2 Hoki H2).
      * (* a non-BOOL member: one put of the model's first loop *)
        cbn [negb] in Hms. destruct (tyof_cons _ _ _ _ _ Hms) as (e & ms' & Ew & Ems & ->).
        destruct (member_data (encode_val f p) p m v) as [dm|] eqn:Ed; [|discriminate]. cbn [option_map] in Eo. injection Eo as <-.
        cbn [orb] in Hg0. apply andb_true_iff in Hg0 as [Hgt Harr].
        destruct (member_level f p m e v dm xv HPT Hgt ltac:(lia) Ew Ed Hden) as [Henc Hokd].
        cbn [puts filter is_put run_ops run_op] in Hrun. fold (puts os) in Hrun.
        destruct (put_bytes img (m_off m) dm) as [i|] eqn:Hput; [|discriminate]. cbn [obind] in Hrun.
        cbn [members_loop fst snd]. rewrite Hpm, Hget, Henc, (splice_put _ _ _ _ Hput).
        apply (IH fs' dl' ms' os i r Hpriv' Hal' Hself' Eos Ems Hg Hgb Hnb (bytes_ok_put _ _ _ _ Hok Hokd Hput) Hrun).
Qed.

Lemma spec_ops_in ev p ms : forall fs ops o, spec_ops ev p ms fs = Some ops -> In o ops ->
  exists m v, In m ms /\ op_of ev p m v = Some o.
Proof.
  induction ms as [|m ms IH]; intros fs ops o H Hin.
  - destruct fs; [|discriminate]. injection H as <-. destruct Hin.
  - destruct (spec_ops_cons _ _ _ _ _ _ H) as (v & fs' & o1 & os & -> & Eo & Es & ->).
    destruct Hin as [<-|Hin]; [exists m, v; split; [left; reflexivity|exact Eo]|].
    destruct (IH fs' os o Es Hin) as (m' & v' & Hm & Ho). exists m', v'. split; [right; exact Hm|exact Ho].
Qed.

Lemma spec_ops_names ev p ms : forall fs ops, spec_ops ev p ms fs = Some ops -> map fst fs = map m_name ms.
Proof.
  induction ms as [|m ms IH]; intros fs ops H; [destruct fs; [reflexivity|discriminate]|].
  destruct (spec_ops_cons _ _ _ _ _ _ H) as (v & fs' & o & os & -> & _ & Es & _).
  cbn [map fst]. rewrite (IH fs' os Es). reflexivity.
Qed.

Lemma op_outside ev p b m v o : (is_bool_member m || plain_outside p b m) = true ->
  op_of ev p m v = Some o -> outside_put (m_off b) o.
Proof.
  intros Hm Ho. unfold op_of in Ho. destruct (is_bool_member m) eqn:Ebm.
  - destruct v; try discriminate. injection Ho as <-. exact I.
  - destruct (member_data ev p m v) as [dm|] eqn:Ed; [|discriminate]. cbn [option_map] in Ho. injection Ho as <-.
    cbn [orb] in Hm. unfold plain_outside, member_size in Hm. unfold member_data in Ed. cbn [outside_put].
    destruct (base_size p (m_ty m)) as [s|]; [|discriminate].
    destruct (if m_arr m =? 0 then ev (m_ty m) v else encode_array_with ev (m_ty m) s (m_arr m) v) as [d0|]; [|discriminate].
    destruct (Expect.blen d0 =? s * member_elems m) eqn:El; [|discriminate]. injection Ed as <-. lia.
Qed.

Lemma separated_of_guard ev p vis : forall fs ops,
  spec_ops ev p vis fs = Some ops -> bits_guard p vis = true -> separated ops.
Proof.
  induction vis as [|b r IH]; intros fs ops Hs Hg; [destruct fs; [|discriminate]; injection Hs as <-; exact I|].
  destruct (spec_ops_cons _ _ _ _ _ _ Hs) as (v & fs' & o & os & -> & Eo & Es & ->).
  cbn [bits_guard] in Hg. apply andb_true_iff in Hg as [Hg0 Hg]. specialize (IH fs' os Es Hg).
  unfold op_of in Eo. destruct (is_bool_member b).
  - destruct v; try discriminate. injection Eo as <-. split; [|exact IH].
    cbn [negb orb] in Hg0. apply andb_true_iff in Hg0 as [_ Hout]. rewrite forallb_forall in Hout.
    apply Forall_forall. intros o Hin. destruct (spec_ops_in _ _ _ _ _ _ Es Hin) as (m & v' & Hm & Ho).
    exact (op_outside ev p b m v' o (Hout m Hm) Ho).
  - destruct (member_data ev p b v); [|discriminate]. injection Eo as <-. exact IH.
Qed.

Lemma bits_guard_range p vis : bits_guard p vis = true ->
  forallb (fun b => negb (is_bool_member b) || ((0 <=? m_bit b) && (m_bit b <? 8))) vis = true.
Proof.
  induction vis as [|b r IH]; [reflexivity|]. cbn [bits_guard forallb]. intros H. apply andb_true_iff in H as [H0 H1].
  rewrite (IH H1), andb_true_r. destruct (is_bool_member b); cbn [negb orb] in *; [|reflexivity].
  apply andb_true_iff in H0 as [H0 _]. exact H0.
Qed.

Lemma fixedstr_ok size cap cs d : encode_ty (WFixedStr size cap) (PStr cs) = Ok d -> bytes_ok cs = true -> bytes_ok d = true.
Proof.
  cbn [encode_ty]. unfold fixedstr_encode, latin1_encode. intros H Hok.
  destruct (latin1_ok (firstn (Z.to_nat cap) cs)); cbv beta iota delta [wrap_all] in H; [|discriminate]. injection H as <-.
  rewrite !bytes_ok_cons, bytes_ok_app, zeros_ok, (bytes_ok_firstn _ _ Hok).
  unfold byte_ok. repeat (apply andb_true_iff; split); try reflexivity; lia.
Qed.

Theorem struct_encoding_spec p : forall f, PT f p.
Proof.
  induction f as [|f HPT]; [intros bty w rv d x Hg; discriminate|].
  intros bty w rv d x Hg Hw He Hx.
  destruct bty as [c|tid|ow]; [| |discriminate].
  - cbn [ty_guard] in Hg. cbn [wty_of] in Hw. cbn [encode_val] in He.
    destruct (atom_name c) as [name|] eqn:En; [|discriminate]. injection Hw as <-.
    destruct (value_atom c) eqn:Hv; [exact (atom_level c name x rv d En Hv He Hx)|].
    (* DWORD: 32 booleans *)
    assert (c = C_DWORD) by (cbn [orb] in Hg; lia). subst c. change (atom_name C_DWORD) with (Some n_DWORD) in En. injection En as <-.
    unfold encode_atom in He. change (atom_size C_DWORD) with (Some 4) in He. cbv beta iota in He.
    destruct rv as [| | | | | |vs]; try discriminate.
    change (atom_bits C_DWORD) with true in He. cbv beta iota in He.
    destruct (as_bools (RList vs)) as [bl|] eqn:Eab; [|discriminate].
    destruct (Z.of_nat (length bl) =? 8 * 4) eqn:El; [|discriminate]. injection He as <-.
    destruct (dword_level x (RList vs) bl 1 Hx Eab ltac:(lia)) as (l & -> & Hll & Hbl & Hle).
    cbn [encode_ty]. rewrite (dword_encode l Hll), Hbl. replace (length bl) with (32 * 1)%nat by lia.
    rewrite Hle. split; [reflexivity|apply le_enc_ok].
  - cbn [ty_guard] in Hg. cbn [wty_of] in Hw. cbn [encode_val] in He.
    destruct (find_template (p_templates p) tid) as [t|] eqn:Ef; [|discriminate].
    destruct (string_shape t) as [[lm dm]|] eqn:Ess.
    + (* a string *)
      injection Hw as <-. destruct rv as [| | | |cs| |]; try discriminate.
      inversion Hx; subst.
      assert (Hok : bytes_ok cs = true) by (unfold encode_string in He; destruct (bytes_ok cs); [reflexivity|discriminate]).
      assert (G : m_off lm = 0 /\ m_off dm = 4 /\ 0 <= m_arr dm /\ 4 + m_arr dm <= t_size t) by lia.
      destruct G as (G1 & G2 & G3 & G4).
      pose proof (fixedstr_encode_spec t lm dm cs G1 G2 G3 G4 Hok) as Hm. rewrite He in Hm. cbn [res_of_opt] in Hm.
      split; [exact Hm|exact (fixedstr_ok _ _ _ _ Hm Hok)].
    + (* a plain structure *)
      destruct rv as [| | | | |fs|]; try discriminate.
      inversion Hx as [| | | | | |dl fs' F]; subst.
      apply andb_true_iff in Hg as [Hg Hsep]. apply andb_true_iff in Hg as [Hg Hmem].
      apply andb_true_iff in Hg as [Hg Hdist]. apply andb_true_iff in Hg as [Hsz Hnohb].
      set (all := t_members t) in *. set (vis := visible_members t) in *.
      change (visible_members t) with (filter visible all) in vis.
      change (filter (fun m : member => negb (is_bool_member m)) all) with (filter nonbool all) in Hw.
      change (fun m : member => match wty_of f p (m_ty m) with
                                | Some e => Some (m_name m, m_off m, if m_arr m =? 0 then e else WArray (m_arr m) e)
                                | None => None end) with (tyof f p) in Hw.
      destruct (all_some (map (tyof f p) (filter nonbool all))) as [ms_w|] eqn:Ems; [|discriminate]. injection Hw as <-.
      change (map (fun m : member => (m_name m, (m_off m, m_bit m))) (filter is_bool_member all)) with (map bitof (filter is_bool_member all)).
      set (priv := map m_name (filter m_hidden all)).
      (* the reference as operations, reordered *)
      destruct (encode_members_as_ops (encode_val f p) p vis fs (zeros (Z.to_nat (t_size t))) d He) as (ops & Hops & Hrun).
      pose proof (separated_of_guard _ _ _ _ _ Hops Hsep) as Hsepd.
      destruct (run_ops_reorder ops Hsepd _ _ Hrun) as (i1 & Hr1 & Hr2).
      pose proof (distinct_by_NoDup _ _ teqb_refl Hdist) as Hnd.
      assert (Hnames : map fst dl = map m_name vis).
      { rewrite <- (spec_ops_names _ _ _ _ _ Hops). clear -F. induction F as [|a b l l' [E _] _ IH]; [reflexivity|]. cbn [map]. rewrite E, IH. reflexivity. }
      assert (Hndl : NoDup (map fst dl)) by (rewrite Hnames; apply NoDup_map_filter, Hnd).
      pose proof (dict_get_self dl Hndl) as Hself.
      assert (Hpriv : Forall (fun m => mem_text (m_name m) priv = m_hidden m) all).
      { apply Forall_forall. intros m Hin. destruct (m_hidden m) eqn:Hh.
        - apply mem_text_in, in_map, filter_In. auto.
        - destruct (mem_text (m_name m) priv) eqn:Hc; [|reflexivity].
          apply mem_text_in, in_map_iff in Hc as (m' & E & Hm'). apply filter_In in Hm' as [Hm' Hh'].
          rewrite (NoDup_map_inj m_name all m' m Hnd Hm' Hin E) in Hh'. congruence. }
      pose proof (bits_guard_range p _ Hsep) as Hg2.
      destruct (loops f p dl priv HPT all fs dl ms_w ops (zeros (Z.to_nat (t_size t))) i1 Hpriv F Hself Hops Ems Hmem Hg2 Hnohb (zeros_ok _) Hr1) as [[L1 Hok1] Lb].
      destruct (Lb i1 d Hok1 Hr2) as [L2 Hok2].
      rewrite encode_struct_unfold, L1, L2. split; [reflexivity|exact Hok2].
Qed.

Lemma denotes_atom_denotes c v rv : denotes_atom c v rv -> denotes v rv.
Proof. destruct 1; constructor; assumption. Qed.

Lemma denotes_not_bytes x rv : denotes x rv -> is_bytes x = false.
Proof. destruct 1; reflexivity. Qed.

(* a reference value of a non-bit-string type is not a list, so the Python value denoting it is not a sequence *)
Lemma denotes_not_sequence p f ty x rv d :
  is_bits_ty ty = false -> encode_val f p ty rv = Some d -> denotes x rv -> is_nonstr_sequence x = false.
Proof.
  intros Hb He Hx. destruct f as [|f]; [discriminate|]. cbn [encode_val] in He.
  inversion Hx; subst; try reflexivity. exfalso.
  destruct ty as [c|tid|w]; [| |discriminate].
  - cbn [is_bits_ty] in Hb. unfold encode_atom in He. destruct (atom_size c); [|discriminate]. rewrite Hb in He. discriminate.
  - destruct (find_template (p_templates p) tid) as [t|]; [|discriminate]. destruct (string_shape t) as [[lm dm]|]; discriminate.
Qed.

Lemma wty_of_not_array f p ty w : wty_of f p ty = Some w -> is_array_ty w = false.
Proof.
  destruct f as [|f]; [discriminate|]. cbn [wty_of]. destruct ty as [c|tid|ow]; [| |discriminate].
  - destruct (atom_name c); [|discriminate]. intros H; injection H as <-. reflexivity.
  - destruct (find_template (p_templates p) tid) as [t|]; [|discriminate].
    destruct (string_shape t) as [[lm dm]|]; [intros H; injection H as <-; reflexivity|].
    destruct (all_some _); [intros H; injection H as <-; reflexivity|discriminate].
Qed.

Lemma Forall2_firstn {A B} (R : A -> B -> Prop) l l' : Forall2 R l l' -> forall n, Forall2 R (firstn n l) (firstn n l').
Proof. induction 1 as [|x y a b Hxy Hr IH]; intros n; [rewrite !firstn_nil; constructor|]. destruct n; [constructor|]. cbn [firstn]. constructor; [exact Hxy|apply IH]. Qed.

(* ONE value of a type of the covered class, at any data place (tag, array element, member at any
   depth), written through the type class of the place ([w]: scalar tags and members) or through the
   class of the array it is an element of (Array(n0, w): the value is wrapped as [value]).  If the
   reference write exists, the model's request executed by the target leaves the reference memory. *)
Theorem write_correct_one p m r inst off ty dims avail w x rv m_ref img id tag info pt tyv ui seq path :
  ty_guard (depth_fuel p) p ty = true -> wty_of (depth_fuel p) p ty = Some w ->
  resolve p r = Some (PlData inst off ty dims avail) -> r_bit r = None -> r_count r = None ->
  mem_get m inst = Some img ->
  ti_type info = w \/ (is_bits_ty ty = false /\ exists n0, ti_type info = WArray n0 w) ->
  packed_data_type info = Ok pt ->
  let l := mkWLoc inst off ty dims avail None in
  (forall rest, parse_wtype (pt ++ rest) = Some (tyv, rest)) -> type_matches p l tyv = true ->
  denotes x rv -> ref_write p m r rv = Some m_ref -> 1 <= avail -> 0 <= seq < 65536 ->
  path_of tag info ui = Ok (Some path) ->
  request_stores p m img l (mkParsed id false tag None 1 None info x) ui seq path pt 1 m_ref.
Proof.
  intros Hg Hwt Hres Hbit Hcnt Hmem Hty Hpt l Hparse Htm Hx Hw Hav Hseq Hpath.
  destruct (ref_write_inv _ _ _ _ _ _ _ Hres Hmem Hw) as (img' & Hwp & ->). rewrite Hbit, Hcnt in Hwp.
  destruct (write_place_one _ _ _ _ _ _ _ _ _ Hwp) as (s & d & Hs & He & Hl & Hput).
  destruct (struct_encoding_spec p _ ty w rv d x Hg Hwt He Hx) as [Hm _].
  pose proof (denotes_not_bytes x rv Hx) as Hnb.
  apply (request_stores_intro p m img l _ ui seq path pt tyv 1 d s img'); try assumption; try reflexivity;
    [|cbn [w_avail l]; lia|lia].
  set (q := mkParsed id false tag None 1 None info x).
  destruct Hty as [Hty|(Hb & n0 & Hty)].
  - (* the place's own class: the value is encoded as it is *)
    rewrite (encode_value_plain q d Hnb (fun _ => eq_refl)); cbn [q q_info q_value]; rewrite ?Hty;
      [rewrite q_new_elements_nobit; reflexivity|exact (wty_of_not_array _ _ _ _ Hwt)|exact Hm].
  - (* the class of the array: the value is wrapped as [x] and Array.encode(.., 1) encodes that one item *)
    rewrite (encode_value_scalar q Hnb (denotes_not_sequence _ _ _ _ _ _ Hb He Hx)), (encode_value_list (with_value q (PList [q_value q])) [x] eq_refl);
      cbn [q with_value q_info]; rewrite ?Hty; try reflexivity; try (unfold q_value_elements; cbn; lia).
    cbv zeta. rewrite q_new_elements_nobit by reflexivity. change (q_value_elements _) with 1. change (1 <? 1) with false. cbv iota.
    unfold encode_ty_len. rewrite (elem_chunk_none _ _ _ _ Hg Hb Hwt).
    rewrite (array_encode_each (encode_ty w) n0 [x] (Some 1) 1 [d]); [cbn [concat]; rewrite app_nil_r; reflexivity|reflexivity|cbn; lia|].
    change (Z.to_nat 1) with 1%nat. cbn [firstn map_res]. rewrite Hm. reflexivity.
Qed.

(* `{n}` consecutive values, n >= 1, of a type of the covered class that is not a bit string, from any
   data place of an array; a list longer than n is cut to its first n items. *)
Theorem write_correct_many p m r inst off ty dims avail w l_py vs n m_ref img id tag info n0 pt tyv ui seq path :
  ty_guard (depth_fuel p) p ty = true -> is_bits_ty ty = false -> wty_of (depth_fuel p) p ty = Some w ->
  resolve p r = Some (PlData inst off ty dims avail) -> r_bit r = None -> r_count r = Some n ->
  mem_get m inst = Some img ->
  ti_type info = WArray n0 w -> packed_data_type info = Ok pt ->
  let l := mkWLoc inst off ty dims avail None in
  (forall rest, parse_wtype (pt ++ rest) = Some (tyv, rest)) -> type_matches p l tyv = true ->
  Forall2 denotes l_py vs -> ref_write p m r (RList vs) = Some m_ref -> 1 <= n < 65536 -> 0 <= seq < 65536 ->
  path_of tag info ui = Ok (Some path) ->
  request_stores p m img l (mkParsed id false tag None n None info (PList l_py)) ui seq path pt n m_ref.
Proof.
  intros Hg Hb Hwt Hres Hbit Hcnt Hmem Hty Hpt l Hparse Htm H2 Hw Hn Hseq Hpath.
  destruct (ref_write_inv _ _ _ _ _ _ _ Hres Hmem Hw) as (img' & Hwp & ->). rewrite Hbit, Hcnt in Hwp.
  destruct (write_place_many _ _ _ _ _ _ _ _ _ _ Hb Hwp) as (s & ds & Hs & Hav & Hnl & Hds & Hl & Hput).
  pose proof (Forall2_length _ _ _ H2) as Hlen.
  destruct (elements_level _ p ty w _ _ ds (struct_encoding_spec p _) Hg Hwt (Forall2_firstn _ _ _ H2 (Z.to_nat n)) Hds) as [M1 _].
  apply (request_stores_intro p m img l _ ui seq path pt tyv n (concat ds) s img'); try assumption; try reflexivity;
    [|lia|lia].
  set (q := mkParsed id false tag None n None info (PList l_py)).
  assert (Ha : is_array_ty (ti_type info) = true) by (rewrite Hty; reflexivity).
  rewrite (encode_value_list q l_py eq_refl Ha (fun _ => eq_refl)), q_new_elements_nobit by reflexivity.
  cbn [q q_info q_elements]. rewrite Hty. cbv zeta. change (q_value_elements _) with n. unfold encode_ty_len.
  assert (E : forall l0, firstn (Z.to_nat n) l0 = firstn (Z.to_nat n) l_py -> n <= LogixWrite.zlen l0 ->
            array_encode (encode_ty w) (elem_chunk w) n0 (PList l0) (Some n) = Ok (concat ds)).
  { intros l0 E0 Hl0. rewrite (elem_chunk_none _ _ _ _ Hg Hb Hwt).
    apply (array_encode_each _ n0 l0 (Some n) n); [destruct (n =? 0) eqn:E; [lia|reflexivity]|lia|rewrite E0; exact M1]. }
  replace (LogixWrite.zlen l_py <? n) with false by (unfold LogixWrite.zlen; lia).
  destruct (1 <? n); rewrite E; try reflexivity; unfold LogixWrite.zlen; rewrite ?firstn_firstn, ?Nat.min_id, ?firstn_length; (reflexivity || lia).
Qed.

Lemma atom_covered p c name : atom_name c = Some name -> value_atom c = true ->
  ty_guard (depth_fuel p) p (BAtom c) = true /\ wty_of (depth_fuel p) p (BAtom c) = Some (WElem name)
  /\ is_bits_ty (BAtom c) = false.
Proof.
  intros Hn Hv. unfold depth_fuel. cbn [ty_guard wty_of is_bits_ty]. rewrite Hn, Hv.
  split; [reflexivity|]. split; [reflexivity|apply value_atom_plain, Hv].
Qed.

Lemma atom_type_field p l c name ty h i : w_ty l = BAtom c -> atom_name c = Some name -> value_atom c = true ->
  packed_data_type (mkInfo false name ty h i) = Ok (le_enc 2 c)
  /\ (forall rest, parse_wtype (le_enc 2 c ++ rest) = Some (inl c, rest))
  /\ type_matches p l (inl c) = true.
Proof.
  intros Hl Hn Hv. destruct (value_atom_class c name Hn Hv) as (_ & _ & Hpt & Hc & Hc160 & _).
  split; [apply Hpt|]. split; [intros rest; exact (parse_wtype_atom c rest Hc Hc160)|].
  unfold type_matches. rewrite Hl. apply Z.eqb_refl.
Qed.

Lemma struct_type_field p l tid t name ty i : w_ty l = BStruct tid ->
  find_template (p_templates p) tid = Some t -> 0 <= t_handle t < 65536 ->
  let pt := 160 :: 2 :: le_enc 2 (t_handle t) in
  packed_data_type (mkInfo true name ty (t_handle t) i) = Ok pt
  /\ (forall rest, parse_wtype (pt ++ rest) = Some (inr (t_handle t), rest))
  /\ type_matches p l (inr (t_handle t)) = true.
Proof.
  intros Hl Hft Hh pt. split; [exact (packed_type_struct _ _ _ _ Hh)|].
  split; [intros rest; exact (parse_wtype_struct _ rest Hh)|].
  unfold type_matches. rewrite Hl, Hft. apply Z.eqb_refl.
Qed.

Definition stmt_struct_with (G : project -> Z -> Prop) : Prop :=
  forall p m r inst off tid dims avail t x rv m_ref img id tag ty inst_id ui seq path,
  G p tid ->
  resolve p r = Some (PlData inst off (BStruct tid) dims avail) -> r_bit r = None -> r_count r = None ->
  mem_get m inst = Some img ->
  find_template (p_templates p) tid = Some t -> string_shape t = None ->
  0 <= t_handle t < 65536 -> PyStr.text_eqb (t_name t) n_DWORD = false ->
  wty_of (depth_fuel p) p (BStruct tid) = Some ty ->
  denotes x rv ->
  ref_write p m r rv = Some m_ref ->
  1 <= avail -> 0 <= seq < 65536 ->
  let info := mkInfo true (t_name t) ty (t_handle t) inst_id in
  let q := mkParsed id false tag None 1 None info x in
  let l := mkWLoc inst off (BStruct tid) dims avail None in
  path_of tag info ui = Ok (Some path) ->
  exists data pk pk1,
    encode_value q = Ok (data, 1)
    /\ new_write_packet KWrite seq tag 1 info id ui 0 data = Ok pk
    /\ build_message pk = Ok pk1
    /\ k_message pk1 = le_enc 2 seq ++ [77] ++ path ++ write_data (160 :: 2 :: le_enc 2 (t_handle t)) 1 data
    /\ svc_write p m img l (write_data (160 :: 2 :: le_enc 2 (t_handle t)) 1 data)
       = (m_ref, mr_ok [], [EvApp 1 [inst; off; 77] data]).

Definition stmt_struct : Prop := stmt_struct_with (fun p tid => ty_guard (depth_fuel p) p (BStruct tid) = true).

Theorem write_correct_struct : stmt_struct.
Proof.
  intros p m r inst off tid dims avail t x rv m_ref img id tag ty inst_id ui seq path
         Hg Hres Hbit Hcnt Hmem Hft Hss Hh Hnd Hty Hx Hw Hav Hseq info q l Hpath.
  destruct (struct_type_field p l tid t (t_name t) ty inst_id eq_refl Hft Hh) as (Hpt & Hparse & Htm).
  exact (write_correct_one p m r inst off _ dims avail ty x rv m_ref img id tag info _ _ ui seq path
           Hg Hty Hres Hbit Hcnt Hmem (or_introl eq_refl) Hpt Hparse Htm Hx Hw Hav Hseq Hpath).
Qed.

(* non-vacuity: the example structure of Proofs/WriteFull.v (hidden SINT host with two BOOL members,
   INT, DINT[2]) is in the covered class *)
Example struct_guard_example : ty_guard (depth_fuel ex_proj) ex_proj (BStruct 672) = true.
Proof. vm_compute. reflexivity. Qed.

(* a module-defined type: BOOL members overlay the VISIBLE INT host Data that precedes them.  It is in
   the covered class; with an inconsistent dict (Data = 0, Pt00 = Pt09 = True) the bits win, in the
   code's encoding as in the reference: Data is stored as 0x0201 *)
Definition ex_mod : template :=
  mkTemplate (zs "AB:Embedded_IQ16:I:0") None 3900 4660 8 0
    [ mkMember (zs "Fault") (BAtom C_DINT) 0 0 0 false;
      mkMember (zs "Data") (BAtom C_INT) 0 4 0 false;
      mkMember (zs "Pt00") (BAtom C_BOOL) 0 4 0 false;
      mkMember (zs "Pt09") (BAtom C_BOOL) 0 5 1 false;
      mkMember (zs "Pad") (BAtom C_INT) 0 6 0 false ].
Definition ex_mod_proj : project := mkProject [ex_mod] [mkTag (zs "Local:1:I") 5 ScCtrl (BStruct 3900) [] 0 false 0 0 0 0].
Definition ex_mod_ty : option wty := Eval vm_compute in wty_of (depth_fuel ex_mod_proj) ex_mod_proj (BStruct 3900).
Example struct_guard_module_type :
  ty_guard (depth_fuel ex_mod_proj) ex_mod_proj (BStruct 3900) = true
  /\ match ex_mod_ty with
     | None => False
     | Some ty =>
         let rv := RStruct [(zs "Fault", RInt 7); (zs "Data", RInt 0); (zs "Pt00", RBool true); (zs "Pt09", RBool true); (zs "Pad", RInt (-1))] in
         encode_val (depth_fuel ex_mod_proj) ex_mod_proj (BStruct 3900) rv = Some [7; 0; 0; 0; 1; 2; 255; 255]
         /\ encode_ty ty (py_of rv) = Ok [7; 0; 0; 0; 1; 2; 255; 255]
     end.
Proof. vm_compute. repeat split; reflexivity. Qed.

(* a structure with a BOOL[64] member (DWORD[2]) and a scalar DWORD is in the covered class *)
Definition ex_bits : template :=
  mkTemplate (zs "udtBits") (Some (zs "n2")) 673 17186 16 0
    [ mkMember (zs "Word") (BAtom C_DWORD) 0 0 0 false;
      mkMember (zs "Flags") (BAtom C_DWORD) 2 4 0 false;
      mkMember (zs "N") (BAtom C_DINT) 0 12 0 false ].
Example struct_guard_bits :
  ty_guard 3 (mkProject [ex_bits] []) (BStruct 673) = true.
Proof. vm_compute. reflexivity. Qed.
