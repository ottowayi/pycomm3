(* Proofs/ReplyBase.v — list, slice and elementary-decode lemmas used by the C13 proofs; the finite
   facts about the regenerated tables (types, Services, MULTI_PACKET_SERVICES). *)
From Coq Require Import String ZifyBool.
From PV Require Import Base.Bytes Base.BytesLemmas Base.Res Base.Proto Base.PyStr.
From PV Require Import Gen.Tables Gen.Types Gen.Status Gen.Consts Gen.ReplyTables.
From PV Require Import Model.EnumMapDefs Model.EnumMap Model.Reply Spec.ReplyReader.
Open Scope Z_scope.
Ltac Zify.zify_post_hook ::= Z.to_euclidean_division_equations.

Lemma slice1 a (l : bytes) : slice a (S a) l = match nth_error l a with Some b => [b] | None => [] end.
Proof.
  unfold slice. replace (S a - a)%nat with 1%nat by lia. destruct (nth_error l a) as [b|] eqn:E.
  - now rewrite (skipn_nth_error l a b E).
  - now rewrite skipn_all2 by (apply nth_error_None, E).
Qed.

Lemma nth_error_some_lt {A} (l : list A) n x : nth_error l n = Some x -> (n < length l)%nat.
Proof. intros H. apply nth_error_Some. congruence. Qed.

Lemma nth_error_bytes_ok l n b : bytes_ok l = true -> nth_error l n = Some b -> 0 <= b < 256.
Proof.
  intros Hok H. apply nth_error_In in H. unfold bytes_ok in Hok. rewrite forallb_forall in Hok.
  apply byte_ok_iff, Hok, H.
Qed.

Lemma USINT_eq : USINT_t = {| ety_name := T "USINT"; ety_size := 1; ety_signed := false |}.
Proof. reflexivity. Qed.
Lemma UINT_eq : UINT_t = {| ety_name := T "UINT"; ety_size := 2; ety_signed := false |}.
Proof. reflexivity. Qed.
Lemma UDINT_eq : UDINT_t = {| ety_name := T "UDINT"; ety_size := 4; ety_signed := false |}.
Proof. reflexivity. Qed.
Lemma DINT_eq : DINT_t = {| ety_name := T "DINT"; ety_size := 4; ety_signed := true |}.
Proof. reflexivity. Qed.

Definition is_err {A} (r : rm A) : bool := match r with RErr _ _ => true | ROk _ => false end.
Definition rm_lib {A} (r : rm A) : Prop :=
  match r with ROk _ => True | RErr e _ => e = DataError \/ e = BufferEmpty end.

Lemma decode_elem_short t buf : (length buf < ety_size t)%nat -> is_err (decode_elem t buf) = true /\ rm_lib (decode_elem t buf).
Proof.
  intros H. unfold decode_elem.
  destruct (firstn (ety_size t) buf) as [|x r] eqn:E; [cbn; auto|].
  assert (Hl : length (firstn (ety_size t) buf) = length buf) by (rewrite firstn_length; lia).
  rewrite E in Hl.
  destruct (length (x :: r) <? ety_size t)%nat eqn:E2; [cbn; auto|].
  apply Nat.ltb_ge in E2. lia.
Qed.

Lemma decode_elem_stream_lib t w r : rm_lib (decode_elem_stream t w r).
Proof.
  unfold decode_elem_stream. destruct (firstn (ety_size t) r); [cbn; auto|].
  destruct (_ <? _)%nat; cbn; auto.
Qed.

Lemma decode_elem_stream_full t w r : (0 < ety_size t <= length r)%nat ->
  decode_elem_stream t w r = ROk (elem_value t (firstn (ety_size t) r), skipn (ety_size t) r).
Proof.
  intros H. unfold decode_elem_stream.
  assert (Hl : length (firstn (ety_size t) r) = ety_size t) by (rewrite firstn_length; lia).
  destruct (firstn (ety_size t) r) as [|x q] eqn:E; [cbn in Hl; lia|].
  destruct (length (x :: q) <? ety_size t)%nat eqn:E2; [apply Nat.ltb_lt in E2; lia|reflexivity].
Qed.

Lemma decode_elem_stream_self t buf :
  decode_elem t buf = match decode_elem_stream t buf buf with ROk (v, _) => ROk v | RErr e m => RErr e m end.
Proof. unfold decode_elem, decode_elem_stream. destruct (firstn _ _); [reflexivity|]. now destruct (_ <? _)%nat. Qed.

Lemma decode_elem_full t buf : (0 < ety_size t <= length buf)%nat ->
  decode_elem t buf = ROk (elem_value t (firstn (ety_size t) buf)).
Proof. intros H. now rewrite decode_elem_stream_self, decode_elem_stream_full. Qed.

Lemma decode_elem_lib t buf : rm_lib (decode_elem t buf).
Proof.
  rewrite decode_elem_stream_self. pose proof (decode_elem_stream_lib t buf buf) as H.
  now destruct (decode_elem_stream t buf buf) as [[v r]|].
Qed.

Lemma decode_usint_slice a raw :
  decode_elem USINT_t (slice a (S a) raw) =
  match nth_error raw a with Some b => ROk b | None => RErr BufferEmpty [] end.
Proof.
  rewrite slice1. destruct (nth_error raw a) as [b|]; [|reflexivity].
  rewrite USINT_eq. unfold decode_elem, elem_value. cbn [ety_size ety_signed ety_name firstn length Nat.ltb Nat.leb le_dec].
  f_equal. lia.
Qed.

Lemma u32_at_skipn i raw :
  u32_at i raw = match skipn i raw with
                 | a :: b :: c :: d :: _ => Some (a + 256 * b + 65536 * c + 16777216 * d)
                 | _ => None
                 end.
Proof.
  unfold u32_at, byte_at.
  replace (nth_error raw i) with (nth_error (skipn i raw) 0) by (rewrite nth_error_skipn; f_equal; lia).
  rewrite <- !(nth_error_skipn i raw).
  destruct (skipn i raw) as [|a [|b [|c [|d r]]]]; reflexivity.
Qed.
Lemma u16_at_skipn i raw :
  u16_at i raw = match skipn i raw with a :: b :: _ => Some (a + 256 * b) | _ => None end.
Proof.
  unfold u16_at, byte_at.
  replace (nth_error raw i) with (nth_error (skipn i raw) 0) by (rewrite nth_error_skipn; f_equal; lia).
  rewrite <- !(nth_error_skipn i raw).
  destruct (skipn i raw) as [|a [|b r]]; reflexivity.
Qed.

Lemma uint_value a b : elem_value UINT_t [a; b] = a + 256 * b.
Proof. rewrite UINT_eq. unfold elem_value. cbn [ety_signed le_dec]. lia. Qed.

Lemma decode_u16 data num : decode_elem UINT_t data = ROk num -> u16_at 0 data = Some num.
Proof.
  unfold decode_elem. change (ety_size UINT_t) with 2%nat. destruct data as [|a [|b q]]; try discriminate.
  cbn [firstn length Nat.ltb Nat.leb]. rewrite uint_value. now intros [= <-].
Qed.

Lemma u32_at_present i raw : u32_at i raw <> None <-> (i + 4 <= length raw)%nat.
Proof.
  rewrite u32_at_skipn. pose proof (skipn_length i raw) as H.
  destruct (skipn i raw) as [|a [|b [|c [|d r]]]]; cbn [length] in H; split; intros; try congruence; try lia; discriminate.
Qed.

Lemma u32_range i raw e : bytes_ok raw = true -> u32_at i raw = Some e -> 0 <= e < 4294967296.
Proof.
  intros Hok. rewrite u32_at_skipn. pose proof (bytes_ok_skipn i raw Hok) as Hs.
  destruct (skipn i raw) as [|a [|b [|c [|d r]]]]; try discriminate.
  intros H. assert (He : e = a + 256 * b + 65536 * c + 16777216 * d) by congruence.
  rewrite !bytes_ok_cons in Hs. unfold byte_ok in Hs. lia.
Qed.

Lemma decode_u32_slice t i raw : ety_size t = 4%nat ->
  match u32_at i raw with
  | Some e => decode_elem t (slice i (i + 4) raw) = ROk (if ety_signed t then to_signed 4 e else e)
  | None => is_err (decode_elem t (slice i (i + 4) raw)) = true
  end.
Proof.
  intros Hs. rewrite u32_at_skipn. unfold slice, decode_elem, elem_value. replace (i + 4 - i)%nat with 4%nat by lia. rewrite Hs.
  destruct (skipn i raw) as [|a [|b [|c [|d r]]]]; try reflexivity.
  cbn [firstn length Nat.ltb Nat.leb le_dec]. destruct (ety_signed t); [do 2 f_equal | f_equal]; lia.
Qed.

Lemma to_signed4_zero e : 0 <= e < 4294967296 -> (to_signed 4 e =? 0) = (e =? 0).
Proof. intros H. unfold to_signed. change (pow256 4) with 4294967296. destruct (e <? 4294967296 / 2) eqn:E; lia. Qed.

(* self.service for a reply-service byte 128 + c *)
Definition svc_of (c : Z) : option key := services_get (services_get (Some (KBytes [c]))).

Lemma multi_sweep : forallb (fun c => Bool.eqb (in_multi_packet_services (svc_of c)) (continues c)) (zrange 128) = true.
Proof.
  (* the merged Services dictionary is named first, so that it is built once and not per row *)
  unfold svc_of, services_get, get. set (d := merged type_codes tbl_Services). vm_compute. reflexivity.
Qed.
Lemma multi_services_agree c : 0 <= c < 128 -> in_multi_packet_services (svc_of c) = continues c.
Proof. intros H. apply Bool.eqb_prop. exact (forallb_zrange _ 128 multi_sweep c H). Qed.

Lemma encode_usint_ok v : 0 <= v < 256 -> encode_usint v = ROk [v].
Proof. intros H. unfold encode_usint. destruct ((0 <=? v) && (v <? 256)) eqn:E; [reflexivity|lia]. Qed.
Lemma encode_usint_neg v : v < 0 -> is_err (encode_usint v) = true.
Proof. intros H. unfold encode_usint. destruct ((0 <=? v) && (v <? 256)) eqn:E; [lia|reflexivity]. Qed.

Lemma from_reply_slice a raw (Hok : bytes_ok raw = true) :
  match nth_error raw a with
  | Some s => if 128 <=? s then from_reply (slice a (S a) raw) = ROk (services_get (Some (KBytes [s - 128])))
              else is_err (from_reply (slice a (S a) raw)) = true
  | None => is_err (from_reply (slice a (S a) raw)) = true
  end.
Proof.
  unfold from_reply. rewrite decode_usint_slice.
  destruct (nth_error raw a) as [s|] eqn:E; [|reflexivity].
  pose proof (nth_error_bytes_ok raw a s Hok E) as Hs.
  destruct (128 <=? s) eqn:E2.
  - rewrite encode_usint_ok by lia. reflexivity.
  - pose proof (encode_usint_neg (s - 128)) as Hn. destruct (encode_usint (s - 128)); [cbn in Hn; lia|reflexivity].
Qed.
Lemma from_reply_lib b : rm_lib (from_reply b).
Proof.
  unfold from_reply. pose proof (decode_elem_lib USINT_t b) as H.
  destruct (decode_elem USINT_t b) as [v|e m]; [|exact H].
  unfold encode_usint. destruct ((0 <=? v - 128) && (v - 128 <? 256)); cbn; auto.
Qed.
