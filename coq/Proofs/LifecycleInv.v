(* Proofs/LifecycleInv.v — the invariant of every run (any fault schedule: since a failed send or
   receive abandons the transport, no reply is ever left in the socket for a later request): the
   driver's idea of its connection agrees with the target's
   tables, every SendUnitData frame delivered finds its session and connection, and a standard
   Forward Open is only attempted after a Large one the target did not grant (property C10). *)
From Coq Require Import ZifyBool.
From PV Require Import Base.Bytes Base.BytesLemmas Base.Res.
From PV Require Import Gen.Consts Gen.LifecycleGen Gen.SeqGen.
From PV Require Import Spec.EncapParser Spec.MRParser Spec.TargetIface Spec.TargetCore.
From PV Require Import Proofs.TargetCoreP Proofs.LifecycleTarget Model.Lifecycle Proofs.LifecycleP.
Open Scope Z_scope.

Definition fo_sizes (fr : bytes) : option (bool * Z * Z) :=
  match parse_frame fr with
  | RcOk f =>
      match f_body f with
      | BCpf _ AddrNull _ data =>
          match parse_mr data, msg_effect data with
          | RcOk rq, EFo l =>
              match parse_fo l (mr_data rq) with
              | Some (fo, _) => Some (l, conn_size l (fo_ot_params fo), conn_size l (fo_to_params fo))
              | None => None
              end
          | _, _ => None
          end
      | _ => None
      end
  | RcErr _ => None
  end.
(* extended first with 4000, then standard with the 500-byte size *)
Definition fo_size_ok (fr : bytes) : Prop :=
  forall l a b, fo_sizes fr = Some (l, a, b) -> a = b /\ a = (if l then 4000 else 500).

Lemma fo_sizes_effect fr l a b : fo_sizes fr = Some (l, a, b) -> frame_effect fr = EFo l.
Proof.
  unfold fo_sizes, frame_effect, parsed_effect. destruct (parse_frame fr) as [f | c]; [| discriminate].
  destruct (f_body f) as [| | | t ad dt d]; try discriminate. destruct ad; [| discriminate].
  destruct (parse_mr d); [| discriminate]. destruct (msg_effect d) as [| | | l' |]; try discriminate.
  destruct (parse_fo l' (mr_data a0)) as [[fo r] |]; [| discriminate]. intros H. inversion H. reflexivity.
Qed.
Lemma fo_size_ok_other fr : (forall l, frame_effect fr <> EFo l) -> fo_size_ok fr.
Proof. intros H l a b E. exfalso. eapply H. eapply fo_sizes_effect. exact E. Qed.

Lemma rd_app n a r : blen a = n -> rd n (a ++ r) = Some (le_dec a, r).
Proof. intros <-. unfold rd. rewrite takez_app. reflexivity. Qed.

(* the target's Forward Open parser reads the driver's request template back field by field: both
   network connection parameter fields are [np] *)
Lemma parse_fo_render (large : bool) d np w rest :
  List.length (d_ocid d) = 4%nat -> List.length (d_vsn d) = 4%nat -> blen np = (if large then 4 else 2) ->
  exists fo, parse_fo large (render_msg forward_open_msg d np ++ w :: rest) = Some (fo, rest)
             /\ fo_ot_params fo = le_dec np /\ fo_to_params fo = le_dec np.
Proof.
  intros Ho Hv Hn.
  assert (blen (d_ocid d) = 4) as Ho' by (unfold blen; rewrite Ho; reflexivity).
  assert (blen (d_vsn d) = 4) as Hv' by (unfold blen; rewrite Hv; reflexivity).
  unfold parse_fo, render_msg, forward_open_msg. cbn [flat_map field_bytes]. rewrite <- !app_assoc.
  change ([] ++ w :: rest) with ([w] ++ rest).
  repeat (rewrite rd_app by first [reflexivity | assumption]; cbv beta iota).
  eexists. split; [reflexivity |]. split; reflexivity.
Qed.

Section Inv.
Context {S : Type} (h : handler S).
Notation world := (world (S := S)).
Notation st := (st (S := S)).
Notation tev := (tev (S := S)).

(* what a failing exchange may leave on the trace: the peer vanishing, the socket being closed, and
   the delivery of this very frame *)
Definition side_event (s : st) (fr : bytes) (e : tev) : Prop :=
  match e with
  | TDeliver b f _ => w_open (fst s) = true /\ w_dead (fst s) = false /\ b = w_t (fst s) /\ f = fr
  | TConnect _ => False
  | _ => True
  end.

(* [drv_send] either fails — the transport is abandoned: driver reset, socket closed, at most the
   frame was delivered (or the peer vanished) before — or the frame was delivered and, when a reply
   is expected, the reply read is the target's reply to THIS frame *)
Inductive sent (s : st) (fr : bytes) (nr : bool) (s' : st) (r : res (option bytes)) : Prop :=
  | SentFail (e : exn) (evs : list tev)
      (Hr : r = Err e) (Hd : snd s' = reset_driver (snd s))
      (Htr : w_trace (fst s') = evs ++ w_trace (fst s)) (Hevs : Forall (side_event s fr) evs)
      (Hq : w_queue (fst s') = []) (Hrands : w_rands (fst s') = w_rands (fst s))
  | SentDelivered
      (Hwo : w_open (fst s) = true) (Hwd : w_dead (fst s) = false)
      (Hd : snd s' = snd s) (Ht : w_t (fst s') = fst (tstep h (w_t (fst s)) fr))
      (Htr : w_trace (fst s') = TDeliver (w_t (fst s)) fr (snd (tstep h (w_t (fst s)) fr)) :: w_trace (fst s))
      (Hq : w_queue (fst s') = [])
      (Hrands : w_rands (fst s') = w_rands (fst s))
      (Hreply : forall raw, r = Ok (Some raw) -> snd (tstep h (w_t (fst s)) fr) = Some raw)
      (Hnone : r = Ok None -> nr = true).

Lemma abandon_trace flt (w : world) d :
  w_queue (fst (abandon_transport flt (w, d))) = (if d_sock d then [] else w_queue w)
  /\ w_rands (fst (abandon_transport flt (w, d))) = w_rands w
  /\ snd (abandon_transport flt (w, d)) = reset_driver d
  /\ exists closing, w_trace (fst (abandon_transport flt (w, d))) = closing ++ w_trace w
                     /\ forall s fr, Forall (side_event s fr) closing.
Proof.
  unfold abandon_transport. destruct (d_sock d); cbn [fst snd].
  - unfold sock_close. destruct (flookup (w_nclose w) (f_close flt)); cbn [fst w_queue w_rands w_trace];
      (split; [reflexivity |]; split; [reflexivity |]; split; [reflexivity |]);
      exists [TSockClose (w_open w)]; (split; [reflexivity |]); intros; repeat constructor.
  - split; [reflexivity |]. split; [reflexivity |]. split; [reflexivity |]. exists []. split; [reflexivity | constructor].
Qed.

Lemma drv_send_sent flt (s : st) fr nr :
  w_queue (fst s) = [] ->
  (nr = true -> forall t, snd (tstep h t fr) = None) ->
  sent s fr nr (fst (drv_send h flt s (Ok fr) nr)) (snd (drv_send h flt s (Ok fr) nr)).
Proof.
  intros Hq Hnr. destruct s as [w d]. cbn [fst snd] in *.
  (* failure after the world moved to [w1] with trace [mid ++ trace w] *)
  assert (forall (w1 : world) mid,
            w_trace w1 = mid ++ w_trace w -> w_rands w1 = w_rands w -> (d_sock d = false -> w_queue w1 = []) ->
            Forall (side_event (w, d) fr) mid ->
            sent (w, d) fr nr (abandon_transport flt (w1, d)) (Err CommError)) as Hfail.
  { intros w1 mid Htr Hr Hq1 Hmid.
    destruct (abandon_trace flt w1 d) as (A1 & A2 & A3 & closing & A4 & A5).
    eapply (SentFail _ _ _ _ _ CommError (closing ++ mid)); cbn [fst snd]; try assumption; try reflexivity.
    - rewrite A4, Htr. apply app_assoc.
    - apply Forall_app. split; [apply A5 | exact Hmid].
    - rewrite A1. destruct (d_sock d); [reflexivity | apply Hq1; reflexivity].
    - congruence. }
  unfold drv_send, tx. destruct (d_sock d) eqn:Ek.
  2: { apply (Hfail w []); auto. }
  unfold sock_send.
  destruct (negb (w_open w) || w_dead w) eqn:E1.
  { apply (Hfail _ []); cbn [w_trace w_rands]; auto; try (intros; congruence). }
  assert (w_open w = true /\ w_dead w = false) as [Ho Hdd] by (destruct (w_open w), (w_dead w); auto; discriminate).
  destruct (fmem (w_nsend w) (f_vanish flt)).
  { apply (Hfail _ [TVanish]); cbn [w_trace w_rands]; auto; try (intros; congruence). repeat constructor. }
  destruct (flookup (w_nsend w) (f_send flt)) as [fk |].
  { apply (Hfail _ []); cbn [w_trace w_rands]; auto; try (intros; congruence). }
  destruct (tstep h (w_t w) fr) as [t' rep] eqn:Et.
  assert (forall w1, w_trace w1 = TDeliver (w_t w) fr rep :: w_trace w -> w_rands w1 = w_rands w ->
            sent (w, d) fr nr (abandon_transport flt (w1, d)) (Err CommError)) as Hfail2.
  { intros w1 Htr Hr. apply (Hfail w1 [TDeliver (w_t w) fr rep]); auto; try (intros; congruence).
    constructor; [repeat split; assumption | constructor]. }
  destruct (flookup (w_nsend w) (f_send_after flt)) as [fk |].
  { apply Hfail2; reflexivity. }
  cbn [fst snd].
  destruct nr.
  - (* no reply expected, and none comes *)
    cbn [fst snd]. specialize (Hnr eq_refl (w_t w)). rewrite Et in Hnr. cbn [snd] in Hnr. subst rep.
    eapply SentDelivered; cbn [fst snd w_t w_trace w_dead w_open w_queue w_rands]; try reflexivity; try assumption;
      try (rewrite Et; reflexivity); intros; discriminate.
  - unfold rx. cbn [snd fst]. rewrite Ek. unfold sock_recv.
    cbn [w_open w_dead w_nrecv w_queue]. rewrite Ho, Hdd. cbn [negb orb].
    destruct (flookup (w_nrecv w) (f_recv flt)) as [fk |].
    { apply Hfail2; reflexivity. }
    rewrite Hq.
    destruct rep as [rp |]; [destruct (fmem (w_nsend w) (f_drop flt)) |]; cbn [app fst snd];
      try (apply Hfail2; reflexivity).
    eapply SentDelivered; cbn [fst snd w_t w_trace w_dead w_open w_queue w_rands]; try reflexivity; try assumption;
      try (rewrite Et; reflexivity); try (intros; discriminate).
    intros raw H. inversion H; subst. rewrite Et. reflexivity.
Qed.

(* a SendUnitData frame finds its session and its connection in the target's tables *)
Definition unitdata_ok (before : tstate S) (fr : bytes) : Prop :=
  forall f, parse_frame fr = RcOk f -> f_cmd f = CMD_UNITDATA ->
    mem_z (f_session f) (t_sessions before) = true
    /\ exists t cid dt d c, f_body f = BCpf t (AddrConn cid) dt d /\ In c (t_conns before)
                            /\ c_ot_id c = cid /\ c_session c = f_session f.
Definition deliver_ok (e : tev) : Prop :=
  match e with TDeliver b fr _ => unitdata_ok b fr | _ => True end.

(* a Large Forward Open the target did not grant *)
Definition is_large_refused (e : tev) : Prop :=
  match e with
  | TDeliver b fr _ => frame_effect fr = EFo true /\ t_conns (fst (tstep h b fr)) = t_conns b
  | _ => False
  end.
Definition has_refused_large (tr : list tev) : Prop := Exists is_large_refused tr.
(* newest first: every standard Forward Open has a refused Large one before it *)
Fixpoint fo_trace_ok (tr : list tev) : Prop :=
  match tr with
  | [] => True
  | e :: older =>
      match e with
      | TDeliver _ fr _ => frame_effect fr = EFo false -> has_refused_large older
      | _ => True
      end /\ fo_trace_ok older
  end.

Lemma unitdata_ok_other before fr : u16 (nth 0 fr 0) (nth 1 fr 0) <> CMD_UNITDATA -> unitdata_ok before fr.
Proof.
  intros Hc f Hp Hcmd. exfalso. apply Hc. rewrite <- (parse_frame_cmd _ _ Hp). exact Hcmd.
Qed.

Definition conn_live (w : world) (d : dstate) : Prop :=
  mem_z (d_session d) (t_sessions (w_t w)) = true
  /\ exists otid c, d_cid d = Some (le_enc 4 otid) /\ in32z otid /\ In c (t_conns (w_t w))
                    /\ c_ot_id c = otid /\ c_session c = d_session d.

Definition all_bytes (l : list bytes) : Prop := Forall (fun b => bytes_ok b = true) l.
(* os.urandom(4) *)
Definition all_draws (l : list bytes) : Prop := Forall (fun b => bytes_ok b = true /\ List.length b = 4%nat) l.
Definition size_ok (e : tev) : Prop := match e with TDeliver _ fr _ => fo_size_ok fr | _ => True end.

Record Inv0 (s : st) : Prop := {
  i_queue : w_queue (fst s) = [];
  i_trace : Forall deliver_ok (w_trace (fst s));
  i_fo : fo_trace_ok (w_trace (fst s));
  i_cfg : d_ext (snd s) = true \/ has_refused_large (w_trace (fst s));
  i_bytes : bytes_ok (d_ocid (snd s)) = true /\ bytes_ok (d_vsn (snd s)) = true
            /\ all_bytes (d_route (snd s)) /\ all_draws (w_rands (fst s));
  i_sizes : Forall size_ok (w_trace (fst s));
  i_dsize : (d_ext (snd s) = true /\ d_size (snd s) = 4000) \/ (d_ext (snd s) = false /\ d_size (snd s) = 500);
  i_len : List.length (d_ocid (snd s)) = 4%nat /\ List.length (d_vsn (snd s)) = 4%nat }.
Definition iconn (s : st) : Prop :=
  d_tconn (snd s) = true -> w_open (fst s) = true -> w_dead (fst s) = false -> conn_live (fst s) (snd s).
Definition Inv (s : st) : Prop := Inv0 s /\ iconn s.

Lemma has_refused_app l tr : has_refused_large tr -> has_refused_large (l ++ tr).
Proof. intros H. apply Exists_app. right. exact H. Qed.

(* the three trace clauses of [Inv0]; an event that is not a delivery keeps them, a delivery has to
   bring what they ask of it *)
Definition trace_ok (tr : list tev) : Prop := Forall deliver_ok tr /\ fo_trace_ok tr /\ Forall size_ok tr.

Lemma trace_ok_cons e tr :
  match e with
  | TDeliver b fr _ => unitdata_ok b fr /\ (frame_effect fr = EFo false -> has_refused_large tr) /\ fo_size_ok fr
  | _ => True
  end -> trace_ok tr -> trace_ok (e :: tr).
Proof.
  intros He (T & F & Z).
  split; [constructor; [| exact T] | split; [split; [| exact F] | constructor; [| exact Z]]];
    destruct e; try exact I; apply He.
Qed.

Lemma trace_ok_app evs tr :
  Forall (fun e => match e with
                   | TDeliver b fr _ => unitdata_ok b fr /\ (frame_effect fr = EFo false -> has_refused_large tr) /\ fo_size_ok fr
                   | _ => True
                   end) evs -> trace_ok tr -> trace_ok (evs ++ tr).
Proof.
  intros He T. induction He as [| e evs H _ IH]; [exact T |]. apply trace_ok_cons; [| exact IH].
  destruct e; try exact I. destruct H as (A & B & C). split; [exact A |]. split; [| exact C].
  intros E. apply has_refused_app, B, E.
Qed.

Lemma inv0_trace_ok s : Inv0 s -> trace_ok (w_trace (fst s)).
Proof. intros I0. split; [apply I0 | split; apply I0]. Qed.

Definition dsame0 (d d' : dstate) : Prop :=
  d_ext d' = d_ext d /\ d_ocid d' = d_ocid d /\ d_vsn d' = d_vsn d /\ d_route d' = d_route d /\ d_size d' = d_size d.
Definition dsamec (d d' : dstate) : Prop :=
  d_session d' = d_session d /\ d_cid d' = d_cid d /\ d_tconn d' = d_tconn d.

Lemma inv0_step (s s' : st) l :
  Inv0 s -> w_queue (fst s') = [] -> w_trace (fst s') = l ++ w_trace (fst s) -> trace_ok (w_trace (fst s')) ->
  all_draws (w_rands (fst s')) -> dsame0 (snd s) (snd s') -> Inv0 s'.
Proof.
  intros [Q T F C (B1 & B2 & B3 & B4) Z1 Z2 Z3] Hq Htr (T' & F' & Z') Hr (A4 & A5 & A6 & A7 & A8).
  split; rewrite ?A4, ?A5, ?A6, ?A7, ?A8; try assumption; [| auto].
  rewrite Htr. destruct C as [C | C]; [left; exact C | right; apply has_refused_app; exact C].
Qed.

Lemma inv0_dsame (w : world) d d' : dsame0 d d' -> Inv0 (w, d) -> Inv0 (w, d').
Proof.
  intros Hd I0. destruct (i_bytes _ I0) as (_ & _ & _ & B4).
  apply (inv0_step (w, d) (w, d') []); [exact I0 | apply I0 | reflexivity | apply (inv0_trace_ok _ I0) | exact B4 | exact Hd].
Qed.
Lemma iconn_dsame (w : world) d d' : dsamec d d' -> iconn (w, d) -> iconn (w, d').
Proof.
  intros (A1 & A2 & A3) H. unfold iconn, conn_live in *. cbn [fst snd] in *.
  rewrite A1, A2, A3. exact H.
Qed.
Lemma inv_dsame (w : world) d d' : dsame0 d d' -> dsamec d d' -> Inv (w, d) -> Inv (w, d').
Proof. intros H H' [A B]. split; [eapply inv0_dsame | eapply iconn_dsame]; eassumption. Qed.

Definition frame_ok (s : st) (fr : bytes) : Prop :=
  (w_open (fst s) = true -> w_dead (fst s) = false -> unitdata_ok (w_t (fst s)) fr)
  /\ (frame_effect fr = EFo false -> has_refused_large (w_trace (fst s)))
  /\ fo_size_ok fr.

Lemma sent_inv0 s fr nr s' r : sent s fr nr s' r -> Inv0 s -> frame_ok s fr -> Inv0 s'.
Proof.
  intros Hs I0 (Hud & Hfo & Hsz).
  pose proof (inv0_trace_ok s I0) as T0. destruct (i_bytes s I0) as (_ & _ & _ & B4).
  destruct Hs as [e evs Hr Hd Htr Hevs Hq Hrands | Hwo Hwd Hd Ht Htr Hq Hrands Hreply Hnone].
  - apply (inv0_step s s' evs); try assumption; [| rewrite Hrands; exact B4 | rewrite Hd; repeat split].
    rewrite Htr. apply trace_ok_app; [| exact T0]. eapply Forall_impl; [| exact Hevs].
    intros [| b f rep | |] He; try exact I. destruct He as (Ho & Hdd & -> & ->).
    split; [apply Hud; assumption | split; assumption].
  - apply (inv0_step s s' [TDeliver (w_t (fst s)) fr (snd (tstep h (w_t (fst s)) fr))]); try assumption;
      [| rewrite Hrands; exact B4 | rewrite Hd; repeat split].
    rewrite Htr. apply trace_ok_cons; [| exact T0]. split; [apply Hud; assumption | split; assumption].
Qed.

Lemma mem_z_cons x y l : mem_z x l = true -> mem_z x (y :: l) = true.
Proof. unfold mem_z. cbn [existsb]. intros ->. apply Bool.orb_true_r. Qed.

(* the connection the driver believes in survives every frame that neither unregisters nor closes *)
Lemma sent_iconn cfg0 s fr nr s' r :
  sent s fr nr s' r -> Good h cfg0 s -> iconn s ->
  (d_tconn (snd s) = true -> match frame_effect fr with EUnregister | EFClose => False | _ => True end) ->
  iconn s'.
Proof.
  intros Hs G Hc Heff.
  destruct Hs as [e evs Hr Hd Htr Hevs Hq Hrands | Hwo Hwd Hd Ht Htr Hq Hrands Hreply Hnone];
    unfold iconn, conn_live in *.
  - rewrite Hd. cbn [reset_driver set_opened set_session set_tconn set_sock d_tconn]. discriminate.
  - rewrite ?Hd, ?Ht. intros Htc _ _. specialize (Hc Htc Hwo Hwd). specialize (Heff Htc).
    destruct Hc as (Hm & otid & c & Hcid & Hid & Hin & Hot & Hses).
    pose proof (tstep_effect h (w_t (fst s)) fr (wg_inj _ _ _ (proj1 G))) as (_ & _ & He).
    destruct (tstep h (w_t (fst s)) fr) as [t' rep]. cbn [fst snd] in *.
    assert (mem_z (d_session (snd s)) (t_sessions t') = true /\ In c (t_conns t')) as [Hm' Hin'].
    { destruct (frame_effect fr) as [| | | large |]; try contradiction.
      - destruct He as [E1 E2]. rewrite E1, E2. auto.
      - destruct He as [E2 [E1 | [hd E1]]]; rewrite E1, E2; auto using mem_z_cons.
      - destruct He as [E1 [[E2 _] | (c' & f & raw & _ & E2 & _)]]; rewrite E1, E2; auto using in_cons. }
    split; [exact Hm' |]. exists otid, c. auto.
Qed.

Lemma frame_ok_plain s fr :
  u16 (nth 0 fr 0) (nth 1 fr 0) <> CMD_UNITDATA -> (forall l, frame_effect fr <> EFo l) -> frame_ok s fr.
Proof.
  intros Hc He. split; [intros _ _; apply unitdata_ok_other, Hc |].
  split; [intros E; destruct (He _ E) | apply fo_size_ok_other, He].
Qed.

Lemma simple_frame_ok s a b common ses fr :
  build_request [a; b] common ses = Ok fr -> u16 a b <> CMD_UNITDATA -> u16 a b <> CMD_RRDATA ->
  frame_ok s fr
  /\ (u16 a b <> CMD_UNREGISTER -> match frame_effect fr with EUnregister | EFClose => False | _ => True end).
Proof.
  intros H H1 H2. pose proof (build_request_cmd _ _ _ _ _ H) as Hc.
  pose proof (frame_effect_cmd fr) as He. rewrite Hc in He. split.
  - apply frame_ok_plain; [rewrite Hc; exact H1 |]. intros l E. rewrite E in He. contradiction.
  - intros H3. destruct (frame_effect fr); try exact I; contradiction.
Qed.

Lemma rr_frame_plain s ses msg fr :
  rr_frame ses msg = Ok fr -> (forall l, msg_effect msg <> EFo l) -> frame_ok s fr.
Proof.
  intros H He. apply frame_ok_plain.
  - unfold rr_frame in H. rewrite (build_request_cmd _ _ _ _ _ H). discriminate.
  - intros l. rewrite (rr_frame_effect _ _ _ H). destruct (bytes_ok msg); [apply He | discriminate].
Qed.

Lemma ud_frame_ok_live (w : world) d sq msg fr :
  ud_frame (d_session d) (d_cid d) sq msg = Ok fr -> conn_live w d -> unitdata_ok (w_t w) fr.
Proof.
  intros Hf (Hm & otid & c & Hcid & Hid & Hin & Hot & Hses) f Hp Hcmd.
  rewrite Hcid in Hf. unfold in32z in Hid.
  assert (f = ud_parsed (d_session d) otid sq msg) as -> by (eapply ud_frame_parse; [exact Hf | lia | exact Hp]).
  cbn [ud_parsed f_session f_body]. split; [exact Hm |]. do 4 eexists. exists c. split; [reflexivity |]. auto.
Qed.

Lemma unregister_no_reply ses fr : unregister_frame ses = Ok fr -> forall t : tstate S, snd (tstep h t fr) = None.
Proof.
  intros H t. unfold unregister_frame in H. pose proof (build_request_cmd _ _ _ _ _ H) as Hc.
  change (u16 102 0) with CMD_UNREGISTER in Hc.
  unfold tstep. destruct (parse_header fr) as [[hd body] |] eqn:Eh; [| reflexivity].
  pose proof (proj1 (parse_header_inv _ _ _ Eh)) as Hcmd. rewrite Hc in Hcmd.
  destruct (parse_frame fr) as [f | c] eqn:Ep.
  2: { cbn [snd]. rewrite Hcmd. replace (CMD_UNREGISTER =? CMD_UNREGISTER) with true by reflexivity.
       rewrite !Bool.orb_true_r. reflexivity. }
  destruct (parse_frame_inv _ _ Ep) as (hd' & body' & Eh' & Fcmd & _ & _ & Fbody & Fk & _).
  rewrite Eh in Eh'. inversion Eh'; subst hd' body'. rewrite Hcmd in Fbody.
  assert (f_body f = BEmpty) as Eb.
  { unfold parse_body in Fbody. cbn [Z.eqb Pos.eqb CMD_UNREGISTER CMD_NOP CMD_REGISTER CMD_RRDATA CMD_UNITDATA orb] in Fbody.
    destruct body; inversion Fbody. reflexivity. }
  unfold step_frame. rewrite Eb, Fcmd, Hcmd.
  cbn [Z.eqb Pos.eqb CMD_UNREGISTER CMD_LIST_IDENTITY CMD_LIST_SERVICES CMD_LIST_INTERFACES].
  destruct (mem_z _ _); reflexivity.
Qed.

Lemma parse_mr_prefix svc a b c d rest : 0 <= svc < 128 ->
  parse_mr (svc :: 2 :: a :: b :: c :: d :: rest) = RcOk {| mr_service := svc; mr_path := [a; b; c; d]; mr_data := rest |}.
Proof.
  intros H. apply (parse_mk_mr {| mr_service := svc; mr_path := [a; b; c; d]; mr_data := rest |}).
  unfold mr_wf. cbn [mr_service mr_path]. change (blen [a; b; c; d]) with 4. change (Z.even 4) with true. lia.
Qed.

Lemma all_bytes_concat l : all_bytes l -> bytes_ok (concat l) = true.
Proof.
  induction 1 as [| b l Hb Hl IH]; [reflexivity |]. cbn [concat]. rewrite bytes_ok_app, Hb, IH. reflexivity.
Qed.
Lemma all_bytes_removelast l : all_bytes l -> all_bytes (removelast l).
Proof.
  induction 1 as [| b l Hb Hl IH]; [constructor |]. cbn [removelast]. destruct l; [constructor |]. constructor; assumption.
Qed.

Lemma ok_inj {A} (a b : A) : @Ok A a = Ok b -> a = b.
Proof. congruence. Qed.

Lemma epath_len_inv p pad rp : epath_len p pad = Ok rp -> exists w, 0 <= w < 256 /\ rp = w :: (if pad then [0] else []) ++ p.
Proof.
  unfold epath_len. destruct (blen p / 2 <? 256) eqn:E; [| discriminate]. intros H. apply ok_inj in H. subst rp.
  pose proof (blen_nonneg p). exists (blen p / 2). split; [lia | reflexivity].
Qed.

Lemma net_params_inv ext size np : net_params ext size = Ok np ->
  bytes_ok np = true /\ blen np = (if ext then 4 else 2).
Proof.
  unfold net_params. destruct ext; [destruct (in_urange 4 _) | destruct (in_urange 2 _)]; try discriminate;
    intros H; apply ok_inj in H; subst np; (split; [apply le_enc_ok | apply blen_le_enc]).
Qed.

Lemma fo_message_parse d msg : fo_message d = Ok msg ->
  exists np w rest, net_params (d_ext d) (d_size d) = Ok np /\ 0 <= w < 256 /\ rest = route_bytes d ++ MSG_ROUTER_PATH_BYTES
    /\ parse_mr msg = RcOk {| mr_service := if d_ext d then 91 else 84; mr_path := [32; 6; 36; 1];
                              mr_data := render_msg forward_open_msg d np ++ w :: rest |}.
Proof.
  unfold fo_message, bind. intros H.
  destruct (net_params (d_ext d) (d_size d)) as [np | e]; [| discriminate].
  destruct (epath_len _ FO_ROUTE_PAD_LENGTH) as [rp | e] eqn:Er; [| discriminate].
  apply ok_inj in H. subst msg. destruct (epath_len_inv _ _ _ Er) as (w & Hw & ->).
  exists np, w. eexists. split; [reflexivity |]. split; [exact Hw |]. split; [reflexivity |].
  destruct (d_ext d); apply parse_mr_prefix; lia.
Qed.

Definition bytes_fields (d : dstate) : Prop :=
  bytes_ok (d_ocid d) = true /\ bytes_ok (d_vsn d) = true /\ all_bytes (d_route d).

Lemma fo_message_effect d msg : fo_message d = Ok msg -> bytes_fields d ->
  bytes_ok msg = true /\ msg_effect msg = EFo (d_ext d).
Proof.
  intros H (B1 & B2 & B3). split.
  - revert H. unfold fo_message, bind.
    destruct (net_params (d_ext d) (d_size d)) as [np | e] eqn:En; [| discriminate].
    destruct (epath_len _ FO_ROUTE_PAD_LENGTH) as [rp | e] eqn:Er; [| discriminate].
    intros H. apply ok_inj in H. subst msg. destruct (net_params_inv _ _ _ En) as [Hnp _].
    assert (bytes_ok rp = true) as Hrp.
    { destruct (epath_len_inv _ _ _ Er) as (w & Hw & ->). unfold route_bytes.
      rewrite bytes_ok_cons, !bytes_ok_app, (all_bytes_concat _ B3). unfold byte_ok. cbn. lia. }
    unfold render_msg, forward_open_msg. cbn [flat_map field_bytes].
    rewrite !bytes_ok_app, B1, B2, Hnp, Hrp. destruct (d_ext d); reflexivity.
  - destruct (fo_message_parse d msg H) as (np & w & rest & _ & _ & _ & Hp).
    unfold msg_effect. rewrite Hp. destruct (d_ext d); reflexivity.
Qed.

Lemma fc_message_effect d msg : fc_message d = Ok msg -> msg_effect msg = EFClose.
Proof.
  unfold fc_message, bind. intros H.
  destruct (epath_len (route_bytes d ++ MSG_ROUTER_PATH_BYTES) FC_ROUTE_PAD_LENGTH) as [rp | e]; [| discriminate].
  apply ok_inj in H. subst msg. unfold msg_effect.
  change (SVC_FORWARD_CLOSE ++ CM_REQUEST_PATH ++ render_msg forward_close_msg d [] ++ rp)
    with (78 :: 2 :: 32 :: 6 :: 36 :: 1 :: render_msg forward_close_msg d [] ++ rp).
  rewrite parse_mr_prefix by lia. reflexivity.
Qed.

Lemma plc_info_message_effect d m msg : plc_info_message d m = Ok msg -> msg_effect msg = ENone.
Proof.
  unfold plc_info_message, bind. intros H.
  destruct m.
  - apply ok_inj in H. subst msg. reflexivity.
  - destruct (epath_len (route_bytes d) true) as [rp | e]; [| discriminate].
    unfold wrap_unconnected_send in H. destruct (in_urange 2 (blen PLC_INFO_MSG)); [| discriminate].
    apply ok_inj in H. subst msg. unfold msg_effect.
    match goal with |- context [parse_mr ?m] =>
      change m with (82 :: 2 :: 32 :: 6 :: 36 :: 1 :: PRIORITY ++ TIMEOUT_TICKS ++ le_enc 2 (blen PLC_INFO_MSG) ++ PLC_INFO_MSG
                     ++ (if Z.odd (blen PLC_INFO_MSG) then [0] else []) ++ match rp with [] => [0; 0] | _ => rp end) end.
    rewrite parse_mr_prefix by lia. reflexivity.
Qed.

(* the driver's Forward Open frames ask for 4000 (Large) / 500 (standard) in both directions *)
Lemma fo_frame_size_ok d ses msg fr :
  fo_message d = Ok msg -> rr_frame ses msg = Ok fr ->
  ((d_ext d = true /\ d_size d = 4000) \/ (d_ext d = false /\ d_size d = 500)) ->
  List.length (d_ocid d) = 4%nat -> List.length (d_vsn d) = 4%nat ->
  fo_size_ok fr.
Proof.
  intros Hm Hf Hsz Hlo Hlv l a b E.
  unfold fo_sizes in E. rewrite (rr_frame_parse _ _ _ Hf) in E.
  destruct (bytes_ok msg); [| discriminate]. cbn [f_body rr_parsed] in E.
  destruct (fo_message_parse d msg Hm) as (np & w & rest & Hnp & _ & _ & Hp).
  unfold msg_effect in E. rewrite Hp in E. cbn [mr_path mr_service mr_data] in E.
  destruct (parse_fo_render (d_ext d) d np w rest Hlo Hlv (proj2 (net_params_inv _ _ _ Hnp))) as (fo & Hfo & Ho & Ht).
  change (path_cia [32; 6; 36; 1]) with (Some (6, 1, @None Z)) in E.
  destruct Hsz as [[He Hs] | [He Hs]]; rewrite He, Hs in *; cbn [Z.eqb Pos.eqb] in E; rewrite Hfo, Ho, Ht in E;
    injection E as <- <- <-; apply ok_inj in Hnp; subst np; split; reflexivity.
Qed.

Context (cfg0 : tcfg) (flt : faults).

Lemma drv_send_inv s fr nr :
  Inv0 s -> frame_ok s fr -> (nr = true -> forall t, snd (tstep h t fr) = None) ->
  let r := drv_send h flt s (Ok fr) nr in sent s fr nr (fst r) (snd r) /\ Inv0 (fst r).
Proof.
  intros I0 Hf Hnr.
  pose proof (drv_send_sent flt s fr nr (i_queue _ I0) Hnr) as Hs.
  split; [exact Hs |]. eapply sent_inv0; eassumption.
Qed.

Lemma drv_send_keeps s fr :
  Good h cfg0 s -> Inv s -> frame_ok s fr ->
  match frame_effect fr with EUnregister | EFClose => False | _ => True end ->
  let r := drv_send h flt s (Ok fr) false in sent s fr false (fst r) (snd r) /\ Inv (fst r).
Proof.
  intros G [I0 Ic] Hf He.
  destruct (drv_send_inv s fr false I0 Hf ltac:(discriminate)) as [Hs I1].
  split; [exact Hs |]. split; [exact I1 |]. eapply sent_iconn; [exact Hs | exact G | exact Ic | intros _; exact He].
Qed.

(* what a truthy / falsy result of generic_message(connected=False) tells *)
Definition delivered_rr (s s' : st) (msg : bytes) (truthy : bool) (value : bytes) : Prop :=
  exists fr raw, rr_frame (d_session (snd s)) msg = Ok fr
    /\ w_t (fst s') = fst (tstep h (w_t (fst s)) fr)
    /\ w_trace (fst s') = TDeliver (w_t (fst s)) fr (Some raw) :: w_trace (fst s)
    /\ snd (tstep h (w_t (fst s)) fr) = Some raw
    /\ truthy = valid KRR raw /\ value = data_of KRR raw.

Lemma generic_unconnected_inv s msg :
  Good h cfg0 s -> Inv0 s ->
  (forall fr, rr_frame (d_session (snd s)) msg = Ok fr -> frame_ok s fr) ->
  let r := generic_unconnected h flt s msg in
  Inv0 (fst r) /\ d_ext (snd (fst r)) = d_ext (snd s)
  /\ ((d_tconn (snd s) = true -> msg_effect msg <> EFClose) -> iconn s -> iconn (fst r))
  /\ (forall truthy value, snd r = Ok (truthy, value) ->
        snd (fst r) = snd s /\ delivered_rr s (fst r) msg truthy value).
Proof.
  intros G I0 Hf. unfold generic_unconnected.
  destruct (rr_frame (d_session (snd s)) msg) as [fr | e] eqn:Ef.
  2: { cbn [drv_send fst snd]. split; [exact I0 |]. split; [reflexivity |]. split; [auto | discriminate]. }
  pose proof (rr_frame_effect _ _ _ Ef) as Heff.
  pose proof (drv_send_inv s fr false I0 (Hf fr eq_refl) ltac:(discriminate)) as (Hs & I1).
  destruct (drv_send h flt s (Ok fr) false) as [s1 r1]. cbn [fst snd] in *.
  assert (d_ext (snd s1) = d_ext (snd s)) as Hext by (destruct Hs as [? ? ? Hd | ? ? Hd]; rewrite Hd; reflexivity).
  assert (((d_tconn (snd s) = true -> msg_effect msg <> EFClose) -> iconn s -> iconn s1)) as Hic.
  { intros Hm Hc. eapply sent_iconn; [exact Hs | exact G | exact Hc |].
    intros Ht. rewrite Heff. destruct (bytes_ok msg); [| exact I].
    specialize (Hm Ht). destruct (msg_effect_cases msg) as [-> | [[l ->] | E]]; try exact I. contradiction. }
  split; [destruct r1 as [[raw |] | e]; exact I1 |]. split; [destruct r1 as [[raw |] | e]; exact Hext |].
  split; [destruct r1 as [[raw |] | e]; exact Hic |].
  destruct Hs as [? ? Hr | ? ? Hd Ht Htr ? ? Hreply Hnone]; [subst r1; discriminate |].
  destruct r1 as [[raw |] | e]; cbn [fst snd]; [| specialize (Hnone eq_refl) |]; try discriminate.
  intros truthy value Hc. unfold classify in Hc. destruct (error_raises KRR raw); [discriminate |]. inversion Hc; subst.
  split; [exact Hd |]. exists fr, raw. rewrite (Hreply raw eq_refl) in *. auto 8.
Qed.

Lemma inv0_bytes_fields s : Inv0 s -> bytes_fields (snd s).
Proof. intros [_ _ _ _ (B1 & B2 & B3 & _)]. repeat split; assumption. Qed.

Lemma fo_frame_ok s msg fr :
  Inv0 s -> fo_message (snd s) = Ok msg -> rr_frame (d_session (snd s)) msg = Ok fr -> frame_ok s fr.
Proof.
  intros I0 Em Ef. destruct (fo_message_effect _ msg Em (inv0_bytes_fields _ I0)) as [Hok Heff].
  split; [intros _ _; apply unitdata_ok_other; unfold rr_frame in Ef; rewrite (build_request_cmd _ _ _ _ _ Ef); discriminate |].
  split.
  - rewrite (rr_frame_effect _ _ _ Ef), Hok, Heff. intros E. destruct (i_cfg _ I0) as [C | C]; [congruence | exact C].
  - eapply fo_frame_size_ok; [exact Em | exact Ef | exact (i_dsize _ I0) | apply (i_len _ I0) | apply (i_len _ I0)].
Qed.

Lemma drv_forward_open_inv s :
  Good h cfg0 s -> Inv s ->
  let r := drv_forward_open h flt s in
  Inv (fst r) /\ d_ext (snd (fst r)) = d_ext (snd s)
  /\ (snd r = Ok false -> d_ext (snd s) = true -> has_refused_large (w_trace (fst (fst r))))
  /\ (snd r = Ok true -> d_tconn (snd (fst r)) = true).
Proof.
  intros G [I0 Ic]. unfold drv_forward_open. destruct s as [w d].
  destruct (d_tconn d) eqn:Et.
  { split; [split; assumption |]. split; [reflexivity |]. split; [discriminate | intros _; exact Et]. }
  destruct (d_session d =? 0) eqn:Es.
  { split; [split; assumption |]. split; [reflexivity |]. split; discriminate. }
  destruct (fo_message d) as [msg | e] eqn:Em.
  2: { split; [split; assumption |]. split; [reflexivity |]. split; discriminate. }
  destruct (fo_message_effect d msg Em (inv0_bytes_fields _ I0)) as [Hok Heff].
  pose proof (generic_unconnected_inv (w, d) msg G I0 (fun fr => fo_frame_ok (w, d) msg fr I0 Em)) as (I1 & Hext1 & Hic & Hdel).
  destruct (generic_unconnected h flt (w, d) msg) as [[w1 d1] r1]. cbn [fst snd] in *.
  assert (iconn (w1, d1)) as Ic1.
  { apply Hic; [| exact Ic]. intros Ht. congruence. }
  destruct r1 as [[truthy value] | e]; [| cbn [fst snd]; split; [split; assumption |]; split; [exact Hext1 |]; split; discriminate].
  destruct (Hdel truthy value eq_refl) as (Hd1 & fr & raw & Ef & Ht' & Htr & Hrep & Hv & Hval).
  cbn [snd] in Hd1. subst d1.
  cbn [fst snd] in *.
  pose proof (rr_frame_effect _ _ _ Ef) as Hfe. rewrite Hok, Heff in Hfe.
  pose proof (rr_frame_parse _ _ _ Ef) as Hparse. rewrite Hok in Hparse.
  pose proof (tstep_effect h (w_t w) fr (wg_inj _ _ _ (proj1 G))) as (_ & _ & He). rewrite Hfe in He.
  destruct (tstep h (w_t w) fr) as [t' rep] eqn:Ets. cbn [fst snd] in *. subst rep.
  destruct He as [Hsess [[Hconns Href] | (c & f & raw' & Hp & Hconns & Hcs & Hmem & Hid & Hraw & Hsucc)]].
  - (* refused *)
    pose proof (rr_refusal_invalid raw (Href raw eq_refl)) as Hinv. rewrite Hinv in Hv. subst truthy.
    cbn [fst snd]. split; [split; assumption |]. split; [congruence |]. split; [| discriminate].
    intros _ Hext. rewrite Htr. apply Exists_cons_hd. cbn [is_large_refused].
    rewrite Hfe, Hext, Ets. cbn [fst]. split; [reflexivity | exact Hconns].
  - (* granted *)
    inversion Hraw; subst raw'. rewrite Hparse in Hp. inversion Hp; subst f. cbn [rr_parsed f_session] in *.
    destruct (fo_success_valid raw _ Hsucc) as (Hvalid & Hfirst & _). rewrite Hvalid in Hv. subst truthy value.
    cbn [fst snd]. rewrite Hfirst.
    split; [| split; [cbn [set_tconn set_cid d_ext]; congruence |]; split; [discriminate | intros _; reflexivity]].
    split.
    + eapply inv0_dsame; [| exact I1]. repeat split.
    + unfold iconn, conn_live. cbn [fst snd set_tconn set_cid d_tconn d_session d_cid]. intros _ _ _.
      rewrite Ht', Hsess, Hconns. split; [exact Hmem |].
      exists (c_ot_id c), c. split; [reflexivity |]. split; [exact Hid |]. split; [left; reflexivity |]. split; [reflexivity | exact Hcs].
Qed.

Lemma inv_set_fo (s : st) : Inv s -> has_refused_large (w_trace (fst s)) ->
  Inv (fst s, set_fo_cfg FALLBACK_EXTENDED_FO FALLBACK_CONNECTION_SIZE (snd s)).
Proof.
  intros [[Q T F C B Z1 Z2 Z3] Ic] Hr. split.
  - split; cbn [fst snd set_fo_cfg d_ext d_ocid d_vsn d_route d_size]; try assumption.
    + right. exact Hr.
    + right. split; reflexivity.   (* FALLBACK_EXTENDED_FO = false, FALLBACK_CONNECTION_SIZE = 500 *)
  - destruct s as [w d]. eapply iconn_dsame; [| exact Ic]. repeat split.
Qed.

Lemma with_forward_open_inv s :
  Good h cfg0 s -> Inv s ->
  let r := with_forward_open h flt s in
  Inv (fst r) /\ (snd r = Ok tt -> d_tconn (snd (fst r)) = true).
Proof.
  intros G I1. unfold with_forward_open.
  destruct (d_tconn (snd s)) eqn:Et; [cbn [fst snd]; split; [exact I1 | intros _; exact Et] |].
  pose proof (drv_forward_open_good h cfg0 flt s G) as (G1 & S1 & _).
  pose proof (drv_forward_open_inv s G I1) as (I2 & E2 & R2 & T2).
  destruct (drv_forward_open h flt s) as [s1 r1]. cbn [fst snd] in *.
  destruct r1 as [[|] | e]; cbn [fst snd]; try (split; [exact I2 |]; first [discriminate | intros _; apply T2; reflexivity]).
  destruct (d_ext (snd s1)) eqn:Ee; [| cbn [fst snd]; split; [exact I2 | discriminate]].
  set (s2 := (fst s1, set_fo_cfg FALLBACK_EXTENDED_FO FALLBACK_CONNECTION_SIZE (snd s1))).
  assert (Inv s2) as I3 by (apply inv_set_fo; [exact I2 | apply R2; [reflexivity | congruence]]).
  assert (Good h cfg0 s2) as G2 by (apply (good_upd h cfg0 s1 _ G1); try reflexivity; cbn; auto).
  pose proof (drv_forward_open_inv s2 G2 I3) as (I4 & _ & _ & T4).
  destruct (drv_forward_open h flt s2) as [s3 r3].
  destruct r3 as [[|] | e]; cbn [fst snd]; split; try exact I4; try discriminate. intros _. apply T4. reflexivity.
Qed.

Lemma connected_request_seq_inv s sq msg :
  Good h cfg0 s -> Inv s -> d_tconn (snd s) = true ->
  let r := connected_request_seq h flt s sq msg in
  Inv (fst r) /\ (forall a, snd r = Ok a -> snd (fst r) = snd s).
Proof.
  intros G I1 Et. unfold connected_request_seq.
  destruct (ud_frame (d_session (snd s)) (d_cid (snd s)) sq msg) as [fr | e] eqn:Ef.
  2: { cbn [drv_send fst snd]. split; [exact I1 | discriminate]. }
  pose proof (ud_frame_effect _ _ _ _ _ Ef) as Heff.
  assert (frame_ok s fr) as Hf.
  { split; [intros Ho Hd; eapply ud_frame_ok_live; [exact Ef | apply I1; assumption] |].
    split; [rewrite Heff; discriminate | apply fo_size_ok_other; intros l; rewrite Heff; discriminate]. }
  pose proof (drv_send_keeps s fr G I1 Hf) as (Hs & I2); [rewrite Heff; exact I |].
  destruct (drv_send h flt s (Ok fr) false) as [s1 r1].
  assert (forall o, r1 = Ok o -> snd s1 = snd s) as Hd.
  { intros o ->. destruct Hs as [? ? Hr | ? ? Hd]; [discriminate | exact Hd]. }
  destruct r1 as [[raw |] | e]; cbn [fst snd]; (split; [exact I2 |]); try discriminate;
    intros a _; eapply Hd; reflexivity.
Qed.

Lemma connected_request_inv s msg :
  Good h cfg0 s -> Inv s -> d_tconn (snd s) = true ->
  Inv (fst (connected_request h flt s msg)).
Proof.
  intros G I1 Et. unfold connected_request. destruct s as [w d]. cbn [snd] in Et.
  unfold draw. destruct (cycle_step SEQ_STOP SEQ_START (d_seq d)) as [sq v].
  set (d1 := set_seq v d).
  assert (Inv (w, d1)) as I2 by (eapply inv_dsame; [| | exact I1]; repeat split).
  assert (Good h cfg0 (w, d1)) as G2.
  { apply (good_upd h cfg0 (w, d) _ G); try reflexivity. cbn. auto. }
  pose proof (connected_request_seq_inv (w, d1) sq msg G2 I2 Et) as (I3 & _).
  unfold connected_request_seq in *. cbn [snd] in *.
  destruct (drv_send h flt (w, d1) (ud_frame (d_session d1) (d_cid d1) sq msg) false) as [s1 r1].
  destruct r1 as [[raw |] | e]; cbn [fst snd] in *; exact I3.
Qed.

Lemma generic_connected_inv s msg :
  Good h cfg0 s -> Inv s -> Inv (fst (generic_connected h flt s msg)).
Proof.
  intros G I1. unfold generic_connected.
  pose proof (with_forward_open_good h cfg0 flt s G) as (G1 & _ & _).
  pose proof (with_forward_open_inv s G I1) as (I2 & T2).
  destruct (with_forward_open h flt s) as [s1 r1].
  destruct r1 as [[] | e]; [| exact I2].
  apply connected_request_inv; auto.
Qed.

Lemma connected_requests_inv items : forall s,
  Good h cfg0 s -> Inv s -> d_tconn (snd s) = true ->
  Inv (fst (connected_requests h flt s items)).
Proof.
  induction items as [| [sq m] rest IH]; intros s G I1 Et; cbn [connected_requests]; [exact I1 |].
  pose proof (connected_request_seq_good h cfg0 flt s sq m G) as (G1 & _ & _).
  pose proof (connected_request_seq_inv s sq m G I1 Et) as (I2 & Hd).
  destruct (connected_request_seq h flt s sq m) as [s1 r1]. cbn [fst snd] in *.
  destruct r1 as [[b v] | e]; [| exact I2].
  assert (d_tconn (snd s1) = true) as Et1 by (rewrite (Hd _ eq_refl); exact Et).
  specialize (IH s1 G1 I2 Et1).
  destruct (connected_requests h flt s1 rest) as [s2 r2].
  destruct r2; exact IH.
Qed.

Lemma connected_call_inv s items sa :
  Good h cfg0 s -> Inv s -> Inv (fst (connected_call h flt s items sa)).
Proof.
  intros G I1. unfold connected_call.
  pose proof (with_forward_open_good h cfg0 flt s G) as (G1 & _ & _).
  pose proof (with_forward_open_inv s G I1) as (I2 & T2).
  destruct (with_forward_open h flt s) as [[w1 d1] r1].
  destruct r1 as [[] | e]; [| exact I2].
  apply connected_requests_inv.
  - apply (good_upd h cfg0 (w1, d1) _ G1); try reflexivity. cbn. auto.
  - eapply inv_dsame; [| | exact I2]; repeat split.
  - cbn. apply T2. reflexivity.
Qed.

Lemma drv_register_session_inv s :
  Good h cfg0 s -> Inv s -> Inv (fst (drv_register_session h flt s)).
Proof.
  intros G I1. unfold drv_register_session. destruct s as [w d].
  destruct (negb (d_session d =? 0)) eqn:Es; [exact I1 |].
  assert (d_tconn d = false) as Et.
  { destruct (d_tconn d) eqn:E; [| reflexivity]. exfalso. apply (dg_tconn _ (proj2 G) E). cbn [snd]. lia. }
  destruct (register_frame (d_session d)) as [fr | e] eqn:Ef; [| exact I1].
  destruct (simple_frame_ok (w, d) _ _ _ _ _ Ef ltac:(discriminate) ltac:(discriminate)) as [Hf He].
  pose proof (drv_send_keeps (w, d) fr G I1 Hf (He ltac:(discriminate))) as (Hs & I2).
  destruct (drv_send h flt (w, d) (Ok fr) false) as [[w1 d1] r1]. cbn [fst snd] in *.
  destruct r1 as [[raw |] | e]; try exact I2.
  destruct (register_valid raw); cbn [fst snd]; [| exact I2].
  split; [eapply inv0_dsame; [| apply I2]; repeat split |].
  assert (d_tconn d1 = false) as Hd by (destruct Hs as [? ? ? Hd | ? ? Hd]; cbn [snd] in Hd; rewrite Hd; [reflexivity | exact Et]).
  unfold iconn. cbn [fst snd set_session d_tconn]. rewrite Hd. discriminate.
Qed.

Lemma urandom_inv0 (w : world) d : Inv0 (w, d) ->
  Inv0 (snd (urandom w), d) /\ (bytes_ok (fst (urandom w)) = true /\ List.length (fst (urandom w)) = 4%nat).
Proof.
  intros I0. destruct (i_bytes _ I0) as (_ & _ & _ & B4). cbn [fst snd] in B4.
  assert (all_draws (w_rands (snd (urandom w))) /\ bytes_ok (fst (urandom w)) = true /\ List.length (fst (urandom w)) = 4%nat)
    as [B4' Hr].
  { unfold urandom. destruct (w_rands w) as [| r rest] eqn:Er; cbn [fst snd w_rands]; [rewrite Er; auto |].
    inversion B4; subst. auto. }
  split; [| exact Hr].
  assert (w_queue (snd (urandom w)) = w_queue w /\ w_trace (snd (urandom w)) = w_trace w) as [Eq Etr]
    by (unfold urandom; destruct (w_rands w); split; reflexivity).
  apply (inv0_step (w, d) (snd (urandom w), d) []); cbn [fst snd];
    [exact I0 | rewrite Eq; apply I0 | rewrite Etr; reflexivity | rewrite Etr; apply (inv0_trace_ok _ I0) | exact B4' | repeat split].
Qed.

Lemma sock_connect_inv0 (w : world) d : Inv0 (w, d) -> Inv0 (fst (sock_connect flt w), set_sock true d).
Proof.
  intros I0. destruct (i_bytes _ I0) as (_ & _ & _ & B4).
  unfold sock_connect. destruct (flookup (w_nconnect w) (f_connect flt)); cbn [fst];
    (eapply (inv0_step (w, d) _ [_]); [exact I0 | try apply I0; reflexivity | reflexivity
                                        | apply trace_ok_cons; [exact I | apply (inv0_trace_ok _ I0)] | exact B4 | repeat split]).
Qed.
Lemma sock_close_inv0 (w : world) d : Inv0 (w, d) -> Inv0 (fst (sock_close flt w), d).
Proof.
  intros I0. destruct (i_bytes _ I0) as (_ & _ & _ & B4).
  unfold sock_close. destruct (flookup (w_nclose w) (f_close flt)); cbn [fst];
    (eapply (inv0_step (w, d) _ [_]); [exact I0 | reflexivity | reflexivity
                                        | apply trace_ok_cons; [exact I | apply (inv0_trace_ok _ I0)] | exact B4 | repeat split]).
Qed.

Lemma cip_open_inv s : Good h cfg0 s -> Inv s -> Inv (fst (cip_open h flt s)).
Proof.
  intros G [I0 Ic]. unfold cip_open. destruct s as [w d].
  destruct (d_opened d) eqn:Eo; [split; assumption |].
  assert (d_tconn d = false) as Et.
  { destruct G as [_ [D1 D2 D3]]. cbn [fst snd] in *. destruct (d_tconn d) eqn:E; [| reflexivity].
    specialize (D3 (D2 eq_refl)). congruence. }
  destruct G as [W [D1 D2 D3]].
  pose proof (sock_connect_w h cfg0 flt w W) as W1. pose proof (sock_connect_inv0 w d I0) as I1.
  destruct (sock_connect flt w) as [w1 rc]. cbn [fst] in W1, I1.
  destruct rc as [u | e].
  2: { split; [exact I1 |]. unfold iconn. cbn [fst snd set_sock d_tconn]. rewrite Et. discriminate. }
  destruct (urandom_inv0 w1 _ I1) as (I2 & Hc & Hcl).
  pose proof (urandom_w h cfg0 w1 W1) as W2.
  destruct (urandom w1) as [c w2].
  destruct (urandom_inv0 w2 _ I2) as (I3 & Hv & Hvl).
  pose proof (urandom_w h cfg0 w2 W2) as W3.
  destruct (urandom w2) as [v w3].
  set (d1 := set_ids c v (set_opened true (set_sock true d))).
  assert (Inv (w3, d1)) as I4.
  { split.
    - destruct I3 as [Q3 T3 F3 C3 (_ & _ & B33 & B34) Y1 Y2 Y3].
      split; cbn [fst snd d1 set_ids set_opened set_sock d_ext d_ocid d_vsn d_route d_size]; auto.
    - unfold iconn. cbn [fst snd d1 set_ids set_opened set_sock d_tconn]. rewrite Et. discriminate. }
  assert (Good h cfg0 (w3, d1)) as G4.
  { split; [exact W3 |]. split; cbn [fst snd d1 set_ids set_opened set_sock d_sock d_tconn d_session d_opened]; auto.
    intros; discriminate. }
  pose proof (drv_register_session_inv (w3, d1) G4 I4) as I5.
  destruct (drv_register_session h flt (w3, d1)) as [s2 r2].
  destruct r2 as [[z |] | e]; exact I5.
Qed.

Lemma get_plc_info_inv s : Good h cfg0 s -> Inv s -> Inv (fst (get_plc_info h flt s)).
Proof.
  intros G I1. unfold get_plc_info.
  destruct (plc_info_message (snd s) (d_micro (snd s))) as [msg | e] eqn:Em; [| exact I1].
  pose proof (plc_info_message_effect _ _ _ Em) as Heff.
  destruct (rr_frame (d_session (snd s)) msg) as [fr | e] eqn:Ef; [| exact I1].
  pose proof (drv_send_keeps s fr G I1 (rr_frame_plain s _ _ _ Ef ltac:(rewrite Heff; discriminate))) as (_ & I2).
  { rewrite (rr_frame_effect _ _ _ Ef), Heff. destruct (bytes_ok msg); exact I. }
  destruct (drv_send h flt s (Ok fr) false) as [s1 r1].
  destruct r1 as [[raw |] | e]; exact I2.
Qed.

Lemma get_plc_name_inv s : Good h cfg0 s -> Inv s -> Inv (fst (get_plc_name h flt s)).
Proof.
  intros G I1. unfold get_plc_name.
  pose proof (with_forward_open_good h cfg0 flt s G) as (G1 & _ & _).
  pose proof (with_forward_open_inv s G I1) as (I2 & T2).
  destruct (with_forward_open h flt s) as [s1 r1].
  destruct r1 as [[] | e]; [| exact I2].
  pose proof (connected_request_inv s1 PLC_NAME_MSG G1 I2 (T2 eq_refl)) as I3.
  destruct (connected_request h flt s1 PLC_NAME_MSG) as [s2 r2].
  destruct r2 as [[[|] data] | e]; exact I3.
Qed.

Lemma initialize_driver_inv s : Good h cfg0 s -> Inv s -> Inv (fst (initialize_driver h flt s)).
Proof.
  intros G I1. unfold initialize_driver.
  pose proof (drv_send_good h cfg0 flt s (list_identity_frame (d_session (snd s))) false G (proj2 (proj2 (simple_frames_ok _)))) as (G1 & _ & _).
  destruct (list_identity_frame (d_session (snd s))) as [fr | e] eqn:Ef; [| exact I1].
  destruct (simple_frame_ok s _ _ _ _ _ Ef ltac:(discriminate) ltac:(discriminate)) as [Hf He].
  pose proof (drv_send_keeps s fr G I1 Hf (He ltac:(discriminate))) as (_ & I2).
  destruct (drv_send h flt s (Ok fr) false) as [[w1 d1] r1]. cbn [fst snd] in *.
  destruct r1 as [reply | e]; [| exact I2].
  set (micro := match reply with Some raw => starts_with MICRO800_PREFIX (product_name_of raw) | None => false end).
  set (s2 := (w1, set_micro micro d1)).
  assert (Inv s2) as I3 by (eapply inv_dsame; [| | exact I2]; repeat split).
  assert (Good h cfg0 s2) as G2.
  { apply (good_upd h cfg0 (w1, d1) _ G1); try reflexivity. cbn. auto. }
  pose proof (get_plc_info_good h cfg0 flt s2 G2) as (G3 & _ & _).
  pose proof (get_plc_info_inv s2 G2 I3) as I4.
  destruct (get_plc_info h flt s2) as [s3 r3].
  destruct r3 as [u | e]; [| exact I4].
  destruct micro.
  - (* Micro800: the last route segment goes *)
    cbn [fst snd]. destruct s3 as [w3 d3]. destruct I4 as [I4 Ic4]. split.
    + destruct (i_bytes _ I4) as (B1 & B2 & B3 & B4).
      destruct I4 as [Q T F C _ Z1 Z2 Z3]. split; cbn [fst snd set_route d_ext d_ocid d_vsn d_route d_size] in *; auto.
      split; [exact B1 |]. split; [exact B2 |]. split; [apply all_bytes_removelast; exact B3 | exact B4].
    + eapply iconn_dsame; [| exact Ic4]. repeat split.
  - pose proof (get_plc_name_inv s3 G3 I4) as I5.
    destruct (get_plc_name h flt s3) as [[w4 d4] r4]. destruct r4; exact I5.
Qed.

Lemma drv_open_inv logix s : Good h cfg0 s -> Inv s -> Inv (fst (drv_open h logix flt s)).
Proof.
  intros G I1. unfold drv_open. destruct logix; [| apply cip_open_inv; assumption].
  unfold logix_open.
  pose proof (cip_open_good h cfg0 flt s G) as (G1 & _).
  pose proof (cip_open_inv s G I1) as I2.
  destruct (cip_open h flt s) as [s1 r1].
  destruct r1 as [[|] | e]; try exact I2.
  pose proof (initialize_driver_inv s1 G1 I2) as I3.
  destruct (initialize_driver h flt s1) as [s2 r2].
  destruct r2; exact I3.
Qed.

Lemma drv_forward_close_inv0 s : Good h cfg0 s -> Inv0 s -> Inv0 (fst (drv_forward_close h flt s)).
Proof.
  intros G I0. unfold drv_forward_close. destruct s as [w d].
  destruct (d_session d =? 0); [exact I0 |].
  destruct (fc_message d) as [msg | e] eqn:Em; [| exact I0].
  pose proof (fc_message_effect d msg Em) as Heff.
  pose proof (generic_unconnected_inv (w, d) msg G I0) as (I1 & _).
  { intros fr Hfr. apply (rr_frame_plain _ _ _ _ Hfr). intros l. rewrite Heff. discriminate. }
  destruct (generic_unconnected h flt (w, d) msg) as [[w1 d1] r1].
  destruct r1 as [[[|] value] | e]; cbn [fst snd]; try exact I1.
  eapply inv0_dsame; [| exact I1]. repeat split.
Qed.

Lemma drv_un_register_session_inv0 s : Inv0 s -> Inv0 (fst (drv_un_register_session h flt s)).
Proof.
  intros I0. unfold drv_un_register_session.
  destruct (unregister_frame (d_session (snd s))) as [fr | e] eqn:Ef; [| exact I0].
  pose proof (drv_send_inv s fr true I0 (proj1 (simple_frame_ok _ _ _ _ _ _ Ef ltac:(discriminate) ltac:(discriminate)))
                (fun _ => unregister_no_reply _ _ Ef)) as (_ & I1).
  destruct (drv_send h flt s (Ok fr) true) as [s1 r1].
  destruct r1; exact I1.
Qed.

(* close() needs only [Inv0]: whatever the driver believed about its connection, it is reset *)
Lemma drv_close_inv s : Good h cfg0 s -> Inv0 s -> Inv (fst (drv_close h flt s)).
Proof.
  intros G I0.
  destruct (drv_close_stages h (fun s => Good h cfg0 s /\ Inv0 s) flt s (conj G I0)) as ([w2 d2] & [_ I2] & _ & ->).
  { intros s0 [G0 J0]. split; [apply (drv_forward_close_good h cfg0 flt s0 G0) | apply drv_forward_close_inv0; assumption]. }
  { intros s0 [G0 J0]. split; [apply (drv_un_register_session_good h cfg0 flt s0 G0) | apply drv_un_register_session_inv0; exact J0]. }
  cbn [fst snd]. split; [| unfold iconn; cbn; discriminate].
  apply (inv0_dsame _ d2); [repeat split |]. destruct (d_sock d2); [apply sock_close_inv0 |]; exact I2.
Qed.

Definition sop_ok (o : sop) : Prop :=
  match o with GenericUnconnected msg => user_ok msg = true | _ => True end.
Definition op_ok (o : op) : Prop :=
  match o with Simple so => sop_ok so | WithBlock body _ => Forall sop_ok body end.

Lemma exec_sop_inv logix s o : Good h cfg0 s -> Inv s -> sop_ok o -> Inv (fst (exec_sop h logix flt s o)).
Proof.
  intros G I1 Hok. destruct o as [| | m | m | items sa]; cbn [exec_sop].
  - pose proof (drv_open_inv logix s G I1) as I2.
    destruct (drv_open h logix flt s) as [s1 r1]. exact I2.
  - pose proof (drv_close_inv s G (proj1 I1)) as I2.
    destruct (drv_close h flt s) as [s1 r1]. exact I2.
  - pose proof (generic_connected_inv s m G I1) as I2.
    destruct (generic_connected h flt s m) as [s1 r1]. exact I2.
  - cbn [sop_ok] in Hok. unfold user_ok in Hok.
    assert (msg_effect m = ENone) as Heff by (destruct (msg_effect m); try discriminate; reflexivity).
    destruct I1 as [I0 Ic].
    pose proof (generic_unconnected_inv s m G I0) as (I2 & _ & Hic & _).
    { intros fr Hfr. apply (rr_frame_plain _ _ _ _ Hfr). intros l. rewrite Heff. discriminate. }
    destruct (generic_unconnected h flt s m) as [s1 r1].
    split; [exact I2 |]. apply Hic; [| exact Ic]. intros _. rewrite Heff. discriminate.
  - pose proof (connected_call_inv s items sa G I1) as I2.
    destruct (connected_call h flt s items sa) as [s1 r1]. exact I2.
Qed.

Lemma run_ops_inv logix ops : forall s, Good h cfg0 s -> Inv s -> Forall op_ok ops ->
  Inv (fst (run_ops h logix flt s ops)).
Proof.
  intros s G I1 Hok.
  apply (run_ops_keeps h logix flt (fun s => Good h cfg0 s /\ Inv s) (fun _ => True) sop_ok); auto.
  - intros s0 o [G0 I0] Ho. destruct (exec_sop_good h cfg0 logix flt s0 o G0) as (G1 & _).
    split; [split; [exact G1 | apply exec_sop_inv; assumption] | exact I].
  - intros s0 [G0 I0]. destruct (drv_open_good h cfg0 logix flt s0 G0) as (G1 & _).
    split; [split; [exact G1 | apply drv_open_inv; assumption] | intros; exact I].
  - intros s0 [G0 I0]. destruct (drv_close_good h cfg0 flt s0 G0) as (G1 & _).
    split; [exact G1 | apply drv_close_inv; [exact G0 | apply I0]].
Qed.
End Inv.

Lemma start_inv {S} (h : handler S) (app : S) cfg inj rands route :
  all_bytes route -> all_draws rands ->
  Inv h (init_world (start_target cfg inj app) rands, init_dstate route).
Proof.
  intros Hr Hn. split; [| unfold iconn; cbn; discriminate].
  split; cbn [fst snd init_world init_dstate w_queue w_trace w_rands d_ext d_ocid d_vsn d_route d_size].
  - reflexivity.
  - constructor.
  - exact I.
  - left. reflexivity.
  - split; [reflexivity |]. split; [reflexivity |]. split; [exact Hr | exact Hn].
  - constructor.
  - left. split; reflexivity.
  - split; reflexivity.
Qed.

Lemma run_inv {S} (h : handler S) app cfg inj flt logix route rands ops :
  inj_ok inj -> all_bytes route -> all_draws rands -> Forall op_ok ops ->
  Inv h (fst (run h app cfg inj flt logix route rands ops)).
Proof.
  intros Hinj Hr Hn Hops.
  exact (run_ops_inv h cfg flt logix ops _ (start_good h app cfg inj rands route Hinj) (start_inv h app cfg inj rands route Hr Hn) Hops).
Qed.
