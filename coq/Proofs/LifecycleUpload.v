(* Proofs/LifecycleUpload.v — the tag upload of LogixDriver.open(init_tags=True) (get_tag_list: symbol
   pages, template attributes, template reads — any number of @with_forward_open calls, each sending
   any number of connected requests) is abstracted to [ConnectedCall] operations.  Whatever the
   number of calls, their requests and the target's replies (any handler), the sequence preserves the
   reachability invariant [Good] and the lifecycle invariant [Inv], produces only library outcomes,
   and every SendUnitData frame it delivers is covered by the trace clauses of [Inv]. *)
From PV Require Import Base.Bytes Base.Res.
From PV Require Import Spec.TargetIface Spec.TargetCore.
From PV Require Import Proofs.LifecycleTarget Model.Lifecycle Proofs.LifecycleP Proofs.LifecycleInv.
Open Scope Z_scope.

Section Upload.
Context {S : Type} (h : handler S).

Definition upload_ops (calls : list (list (Z * bytes) * Z)) : list op :=
  map (fun c => Simple (ConnectedCall (fst c) (snd c))) calls.

Lemma upload_ops_ok calls : Forall op_ok (upload_ops calls).
Proof. unfold upload_ops. apply Forall_forall. intros o Ho. apply in_map_iff in Ho. destruct Ho as (c & <- & _). exact I. Qed.

Theorem upload_preserves cfg0 logix flt calls (s : st (S := S)) :
  Good h cfg0 s -> Inv h s ->
  let r := run_ops h logix flt s (upload_ops calls) in
  Good h cfg0 (fst r) /\ Inv h (fst r) /\ Forall (fun o => lib_outcome (o_out o)) (snd r).
Proof.
  intros G I1.
  pose proof (run_ops_good h cfg0 logix flt (upload_ops calls) s G) as (G1 & F1).
  split; [exact G1 |]. split; [apply (run_ops_inv h cfg0 flt logix (upload_ops calls) s G I1 (upload_ops_ok calls)) |].
  eapply Forall_impl; [| exact F1]. intros o [_ L]. exact L.
Qed.

(* LogixDriver.open with the upload: the modelled open() followed by the upload's calls *)
Corollary open_with_upload_preserves cfg0 flt calls (s : st (S := S)) :
  Good h cfg0 s -> Inv h s ->
  let r := run_ops h true flt s (Simple Open :: upload_ops calls) in
  Good h cfg0 (fst r) /\ Inv h (fst r).
Proof.
  intros G I1.
  assert (Forall op_ok (Simple Open :: upload_ops calls)) as Hok by (constructor; [exact I | apply upload_ops_ok]).
  pose proof (run_ops_good h cfg0 true flt (Simple Open :: upload_ops calls) s G) as (G1 & _).
  split; [exact G1 | apply (run_ops_inv h cfg0 flt true _ s G I1 Hok)].
Qed.
End Upload.
