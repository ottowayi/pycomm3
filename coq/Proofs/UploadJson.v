(* Proofs/UploadJson.v — C05: tags_json is JSON-serialisable.
   [tags_json_serialisable]: for EVERY list of uploaded tags (whatever the peer sent), the value
   tags_json builds contains no object json cannot serialise — no type_class, no _struct_members —
   at any depth.  By induction on the nesting depth of the structure definitions. *)
From Coq Require Import String.
From PV Require Import Base.Bytes Base.ListLemmas Base.Proto Base.PyStr Base.Res Model.LogixUpload.
Open Scope string_scope.
Open Scope Z_scope.

Fixpoint dt_depth (d : datatype) : nat :=
  match d with
  | MkDT _ internal _ _ _ _ _ =>
      S ((fix go (l : list (text * member)) : nat :=
            match l with
            | [] => O
            | nm :: r => Nat.max (match mm_dtype (snd nm) with DDef d' => dt_depth d' | _ => O end) (go r)
            end) internal)
  end.

Lemma dt_depth_member name internal attrs tmpl str sm tc n m d' :
  In (n, m) internal -> mm_dtype m = DDef d' ->
  (dt_depth d' < dt_depth (MkDT name internal attrs tmpl str sm tc))%nat.
Proof.
  intros Hin Hd. cbn [dt_depth]. apply Nat.lt_succ_r.
  induction internal as [|[n0 m0] r IH]; [destruct Hin|].
  destruct Hin as [E | Hin].
  - injection E as -> ->. cbn [snd]. rewrite Hd. apply Nat.le_max_l.
  - etransitivity; [apply IH; exact Hin | apply Nat.le_max_r].
Qed.

(* the dict of one member of internal_tags, as datatype_py writes it *)
Definition member_py_dict (m : member) : pyval :=
  PDict ([(K "offset", PInt (mm_offset m));
          (K "tag_type", if mm_struct m then K "struct" else K "atomic");
          (K "data_type", dtype_py (mm_dtype m));
          (K "data_type_name", ostr (mm_dtname m))]
         ++ (match mm_bit m with Some b => [(K "bit", PInt b)] | None => [] end)
         ++ (match mm_array m with Some a => [(K "array", PInt a)] | None => [] end)
         ++ [(K "type_class", tclass_py (mm_tclass m))]).

Lemma datatype_py_eq name internal attrs tmpl str sm tc :
  datatype_py (MkDT name internal attrs tmpl str sm tc)
  = PDict ([(K "name", ostr name);
            (K "internal_tags", PDict (map (fun nm => (PStr (fst nm), member_py_dict (snd nm))) internal));
            (K "attributes", PList (map PStr attrs));
            (K "template", template_py tmpl)]
           ++ (match str with Some c => [(K "string", PInt c)] | None => [] end)
           ++ (match sm with Some x => [(K "_struct_members", struct_members_py x)] | None => [] end)
           ++ [(K "type_class", tclass_py tc)]).
Proof.
  cbn [datatype_py].
  rewrite (map_ext _ (fun nm => (PStr (fst nm), member_py_dict (snd nm)))); [reflexivity|].
  intros [n m]. reflexivity.
Qed.

Definition copy_entry (kv : pyval * pyval) : list (pyval * pyval) :=
  let '(k, v) := kv in
  if is_key "type_class" k || is_key "_struct_members" k then []
  else if is_key "data_type" k then [(k, match v with PDict _ => copy_datatype v | _ => v end)]
  else if is_key "internal_tags" k then
    [(k, match v with
         | PDict its => PDict (map (fun kv2 : pyval * pyval => let '(k2, v2) := kv2 in (k2, copy_datatype v2)) its)
         | _ => py_raises
         end)]
  else [(k, v)].

Definition okkv (kv : pyval * pyval) : bool := json_key (fst kv) && serialisable (snd kv).
Definition entry_ok (kv : pyval * pyval) : bool := forallb okkv (copy_entry kv).

Lemma copy_dict_serialisable kvs : serialisable (copy_datatype (PDict kvs)) = forallb entry_ok kvs.
Proof. exact (forallb_flat_map okkv copy_entry kvs). Qed.

(* The dictionaries of the upload have literal keys, so which of the four cases of copy_entry an
   entry falls under is decided by evaluation; what remains is a condition on its value. *)
Definition plain_key (k : pyval) : bool :=
  negb (is_key "type_class" k || is_key "_struct_members" k || is_key "data_type" k || is_key "internal_tags" k)
  && json_key k.

Lemma entry_ok_plain k v : plain_key k = true -> serialisable v = true -> entry_ok (k, v) = true.
Proof.
  unfold plain_key, entry_ok, copy_entry, okkv. intros Hk Hv.
  destruct (is_key "type_class" k), (is_key "_struct_members" k), (is_key "data_type" k), (is_key "internal_tags" k);
    try discriminate Hk.
  cbn in *. rewrite Hk, Hv. reflexivity.
Qed.

Lemma entry_ok_dropped1 v : entry_ok (K "type_class", v) = true.
Proof. reflexivity. Qed.
Lemma entry_ok_dropped2 v : entry_ok (K "_struct_members", v) = true.
Proof. reflexivity. Qed.

Lemma entry_ok_data_type t :
  (forall d, t = DDef d -> serialisable (copy_datatype (datatype_py d)) = true) ->
  entry_ok (K "data_type", dtype_py t) = true.
Proof.
  intros IH. destruct t as [|x|d]; [reflexivity | reflexivity |]. specialize (IH d eq_refl).
  change (serialisable (match datatype_py d with PDict _ => copy_datatype (datatype_py d) | _ => datatype_py d end) && true = true).
  rewrite andb_true_r. destruct (datatype_py d); solve [exact IH | discriminate IH].
Qed.

Lemma entry_ok_internal_tags its :
  (forall kv, In kv its -> json_key (fst kv) = true /\ serialisable (copy_datatype (snd kv)) = true) ->
  entry_ok (K "internal_tags", PDict its) = true.
Proof.
  intros H.
  change (forallb okkv (map (fun kv : pyval * pyval => let '(k, v) := kv in (k, copy_datatype v)) its) && true = true).
  rewrite andb_true_r.
  apply forallb_forall. intros kv Hkv. apply in_map_iff in Hkv.
  destruct Hkv as ([k2 v2] & <- & Hin). apply andb_true_intro. exact (H _ Hin).
Qed.

Lemma entries_ok_option {A} (o : option A) k (f : A -> pyval) :
  (forall a, entry_ok (k, f a) = true) ->
  forallb entry_ok (match o with Some a => [(k, f a)] | None => [] end) = true.
Proof. intros H. destruct o; [cbn [forallb]; rewrite H|]; reflexivity. Qed.

Lemma serialisable_strs l : serialisable (PList (map PStr l)) = true.
Proof. induction l; [reflexivity | exact IHl]. Qed.
Lemma serialisable_ints l : serialisable (PList (map PInt l)) = true.
Proof. induction l; [reflexivity | exact IHl]. Qed.
Lemma serialisable_ostr o : serialisable (ostr o) = true.
Proof. destruct o; reflexivity. Qed.
Lemma serialisable_oint o : serialisable (oint o) = true.
Proof. destruct o; reflexivity. Qed.
Lemma template_py_serialisable a : serialisable (template_py a) = true.
Proof. reflexivity. Qed.

(* the entries that need an argument are rewritten to true first; what is left of a dictionary
   with literal keys are dropped entries and plain entries whose values hold no object *)
Create HintDb json.
#[local] Hint Resolve entry_ok_dropped1 entry_ok_dropped2 entries_ok_option
  serialisable_strs serialisable_ints serialisable_ostr serialisable_oint template_py_serialisable : json.
#[local] Hint Extern 2 (entry_ok _ = true) => apply entry_ok_plain; [reflexivity|] : json.

Ltac entries := repeat match goal with |- _ && _ = true => apply andb_true_intro; split end; auto with json.

Lemma copy_member_serialisable m :
  (forall d', mm_dtype m = DDef d' -> serialisable (copy_datatype (datatype_py d')) = true) ->
  serialisable (copy_datatype (member_py_dict m)) = true.
Proof.
  intros IH. unfold member_py_dict. rewrite copy_dict_serialisable, !forallb_app. cbn [forallb].
  rewrite (entry_ok_data_type _ IH). clear IH. entries.
  destruct (mm_struct m); reflexivity.
Qed.

Theorem copy_datatype_serialisable : forall d, serialisable (copy_datatype (datatype_py d)) = true.
Proof.
  intros d. remember (dt_depth d) as n eqn:En. revert d En.
  induction n as [n IHn] using lt_wf_ind. intros [name internal attrs tmpl str sm tc] ->.
  rewrite datatype_py_eq, copy_dict_serialisable, !forallb_app. cbn [forallb].
  rewrite entry_ok_internal_tags; [clear IHn; entries|].
  intros kv Hkv. apply in_map_iff in Hkv.
  destruct Hkv as ([n0 m0] & <- & Hin). split; [reflexivity|].
  apply copy_member_serialisable. intros d' Hd'.
  eapply IHn; [|reflexivity]. eapply dt_depth_member; eassumption.
Qed.

Lemma copy_tag_serialisable t : serialisable (copy_datatype (tag_py t)) = true.
Proof.
  unfold tag_py. destruct (tg_struct t); rewrite copy_dict_serialisable, ?forallb_app; cbn [forallb];
    rewrite (entry_ok_data_type (tg_dtype t) (fun d _ => copy_datatype_serialisable d)); entries.
Qed.

(* json.dumps(drv.tags_json) cannot meet a type class, whatever was uploaded *)
Theorem tags_json_serialisable : forall tags, serialisable (tags_json tags) = true.
Proof.
  intros tags. unfold tags_json. cbn [serialisable].
  apply forallb_forall. intros kv Hkv. apply in_map_iff in Hkv. destruct Hkv as ([n t] & <- & _).
  cbn [fst snd json_key andb]. apply copy_tag_serialisable.
Qed.

(* the filter is needed: the dictionaries themselves are not serialisable *)
Example tags_py_not_serialisable :
  let t := mkMTag (T "x") 0 false 1 0 0 0 (T "Read/Write") [0; 0; 0] false None (DName (T "DINT")) (Some (T "DINT")) None (TcAtom (T "DINT")) in
  serialisable (tag_py t) = false /\ serialisable (copy_datatype (tag_py t)) = true.
Proof. vm_compute. auto. Qed.
