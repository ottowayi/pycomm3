(* Proofs/GenericPath.v — the request path generic_message emits (Model/Path.v request_path) is read
   back by the target's class/instance/attribute reader (Spec/MRParser.v path_cia). *)
From Coq Require Import String ZifyBool.
From PV Require Import Base.Bytes Base.BytesLemmas Base.Res Base.Proto Base.PyStr Gen.PathTables Model.Path.
From PV Require Import Spec.EncapParser Spec.MRParser Spec.TargetIface Proofs.TargetCoreP.
From PV Require Import Proofs.PathStr.
Open Scope Z_scope.
Ltac Zify.zify_post_hook ::= Z.to_euclidean_division_equations.

(* the integer an id argument denotes *)
Definition lval_value (v : lval) : Z := match v with LInt z => z | LBytes b => le_dec b end.

(* ids the statement quantifies over: int below 2^(8 wmax) or bytes of length 1 / 2 (/ 4 when wmax = 4) *)
Definition id_ok (wmax : Z) (v : lval) : bool :=
  match v with
  | LInt z => (0 <=? z) && (z <? (if wmax =? 4 then 4294967296 else 65536))
  | LBytes b => bytes_ok b && ((blen b =? 1) || (blen b =? 2) || ((wmax =? 4) && (blen b =? 4)))
  end.

(* the value bytes of an id: 1, 2 or (when allowed) 4 bytes denoting the id *)
Lemma value_bytes_spec wmax v : id_ok wmax v = true ->
  exists vb, logical_value_bytes v = Ok vb /\ bytes_ok vb = true /\ le_dec vb = lval_value v
             /\ (List.length vb = 1%nat \/ List.length vb = 2%nat \/ (wmax = 4 /\ List.length vb = 4%nat)).
Proof.
  intros Hid. destruct v as [z | bs]; cbn [id_ok lval_value logical_value_bytes] in *.
  - destruct (z <=? 255) eqn:E1.
    + exists (le_enc 1 z). unfold USINT_encode. rewrite uint_encode_in by (rewrite pow256_1; lia).
      repeat split; [apply le_enc_ok | apply le_dec_enc_id; rewrite pow256_1; lia | left; reflexivity].
    + destruct (z <=? 65535) eqn:E2.
      * exists (le_enc 2 z). unfold UINT_encode. rewrite uint_encode_in by (rewrite pow256_2; lia).
        repeat split; [apply le_enc_ok | apply le_dec_enc_id; rewrite pow256_2; lia | right; left; reflexivity].
      * destruct (wmax =? 4) eqn:Ew; [| lia].
        destruct (z <=? 4294967295) eqn:E3; [| lia].
        exists (le_enc 4 z). unfold UDINT_encode. rewrite uint_encode_in by (rewrite pow256_4; lia).
        repeat split; [apply le_enc_ok | apply le_dec_enc_id; rewrite pow256_4; lia | right; right; split; [lia | reflexivity]].
  - apply andb_prop in Hid as [Hok Hl]. exists bs. repeat split; [exact Hok |]. unfold blen in Hl. lia.
Qed.

(* one logical segment, for a logical type number lt in 0..4 (bits 4..2 of the segment byte) *)
Lemma enc_logical_spec t lt wmax v :
  assoc_text t logical_types = Some (4 * lt) -> 0 <= lt <= 4 -> (wmax = 4 -> 1 <= lt <= 3) ->
  id_ok wmax v = true ->
  exists b r, encode_seg true (Logical t v) = Ok (b :: r)
    /\ (forall tl, parse_logical b (r ++ tl) = Some (lt, lval_value v, tl))
    /\ bytes_ok (b :: r) = true /\ Z.even (blen (b :: r)) = true /\ blen (b :: r) <= 6.
Proof.
  intros Ht Hlt Hw Hid.
  destruct (value_bytes_spec wmax v Hid) as (vb & Hvb & Hok & Hval & Hlen).
  unfold encode_seg, encode_logical, encode_logical_with. rewrite Ht, Hvb. cbn [bind]. rewrite <- Hval.
  assert (Hl : lt = 0 \/ lt = 1 \/ lt = 2 \/ lt = 3 \/ lt = 4) by lia.
  destruct Hlen as [H1 | [H2 | [H4w H4]]]; [| | specialize (Hw H4w)].
  1: destruct vb as [| a [| ? ?]]; try discriminate.
  2: destruct vb as [| a [| b [| ? ?]]]; try discriminate.
  3: destruct vb as [| a [| b [| c [| d [| ? ?]]]]]; try discriminate.
  all: cbn [bytes_ok forallb] in Hok; unfold byte_ok in Hok.
  all: destruct Hl as [-> | [-> | [-> | [-> | ->]]]]; try lia.
  all: eexists _, _; split; [reflexivity |]; split; [| split; [| split]].
  (* five logical types, three formats: the segment byte is a closed number, the reader evaluates on it *)
  all: try reflexivity; try (cbn; unfold byte_ok; lia).
  all: intros tl; set (sb := Z.lor _ _); vm_compute in sb; subst sb.
  all: cbn -[Z.mul Z.add]; set (rhs := Some _); cbn -[u16 u32]; subst rhs; unfold u16, u32.
  all: do 3 f_equal; lia.
Qed.

Definition att_ok (a : option lval) : bool :=
  match a with None => true | Some v => negb (lval_truthy v) || id_ok 2 v end.
(* attribute 0 / b"" (the default) = no attribute segment *)
Definition att_value (a : option lval) : option Z :=
  match a with
  | Some v => if lval_truthy v then Some (lval_value v) else None
  | None => None
  end.

Lemma blen_pos_cons (x : Z) l : 0 < blen (x :: l).
Proof. rewrite blen_cons. pose proof (blen_nonneg l). lia. Qed.

Lemma even_add a b : Z.even a = true -> Z.even b = true -> Z.even (a + b) = true.
Proof. rewrite Z.even_add. intros -> ->. reflexivity. Qed.

Theorem request_path_cia cls ins att :
  id_ok 2 cls = true -> id_ok 4 ins = true -> att_ok att = true ->
  exists p, request_path cls ins att = Ok ((blen p / 2) :: p)
    /\ path_cia p = Some (lval_value cls, lval_value ins, att_value att)
    /\ bytes_ok p = true /\ Z.even (blen p) = true /\ 0 < blen p <= 18.
Proof.
  intros Hc Hi Ha.
  destruct (enc_logical_spec (txt "class_id") 0 2 cls eq_refl ltac:(lia) ltac:(lia) Hc)
    as (b1 & r1 & E1 & P1 & O1 & V1 & L1).
  destruct (enc_logical_spec (txt "instance_id") 1 4 ins eq_refl ltac:(lia) ltac:(lia) Hi)
    as (b2 & r2 & E2 & P2 & O2 & V2 & L2).
  assert (A : exists p3, encode_segs true (match att with
                                            | Some a => if lval_truthy a then [Logical (txt "attribute_id") a] else []
                                            | None => [] end) = Ok p3
                /\ bytes_ok p3 = true /\ Z.even (blen p3) = true /\ 0 <= blen p3 <= 6
                /\ forall f, (List.length p3 <= f)%nat ->
                     parse_logicals f p3 = Some (match att_value att with Some av => [(4, av)] | None => [] end)).
  { assert (N : exists p3 : bytes, encode_segs true [] = Ok p3 /\ bytes_ok p3 = true /\ Z.even (blen p3) = true
                  /\ 0 <= blen p3 <= 6 /\ forall f, (List.length p3 <= f)%nat -> parse_logicals f p3 = Some [])
      by (exists []; repeat split; try reflexivity; try (cbn; lia); intros [|f] _; reflexivity).
    destruct att as [a |]; [| exact N]. cbn [att_value att_ok] in *. destruct (lval_truthy a); [| exact N].
    destruct (enc_logical_spec (txt "attribute_id") 4 2 a eq_refl ltac:(lia) ltac:(lia) Ha)
      as (b3 & r3 & E3 & P3 & O3 & V3 & L3).
    exists (b3 :: r3). cbn [encode_segs]. rewrite E3. cbn [bind]. rewrite app_nil_r. pose proof (blen_pos_cons b3 r3).
    split; [reflexivity |]. split; [exact O3 |]. split; [exact V3 |]. split; [lia |].
    intros [|f] Hf; [cbn in Hf; lia |]. rewrite <- (app_nil_r r3). cbn [parse_logicals]. rewrite P3. destruct f; reflexivity. }
  destruct A as (p3 & E3 & O3 & V3 & L3 & P3).
  unfold request_path, request_path_segs, epath_encode. change padded_PADDED_EPATH with true.
  cbn [app encode_segs]. rewrite E1, E2, E3. cbn [bind].
  pose proof (blen_pos_cons b1 r1) as Q1. pose proof (blen_pos_cons b2 r2) as Q2.
  set (p := (b1 :: r1) ++ (b2 :: r2) ++ p3).
  assert (Hlen : blen p = blen (b1 :: r1) + blen (b2 :: r2) + blen p3) by (unfold p; rewrite !blen_app; lia).
  assert (Hev : Z.even (blen p) = true) by (rewrite Hlen; repeat apply even_add; assumption).
  change (len p) with (blen p). rewrite USINT_small by lia. cbn [bind app wrap_all].
  exists p. split; [reflexivity |]. split; [| split; [| split]]; [| | exact Hev | lia].
  - unfold path_cia.
    assert (Hf : exists f, List.length p = S (S f) /\ (List.length p3 <= f)%nat).
    { exists (List.length r1 + List.length r2 + List.length p3)%nat. unfold p. rewrite !app_length. cbn [List.length]. lia. }
    destruct Hf as (f & -> & Hf). unfold p.
    cbn [app parse_logicals]. rewrite P1. cbn [app parse_logicals]. rewrite P2, (P3 f Hf).
    destruct (att_value att); reflexivity.
  - unfold p. rewrite !bytes_ok_app, O1, O2, O3. reflexivity.
Qed.
