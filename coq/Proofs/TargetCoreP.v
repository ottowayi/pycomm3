(* Proofs/TargetCoreP.v — the reference target's core half (Spec/EncapParser, Spec/TargetCore):
   the strict parsers read back what the builders build, and are inverted; a reply is no longer than
   the capacity given, or 4 bytes ([fit]), so a connected reply fits the size granted at Forward Open; what a
   request leaves alone ([same_tables]: only log, application and injection countdown change; [inj_sub]
   is stated over every property of the statuses so that no sublist relation is needed); every
   connection ever held is at least MIN_CONN_SIZE wide ([conns_ok]); a recorded run. *)
From Coq Require Import ZifyBool.
From PV Require Import Base.Bytes Base.BytesLemmas Spec.EncapParser Spec.MRParser Spec.TargetIface Spec.TargetCore.
Open Scope Z_scope.

Lemma blen_nonneg bs : 0 <= blen bs.
Proof. unfold blen. lia. Qed.
Lemma blen_app a b : blen (a ++ b) = blen a + blen b.
Proof. unfold blen. rewrite app_length. lia. Qed.
Lemma blen_cons x l : blen (x :: l) = 1 + blen l.
Proof. unfold blen. cbn [List.length]. lia. Qed.
Lemma blen_nil : blen [] = 0.
Proof. reflexivity. Qed.
Lemma blen_le_enc w z : blen (le_enc w z) = Z.of_nat w.
Proof. unfold blen. now rewrite le_enc_length. Qed.

Lemma u16_enc z : 0 <= z < 65536 -> u16 (z mod 256) ((z / 256) mod 256) = z.
Proof. unfold u16. lia. Qed.
Lemma u32_enc z : 0 <= z < 4294967296 ->
  u32 (z mod 256) ((z / 256) mod 256) ((z / 256 / 256) mod 256) ((z / 256 / 256 / 256) mod 256) = z.
Proof. unfold u32. lia. Qed.

Lemma takez_0 bs : takez 0 bs = Some ([], bs).
Proof. unfold takez. pose proof (blen_nonneg bs). destruct (0 <=? blen bs) eqn:E; [reflexivity | lia]. Qed.

Lemma takez_app a b : takez (blen a) (a ++ b) = Some (a, b).
Proof.
  unfold takez. pose proof (blen_nonneg a) as Ha. pose proof (blen_nonneg b) as Hb.
  rewrite blen_app.
  destruct ((0 <=? blen a) && (blen a <=? blen a + blen b)) eqn:E; [| lia].
  unfold blen. rewrite Nat2Z.id, firstn_app_exact, skipn_app_exact. reflexivity.
Qed.

Lemma parse_header_mk cmd len ses st x0 x1 x2 x3 x4 x5 x6 x7 opt body :
  parse_header (mk_header cmd len ses st [x0; x1; x2; x3; x4; x5; x6; x7] opt ++ body)
  = Some ({| h_cmd := u16 (cmd mod 256) ((cmd / 256) mod 256);
             h_len := u16 (len mod 256) ((len / 256) mod 256);
             h_session := u32 (ses mod 256) ((ses / 256) mod 256) ((ses / 256 / 256) mod 256) ((ses / 256 / 256 / 256) mod 256);
             h_status := u32 (st mod 256) ((st / 256) mod 256) ((st / 256 / 256) mod 256) ((st / 256 / 256 / 256) mod 256);
             h_context := [x0; x1; x2; x3; x4; x5; x6; x7];
             h_options := u32 (opt mod 256) ((opt / 256) mod 256) ((opt / 256 / 256) mod 256) ((opt / 256 / 256 / 256) mod 256) |},
           body).
Proof. reflexivity. Qed.

Lemma mk_header_ok cmd len ses st ctx opt : bytes_ok ctx = true -> bytes_ok (mk_header cmd len ses st ctx opt) = true.
Proof.
  intros H. unfold mk_header. rewrite !bytes_ok_app, !le_enc_ok, H. reflexivity.
Qed.

Lemma length8 (l : bytes) : blen l = 8 -> exists x0 x1 x2 x3 x4 x5 x6 x7, l = [x0; x1; x2; x3; x4; x5; x6; x7].
Proof.
  unfold blen. intros H.
  do 8 (destruct l as [| ? l]; [cbn in H; lia |]).
  destruct l; [| cbn in H; lia]. now do 8 eexists.
Qed.

Lemma parse_cpf_mk cmd t a dt d :
  0 <= t < 65536 -> blen d < 65536 ->
  match a with
  | AddrNull => cmd = CMD_RRDATA /\ dt = ITEM_UNCONN_DATA
  | AddrConn cid => cmd = CMD_UNITDATA /\ dt = ITEM_CONN_DATA /\ 0 <= cid < 4294967296 /\ 2 <= blen d
  end -> parse_cpf cmd (mk_cpf t a dt d) = RcOk (BCpf t a dt d).
Proof.
  intros Ht Hl Ha. pose proof (blen_nonneg d) as Hn.
  (* both address items are <type> <length> <data>, read by the same three steps *)
  set (aty := match a with AddrNull => ITEM_NULL | AddrConn _ => ITEM_CONN_ADDR end).
  set (ad := match a with AddrNull => [] | AddrConn cid => le_enc 4 cid end).
  assert (addr_bytes a = le_enc 2 aty ++ le_enc 2 (blen ad) ++ ad) as Ea by (destruct a; reflexivity).
  assert (0 <= aty < 65536 /\ 0 <= blen ad < 65536 /\ 0 <= dt < 65536) as (Haty & Had & Hdt)
    by (subst aty ad; destruct a; unfold ITEM_UNCONN_DATA, ITEM_CONN_DATA, ITEM_NULL, ITEM_CONN_ADDR in *;
        rewrite ?blen_le_enc, ?blen_nil; lia).
  unfold mk_cpf. rewrite Ea. cbn [le_enc app]. unfold parse_cpf.
  replace (u32 0 0 0 0 =? 0) with true by reflexivity. replace (u16 2 0 =? 2) with true by reflexivity. cbn [negb].
  rewrite !u16_enc by lia. rewrite takez_app, !u16_enc by lia. rewrite Z.ltb_irrefl. subst aty ad.
  destruct a as [| cid]; [destruct Ha as [-> ->] | destruct Ha as (-> & -> & Hc & Hd)];
    cbn [ITEM_NULL ITEM_CONN_ADDR ITEM_CONN_DATA ITEM_UNCONN_DATA CMD_RRDATA CMD_UNITDATA Z.eqb Pos.eqb orb andb negb
         blen length Z.of_nat Pos.of_succ_nat Pos.succ le_enc].
  - reflexivity.
  - destruct (blen d <? 2) eqn:E; [lia |]. change (cid mod 256 :: _) with (le_enc 4 cid).
    rewrite le_dec_enc_id by (unfold pow256; cbn; lia). reflexivity.
Qed.

Lemma body_bytes_facts cmd b : body_wf cmd b = true ->
  bytes_ok (body_bytes b) = true /\ blen (body_bytes b) < 65536 /\ known_command cmd = true /\ 0 <= cmd < 65536
  /\ parse_body cmd (body_bytes b) = RcOk b.
Proof.
  unfold body_wf. destruct b as [d | | | t a dt d]; intros H.
  - rewrite !Bool.andb_true_iff in H. destruct H as [[H1 H2] H3]. unfold CMD_NOP in H1.
    assert (cmd = 0) by lia. subst cmd. cbn. repeat split; try lia; assumption.
  - cbn [body_bytes]. rewrite blen_nil.
    unfold CMD_LIST_SERVICES, CMD_LIST_IDENTITY, CMD_LIST_INTERFACES, CMD_UNREGISTER in H.
    assert (cmd = 4 \/ cmd = 99 \/ cmd = 100 \/ cmd = 102) as [-> | [-> | [-> | ->]]] by lia; cbn; repeat split; lia.
  - assert (cmd = 101) by (unfold CMD_REGISTER in H; lia). subst cmd. cbn. repeat split; lia.
  - rewrite !Bool.andb_true_iff in H. destruct H as [[[H0 H1] Hd] Ha]. pose proof (blen_nonneg d) as Hn.
    assert (parse_cpf cmd (mk_cpf t a dt d) = RcOk (BCpf t a dt d)) as Hp
      by (apply parse_cpf_mk; destruct a; unfold CMD_RRDATA, CMD_UNITDATA, ITEM_UNCONN_DATA, ITEM_CONN_DATA in *; lia).
    assert ((cmd = 111 \/ cmd = 112) /\ blen (addr_bytes a) <= 8 /\ bytes_ok (addr_bytes a) = true
            /\ blen d < 65536 - 12 - blen (addr_bytes a)) as (Hc & Hal & Hao & Hl).
    { destruct a; unfold CMD_RRDATA, CMD_UNITDATA in Ha; cbn [addr_bytes]; rewrite ?bytes_ok_app, ?blen_app, ?le_enc_ok, ?blen_le_enc;
        (split; [lia |]); (split; [cbn; lia |]); (split; [reflexivity |]); cbn; lia. }
    cbn [body_bytes]. repeat split; try lia.
    + unfold mk_cpf. rewrite !bytes_ok_app, !le_enc_ok, Hao, Hd. reflexivity.
    + unfold mk_cpf. rewrite !blen_app, !blen_le_enc. change (blen [0; 0; 0; 0]) with 4. change (blen [2; 0]) with 2. lia.
    + destruct Hc as [-> | ->]; reflexivity.
    + destruct Hc as [-> | ->]; exact Hp.
Qed.

(* every well-formed frame is built into bytes that the strict parser accepts, and reads back as itself *)
Theorem parse_mk_frame : forall f, frame_wf f = true -> parse_frame (mk_frame f) = RcOk f.
Proof.
  intros [cmd ses ctx body]. unfold frame_wf. cbn [f_cmd f_session f_context f_body].
  rewrite !Bool.andb_true_iff. intros [[[[Hs0 Hs1] Hc] Hl] Hb].
  destruct (body_bytes_facts cmd body Hb) as (Hok & Hlen & Hk & Hcmd & Hp).
  assert (blen ctx = 8) as H8 by lia.
  destruct (length8 ctx H8) as (x0 & x1 & x2 & x3 & x4 & x5 & x6 & x7 & ->).
  pose proof (blen_nonneg (body_bytes body)) as Hn.
  unfold parse_frame, mk_frame. cbn [f_cmd f_session f_context f_body].
  rewrite bytes_ok_app, mk_header_ok, Hok by assumption. cbn [andb negb].
  rewrite parse_header_mk. cbn [h_cmd h_len h_session h_status h_context h_options].
  rewrite !u16_enc, !u32_enc by lia.
  rewrite Z.eqb_refl, Hk. cbn [negb Z.eqb]. rewrite Hp. reflexivity.
Qed.

(* the same for the message-router envelope *)
Theorem parse_mk_mr : forall r, mr_wf r = true -> parse_mr (mk_mr r) = RcOk r.
Proof.
  intros [svc p d]. unfold mr_wf, mk_mr, parse_mr. cbn [mr_service mr_path mr_data].
  rewrite !Bool.andb_true_iff. intros [[[H0 H1] He] Hl].
  destruct (128 <=? svc) eqn:E; [lia |].
  pose proof (blen_nonneg p) as Hn.
  replace (2 * (blen p / 2)) with (blen p) by (rewrite Z.even_spec in He; destruct He as [k Hk]; lia).
  rewrite takez_app. reflexivity.
Qed.

(* non-vacuity: concrete well-formed frames of every kind *)
Example frame_wf_inhabited :
  frame_wf {| f_cmd := CMD_REGISTER; f_session := 0; f_context := [95; 112; 121; 99; 111; 109; 109; 95]; f_body := BRegister |} = true
  /\ frame_wf {| f_cmd := CMD_RRDATA; f_session := 7; f_context := zeros 8;
                 f_body := BCpf 10 AddrNull ITEM_UNCONN_DATA [1; 2; 32; 1; 36; 1] |} = true
  /\ frame_wf {| f_cmd := CMD_UNITDATA; f_session := 7; f_context := zeros 8;
                 f_body := BCpf 10 (AddrConn 305419896) ITEM_CONN_DATA [1; 0; 1; 2; 32; 1; 36; 1] |} = true.
Proof. repeat split; reflexivity. Qed.

Lemma parse_frame_inv bs f : parse_frame bs = RcOk f ->
  exists hd body, parse_header bs = Some (hd, body) /\ f_cmd f = h_cmd hd /\ f_session f = h_session hd
                  /\ f_context f = h_context hd /\ parse_body (h_cmd hd) body = RcOk (f_body f)
                  /\ known_command (h_cmd hd) = true /\ bytes_ok bs = true.
Proof.
  unfold parse_frame. destruct (bytes_ok bs) eqn:Eok; cbn [negb]; [| discriminate].
  destruct (parse_header bs) as [[hd body] |]; [| discriminate].
  destruct (negb (h_len hd =? blen body)); [discriminate |].
  destruct (known_command (h_cmd hd)) eqn:Ek; cbn [negb]; [| discriminate].
  destruct (negb (h_status hd =? 0)); [discriminate |].
  destruct (negb (h_options hd =? 0)); [discriminate |].
  destruct (parse_body (h_cmd hd) body) as [b | c] eqn:Eb; [| discriminate].
  intros H. inversion H; subst f; clear H. exists hd, body. cbn [f_cmd f_session f_context f_body].
  repeat split; try reflexivity; assumption.
Qed.

Lemma parse_header_inv bs hd body : parse_header bs = Some (hd, body) ->
  h_cmd hd = u16 (nth 0 bs 0) (nth 1 bs 0) /\ List.length (h_context hd) = 8%nat.
Proof.
  unfold parse_header.
  do 24 (destruct bs as [| ? bs]; [discriminate |]).
  intros H. inversion H; subst. split; reflexivity.
Qed.

Lemma parse_cpf_inv cmd body b : parse_cpf cmd body = RcOk b ->
  exists t a dt d, b = BCpf t a dt d
    /\ match a with AddrNull => (cmd =? CMD_RRDATA) = true | AddrConn _ => (cmd =? CMD_RRDATA) = false end.
Proof.
  unfold parse_cpf.
  repeat (match goal with
          | |- context [if ?x then _ else _] => destruct x eqn:?
          | |- context [match ?x with _ => _ end] => destruct x
          end; try discriminate).
  all: intros [= <-]; do 4 eexists; (split; [reflexivity |]);
    unfold ITEM_NULL, ITEM_CONN_ADDR in *; destruct (cmd =? CMD_RRDATA); lia.
Qed.

Lemma parse_body_inv cmd body b : parse_body cmd body = RcOk b ->
  match b with
  | BNop _ => cmd = CMD_NOP
  | BRegister => cmd = CMD_REGISTER
  | BEmpty => cmd <> CMD_NOP /\ cmd <> CMD_REGISTER /\ cmd <> CMD_RRDATA /\ cmd <> CMD_UNITDATA
  | BCpf _ AddrNull _ _ => cmd = CMD_RRDATA
  | BCpf _ (AddrConn _) _ _ => cmd = CMD_UNITDATA
  end.
Proof.
  unfold parse_body.
  destruct (cmd =? CMD_NOP) eqn:E0; [intros [= <-]; lia |].
  destruct (cmd =? CMD_REGISTER) eqn:E1.
  { destruct body as [| ? [| ? [| ? [| ? [| ? ?]]]]]; try discriminate.
    destruct (negb _); [discriminate |]. destruct (negb _); [discriminate |]. intros [= <-]. lia. }
  destruct ((cmd =? CMD_RRDATA) || (cmd =? CMD_UNITDATA)) eqn:E2.
  - intros H. destruct (parse_cpf_inv _ _ _ H) as (t & a & dt & d & -> & Ha). destruct a; lia.
  - destruct body; [intros [= <-]; lia | discriminate].
Qed.

Lemma parse_frame_conn_is_unitdata fr f t cid dt d :
  parse_frame fr = RcOk f -> f_body f = BCpf t (AddrConn cid) dt d -> f_cmd f = CMD_UNITDATA.
Proof.
  intros Hp Hb. destruct (parse_frame_inv _ _ Hp) as (hd & body & _ & -> & _ & _ & Hbody & _).
  rewrite Hb in Hbody. exact (parse_body_inv _ _ _ Hbody).
Qed.

Lemma fit_len cap svc bs : blen (fst (fit cap svc bs)) <= Z.max cap 4.
Proof.
  unfold fit. destruct (blen bs <=? cap) eqn:E; cbn [fst]; [lia |].
  unfold too_large_reply, blen. cbn [List.length]. lia.
Qed.

Lemma finish_reply_len {S} cap svc (p : tstate S * mr_reply) : blen (snd (finish_reply cap svc p)) <= Z.max cap 4.
Proof.
  unfold finish_reply. destruct p as [st1 rp].
  pose proof (fit_len cap svc (mr_bytes svc rp)) as H.
  destruct (fit cap svc (mr_bytes svc rp)) as [bs evs]. exact H.
Qed.

Lemma finish_reply_conns {S} cap svc (p : tstate S * mr_reply) :
  t_conns (fst (finish_reply cap svc p)) = t_conns (fst p).
Proof.
  unfold finish_reply. destruct p as [st1 rp]. destruct (fit cap svc (mr_bytes svc rp)) as [bs evs]. reflexivity.
Qed.

Lemma dispatch_len {S} (h : handler S) tr cap seq st rq :
  blen (snd (dispatch h tr cap seq st rq)) <= Z.max cap 4.
Proof. unfold dispatch. apply finish_reply_len. Qed.

Definition conns_ok {S} (st : tstate S) : Prop :=
  Forall (fun c => MIN_CONN_SIZE <= c_to_size c) (t_conns st).

(* Whatever the handler does (no hypothesis on [h] is needed: [fit] enforces the bound; a handler
   that respects its capacity never triggers it), the reply to a SendUnitData frame is a
   SendUnitData frame addressed with the originator's connection id whose connected data item
   (sequence count + message-router reply) is no longer than the T->O size granted at Forward Open. *)
Theorem connected_reply_fits {S} (h : handler S) (st st' : tstate S) f rep t cid dt d :
  conns_ok st ->
  f_cmd f = CMD_UNITDATA -> f_body f = BCpf t (AddrConn cid) dt d ->
  step_frame h st f = (st', Some rep) ->
  exists c item,
    In c (t_conns st) /\ c_ot_id c = cid /\ c_session c = f_session f
    /\ rep = encap_reply CMD_UNITDATA (f_session f) 0 (f_context f)
               (mk_cpf 0 (AddrConn (c_to_id c)) ITEM_CONN_DATA item)
    /\ blen item <= c_to_size c.
Proof.
  intros Hok Hcmd Hbody. unfold step_frame. rewrite Hbody, Hcmd.
  destruct (mem_z (f_session f) (t_sessions st)); cbn [negb].
  2: { change (CMD_UNITDATA =? CMD_RRDATA) with false. cbn iota. intros H; inversion H. }
  destruct (find (fun c => (c_ot_id c =? cid) && (c_session c =? f_session f)) (t_conns st)) as [c |] eqn:Hf.
  2: { intros H; inversion H. }
  apply find_some in Hf. destruct Hf as [Hin Hc].
  assert (MIN_CONN_SIZE <= c_to_size c) as Hmin by (unfold conns_ok in Hok; rewrite Forall_forall in Hok; now apply Hok).
  unfold MIN_CONN_SIZE in Hmin.
  assert (c_ot_id c = cid /\ c_session c = f_session f) as [Hid Hses] by lia.
  destruct d as [| s0 [| s1 req]]; try (intros H; inversion H; fail).
  assert (forall bs, blen bs <= Z.max (c_to_size c - 2) 4 -> blen (le_enc 2 (u16 s0 s1) ++ bs) <= c_to_size c) as Hfit.
  { intros bs Hb. rewrite blen_app, blen_le_enc. lia. }
  destruct (c_ot_size c <? blen (s0 :: s1 :: req)).
  - intros H; inversion H; subst. exists c. eexists. repeat split; try eassumption.
    apply Hfit. unfold blen. cbn [List.length]. lia.
  - destruct (parse_mr req) as [rq | e].
    + pose proof (dispatch_len h (TConnected (c_serial c)) (c_to_size c - 2) (Some (u16 s0 s1)) st rq) as Hd.
      destruct (dispatch h (TConnected (c_serial c)) (c_to_size c - 2) (Some (u16 s0 s1)) st rq) as [st1 bs].
      cbn [snd] in Hd. intros H; inversion H; subst. exists c. eexists. repeat split; try eassumption.
      now apply Hfit.
    + intros H; inversion H; subst. exists c. eexists. repeat split; try eassumption.
      apply Hfit. unfold blen. cbn [List.length]. lia.
Qed.

Ltac break_match :=
  match goal with
  | |- context [match ?x with _ => _ end] => destruct x eqn:?
  | |- context [if ?x then _ else _] => destruct x eqn:?
  end.

(* error injections: only their countdown changes, some are consumed *)
Definition inj_sub (l' l : list injection) : Prop :=
  forall Q : Z -> Prop, Forall (fun i => Q (inj_status i)) l -> Forall (fun i => Q (inj_status i)) l'.

Lemma inj_sub_refl l : inj_sub l l.
Proof. intros Q H. exact H. Qed.
Lemma inj_sub_trans a b c : inj_sub a b -> inj_sub b c -> inj_sub a c.
Proof. intros H1 H2 Q H. apply H1, H2, H. Qed.

Record same_tables {S} (st' st : tstate S) : Prop := {
  st_sessions : t_sessions st' = t_sessions st;
  st_conns : t_conns st' = t_conns st;
  st_cfg : t_cfg st' = t_cfg st;
  st_inj : inj_sub (t_inject st') (t_inject st) }.

Lemma same_refl {S} (st : tstate S) : same_tables st st.
Proof. split; try reflexivity. apply inj_sub_refl. Qed.
Lemma same_trans {S} (a b c : tstate S) : same_tables a b -> same_tables b c -> same_tables a c.
Proof.
  intros [A1 A2 A3 A4] [B1 B2 B3 B4]. split; try congruence. eapply inj_sub_trans; eassumption.
Qed.
Lemma same_logs {S} evs (st : tstate S) : same_tables (logs evs st) st.
Proof. split; try reflexivity. apply inj_sub_refl. Qed.
Lemma same_set_app {S} a (st : tstate S) : same_tables (set_app a st) st.
Proof. split; try reflexivity. apply inj_sub_refl. Qed.
Lemma same_logs_l {S} evs (a b : tstate S) : same_tables a b -> same_tables (logs evs a) b.
Proof. intros H. eapply same_trans; [apply same_logs | exact H]. Qed.

Lemma take_injection_keeps svc (Q : Z -> Prop) : forall l fired,
  Forall (fun i => Q (inj_status i)) l -> (forall f, fired = Some f -> Q (inj_status f)) ->
  Forall (fun i => Q (inj_status i)) (snd (take_injection svc l fired))
  /\ forall i, fst (take_injection svc l fired) = Some i -> Q (inj_status i).
Proof.
  induction l as [| j r IH]; intros fired H Hf; cbn [take_injection]; [split; [exact H | exact Hf] |].
  inversion H as [| ? ? Hj Hr]; subst.
  (* the recursive call on [r], an injection with the status of [j] put back in front *)
  assert (forall fd x, (forall f, fd = Some f -> Q (inj_status f)) -> inj_status x = inj_status j ->
            Forall (fun i => Q (inj_status i)) (x :: snd (take_injection svc r fd))
            /\ forall i, fst (take_injection svc r fd) = Some i -> Q (inj_status i)) as Hkeep.
  { intros fd x Hfd Hx. destruct (IH fd Hr Hfd) as [A B]. split; [constructor; [rewrite Hx; exact Hj | exact A] | exact B]. }
  destruct (inj_service j =? svc); [destruct fired as [f |]; [| destruct (inj_left j <=? 0)] |].
  - specialize (Hkeep (Some f) (inj_dec j) Hf eq_refl). destruct (take_injection svc r (Some f)). exact Hkeep.
  - apply IH; [exact Hr |]. intros f [= <-]. exact Hj.
  - specialize (Hkeep None (inj_dec j) Hf eq_refl). destruct (take_injection svc r None). exact Hkeep.
  - specialize (Hkeep fired j Hf eq_refl). destruct (take_injection svc r fired). exact Hkeep.
Qed.

Lemma same_set_inject {S} svc (st : tstate S) :
  same_tables (set_inject (snd (take_injection svc (t_inject st) None)) st) st.
Proof.
  split; try reflexivity. intros Q H. exact (proj1 (take_injection_keeps svc Q _ None H ltac:(discriminate))).
Qed.

(* [with_injection]: either the injection fired (tables unchanged, its status/ext answered) or [k] ran on a
   state with the same tables *)
Lemma with_injection_cases {S} (st : tstate S) svc k :
  (exists i, fst (take_injection svc (t_inject st) None) = Some i
             /\ same_tables (fst (with_injection st svc k)) st
             /\ snd (with_injection st svc k) = mr_error (inj_status i) (inj_ext i))
  \/ (exists s, same_tables s st /\ with_injection st svc k = k s).
Proof.
  unfold with_injection.
  pose proof (same_set_inject svc st) as Hs.
  destruct (take_injection svc (t_inject st) None) as [[i |] rest] eqn:E; cbn [snd] in Hs.
  - left. exists i. split; [reflexivity |]. split; [| reflexivity].
    apply same_logs_l. exact Hs.
  - right. eexists. split; [exact Hs | reflexivity].
Qed.

Lemma with_injection_same {S} (st : tstate S) svc k :
  (forall s, same_tables s st -> same_tables (fst (k s)) st) ->
  same_tables (fst (with_injection st svc k)) st.
Proof.
  intros Hk. destruct (with_injection_cases st svc k) as [(i & _ & H & _) | (s & Hs & ->)]; [exact H | now apply Hk].
Qed.

Lemma dispatch_one_same {S} (h : handler S) tr cap seq st rq :
  same_tables (fst (dispatch_one h tr cap seq st rq)) st.
Proof.
  unfold dispatch_one.
  eapply same_trans; [| apply (same_logs [EvRequest tr seq rq] st)].
  apply with_injection_same. intros s Hs.
  repeat break_match; cbn [fst]; try exact Hs;
    repeat (first [apply same_logs_l | eapply same_trans; [apply same_set_app |]]); exact Hs.
Qed.

Lemma multi_one_same {S} (h : handler S) tr cap seq st it :
  same_tables (fst (multi_one h tr cap seq st it)) st.
Proof.
  unfold multi_one. destruct (parse_mr it) as [rq | c]; [| apply same_logs].
  destruct (is_multi_request rq); [apply same_logs |].
  pose proof (dispatch_one_same h tr cap seq st rq) as H.
  destruct (dispatch_one h tr cap seq st rq) as [st1 rp].
  destruct (fit cap (mr_service rq) (mr_bytes (mr_service rq) rp)) as [bs evs]. cbn [fst] in *.
  apply same_logs_l. exact H.
Qed.

Lemma multi_run_same {S} (h : handler S) tr seq items : forall left later st acc,
  same_tables (fst (multi_run h tr seq left later items st acc)) st.
Proof.
  induction items as [| it rest IH]; intros left later st acc; cbn [multi_run]; [apply same_refl |].
  pose proof (multi_one_same h tr (left - 4 * (later - 1)) seq st it) as H1.
  destruct (multi_one h tr (left - 4 * (later - 1)) seq st it) as [st1 bs].
  eapply same_trans; [apply IH | exact H1].
Qed.

Lemma multi_service_same {S} (h : handler S) tr cap seq st rq :
  same_tables (fst (multi_service h tr cap seq st rq)) st.
Proof.
  unfold multi_service.
  eapply same_trans; [| apply (same_logs [EvRequest tr seq rq] st)].
  apply with_injection_same. intros s Hs.
  destruct (negb (cf_multi_service (t_cfg s))); [exact Hs |].
  destruct (parse_multi (mr_data rq)) as [items | c]; [| apply same_logs_l; exact Hs].
  pose proof (multi_run_same h tr seq items (cap - 6 - 2 * zlen items) (zlen items) s []) as H.
  destruct (multi_run h tr seq (cap - 6 - 2 * zlen items) (zlen items) items s []) as [st3 reps].
  cbn [fst] in *. eapply same_trans; eassumption.
Qed.

Lemma finish_reply_same {S} cap svc (p : tstate S * mr_reply) st :
  same_tables (fst p) st -> same_tables (fst (finish_reply cap svc p)) st.
Proof.
  intros H. unfold finish_reply. destruct p as [st1 rp].
  destruct (fit cap svc (mr_bytes svc rp)) as [bs evs]. cbn [fst] in *. apply same_logs_l. exact H.
Qed.

Lemma dispatch_same {S} (h : handler S) tr cap seq st rq :
  same_tables (fst (dispatch h tr cap seq st rq)) st.
Proof.
  unfold dispatch. apply finish_reply_same.
  destruct (is_multi_request rq); [apply multi_service_same | apply dispatch_one_same].
Qed.

Lemma filter_true {A} (l : list A) : l = filter (fun _ => true) l.
Proof. induction l as [| c l IH]; [reflexivity | cbn [filter]; now rewrite <- IH]. Qed.

(* what a Forward Open does: every way out of [forward_open] but the last refuses with a non-zero
   status byte and only logs; the last adds a connection of this session, at least MIN_CONN_SIZE wide,
   and answers with its O->T id first *)
Definition fo_outcome {S} (session : Z) (st : tstate S) (r : tstate S * mr_reply) : Prop :=
  (exists evs, fst r = logs evs st /\ rp_status (snd r) mod 256 <> 0)
  \/ (exists evs c v rest, fst r = logs evs (set_conns (c :: t_conns st) (t_nconns st + 1) st)
        /\ c_session c = session /\ c_ot_id c = wrap32 v /\ MIN_CONN_SIZE <= c_to_size c
        /\ snd r = mr_ok (le_enc 4 (c_ot_id c) ++ rest) /\ blen rest = 22).

Lemma forward_open_cases {S} large session (st : tstate S) rq :
  fo_outcome session st (forward_open large session st rq).
Proof.
  unfold forward_open.
  repeat break_match; try (left; eexists; split; [reflexivity | discriminate]).
  all: right; do 4 eexists; (split; [reflexivity |]); cbn [c_session c_ot_id c_to_size snd];
    (split; [reflexivity |]); (split; [reflexivity |]); (split; [lia |]); (split; [reflexivity |]);
    rewrite !blen_app, !blen_le_enc; reflexivity.
Qed.

Definition fc_outcome {S} (st : tstate S) (r : tstate S * mr_reply) : Prop :=
  t_sessions (fst r) = t_sessions st /\ t_cfg (fst r) = t_cfg st /\ t_inject (fst r) = t_inject st
  /\ exists P, t_conns (fst r) = filter P (t_conns st).

Lemma forward_close_spec {S} (st : tstate S) rq : fc_outcome st (forward_close st rq).
Proof.
  unfold forward_close.
  repeat break_match; (split; [reflexivity | split; [reflexivity | split; [reflexivity |]]]);
    eexists; first [reflexivity | apply filter_true].
Qed.

Lemma with_injection_conns {S} (st : tstate S) svc k :
  (forall s, t_conns s = t_conns st -> t_conns (fst (k s)) = t_conns st) ->
  t_conns (fst (with_injection st svc k)) = t_conns st.
Proof.
  intros Hk. unfold with_injection.
  destruct (take_injection svc (t_inject st) None) as [[i |] rest]; cbn [fst]; [reflexivity |].
  apply Hk. reflexivity.
Qed.

Lemma dispatch_one_conns {S} (h : handler S) tr cap seq st rq :
  t_conns (fst (dispatch_one h tr cap seq st rq)) = t_conns st.
Proof. apply st_conns, dispatch_one_same. Qed.
Lemma multi_one_conns {S} (h : handler S) tr cap seq st it :
  t_conns (fst (multi_one h tr cap seq st it)) = t_conns st.
Proof. apply st_conns, multi_one_same. Qed.
Lemma multi_run_conns {S} (h : handler S) tr seq items : forall left later st acc,
  t_conns (fst (multi_run h tr seq left later items st acc)) = t_conns st.
Proof. intros. apply st_conns, multi_run_same. Qed.
Lemma multi_service_conns {S} (h : handler S) tr cap seq st rq :
  t_conns (fst (multi_service h tr cap seq st rq)) = t_conns st.
Proof. apply st_conns, multi_service_same. Qed.
Lemma dispatch_conns {S} (h : handler S) tr cap seq st rq :
  t_conns (fst (dispatch h tr cap seq st rq)) = t_conns st.
Proof. apply st_conns, dispatch_same. Qed.

Lemma forward_open_ok {S} large session (st : tstate S) rq :
  conns_ok st -> conns_ok (fst (forward_open large session st rq)).
Proof.
  intros Hok. destruct (forward_open_cases large session st rq) as [(evs & -> & _) | (evs & c & v & rest & -> & _ & _ & Hc & _)].
  - exact Hok.
  - constructor; [exact Hc | exact Hok].
Qed.

Lemma forward_close_ok {S} (st : tstate S) rq :
  conns_ok st -> conns_ok (fst (forward_close st rq)).
Proof.
  intros Hok. destruct (forward_close_spec st rq) as (_ & _ & _ & P & E).
  unfold conns_ok in *. rewrite E, Forall_forall in *. intros c Hc. apply filter_In in Hc. now apply Hok.
Qed.

Lemma with_injection_ok {S} (st : tstate S) svc k :
  conns_ok st -> (forall s, t_conns s = t_conns st -> conns_ok (fst (k s))) ->
  conns_ok (fst (with_injection st svc k)).
Proof.
  intros Hok Hk. unfold with_injection.
  destruct (take_injection svc (t_inject st) None) as [[i |] rest]; cbn [fst]; [exact Hok |].
  apply Hk. reflexivity.
Qed.

Lemma conns_ok_eq {S} (a b : tstate S) : t_conns a = t_conns b -> conns_ok b -> conns_ok a.
Proof. unfold conns_ok. now intros ->. Qed.

Lemma ucmm_ok {S} (h : handler S) session st rq :
  conns_ok st -> conns_ok (fst (ucmm h session st rq)).
Proof.
  intros Hok. unfold ucmm.
  assert (forall p : tstate S * mr_reply, conns_ok (fst p) ->
            conns_ok (fst (finish_reply UCMM_CAPACITY (mr_service rq) p))) as Hfin.
  { intros p H. eapply conns_ok_eq; [apply finish_reply_conns | exact H]. }
  assert (forall tr r, conns_ok (fst (dispatch h tr UCMM_CAPACITY None st r))) as Hd
    by (intros; eapply conns_ok_eq; [apply dispatch_conns | exact Hok]).
  repeat break_match; try apply Hd; apply Hfin; cbn [fst]; try exact Hok.
  all: apply with_injection_ok; [exact Hok |]; intros s Hs;
    first [apply forward_open_ok | apply forward_close_ok]; eapply conns_ok_eq; eassumption.
Qed.

Lemma ucmm_item_ok {S} (h : handler S) session st d :
  conns_ok st -> conns_ok (fst (ucmm_item h session st d)).
Proof.
  intros Hok. unfold ucmm_item. destruct (parse_mr d) as [rq | c].
  - pose proof (ucmm_ok h session st rq Hok) as H.
    destruct (ucmm h session st rq) as [st1 bs]. exact H.
  - destruct (c =? 1); exact Hok.
Qed.

Lemma step_frame_conn_same {S} (h : handler S) st f t cid dt d :
  f_body f = BCpf t (AddrConn cid) dt d -> same_tables (fst (step_frame h st f)) st.
Proof.
  intros Eb. unfold step_frame. rewrite Eb.
  destruct (negb (mem_z (f_session f) (t_sessions st))); [apply same_logs |].
  destruct (find _ (t_conns st)) as [c |]; [| apply same_logs].
  destruct d as [| s0 [| s1 req]]; try apply same_refl.
  destruct (c_ot_size c <? blen (s0 :: s1 :: req)); [apply same_logs |].
  destruct (parse_mr req) as [rq | e]; [| apply same_logs].
  pose proof (dispatch_same h (TConnected (c_serial c)) (c_to_size c - 2) (Some (u16 s0 s1)) st rq) as Hd.
  destruct (dispatch h (TConnected (c_serial c)) (c_to_size c - 2) (Some (u16 s0 s1)) st rq) as [st1 bs0].
  exact Hd.
Qed.

Lemma step_frame_ok {S} (h : handler S) st f : conns_ok st -> conns_ok (fst (step_frame h st f)).
Proof.
  intros Hok.
  assert (forall P, conns_ok (set_conns (filter P (t_conns st)) (t_nconns st)
            (set_sessions (filter (fun x => negb (x =? f_session f)) (t_sessions st)) (t_nsessions st) st))) as Hfil.
  { intros P. unfold conns_ok in *. cbn [set_conns t_conns]. rewrite Forall_forall in *.
    intros c Hc. apply filter_In in Hc. now apply Hok. }
  destruct (f_body f) as [d | | | t [| cid] dt d] eqn:Eb.
  5: exact (conns_ok_eq _ _ (st_conns _ _ (step_frame_conn_same h st f t cid dt d Eb)) Hok).
  all: unfold step_frame; rewrite Eb; try (repeat break_match; cbn [fst]; solve [exact Hok | apply Hfil]).
  destruct (negb (mem_z (f_session f) (t_sessions st))); [exact Hok |].
  pose proof (ucmm_item_ok h (f_session f) st d Hok) as H.
  destruct (ucmm_item h (f_session f) st d) as [st1 [bs |]]; exact H.
Qed.

Theorem tstep_conns_ok {S} (h : handler S) st bs : conns_ok st -> conns_ok (fst (tstep h st bs)).
Proof.
  intros Hok. unfold tstep.
  destruct (parse_header bs) as [[hd body] |]; [| exact Hok].
  destruct (parse_frame bs) as [f | c]; [| exact Hok].
  apply step_frame_ok. exact Hok.
Qed.

Lemma init_conns_ok {S} (app : S) : conns_ok (init_tstate app).
Proof. constructor. Qed.
Lemma tclosed_conns_ok {S} (st : tstate S) : conns_ok (tclosed st).
Proof. constructor. Qed.

Theorem tstep_connected_reply_fits {S} (h : handler S) (st st' : tstate S) fr f rep t cid dt d :
  conns_ok st ->
  parse_frame fr = RcOk f -> f_body f = BCpf t (AddrConn cid) dt d ->
  tstep h st fr = (st', Some rep) ->
  exists c item,
    In c (t_conns st) /\ c_ot_id c = cid /\ c_session c = f_session f
    /\ rep = encap_reply CMD_UNITDATA (f_session f) 0 (f_context f)
               (mk_cpf 0 (AddrConn (c_to_id c)) ITEM_CONN_DATA item)
    /\ blen item <= c_to_size c.
Proof.
  intros Hok Hp Hb. pose proof (parse_frame_conn_is_unitdata fr f t cid dt d Hp Hb) as Hcmd.
  unfold tstep.
  destruct (parse_header fr) as [[hd body] |] eqn:Hh.
  2: { unfold parse_frame in Hp. rewrite Hh in Hp. destruct (negb (bytes_ok fr)); discriminate. }
  rewrite Hp. intros Hs.
  eapply (connected_reply_fits h (logs [EvFrame (h_cmd hd) (h_session hd) (List.length fr)] st)); eauto.
Qed.

(* non-vacuity: a concrete run (frames recorded from the real LogixDriver) *)
Definition ex_register : bytes := [101; 0; 4; 0; 0; 0; 0; 0; 0; 0; 0; 0; 95; 112; 121; 99; 111; 109; 109; 95; 0; 0; 0; 0; 1; 0; 0; 0].
Definition ex_forward_open : bytes := [111; 0; 68; 0; 1; 0; 0; 1; 0; 0; 0; 0; 95; 112; 121; 99; 111; 109; 109; 95; 0; 0; 0; 0; 0; 0; 0; 0; 10; 0; 2; 0; 0; 0; 0; 0; 178; 0; 52; 0; 91; 2; 32; 6; 36; 1; 10; 5; 0; 0; 0; 0; 105; 132; 145; 224; 39; 4; 9; 16; 195; 30; 75; 214; 7; 0; 0; 0; 1; 64; 32; 0; 160; 15; 0; 66; 1; 64; 32; 0; 160; 15; 0; 66; 163; 3; 1; 0; 32; 2; 36; 1].
Definition ex_get_plc_name : bytes := [112; 0; 28; 0; 1; 0; 0; 1; 0; 0; 0; 0; 95; 112; 121; 99; 111; 109; 109; 95; 0; 0; 0; 0; 0; 0; 0; 0; 10; 0; 2; 0; 161; 0; 4; 0; 1; 0; 193; 0; 177; 0; 8; 0; 1; 0; 1; 2; 32; 100; 36; 1].
Definition ex_reply : bytes := [112; 0; 33; 0; 1; 0; 0; 1; 0; 0; 0; 0; 95; 112; 121; 99; 111; 109; 109; 95; 0; 0; 0; 0; 0; 0; 0; 0; 0; 0; 2; 0; 161; 0; 4; 0; 105; 132; 145; 224; 177; 0; 13; 0; 1; 0; 129; 0; 0; 0; 5; 0; 80; 76; 67; 95; 65].

Definition ex_state2 : tstate basic_state :=
  fst (tstep basic_handler (fst (tstep basic_handler (init_tstate init_basic) ex_register)) ex_forward_open).

Example connected_run :
  map c_to_size (t_conns ex_state2) = [4000]
  /\ (exists f t cid dt d, parse_frame ex_get_plc_name = RcOk f /\ f_body f = BCpf t (AddrConn cid) dt d)
  /\ snd (tstep basic_handler ex_state2 ex_get_plc_name) = Some ex_reply
  /\ parse_frame ex_reply
     = RcOk {| f_cmd := CMD_UNITDATA; f_session := 16777217; f_context := [95; 112; 121; 99; 111; 109; 109; 95];
               f_body := BCpf 0 (AddrConn 3767633001) ITEM_CONN_DATA [1; 0; 129; 0; 0; 0; 5; 0; 80; 76; 67; 95; 65] |}.
Proof.
  split; [vm_compute; reflexivity |]. split; [do 5 eexists; split; vm_compute; reflexivity |].
  split; vm_compute; reflexivity.
Qed.

Example ex_state2_conns_ok : conns_ok ex_state2.
Proof. unfold ex_state2. do 2 apply tstep_conns_ok. apply init_conns_ok. Qed.

Print Assumptions parse_mk_frame.
Print Assumptions parse_mk_mr.
Print Assumptions connected_reply_fits.
Print Assumptions tstep_connected_reply_fits.
Print Assumptions tstep_conns_ok.
