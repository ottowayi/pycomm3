(* Proofs/EncapHistP.v — C11, history level: along ANY sequence of driver calls (open / unconnected
   request / connected request behind with_forward_open / close, with whatever replies the target
   gives), every frame the model driver writes passes the observer of Spec/EncapTrace.v: accepted by
   the strict parser, command of the operation, the session handle the target granted (0 while none
   is granted), and for 0x70 the connection id of the last successful Forward Open. *)
From Coq Require Import ZifyBool.
From PV Require Import Base.Bytes Base.BytesLemmas Base.Res Model.EncapDefs Gen.EncapGen Model.Encap
                       Spec.EncapParser Spec.EncapTrace Proofs.TargetCoreP Proofs.EncapP.
Open Scope Z_scope.
Ltac Zify.zify_post_hook ::= Z.to_euclidean_division_equations.

Definition obs_of_event (e : event) : obs :=
  match e with
  | EvFrame k f => ObsFrame (cmd_of k) f
  | EvRegistered h => ObsRegistered h
  | EvForwardOpened value => ObsForwardOpened (le_dec (firstn 4 value))
  | EvClosed => ObsClosed
  end.

Fixpoint chunks_of (l : list pv) : option (list bytes) :=
  match l with
  | [] => Some []
  | PBytes b :: r => option_map (cons b) (chunks_of r)
  | _ :: _ => None
  end.

(* a message body: byte strings whose total length leaves room in the 16-bit length field *)
Definition body_ok (overhead : Z) (body : list pv) : bool :=
  match chunks_of body with
  | Some cs => all_bytes_ok cs && (overhead + zlen (concat cs) <? 65536)
  | None => false
  end.

(* a successful Forward Open reply carries at least the 4-byte O->T connection id *)
Definition reply_ok (r : option bytes) : bool :=
  match r with Some v => bytes_ok v && (4 <=? zlen v) | None => true end.

Definition op_ok (o : op) : bool :=
  match o with
  | OOpen (Some h) => (0 <=? h) && (h <? 4294967296)
  | OOpen None => true
  | OUnconnected KSendRR body => body_ok 16 body
  | OUnconnected KListIdentity body => body_ok 0 body
  | OUnconnected _ _ => false                 (* RegisterSession / UnRegisterSession are sent by open / close only *)
  | OConnected (PInt s) body fo =>
      (0 <=? s) && (s <? 65536) && body_ok 22 body
      && forallb (fun x => body_ok 16 (fst x) && reply_ok (snd x)) fo
  | OConnected _ _ _ => false
  | OClose m _ => body_ok 16 m
  end.

Fixpoint walk (g : ghost) (t : list obs) : option ghost :=
  match t with
  | [] => Some g
  | ObsFrame c f :: r => if frame_check g c f =? 0 then walk g r else None
  | o :: r => walk (ghost_step g o) r
  end.

Lemma trace_check_walk t : forall g i, trace_check g i t = None <-> walk g t <> None.
Proof.
  induction t as [| o r IH]; intros g i; cbn [trace_check walk].
  - split; [discriminate | reflexivity].
  - destruct o as [c f | h | c |]; try apply IH.
    destruct (frame_check g c f =? 0); [apply IH |]. split; [discriminate | congruence].
Qed.

Lemma walk_app t1 : forall g t2, walk g (t1 ++ t2) = match walk g t1 with Some g' => walk g' t2 | None => None end.
Proof.
  induction t1 as [| o r IH]; intros g t2; cbn [app walk]; [reflexivity |].
  destruct o as [c f | h | c |]; try apply IH.
  destruct (frame_check g c f =? 0); [apply IH | reflexivity].
Qed.

Definition inv (st : dstate) (g : ghost) : Prop :=
  d_session st = PInt (expected_session g) /\ 0 <= expected_session g < 4294967296
  /\ (d_connected st = true ->
      exists cb, d_target_cid st = PBytes cb /\ length cb = 4%nat /\ bytes_ok cb = true /\ g_cid g = Some (le_dec cb)).

(* a call from a state related to g: its events pass the observer and leave a related state *)
Definition good {A} (g : ghost) (c : call A) : Prop :=
  exists g', walk g (map obs_of_event (snd (fst c))) = Some g' /\ inv (fst (fst c)) g'.

Lemma chunks_of_map l cs : chunks_of l = Some cs -> l = map PBytes cs.
Proof.
  revert cs; induction l as [| x r IH]; intros cs H; cbn [chunks_of] in H.
  - inversion H. reflexivity.
  - destruct x as [| b |]; try discriminate. destruct (chunks_of r) as [cs' |]; [| discriminate].
    inversion H; subst. cbn [map]. now rewrite (IH cs' eq_refl).
Qed.

Lemma body_ok_spec n body : body_ok n body = true ->
  exists cs, body = map PBytes cs /\ all_bytes_ok cs = true /\ n + zlen (concat cs) < 65536.
Proof.
  unfold body_ok. destruct (chunks_of body) as [cs |] eqn:E; [| discriminate].
  intros H. apply andb_true_iff in H as [H1 H2]. exists cs. repeat split; [now apply chunks_of_map | exact H1 | lia].
Qed.

Lemma send_good st g k seq sq pver flags cs :
  inv st g -> 0 <= seq < 65536 -> args_for k seq sq pver flags -> all_bytes_ok cs = true ->
  (k = KSendUnit -> d_connected st = true) -> (k = KRegister -> concat cs = []) ->
  common_len k (concat cs) < 65536 ->
  exists p1 f, send st (request_gen k sq pver flags cs) = (p1, if d_sock st then Ok f else Err CommError)
               /\ frame_check g (cmd_of k) f = 0.
Proof.
  intros (Hs & Hr & Hc) Hseq Hargs Hcs Hunit Hreg Hlen.
  assert (exists cid, k = KSendUnit -> d_target_cid st = PBytes cid /\ length cid = 4%nat /\ bytes_ok cid = true
                                       /\ g_cid g = Some (le_dec cid)) as [cid Hcid].
  { destruct k; try (exists []; discriminate).
    destruct (Hc (Hunit eq_refl)) as (cb & H1 & H2 & H3 & H4). exists cb. intros _. auto. }
  destruct (frame_ok_gen k seq sq pver flags cs (d_target_cid st) cid (expected_session g) CFG_CONTEXT
              Hseq Hargs Hr eq_refl eq_refl Hcs) as (p1 & f & Hb & Hp).
  - intros Hk. destruct (Hcid Hk) as (H1 & H2 & H3 & _). auto.
  - exact Hreg.
  - exact Hlen.
  - exists p1, f. split.
    + unfold send, SEND_TARGET_CID, SEND_SESSION_ID, SEND_CONTEXT, SEND_OPTION. cbn [src_val].
      rewrite Hs, Hb. reflexivity.
    + unfold frame_check. rewrite Hp. unfold frame_of. cbn [f_cmd f_session f_body].
      rewrite !Z.eqb_refl. cbn [negb].
      destruct k; cbn [body_of]; try reflexivity.
      destruct (Hcid eq_refl) as (_ & _ & _ & ->). rewrite Z.eqb_refl. reflexivity.
Qed.

Lemma walk_frame g k f : frame_check g (cmd_of k) f = 0 -> walk g (map obs_of_event [EvFrame k f]) = Some g.
Proof. intros H. cbn [map obs_of_event walk]. rewrite H. reflexivity. Qed.

Lemma register_session_good st g reg :
  inv st g -> (forall h, reg = Some h -> 0 <= h < 4294967296) -> good g (register_session st reg).
Proof.
  intros Hi Hreg. unfold register_session.
  destruct (truthy (d_session st)) eqn:Ht.
  - exists g. split; [reflexivity | exact Hi].
  - assert (expected_session g = 0) as H0.
    { destruct Hi as (Hs & _ & _). rewrite Hs in Ht. cbn [truthy] in Ht. lia. }
    destruct (send_good st g KRegister 0 PNone (src_val CfgProtocolVersion st) (PBytes REGISTER_OPTION_FLAGS_DEFAULT) []
                Hi ltac:(lia)) as (p1 & f & Hsend & Hf).
    + split; [discriminate | intros _; split; reflexivity].
    + reflexivity.
    + discriminate.
    + reflexivity.
    + cbn [common_len]. lia.
    + change (request_gen KRegister PNone (src_val CfgProtocolVersion st) (PBytes REGISTER_OPTION_FLAGS_DEFAULT) [])
        with (new_packet KRegister PNone (src_val CfgProtocolVersion st) (PBytes REGISTER_OPTION_FLAGS_DEFAULT)) in Hsend.
      rewrite Hsend. destruct (d_sock st).
      * destruct reg as [h |].
        -- exists {| g_session := Some h; g_cid := g_cid g |}. split.
           ++ cbn [fst snd map obs_of_event walk]. rewrite Hf. reflexivity.
           ++ destruct Hi as (Hs & Hr & Hc). cbn [fst]. unfold inv, set_session, expected_session.
              cbn [d_session d_connected d_target_cid g_session g_cid]. repeat split; try apply (Hreg h eq_refl). exact Hc.
        -- exists g. split; [apply walk_frame; exact Hf | exact Hi].
      * exists g. split; [reflexivity | exact Hi].
Qed.

Lemma open_good st g reg :
  inv st g -> (forall h, reg = Some h -> 0 <= h < 4294967296) -> good g (open st reg).
Proof.
  intros Hi Hreg. unfold open. destruct (d_opened st).
  - exists g. split; [reflexivity | exact Hi].
  - pose proof (register_session_good (set_sock_opened st true) g reg Hi Hreg) as Hg.
    destruct (register_session (set_sock_opened st true) reg) as [[s e] [b | x]]; exact Hg.
Qed.

Lemma send_unconnected_good st g k body n :
  inv st g -> (k = KSendRR /\ n = 16 \/ k = KListIdentity /\ n = 0) -> body_ok n body = true ->
  good g (send_unconnected st k body)
  /\ fst (fst (send_unconnected st k body)) = st.
Proof.
  intros Hi Hk Hb. destruct (body_ok_spec n body Hb) as (cs & -> & Hcs & Hlen).
  unfold send_unconnected.
  destruct (send_good st g k 0 PNone PNone PNone cs Hi ltac:(lia)) as (p1 & f & Hsend & Hf).
  - split; intros ->; destruct Hk as [[? _] | [? _]]; discriminate.
  - exact Hcs.
  - intros ->; destruct Hk as [[? _] | [? _]]; discriminate.
  - intros ->; destruct Hk as [[? _] | [? _]]; discriminate.
  - destruct Hk as [[-> ->] | [-> ->]]; cbn [common_len]; lia.
  - change (add (new_packet k PNone PNone PNone) (map PBytes cs)) with (request_gen k PNone PNone PNone cs).
    rewrite Hsend. destruct (d_sock st).
    + split; [| reflexivity]. exists g. split; [apply walk_frame; exact Hf | exact Hi].
    + split; [| reflexivity]. exists g. split; [reflexivity | exact Hi].
Qed.

Lemma firstn4_facts v : bytes_ok v = true -> 4 <= zlen v -> length (firstn 4 v) = 4%nat /\ bytes_ok (firstn 4 v) = true.
Proof.
  intros Hok Hl. split.
  - rewrite firstn_length. unfold zlen in Hl. lia.
  - rewrite <- (firstn_skipn 4 v), bytes_ok_app in Hok. apply andb_true_iff in Hok as [H _]. exact H.
Qed.

Lemma forward_open_good st g msg reply :
  inv st g -> body_ok 16 msg = true -> reply_ok reply = true ->
  good g (forward_open st msg reply)
  /\ (forall b, snd (forward_open st msg reply) = Ok b -> b = true -> d_connected (fst (fst (forward_open st msg reply))) = true)
  /\ d_ext_fo (fst (fst (forward_open st msg reply))) = d_ext_fo st.
Proof.
  intros Hi Hm Hr. unfold forward_open.
  destruct (d_connected st) eqn:Hc.
  - split; [exists g; split; [reflexivity | exact Hi] |]. split; [intros; exact Hc | reflexivity].
  - destruct (eq_int (d_session st) 0).
    + split; [exists g; split; [reflexivity | exact Hi] |]. split; [discriminate | reflexivity].
    + destruct (send_unconnected_good st g KSendRR msg 16 Hi (or_introl (conj eq_refl eq_refl)) Hm) as [(g1 & Hw & Hi1) Hst].
      destruct (send_unconnected st KSendRR msg) as [[s1 e1] [u | x]]; cbn [fst snd] in *; subst s1.
      * destruct reply as [value |].
        -- cbn [reply_ok] in Hr. apply andb_true_iff in Hr as [Hv Hl].
           destruct (firstn4_facts value Hv ltac:(lia)) as [H4 Hok4].
           split; [| split; [reflexivity | reflexivity]].
           exists {| g_session := g_session g1; g_cid := Some (le_dec (firstn 4 value)) |}. split.
           ++ cbn [fst snd]; rewrite map_app, walk_app, Hw. reflexivity.
           ++ destruct Hi1 as (Hs & Hrg & _). unfold inv, set_cid_connected, expected_session in *.
              cbn [d_session d_connected d_target_cid g_session g_cid]. repeat split; try assumption; try lia.
              intros _. exists (firstn 4 value). repeat split; assumption.
        -- split; [exists g1; split; [exact Hw | exact Hi1] |]. split; [| reflexivity].
           intros b Hb Htrue. inversion Hb. congruence.
      * split; [exists g1; split; [exact Hw | exact Hi1] |]. split; [discriminate | reflexivity].
Qed.

Definition fo_ok (fo : list (list pv * option bytes)) : bool :=
  forallb (fun x => body_ok 16 (fst x) && reply_ok (snd x)) fo.

Lemma nth_fo_ok fo n :
  fo_ok fo = true ->
  body_ok 16 (fst (nth_fo fo n)) = true /\ reply_ok (snd (nth_fo fo n)) = true.
Proof.
  intros H. unfold fo_ok in H. unfold nth_fo. destruct (nth_in_or_default n fo ([], None)) as [Hin | ->].
  - rewrite forallb_forall in H. specialize (H _ Hin). apply andb_true_iff in H. exact H.
  - split; reflexivity.
Qed.

Lemma with_forward_open_good st g fo :
  inv st g -> fo_ok fo = true ->
  good g (with_forward_open st fo)
  /\ (forall u, snd (with_forward_open st fo) = Ok u -> d_connected (fst (fst (with_forward_open st fo))) = true).
Proof.
  intros Hi Hfo. unfold with_forward_open.
  destruct (d_connected st) eqn:Hc.
  - split; [exists g; split; [reflexivity | exact Hi] | intros; exact Hc].
  - destruct (nth_fo_ok fo 0 Hfo) as [Hm0 Hr0]. destruct (nth_fo_ok fo 1 Hfo) as [Hm1 Hr1].
    destruct (forward_open_good st g _ _ Hi Hm0 Hr0) as ((g1 & Hw1 & Hi1) & Hconn1 & _).
    destruct (forward_open st (fst (nth_fo fo 0)) (snd (nth_fo fo 0))) as [[s1 e1] [b1 | x1]]; cbn [fst snd] in *.
    + destruct b1.
      * split; [exists g1; split; assumption | intros; now apply (Hconn1 true)].
      * destruct (d_ext_fo s1).
        -- destruct (forward_open_good (set_ext_fo s1 false) g1 _ _ Hi1 Hm1 Hr1) as ((g2 & Hw2 & Hi2) & Hconn2 & _).
           destruct (forward_open (set_ext_fo s1 false) (fst (nth_fo fo 1)) (snd (nth_fo fo 1))) as [[s2 e2] [[|] | x2]];
             cbn [fst snd] in *;
             (split; [exists g2; split; [cbn [fst snd]; rewrite map_app, walk_app, Hw1; exact Hw2 | exact Hi2] |]);
             [intros; now apply (Hconn2 true) | discriminate..].
        -- split; [exists g1; split; assumption | discriminate].
    + split; [exists g1; split; assumption | discriminate].
Qed.

Lemma send_connected_good st g s body fo :
  inv st g -> 0 <= s < 65536 -> body_ok 22 body = true ->
  fo_ok fo = true ->
  good g (send_connected st (PInt s) body fo).
Proof.
  intros Hi Hs Hb Hfo. unfold send_connected.
  destruct (with_forward_open_good st g fo Hi Hfo) as ((g1 & Hw1 & Hi1) & Hconn).
  destruct (with_forward_open st fo) as [[s1 e1] [u | x]]; cbn [fst snd] in *.
  - destruct (body_ok_spec 22 body Hb) as (cs & -> & Hcs & Hlen).
    destruct (send_good s1 g1 KSendUnit s (PInt s) PNone PNone cs Hi1 Hs) as (p1 & f & Hsend & Hf).
    + split; [reflexivity | discriminate].
    + exact Hcs.
    + intros _. exact (Hconn u eq_refl).
    + discriminate.
    + cbn [common_len]. lia.
    + change (add (new_packet KSendUnit (PInt s) PNone PNone) (map PBytes cs)) with (request_gen KSendUnit (PInt s) PNone PNone cs).
      rewrite Hsend. destruct (d_sock s1).
      * exists g1. split; [| exact Hi1]. cbn [fst snd]. rewrite map_app, walk_app, Hw1. apply walk_frame. exact Hf.
      * exists g1. split; assumption.
  - exists g1. split; assumption.
Qed.

Lemma forward_close_good st g msg ok :
  inv st g -> body_ok 16 msg = true -> good g (forward_close st msg ok).
Proof.
  intros Hi Hm. unfold forward_close. destruct (eq_int (d_session st) 0).
  - exists g. split; [reflexivity | exact Hi].
  - destruct (send_unconnected_good st g KSendRR msg 16 Hi (or_introl (conj eq_refl eq_refl)) Hm) as [(g1 & Hw & Hi1) Hst].
    destruct (send_unconnected st KSendRR msg) as [[s1 e1] [u | x]]; cbn [fst snd] in *.
    + destruct ok.
      * exists g1. split; [exact Hw |]. cbn [fst]. destruct Hi1 as (H1 & H2 & _). unfold inv, set_connected.
        cbn [d_session d_connected d_target_cid]. repeat split; try assumption; try lia; try (intros Hx; discriminate Hx).
      * exists g1. split; assumption.
    + exists g1. split; assumption.
Qed.

Lemma un_register_frames st g :
  inv st g ->
  exists g', walk g (map obs_of_event (snd (fst (un_register_session st)))) = Some g'.
Proof.
  intros Hi. unfold un_register_session.
  destruct (send_good st g KUnRegister 0 PNone PNone PNone [] Hi ltac:(lia)) as (p1 & f & Hsend & Hf).
  - split; discriminate.
  - reflexivity.
  - discriminate.
  - discriminate.
  - cbn [common_len]. lia.
  - change (request_gen KUnRegister PNone PNone PNone []) with (new_packet KUnRegister PNone PNone PNone) in Hsend.
    rewrite Hsend. destruct (d_sock st).
    + exists g. apply walk_frame. exact Hf.
    + exists g. reflexivity.
Qed.

Lemma inv_closed st : inv (set_session (set_connected (set_sock_opened st false) false) (PInt 0)) ghost0.
Proof. unfold inv. cbn. repeat split; try lia; try discriminate. Qed.

Lemma close_good st g msg ok : inv st g -> body_ok 16 msg = true -> good g (close st msg ok).
Proof.
  intros Hi Hm. unfold close. set (h := if d_connected st then _ else _).
  assert (G : good g h).
  { unfold h. destruct (d_connected st); [| exists g; split; [reflexivity | exact Hi]].
    pose proof (forward_close_good st g msg ok Hi Hm) as G.
    destruct (forward_close st msg ok) as [[s e] [b | x]]; exact G. }
  destruct h as [[st1 evs1] r1]. destruct G as (g1 & Hw1 & Hi1). cbn [fst snd] in Hw1, Hi1.
  destruct r1 as [u | x].
  - destruct (negb (eq_int (d_session st1) 0)).
    + destruct (un_register_frames st1 g1 Hi1) as (g2 & Hw2).
      destruct (un_register_session st1) as [[s2 e2] r2]; cbn [fst snd] in *.
      exists ghost0. split; [| apply inv_closed].
      cbn [fst snd]. rewrite map_app, walk_app, Hw1, map_app, walk_app, Hw2. reflexivity.
    + exists ghost0. split; [| apply inv_closed]. cbn [fst snd app]. rewrite map_app, walk_app, Hw1. reflexivity.
  - exists ghost0. split; [| apply inv_closed]. cbn [fst snd app]. rewrite map_app, walk_app, Hw1. reflexivity.
Qed.

Lemma step_good st g o : inv st g -> op_ok o = true ->
  exists g', walk g (map obs_of_event (snd (fst (step st o)))) = Some g' /\ inv (fst (fst (step st o))) g'.
Proof.
  intros Hi Ho. destruct o as [reg | k body | seq body fo | m ok]; cbn [step].
  - assert (forall h, reg = Some h -> 0 <= h < 4294967296) as Hreg.
    { intros h ->. cbn [op_ok] in Ho. lia. }
    pose proof (open_good st g reg Hi Hreg) as Hg.
    destruct (open st reg) as [[s e] r]. exact Hg.
  - assert (exists n, (k = KSendRR /\ n = 16 \/ k = KListIdentity /\ n = 0) /\ body_ok n body = true) as (n & Hk & Hb).
    { destruct k; cbn [op_ok] in Ho; try discriminate; [exists 16 | exists 0]; split; auto. }
    destruct (send_unconnected_good st g k body n Hi Hk Hb) as [Hg _].
    destruct (send_unconnected st k body) as [[s e] r]. exact Hg.
  - destruct seq as [| b | s]; cbn [op_ok] in Ho; try discriminate.
    apply andb_true_iff in Ho as [Ho Hfo]. apply andb_true_iff in Ho as [Hs Hb].
    pose proof (send_connected_good st g s body fo Hi ltac:(lia) Hb Hfo) as Hg.
    destruct (send_connected st (PInt s) body fo) as [[s' e] r]. exact Hg.
  - cbn [op_ok] in Ho. pose proof (close_good st g m ok Hi Ho) as Hg.
    destruct (close st m ok) as [[s e] r]. exact Hg.
Qed.

Lemma trace_good ops : forall st g, inv st g -> forallb op_ok ops = true ->
  walk g (map obs_of_event (trace st ops)) <> None.
Proof.
  induction ops as [| o r IH]; intros st g Hi Hops; cbn [trace map walk]; [discriminate |].
  cbn [forallb] in Hops. apply andb_true_iff in Hops as [Ho Hr].
  destruct (step_good st g o Hi Ho) as (g' & Hw & Hi').
  destruct (step st o) as [[s e] c]; cbn [fst snd] in *.
  rewrite map_app, walk_app, Hw. apply IH; assumption.
Qed.

Lemma inv_init : inv init_dstate ghost0.
Proof. unfold inv. cbn. repeat split; try lia; try discriminate. Qed.

(* the history half of C11 *)
Theorem history_ok : forall ops, forallb op_ok ops = true ->
  trace_ok (map obs_of_event (trace init_dstate ops)).
Proof.
  intros ops H. unfold trace_ok. apply trace_check_walk. apply trace_good; [apply inv_init | exact H].
Qed.
