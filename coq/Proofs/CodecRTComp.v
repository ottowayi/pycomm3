(* Proofs/CodecRTComp.v — C06: the round-trip law for arrays, structures and STRINGI, by composition
   of the law for their element / member types (Proofs/CodecRT.v). *)
From PV Require Import Base.Bytes Base.BytesLemmas Base.Res.
From PV Require Import Gen.Types Gen.CodecFacts Gen.Vendors Gen.Status Model.Codec Model.CodecDom.
From PV Require Import Proofs.CodecRTBase Proofs.CodecRT Proofs.CodecRTDict.
From Coq Require Import ZifyBool.
Open Scope Z_scope.
Ltac Zify.zify_post_hook ::= Z.to_euclidean_division_equations.

Lemma list_good e xs :
  RT e -> wf_ty e = true -> greedy e = false -> forallb (in_dom e) xs = true -> exists bss, Forall2 (good e) xs bss.
Proof.
  intros Hrt Hwf Hg. induction xs as [|x xs IH]; intros Hd.
  - exists []. constructor.
  - cbn [forallb] in Hd. apply andb_prop in Hd as [Hx Hxs].
    destruct (good_of_RT e x Hrt Hwf Hg Hx) as (b & Hb). destruct (IH Hxs) as (bss & Hbss).
    exists (b :: bss). now constructor.
Qed.

Fixpoint enc_all (enc : val -> res bytes) (xs : list val) : res bytes :=
  match xs with
  | [] => Ok []
  | x :: r => let* b := enc x in let* rs := enc_all enc r in Ok (b ++ rs)
  end.

Lemma encode_items_list enc l n i :
  (i + n <= length l)%nat -> encode_items enc (VList l) i n = enc_all enc (firstn n (skipn i l)).
Proof.
  revert i. induction n as [|n IH]; intros i H; [reflexivity|].
  cbn [encode_items py_index].
  destruct (nth_error l i) as [x|] eqn:E.
  - rewrite (skipn_nth_error _ _ _ E). cbn [firstn enc_all bind]. destruct (enc x); [|reflexivity]. cbn [bind].
    rewrite IH by lia. reflexivity.
  - apply nth_error_None in E. lia.
Qed.

Lemma enc_all_good e xs bss :
  Forall2 (good e) xs bss -> enc_all (as_member e (encode e)) xs = Ok (concat bss).
Proof.
  induction 1 as [|x b xs bss [He _] _ IH]; [reflexivity|].
  cbn [enc_all concat]. change (as_member e (encode e) x) with (encode e x). rewrite He. cbn [bind]. now rewrite IH.
Qed.

Lemma decode_n_good e xs bss fuel rest :
  Forall2 (good e) xs bss -> (length (concat bss) < fuel)%nat ->
  decode_n (decode_fuel fuel e) (length xs) (concat bss ++ rest) = DOk (VList (map (norm e) xs)) rest.
Proof.
  induction 1 as [|x b xs bss [_ Hdec] _ IH]; intros Hf; [reflexivity|].
  cbn [concat] in *. rewrite app_length in Hf. cbn [length decode_n map]. rewrite <- app_assoc.
  rewrite Hdec by lia. cbn [dbind]. rewrite IH by lia. reflexivity.
Qed.

Lemma good_nonempty e x b : wf_ty e = true -> consumes e = true -> good e x b -> b <> [].
Proof.
  intros Hwf Hc [_ Hdec] ->. specialize (Hdec 1%nat [] (le_n _)). cbn [app] in Hdec.
  rewrite (em_all e Hwf Hc) in Hdec. discriminate.
Qed.

(* every round of the Array(None, T) loop takes at least one byte, so [f'] rounds are enough *)
Lemma decode_all_good e xs bss fuel f' :
  wf_ty e = true -> consumes e = true -> Forall2 (good e) xs bss ->
  (length (concat bss) < fuel)%nat -> (length (concat bss) < f')%nat ->
  decode_all (decode_fuel fuel e) f' (concat bss) = DOk (VList (map (norm e) xs)) [].
Proof.
  intros Hwf Hc H. revert f'. induction H as [|x b xs bss Hg _ IH]; intros f' Hf Hf'.
  - destruct f'; [cbn in Hf'; lia|]. cbn [concat decode_all]. now rewrite (em_all e Hwf Hc).
  - pose proof (good_nonempty e x b Hwf Hc Hg) as Hb. destruct Hg as [_ Hdec].
    destruct f' as [|f']; [lia|]. cbn [concat] in *. rewrite app_length in Hf, Hf'. cbn [decode_all length map].
    rewrite Hdec by lia.
    destruct (length (concat bss) =? length (b ++ concat bss))%nat eqn:E.
    + apply Nat.eqb_eq in E. rewrite app_length in E. destruct b; [congruence|cbn [length] in E; lia].
    + rewrite IH by (destruct b; [congruence|cbn [length] in *; lia]). reflexivity.
Qed.

Lemma array_count_ok fixed (l : list val) :
  match fixed with Some k => (k <= length l)%nat | None => True end ->
  match fixed with
  | Some n0 => if zlen l <? Z.of_nat n0 then Err DataError else Ok n0
  | None => Ok (Z.to_nat (zlen l))
  end = Ok (match fixed with Some k => k | None => length l end).
Proof.
  unfold zlen. destruct fixed as [k|]; intros H; [|now rewrite Nat2Z.id].
  destruct (Z.of_nat (length l) <? Z.of_nat k) eqn:E; [lia|reflexivity].
Qed.

Lemma array_encode_plain fixed e l n xs bss :
  is_bits e = false -> n = match fixed with Some k => k | None => length l end -> (n <= length l)%nat ->
  firstn n l = xs -> Forall2 (good e) xs bss ->
  array_encode fixed (bits_width e) (as_member e (encode e)) (VList l) = Ok (concat bss).
Proof.
  intros Hnb Hn Hl <- Hbss. unfold array_encode. cbn [py_len bind].
  replace (bits_width e) with (@None nat) by (destruct e; try reflexivity; discriminate Hnb).
  rewrite array_count_ok by (destruct fixed; [subst n; exact Hl|exact I]). rewrite <- Hn. cbn [bind].
  rewrite encode_items_list by lia. cbn [skipn]. now rewrite (enc_all_good _ _ _ Hbss).
Qed.

(* Array(n, BYTE/WORD/DWORD/LWORD): the value is the flat list of bits *)
Lemma chunks_exist n c (l : list val) :
  length l = (n * c)%nat -> exists cs, concat cs = l /\ length cs = n /\ Forall (fun ch => length ch = c) cs.
Proof.
  revert l. induction n as [|n IH]; intros l H.
  - destruct l; [|discriminate H]. now exists [].
  - destruct (IH (skipn c l)) as (cs & H1 & H2 & H3); [rewrite skipn_length; lia|].
    exists (firstn c l :: cs). cbn [concat length]. rewrite H1, H2, firstn_skipn. repeat split.
    constructor; [rewrite firstn_length; lia|exact H3].
Qed.

Lemma chunk_vals_chunks c cs pre fuel :
  (0 < c)%nat -> Forall (fun ch => length ch = c) cs -> (length cs < fuel)%nat ->
  chunk_vals fuel c (VList (pre ++ concat cs)) (length pre) (length (pre ++ concat cs)) = Ok (map VList cs).
Proof.
  intros Hc H. revert pre fuel. induction H as [|ch cs Hch _ IH]; intros pre fuel Hf.
  - destruct fuel; [cbn in Hf; lia|]. cbn [concat chunk_vals]. rewrite app_nil_r, Nat.leb_refl. reflexivity.
  - destruct fuel as [|fuel]; [cbn in Hf; lia|]. cbn [concat chunk_vals].
    destruct (length (pre ++ ch ++ concat cs) <=? length pre)%nat eqn:E.
    + apply Nat.leb_le in E. rewrite !app_length in E. lia.
    + cbn [py_slice bind].
      replace (length pre + c - length pre)%nat with c by lia.
      rewrite skipn_app_exact.
      replace (firstn c (ch ++ concat cs)) with ch by (rewrite <- Hch; symmetry; apply firstn_app_exact).
      specialize (IH (pre ++ ch) fuel ltac:(cbn in Hf; lia)).
      rewrite app_length, Hch in IH. rewrite <- app_assoc in IH. rewrite IH. reflexivity.
Qed.

Lemma chunks_in_dom w cs :
  Forall (fun ch => length ch = (w * 8)%nat) cs -> forallb is_vbool (concat cs) = true ->
  forallb (in_dom (TBits w)) (map VList cs) = true.
Proof.
  induction 1 as [|ch cs Hch _ IH]; [reflexivity|]. cbn [concat map forallb]. rewrite forallb_app.
  intros H. apply andb_prop in H as [H1 H2]. rewrite (IH H2), andb_true_r. cbn [in_dom].
  rewrite H1, andb_true_r. unfold zlen. lia.
Qed.

Lemma norm_bits_id w xs : map (norm (TBits w)) xs = xs.
Proof. induction xs as [|x xs IH]; [reflexivity|]. cbn [map]. rewrite IH. reflexivity. Qed.

Lemma bits_array_form fixed n w l :
  (0 < w)%nat -> length l = (n * (w * 8))%nat -> forallb is_vbool l = true ->
  match fixed with Some k => (k <= length l)%nat | None => True end ->
  exists xs bss, Forall2 (good (TBits w)) xs bss /\ forallb (in_dom (TBits w)) xs = true
              /\ length xs = n /\ chain_vals xs = Ok l
              /\ array_encode fixed (Some w) (as_member (TBits w) (encode (TBits w))) (VList l) = Ok (concat bss).
Proof.
  intros Hw Hlen Hb Hfix. destruct (chunks_exist n (w * 8) l Hlen) as (cs & <- & Hn & Hcs).
  pose proof (chunks_in_dom w cs Hcs Hb) as Hcd.
  assert (Hwfb : wf_ty (TBits w) = true) by (cbn [wf_ty]; apply Nat.ltb_lt; exact Hw).
  destruct (list_good (TBits w) (map VList cs) (rt_TBits w) Hwfb eq_refl Hcd) as (bss & Hbss).
  exists (map VList cs), bss. repeat split; try assumption; [now rewrite map_length|apply chain_vals_lists|].
  unfold array_encode. cbn [py_len bind].
  rewrite array_count_ok by exact Hfix. cbn [bind]. rewrite match_pos by lia. unfold zlen. rewrite Nat2Z.id.
  pose proof (chunk_vals_chunks (w * 8) cs [] (S (length (concat cs))) ltac:(lia) Hcs) as Hcv. cbn [app length] in Hcv.
  rewrite Hcv by nia. cbn [bind].
  replace (Z.to_nat (Z.of_nat (length (concat cs)) / Z.of_nat (w * 8))) with n by (rewrite Hlen; nia).
  rewrite encode_items_list by (rewrite map_length; lia).
  cbn [skipn]. rewrite firstn_all2 by (rewrite map_length; lia).
  now rewrite (enc_all_good _ _ _ Hbss).
Qed.

(* the elements of an in-domain Array(n, T) value with their encodings: the first n items, or for
   a bit-string T the n chunks of the flat list of bits; flattening what they decode to gives the
   normal form back *)
Lemma arr_fixed_form n e l :
  RT e -> wf_ty (TArrFixed n e) = true -> in_dom (TArrFixed n e) (VList l) = true ->
  exists xs bss, Forall2 (good e) xs bss /\ forallb (in_dom e) xs = true /\ length xs = n
              /\ encode (TArrFixed n e) (VList l) = Ok (concat bss)
              /\ forall rest, array_flatten (is_bits e) (VList (map (norm e) xs)) rest
                              = DOk (norm (TArrFixed n e) (VList l)) rest.
Proof.
  intros Hrt Hwf Hd. cbn [wf_ty] in Hwf. apply andb_prop in Hwf as [Hwf Hg]. apply negb_true_iff in Hg.
  cbn [in_dom] in Hd. destruct (is_bits e) eqn:Eb.
  - destruct e; try discriminate Eb. cbn [wf_ty] in Hwf. apply andb_prop in Hd as [Hl Hb].
    assert (Hlen : length l = (n * (w * 8))%nat) by (unfold zlen in Hl; lia).
    destruct (bits_array_form (Some n) n w l ltac:(lia) Hlen Hb) as (xs & bss & H1 & H2 & H3 & Hch & He);
      [rewrite Hlen; nia|].
    exists xs, bss. repeat split; try assumption. intros rest. cbn [array_flatten]. now rewrite norm_bits_id, Hch.
  - assert (Hd' : (Z.of_nat n <=? zlen l) && forallb (in_dom e) (firstn n l) = true) by (destruct e; try exact Hd; discriminate Eb).
    clear Hd. apply andb_prop in Hd' as [Hl Hd]. unfold zlen in Hl.
    destruct (list_good e _ Hrt Hwf Hg Hd) as (bss & Hbss).
    exists (firstn n l), bss. repeat split; try assumption; [rewrite firstn_length; lia| |].
    + cbn [encode]. apply (array_encode_plain (Some n) e l n (firstn n l) bss Eb eq_refl); (lia || easy).
    + intros rest. cbn [array_flatten norm]. destruct e; try reflexivity. discriminate Eb.
Qed.

Lemma rt_TArrFixed n e : RT e -> RT (TArrFixed n e).
Proof.
  intros Hrt Hwf v rest Hd _. destruct v; try (cbn [in_dom] in Hd; discriminate Hd).
  destruct (arr_fixed_form n e l Hrt Hwf Hd) as (xs & bss & Hbss & _ & Hlen & He & Hfl).
  exists (concat bss). split; [exact He|].
  intros fuel Hf. cbn [decode_fuel]. unfold array_decode_fixed.
  rewrite <- Hlen at 1. rewrite (decode_n_good _ _ _ _ _ Hbss Hf). cbn [dbind]. now rewrite Hfl.
Qed.

Lemma concat_fixed_length e xs bss w :
  Forall2 (good e) xs bss -> forallb (in_dom e) xs = true -> FW e -> fixed_width e = Some w -> wf_ty e = true ->
  length (concat bss) = (length xs * w)%nat.
Proof.
  intros H Hd Hfw Hw Hwf. induction H as [|x b xs bss [He _] _ IH]; [reflexivity|].
  cbn [forallb] in Hd. apply andb_prop in Hd as [Hx Hxs].
  cbn [concat length]. rewrite app_length, (IH Hxs), (Hfw w x b Hw Hwf Hx He). lia.
Qed.

Lemma fw_TArrFixed n e : RT e -> FW e -> FW (TArrFixed n e).
Proof.
  intros Hrt Hfw w v bs Hw Hwf Hd He. cbn [fixed_width] in Hw.
  destruct (fixed_width e) as [we|] eqn:Ew; [|discriminate]. injection Hw as <-.
  assert (Hwfe : wf_ty e = true).
  { cbn [wf_ty] in Hwf. now apply andb_prop in Hwf as [Hwf _]. }
  destruct v; try (cbn [in_dom] in Hd; discriminate Hd).
  destruct (arr_fixed_form n e l Hrt Hwf Hd) as (xs & bss & H1 & H2 & H3 & H4 & _).
  rewrite He in H4. injection H4 as ->. rewrite (concat_fixed_length _ _ _ _ H1 H2 Hfw Ew Hwfe). now rewrite H3.
Qed.

Lemma rt_TArrAll e : RT e -> RT (TArrAll e).
Proof.
  intros Hrt Hwf v rest Hd Hg. rewrite (Hg eq_refl). cbn [wf_ty] in Hwf.
  apply andb_prop in Hwf as [Hwf Hc]. apply andb_prop in Hwf as [Hwf Hgr]. apply negb_true_iff in Hgr.
  cbn [in_dom] in Hd. destruct v; try discriminate Hd.
  (* the elements and their encodings, as for Array(n, T) *)
  assert (exists xs bss, Forall2 (good e) xs bss /\ encode (TArrAll e) (VList l) = Ok (concat bss)
            /\ array_flatten (is_bits e) (VList (map (norm e) xs)) [] = DOk (norm (TArrAll e) (VList l)) [])
    as (xs & bss & Hbss & He & Hfl).
  { destruct (is_bits e) eqn:Eb.
    - destruct e; try discriminate Eb. apply andb_prop in Hd as [Hm Hb]. cbn [wf_ty] in Hwf.
      set (n := (length l / (w * 8))%nat).
      assert (Hlen : length l = (n * (w * 8))%nat).
      { unfold n. unfold zlen in Hm. pose proof (Nat.div_mod (length l) (w * 8) ltac:(lia)) as Hdm.
        assert (Z.of_nat (length l mod (w * 8)) = 0).
        { rewrite Nat2Z.inj_mod. replace (Z.of_nat (w * 8)) with (8 * Z.of_nat w) by lia. lia. }
        lia. }
      destruct (bits_array_form None n w l ltac:(lia) Hlen Hb I) as (xs & bss & Hbss & _ & _ & Hch & He).
      exists xs, bss. repeat split; try assumption. cbn [array_flatten]. now rewrite norm_bits_id, Hch.
    - assert (Hd' : forallb (in_dom e) l = true) by (destruct e; try exact Hd; discriminate Eb). clear Hd.
      destruct (list_good e _ Hrt Hwf Hgr Hd') as (bss & Hbss).
      exists l, bss. repeat split; [assumption| |].
      + cbn [encode]. now apply (array_encode_plain None e l _ l bss Eb eq_refl (le_n _) (firstn_all l)).
      + cbn [array_flatten norm]. destruct e; try reflexivity. discriminate Eb. }
  exists (concat bss). split; [exact He|].
  intros fuel Hf. cbn [decode_fuel]. unfold array_decode_all. rewrite app_nil_r.
  rewrite (decode_all_good e xs bss fuel fuel Hwf Hc Hbss Hf Hf). cbn [dbind]. now rewrite Hfl.
Qed.

Fixpoint member_entries (ms : list (key * ty)) (xs : list val) : list (key * val) :=
  match ms, xs with
  | m :: ms', x :: xs' => (fst m, norm (snd m) x) :: member_entries ms' xs'
  | _, _ => []
  end.

Lemma struct_seq_rt ms xs rest :
  Forall (fun m => RT (snd m)) ms ->
  forallb (fun m => wf_ty (snd m)) ms = true ->
  initb (fun m => negb (greedy (snd m))) ms = true ->
  forallb2 (fun m x => in_dom (snd m) x) ms xs = true ->
  (lastb (fun m => greedy (snd m)) ms = true -> rest = []) ->
  exists bs, struct_encode_seq (enc_members ms) xs = Ok bs
    /\ forall fuel acc, (length bs < fuel)%nat ->
         struct_decode_members (dec_members fuel ms) acc (bs ++ rest)
         = DOk (VDict (set_all acc (member_entries ms xs))) rest.
Proof.
  intros Hrt. revert xs. induction Hrt as [|m ms Hm _ IH]; intros xs Hwf Hin Hd Hg.
  - destruct xs; [|discriminate Hd]. exists []. split; [reflexivity|]. intros fuel acc _. reflexivity.
  - destruct xs as [|x xs]; [discriminate Hd|]. cbn [forallb2] in Hd. apply andb_prop in Hd as [Hx Hxs].
    cbn [forallb] in Hwf. apply andb_prop in Hwf as [Hwm Hwms].
    destruct (IH xs Hwms) as (bs2 & He2 & Hd2); [|exact Hxs| |].
    { destruct ms; [reflexivity|]. cbn [initb] in Hin. now apply andb_prop in Hin as [_ Hin]. }
    { destruct ms; [discriminate|]. exact Hg. }
    assert (Hrest1 : greedy (snd m) = true -> bs2 ++ rest = []).
    { intros Hgm. destruct ms as [|m2 ms2].
      - destruct xs; [|discriminate Hxs]. cbn in He2. injection He2 as <-. cbn [app]. apply Hg. exact Hgm.
      - cbn [initb] in Hin. apply andb_prop in Hin as [Hin _]. rewrite Hgm in Hin. discriminate. }
    destruct (Hm Hwm x (bs2 ++ rest) Hx Hrest1) as (b1 & He1 & Hd1).
    exists (b1 ++ bs2). split.
    + cbn [enc_members map struct_encode_seq fst snd]. unfold as_member at 1. rewrite He1. cbn [bind].
      fold (enc_members ms). rewrite He2. reflexivity.
    + intros fuel acc Hf. rewrite app_length in Hf. cbn [dec_members map struct_decode_members fst snd].
      rewrite <- app_assoc. rewrite Hd1 by lia. cbn [dbind]. fold (dec_members fuel ms).
      now rewrite Hd2 by lia.
Qed.

Lemma struct_dict_seq ms d xs :
  Forall2 (fun m x => dict_get d (fst m) = Ok x) ms xs ->
  struct_encode_dict (enc_members ms) d = struct_encode_seq (enc_members ms) xs.
Proof.
  induction 1 as [|m x ms xs Hm _ IH]; [reflexivity|].
  cbn [enc_members map struct_encode_dict struct_encode_seq fst snd]. rewrite Hm. cbn [bind].
  fold (enc_members ms). now rewrite IH.
Qed.

Lemma dict_values ms d :
  forallb (fun m => match dict_get d (fst m) with Ok x => in_dom (snd m) x | Err _ => false end) ms = true ->
  exists xs, Forall2 (fun m x => dict_get d (fst m) = Ok x) ms xs
             /\ forallb2 (fun m x => in_dom (snd m) x) ms xs = true.
Proof.
  induction ms as [|m ms IH]; intros H.
  - exists []. split; [constructor|reflexivity].
  - cbn [forallb] in H. apply andb_prop in H as [Hm Hms]. destruct (IH Hms) as (xs & H1 & H2).
    destruct (dict_get d (fst m)) as [x|] eqn:E; [|discriminate].
    exists (x :: xs). split; [now constructor|]. cbn [forallb2]. now rewrite Hm, H2.
Qed.

Lemma norm_dict_seq ms d xs :
  Forall2 (fun m x => dict_get d (fst m) = Ok x) ms xs ->
  flat_map (fun m => match dict_get d (fst m) with
                     | Ok x => named_entry (fst m) (norm (snd m) x)
                     | Err _ => []
                     end) ms
  = flat_map2 (fun m x => named_entry (fst m) (norm (snd m) x)) ms xs.
Proof.
  induction 1 as [|m x ms xs Hm _ IH]; [reflexivity|]. cbn [flat_map flat_map2]. now rewrite Hm, IH.
Qed.

Definition mkeys (ms : list (key * ty)) : list key := filter (fun k => negb (unnamed k)) (map fst ms).

Lemma strip_member_entries ms xs :
  strip (member_entries ms xs) = flat_map2 (fun m x => named_entry (fst m) (norm (snd m) x)) ms xs.
Proof.
  revert xs. induction ms as [|m ms IH]; intros [|x xs]; try reflexivity.
  cbn [member_entries flat_map2]. rewrite strip_cons, IH. unfold named_entry. cbn [fst]. now destruct (unnamed (fst m)).
Qed.

Lemma member_entries_keys ms xs : length ms = length xs -> map fst (strip (member_entries ms xs)) = mkeys ms.
Proof.
  revert xs. unfold mkeys. induction ms as [|m ms IH]; intros [|x xs] H; try discriminate; [reflexivity|].
  cbn [member_entries map filter]. rewrite strip_cons. cbn [fst]. injection H as H.
  destruct (unnamed (fst m)); cbn [negb map fst]; now rewrite IH.
Qed.

Lemma forallb2_length {A B} (f : A -> B -> bool) la lb : forallb2 f la lb = true -> length la = length lb.
Proof.
  revert lb. induction la as [|a la IH]; intros [|b lb] H; try discriminate; [reflexivity|].
  cbn [forallb2] in H. apply andb_prop in H as [_ H]. cbn [length]. now rewrite (IH lb H).
Qed.

Lemma struct_plain_rt ms v rest :
  Forall (fun m => RT (snd m)) ms ->
  forallb (fun m => wf_ty (snd m)) ms = true ->
  initb (fun m => negb (greedy (snd m))) ms = true ->
  keys_nodup (mkeys ms) = true ->
  in_dom (TStruct SPlain ms) v = true ->
  (lastb (fun m => greedy (snd m)) ms = true -> rest = []) ->
  exists bs, struct_encode_inner (enc_members ms) v = Ok bs
    /\ forall fuel, (length bs < fuel)%nat ->
         struct_decode_inner (dec_members fuel ms) (bs ++ rest) = DOk (norm (TStruct SPlain ms) v) rest.
Proof.
  intros Hrt Hwf Hin Hk Hd Hg.
  (* a sequence or a dict: either way the member values in member order *)
  assert (Hx : exists xs, forallb2 (fun m x => in_dom (snd m) x) ms xs = true
               /\ struct_encode_inner (enc_members ms) v = struct_encode_seq (enc_members ms) xs
               /\ norm (TStruct SPlain ms) v
                  = VDict (flat_map2 (fun m x => named_entry (fst m) (norm (snd m) x)) ms xs)).
  { cbn [in_dom] in Hd. destruct v; try discriminate Hd.
    - exists l. repeat split; [exact Hd|]. cbn [struct_encode_inner py_iter bind]. unfold enc_members at 1.
      now rewrite map_length, (forallb2_length _ _ _ Hd), Nat.ltb_irrefl.
    - destruct (dict_values ms d Hd) as (xs & Hx1 & Hx2). exists xs. repeat split; [exact Hx2|now apply struct_dict_seq|].
      cbn [norm]. now rewrite (norm_dict_seq _ _ _ Hx1). }
  destruct Hx as (xs & Hd' & -> & ->).
  destruct (struct_seq_rt ms xs rest Hrt Hwf Hin Hd' Hg) as (bs & He & Hdec).
  exists bs. split; [exact He|]. intros fuel Hf. unfold struct_decode_inner. rewrite Hdec by exact Hf. cbn [dbind].
  rewrite final_dict_strip by now apply dkeys_nodup_set_all.
  rewrite strip_set_all, set_all_fresh, strip_member_entries; [reflexivity| |now apply forallb_forall].
  now rewrite member_entries_keys by apply (forallb2_length _ _ _ Hd').
Qed.

Lemma identity_pre_dict v v' : identity_pre v = Ok v' -> exists d', v' = VDict d'.
Proof.
  unfold identity_pre. destruct v; try discriminate.
  destruct (dict_get d k_product_type) as [pt|]; cbn [bind]; [|discriminate].
  destruct (table_getitem product_types pt) as [ptc|]; cbn [bind]; [|discriminate].
  destruct (dict_get (dict_set d k_product_type ptc) k_vendor) as [vd|]; cbn [bind]; [|discriminate].
  destruct (table_getitem vendors vd) as [vc|]; cbn [bind]; [|discriminate].
  destruct (dict_get (dict_set (dict_set d k_product_type ptc) k_vendor vc) k_serial) as [sr|]; cbn [bind]; [|discriminate].
  destruct (match sr with VStr s => bytes_fromhex s | _ => Err (Foreign TypeError) end) as [sb|]; cbn [bind]; [|discriminate].
  intros H. injection H as <-. eexists. reflexivity.
Qed.

Lemma norm_struct_identity ms v :
  norm (TStruct SModuleIdentity ms) v
  = match identity_pre v with
    | Ok v' => match norm (TStruct SPlain ms) v' with
               | VDict d' => match identity_post d' with Ok d'' => VDict d'' | Err _ => v end
               | _ => v
               end
    | Err _ => v
    end.
Proof. reflexivity. Qed.

Lemma rt_TStruct k ms : Forall (fun m => RT (snd m)) ms -> RT (TStruct k ms).
Proof.
  intros Hrt Hwf v rest Hd Hg. cbn [wf_ty] in Hwf. cbn [greedy] in Hg.
  apply andb_prop in Hwf as [Hwf Hnd]. apply andb_prop in Hwf as [Hwf Hin]. apply andb_prop in Hwf as [Hk Hwf].
  change (filter (fun k0 : key => negb (unnamed k0)) (map fst ms)) with (mkeys ms) in Hnd.
  destruct k; [| |discriminate Hk].
  - destruct (struct_plain_rt ms v rest Hrt Hwf Hin Hnd Hd Hg) as (bs & He & Hdec).
    exists bs. split.
    + cbn [encode]. unfold struct_encode, pub_encode. fold (enc_members ms). now rewrite He.
    + intros fuel Hf. cbn [decode_fuel]. unfold struct_decode. fold (dec_members fuel ms).
      now rewrite (Hdec fuel Hf).
  - cbn [in_dom] in Hd. destruct v; try discriminate Hd.
    destruct (identity_pre (VDict d)) as [v'|] eqn:Epre; [|discriminate Hd].
    apply andb_prop in Hd as [Hd Hpost].
    destruct (struct_plain_rt ms v' rest Hrt Hwf Hin Hnd Hd Hg) as (bs & He & Hdec).
    exists bs. split.
    + cbn [encode]. unfold struct_encode, pub_encode. fold (enc_members ms). rewrite Epre. cbn [bind]. now rewrite He.
    + intros fuel Hf. cbn [decode_fuel]. unfold struct_decode. fold (dec_members fuel ms).
      rewrite (Hdec fuel Hf). cbn [dbind]. rewrite norm_struct_identity, Epre.
      destruct (norm (TStruct SPlain ms) v') as [| | | | | | | |d'|]; try discriminate Hpost.
      destruct (identity_post d') as [d''|]; [reflexivity|discriminate Hpost].
Qed.

Lemma ty_of_name_SHORT_STRING : ty_of_name n_SHORT_STRING = Some (TStr false 1 Latin1).
Proof. reflexivity. Qed.

Lemma named_str_rt n s rest :
  named_str_dom n s = true ->
  exists bs, named_encode n (VStr s) = Ok bs /\ named_decode n (bs ++ rest) = DOk (VStr s) rest.
Proof.
  unfold named_str_dom, named_encode, named_decode. intros H.
  destruct (ty_of_name n) as [t|]; [|discriminate]. destruct t; try discriminate.
  - apply andb_prop in H as [Hw Hd].
    destruct (rt_TStr lsg lw enc Hw (VStr s) rest Hd ltac:(discriminate)) as (bs & He & Hdec).
    exists bs. split; [exact He|]. exact (Hdec (S (length bs)) ltac:(lia)).
  - destruct (rt_TStringN eq_refl (VStr s) rest H ltac:(discriminate)) as (bs & He & Hdec).
    exists bs. split; [exact He|]. exact (Hdec (S (length bs)) ltac:(lia)).
Qed.

Lemma stringi_code_ok c n : zlookup stringi_string_types c = Some n -> byte_ok c = true.
Proof.
  unfold stringi_string_types. cbn [zlookup].
  repeat match goal with |- context [?a =? c] => destruct (a =? c) eqn:?; [intros _; unfold byte_ok; lia|] end.
  discriminate.
Qed.

Lemma rt_TStringI : RT TStringI.
Proof.
  intros _ v rest Hd _. cbn [in_dom] in Hd. unfold stringi_item_dom in Hd.
  (* one level at a time: a single nested pattern generates every combination of constructors first *)
  destruct v as [| | | | | | |items| |]; try discriminate Hd.
  destruct items as [|v1 items]; [discriminate Hd|]. destruct v1 as [| | | |s| | | | |]; try discriminate Hd.
  destruct items as [|v2 items]; [discriminate Hd|]. destruct v2 as [| | | | | | | | |n]; try discriminate Hd.
  destruct items as [|v3 items]; [discriminate Hd|]. destruct v3 as [| | | |lang| | | | |]; try discriminate Hd.
  destruct items as [|v4 items]; [discriminate Hd|]. destruct v4 as [| |cs| | | | | | |]; try discriminate Hd.
  destruct items as [|? ?]; [|discriminate Hd].
  apply andb_prop in Hd as [Hd Hcs]. apply andb_prop in Hd as [Hd Hasc]. apply andb_prop in Hd as [Hd Hlat].
  apply andb_prop in Hd as [Hd Hl3].
  destruct (find_row type_rows n) as [r|] eqn:Er; [|discriminate Hd].
  destruct (zlookup stringi_string_types (row_code r)) as [n'|] eqn:Ez; [|discriminate Hd].
  apply andb_prop in Hd as [Hn Hsd]. apply text_eqb_eq in Hn. subst n'.
  pose proof (stringi_code_ok _ _ Ez) as Hcode.
  destruct lang as [|l1 [|l2 [|l3 [|? ?]]]]; try discriminate Hl3.
  set (lang := [l1; l2; l3]) in *.
  destruct (named_str_rt n s rest Hsd) as (st & Hes & Hds).
  exists ([1] ++ (lang ++ [row_code r] ++ le_enc 2 cs ++ st) ++ []). split.
  - cbn [encode]. unfold stringi_encode, stringi_encode_args, zlen. cbn [length Z.of_nat].
    unfold named_int_encode. rewrite int_row_USINT, int_encode_ok by reflexivity. cbn [bind stringi_encode_items].
    unfold stringi_encode_item. cbn [py_iter bind]. rewrite Er, Hcode, Hasc. cbn [bind].
    rewrite named_UINT_encode, int_encode_ok by exact Hcs. cbn [bind]. rewrite Hes. reflexivity.
  - intros fuel _. cbn [decode_fuel norm stringi_item_norm]. unfold stringi_decode.
    rewrite app_nil_r. rewrite <- app_assoc.
    change [1] with (le_enc 1 1).
    rewrite named_USINT_decode, int_decode_ok by (try lia; reflexivity). cbn [dbind as_int].
    change (Z.to_nat 1) with 1%nat. cbn [stringi_decode_items].
    rewrite <- !app_assoc. change 3 with (zlen lang) at 1. rewrite stream_take_app.
    unfold named_decode at 1. rewrite ty_of_name_SHORT_STRING.
    assert (Hlang : str_decode false 1 Latin1 (3 :: lang) = DOk (VStr lang) []).
    { unfold str_decode. change (3 :: lang) with (le_enc 1 3 ++ lang ++ []).
      rewrite int_decode_ok by (lia || reflexivity). cbn [dbind as_int Z.eqb].
      change (3 * enc_char_size Latin1) with (zlen lang). now rewrite stream_read_app. }
    rewrite Hlang. cbn [app]. rewrite Ez.
    rewrite named_UINT_decode, int_decode_ok by (try lia; exact Hcs). cbn [dbind].
    rewrite Hds. cbn [dbind rev app dwrap]. reflexivity.
Qed.
