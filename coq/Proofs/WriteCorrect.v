(* Proofs/WriteCorrect.v — composition for C02: the request the MODEL emits for a parsed write,
   executed by the reference TARGET, leaves exactly the memory the reference interpretation
   (Spec/Expect.ref_write) prescribes, and is logged as exactly one executed write.

   The target is entered at its tag services ([svc_write] / [svc_write_frag] / [svc_rmw], reached
   from a frame through parse_mr / resolve_path / tag_service: Proofs/WriteMsg.v); that the emitted
   path resolves to the wire location of the addressed place is property C09 + C01's parsing: the
   theorems here are stated at that location ([l], the [loc_of_place] of the resolved place).

     write_correct_value    one value of an integer / REAL / LREAL type (tag, array element, member)
     write_correct_array    `{n}` consecutive elements from an index, longer lists truncated
     write_correct_string   a string structure: LEN + characters, truncated to the capacity
                            (these three: instances of Proofs/WriteStruct.write_correct_one / _many)
     write_correct_bool     a BOOL tag / BOOL member: only its bit of the host byte
     write_correct_bits     bit writes merged per tag into one Read-Modify-Write = the reference bit
                            writes applied in call order; exactly one store
     frag_stores_compose    the stores of a fragmented transfer, in order, = the store of the whole value
     store_frame            a store changes nothing outside its range, and reads back *)
From Coq Require Import ZifyBool String.
From PV Require Import Base.Bytes Base.BytesLemmas Base.Res Base.Proto Base.PyStr Model.CodecFloat Model.Path Model.LogixPlan Model.LogixWrite.
From PV Require Import Spec.EncapParser Spec.MRParser Spec.TargetIface Spec.TargetCore Spec.Project Spec.Expect Spec.TargetLogix.
From PV Require Import Proofs.TargetCoreP Proofs.TargetLogixP Proofs.PlanP Proofs.WriteBits Proofs.WriteMsg Proofs.WriteEnc Proofs.WriteFull Proofs.WriteBools Proofs.WriteStruct.
Open Scope Z_scope.
Ltac Zify.zify_post_hook ::= Z.to_euclidean_division_equations.

(* the wire location the target resolves the request path to, for a data place *)
Definition loc_of_place (pl : place) : option wloc :=
  match pl with
  | PlData inst off ty dims avail => Some (mkWLoc inst off ty dims avail None)
  | PlBit inst off bit => Some (mkWLoc inst off (BAtom C_BOOL) [] 1 (Some bit))
  | PlBools _ _ _ _ => None
  end.

(* A request for ONE value of an integer / REAL / LREAL type at any data place (atomic tag, element
   of an array of any rank, member at any depth).  [q] is its parsed form as the driver holds it.
   If the reference write exists (the value is in range), then: encode_value succeeds, the packet
   is built, its message has the specified layout, and the target executing the message's data
   leaves EXACTLY the reference memory, answering success and logging exactly ONE executed write. *)
Theorem write_correct_value p m r inst off c dims avail s name v rv m_ref img
        id tag tyh inst_id ui seq path :
  resolve p r = Some (PlData inst off (BAtom c) dims avail) -> r_bit r = None -> r_count r = None ->
  mem_get m inst = Some img ->
  atom_name c = Some name -> value_atom c = true -> atom_size c = Some s -> denotes_atom c v rv ->
  ref_write p m r rv = Some m_ref ->
  1 <= avail -> 0 <= seq < 65536 ->
  let info := mkInfo false name (WElem name) tyh inst_id in
  let q := mkParsed id false tag None 1 None info v in
  let l := mkWLoc inst off (BAtom c) dims avail None in
  path_of tag info ui = Ok (Some path) ->
  exists data pk pk1,
    encode_value q = Ok (data, 1)
    /\ new_write_packet KWrite seq tag 1 info id ui 0 data = Ok pk
    /\ build_message pk = Ok pk1
    /\ k_message pk1 = le_enc 2 seq ++ [77] ++ path ++ write_data (le_enc 2 c) 1 data
    /\ svc_write p m img l (write_data (le_enc 2 c) 1 data)
       = (m_ref, mr_ok [], [EvApp 1 [inst; off; 77] data]).
Proof.
  intros Hres Hbit Hcnt Hmem Hn Hv _ Hd Hw Hav Hseq info q l Hpath.
  destruct (atom_covered p c name Hn Hv) as (Hg & Hwt & _).
  destruct (atom_type_field p l c name (WElem name) tyh inst_id eq_refl Hn Hv) as (Hpt & Hparse & Htm).
  exact (write_correct_one p m r inst off _ dims avail _ v rv m_ref img id tag info _ _ ui seq path
           Hg Hwt Hres Hbit Hcnt Hmem (or_introl eq_refl) Hpt Hparse Htm (denotes_atom_denotes _ _ _ Hd) Hw Hav Hseq Hpath).
Qed.

Theorem write_correct_array p m r inst off c dims avail s name l_py vs n m_ref img
        id tag n0 tyh inst_id ui seq path :
  resolve p r = Some (PlData inst off (BAtom c) dims avail) -> r_bit r = None -> r_count r = Some n ->
  mem_get m inst = Some img ->
  atom_name c = Some name -> value_atom c = true -> atom_size c = Some s ->
  Forall2 (denotes_atom c) l_py vs ->
  ref_write p m r (RList vs) = Some m_ref ->
  1 < n < 65536 -> 0 <= seq < 65536 ->
  let info := mkInfo false name (WArray n0 (WElem name)) tyh inst_id in
  let q := mkParsed id false tag None n None info (PList l_py) in
  let l := mkWLoc inst off (BAtom c) dims avail None in
  path_of tag info ui = Ok (Some path) ->
  exists data pk pk1,
    encode_value q = Ok (data, n)
    /\ new_write_packet KWrite seq tag n info id ui 0 data = Ok pk
    /\ build_message pk = Ok pk1
    /\ k_message pk1 = le_enc 2 seq ++ [77] ++ path ++ write_data (le_enc 2 c) n data
    /\ svc_write p m img l (write_data (le_enc 2 c) n data)
       = (m_ref, mr_ok [], [EvApp 1 [inst; off; 77] data]).
Proof.
  intros Hres Hbit Hcnt Hmem Hn Hv _ H2 Hw Hnn Hseq info q l Hpath.
  destruct (atom_covered p c name Hn Hv) as (Hg & Hwt & Hb).
  destruct (atom_type_field p l c name (WArray n0 (WElem name)) tyh inst_id eq_refl Hn Hv) as (Hpt & Hparse & Htm).
  assert (H2' : Forall2 denotes l_py vs) by (clear -H2; induction H2; constructor; eauto using denotes_atom_denotes).
  exact (write_correct_many p m r inst off _ dims avail _ l_py vs n m_ref img id tag info n0 _ _ ui seq path
           Hg Hb Hwt Hres Hbit Hcnt Hmem eq_refl Hpt Hparse Htm H2' Hw ltac:(lia) Hseq Hpath).
Qed.

(* A string structure on the standard layout (LEN DINT at 0, DATA SINT[capacity] at 4): the value is
   truncated to the capacity, LEN is the truncated length, the rest of DATA is zero. *)
Theorem write_correct_string p m r inst off tid dims avail t lm dm cs m_ref img
        id tag tname inst_id ui seq path :
  resolve p r = Some (PlData inst off (BStruct tid) dims avail) -> r_bit r = None -> r_count r = None ->
  mem_get m inst = Some img ->
  find_template (p_templates p) tid = Some t -> string_shape t = Some (lm, dm) ->
  m_off lm = 0 -> m_off dm = 4 -> 0 <= m_arr dm -> 4 + m_arr dm <= t_size t -> 0 <= t_handle t < 65536 ->
  PyStr.text_eqb tname n_DWORD = false ->
  ref_write p m r (RStr cs) = Some m_ref ->
  1 <= avail -> 0 <= seq < 65536 ->
  let info := mkInfo true tname (WFixedStr (t_size t - 4) (m_arr dm)) (t_handle t) inst_id in
  let q := mkParsed id false tag None 1 None info (PStr cs) in
  let l := mkWLoc inst off (BStruct tid) dims avail None in
  path_of tag info ui = Ok (Some path) ->
  exists data pk pk1,
    encode_value q = Ok (data, 1)
    /\ new_write_packet KWrite seq tag 1 info id ui 0 data = Ok pk
    /\ build_message pk = Ok pk1
    /\ k_message pk1 = le_enc 2 seq ++ [77] ++ path ++ write_data (160 :: 2 :: le_enc 2 (t_handle t)) 1 data
    /\ svc_write p m img l (write_data (160 :: 2 :: le_enc 2 (t_handle t)) 1 data)
       = (m_ref, mr_ok [], [EvApp 1 [inst; off; 77] data]).
Proof.
  intros Hres Hbit Hcnt Hmem Hft Hss Hol Hod Hcap Hsz Hh _ Hw Hav Hseq info q l Hpath.
  assert (Hg : ty_guard (depth_fuel p) p (BStruct tid) = true).
  { unfold depth_fuel. cbn [ty_guard]. rewrite Hft, Hss. lia. }
  assert (Hwt : wty_of (depth_fuel p) p (BStruct tid) = Some (WFixedStr (t_size t - 4) (m_arr dm))).
  { unfold depth_fuel. cbn [wty_of]. rewrite Hft, Hss. reflexivity. }
  destruct (struct_type_field p l tid t tname (WFixedStr (t_size t - 4) (m_arr dm)) inst_id eq_refl Hft Hh) as (Hpt & Hparse & Htm).
  exact (write_correct_one p m r inst off _ dims avail _ _ _ m_ref img id tag info _ _ ui seq path
           Hg Hwt Hres Hbit Hcnt Hmem (or_introl eq_refl) Hpt Hparse Htm (DnS cs) Hw Hav Hseq Hpath).
Qed.

(* Any Python value is written by its truthiness as FF / 00; the target changes only the addressed
   bit of the host byte, which is what the reference does. *)
Theorem write_correct_bool p m r inst off bit v m_ref img id tag tyh inst_id ui seq path :
  resolve p r = Some (PlBit inst off bit) -> r_bit r = None -> r_count r = None ->
  mem_get m inst = Some img ->
  ref_write p m r (RBool (truthy v)) = Some m_ref ->
  is_bytes v = false -> 0 <= seq < 65536 ->
  let info := mkInfo false n_BOOL (WElem n_BOOL) tyh inst_id in
  let q := mkParsed id false tag None 1 None info v in
  let l := mkWLoc inst off (BAtom C_BOOL) [] 1 (Some bit) in
  path_of tag info ui = Ok (Some path) ->
  exists data pk pk1 stored,
    encode_value q = Ok (data, 1) /\ data = [if truthy v then 255 else 0]
    /\ new_write_packet KWrite seq tag 1 info id ui 0 data = Ok pk
    /\ build_message pk = Ok pk1
    /\ k_message pk1 = le_enc 2 seq ++ [77] ++ path ++ write_data (le_enc 2 C_BOOL) 1 data
    /\ svc_write p m img l (write_data (le_enc 2 C_BOOL) 1 data)
       = (m_ref, mr_ok [], [EvApp 1 [inst; off; 77] [stored]]).
Proof.
  intros Hres Hbit Hcnt Hmem Hw Hnb Hseq info q l Hpath.
  destruct (ref_write_inv _ _ _ _ _ _ _ Hres Hmem Hw) as (img' & Hwp & ->). rewrite Hbit, Hcnt in Hwp.
  unfold write_place in Hwp. destruct (get_bytes img off 1) as [[|y [|y2 yr]]|] eqn:Hg; try discriminate.
  set (data := [if truthy v then 255 else 0]).
  destruct (write_request_executes p m img l info id tag ui seq path (le_enc 2 C_BOOL) (inl C_BOOL) 1 data 1
              eq_refl Hpath Hseq (fun rest => eq_refl) eq_refl eq_refl) as (pk & pk1 & T1 & T2 & T3 & T4);
    [cbn; lia|lia|reflexivity|].
  exists data, pk, pk1, (set_bit_byte y bit (truthy v)).
  split; [rewrite (encode_value_plain q data Hnb (fun _ => eq_refl) eq_refl eq_refl), q_new_elements_nobit; reflexivity|].
  split; [reflexivity|]. split; [exact T1|]. split; [exact T2|]. split; [exact T3|]. rewrite T4.
  unfold do_store, loc_store. cbn [w_bit l w_off w_inst]. unfold data. rewrite Hg.
  replace (negb ((if truthy v then 255 else 0) =? 0)) with (truthy v) by (destruct (truthy v); reflexivity).
  rewrite Hwp. reflexivity.
Qed.

Lemma set_bit_mod n A b x : 0 <= n -> 0 <= b ->
  (set_bit_byte (A mod 2 ^ n) b x) mod 2 ^ n = (set_bit_byte A b x) mod 2 ^ n.
Proof.
  intros Hn Hb. apply Z.bits_inj'. intros k Hk.
  rewrite !Z.testbit_mod_pow2, !set_bit_byte_testbit, Z.testbit_mod_pow2 by lia.
  destruct (k <? n); destruct (k =? b); reflexivity.
Qed.

(* one reference bit write at an integer place *)
Definition ref_bit_step (p : project) (pl : place) (oi : option bytes) (bv : Z * bool) : option bytes :=
  match oi with Some i => write_place p i pl (Some (fst bv)) None (RBool (snd bv)) | None => None end.

Lemma ref_bit_step_word p inst c dims avail s P S X b x :
  atom_size c = Some s -> atom_integer c = true -> 0 <= b < 8 * s ->
  ref_bit_step p (PlData inst (Z.of_nat (length P)) (BAtom c) dims avail) (Some (P ++ le_enc (Z.to_nat s) X ++ S)) (b, x)
  = Some (P ++ le_enc (Z.to_nat s) (set_bit_byte X b x) ++ S).
Proof.
  intros Hs Hi Hb. pose proof (atom_size_cases c s Hs) as Hsc.
  unfold ref_bit_step, write_place. cbn [fst snd base_size int_ty]. rewrite Hs, Hi.
  rewrite (get_bytes_mid P _ S s) by (rewrite le_enc_length; lia).
  replace (0 <=? b) with true by lia. replace (b <? 8 * s) with true by lia. cbn [andb].
  rewrite put_bytes_decomp by (rewrite !le_enc_length; reflexivity). do 2 f_equal.
  rewrite le_dec_enc, <- le_enc_mod, pow256_pow2, set_bit_mod, <- pow256_pow2, le_enc_mod by lia. reflexivity.
Qed.

Lemma ref_bits_word p inst c dims avail s P S bl : forall X,
  atom_size c = Some s -> atom_integer c = true -> Forall (fun bv => 0 <= fst bv < 8 * s) bl ->
  fold_left (ref_bit_step p (PlData inst (Z.of_nat (length P)) (BAtom c) dims avail)) bl (Some (P ++ le_enc (Z.to_nat s) X ++ S))
  = Some (P ++ le_enc (Z.to_nat s) (apply_bits X bl) ++ S).
Proof.
  induction bl as [|[b x] r IH]; intros X Hs Hi Hall; [reflexivity|]. inversion Hall as [|? ? Hb Hr]; subst.
  cbn [fold_left]. rewrite (ref_bit_step_word p inst c dims avail s P S X b x Hs Hi Hb). apply IH; assumption.
Qed.

(* Several bit writes of one integer (tag, array element, member) in one call are merged into ONE
   Read-Modify-Write whose masks have the integer's width; the target's single store equals the
   reference bit writes applied one after the other in call order (so: exactly the named bits
   change, the last value named for a bit wins, every other bit of the word and every other byte
   keep their value). *)
Theorem write_correct_bits p m img inst off c dims avail s bl old :
  atom_size c = Some s -> atom_integer c = true ->
  get_bytes img off s = Some old -> bytes_ok old = true ->
  Forall (fun bv => 0 <= fst bv < 8 * s) bl -> bl <> [] ->
  let pl := PlData inst off (BAtom c) dims avail in
  let l := mkWLoc inst off (BAtom c) dims avail None in
  let o := fst (rmw_masks false bl) in
  let a := snd (rmw_masks false bl) in
  exists ob ab img' stored,
    mask_bytes o s = Ok ob /\ mask_bytes a s = Ok ab
    /\ length ob = Z.to_nat s /\ length ab = Z.to_nat s
    /\ fold_left (ref_bit_step p pl) bl (Some img) = Some img'
    /\ svc_rmw p m img l (rmw_data s ob ab) = (mem_set m inst img', mr_ok [], [EvApp 1 [inst; off; 78] stored]).
Proof.
  intros Hs Hi Hg Hok Hall _ pl l o a.
  pose proof (atom_size_cases c s Hs) as Hsc.
  assert (Hall64 : Forall (fun bv => 0 <= eff_bit false (fst bv) < 64) bl)
    by (eapply Forall_impl; [|exact Hall]; cbn [eff_bit]; lia).
  assert (Hrt : rmw_ok_type l = true) by (unfold rmw_ok_type; cbn [w_bit w_ty l]; rewrite Hi; reflexivity).
  destruct (rmw_executes p m img l false bl s old Hs Hrt eq_refl ltac:(lia) Hg Hok Hall64) as (Mo & Ma & P & S & -> & HP & Hlw & Hsvc).
  cbv zeta in Hsvc. cbn [w_off w_inst l] in HP, Hsvc. subst off. rewrite (eff_in_width s bl Hall) in Hsvc. fold o a in Mo, Ma, Hsvc.
  do 4 eexists. split; [exact Mo|]. split; [exact Ma|]. split; [apply le_enc_length|]. split; [apply le_enc_length|].
  split; [|exact Hsvc]. rewrite <- (le_enc_dec old Hok) at 1. rewrite Hlw. apply ref_bits_word; assumption.
Qed.

(* storing the segments of a value one after the other at their running offsets = storing the value *)
Lemma put_bytes_app img off d1 d2 i1 :
  put_bytes img off d1 = Some i1 ->
  put_bytes i1 (off + Expect.blen d1) d2 = put_bytes img off (d1 ++ d2).
Proof.
  intros H. pose proof (put_bytes_len _ _ _ _ H) as L. revert H. unfold put_bytes, Expect.blen. rewrite L, app_length.
  destruct ((0 <=? off) && (off + Z.of_nat (length d1) <=? Z.of_nat (length img))) eqn:E; [|discriminate].
  intros H; injection H as <-.
  destruct (Z_le_gt_dec (off + Z.of_nat (length d1) + Z.of_nat (length d2)) (Z.of_nat (length img))) as [E2|E2].
  - replace ((0 <=? off + Z.of_nat (length d1)) && (off + Z.of_nat (length d1) + Z.of_nat (length d2) <=? Z.of_nat (length img))) with true by lia.
    replace ((0 <=? off) && (off + Z.of_nat (length d1 + length d2) <=? Z.of_nat (length img))) with true by lia.
    f_equal.
    set (A := firstn (Z.to_nat off) img). set (R := skipn (Z.to_nat off + length d1) img).
    assert (Hf : length A = Z.to_nat off) by (unfold A; rewrite firstn_length; lia).
    assert (Hn : Z.to_nat (off + Z.of_nat (length d1)) = length (A ++ d1)) by (rewrite app_length, Hf; lia).
    rewrite Hn. rewrite (app_assoc A d1 R). rewrite firstn_app_exact, skipn_app_add.
    rewrite <- !app_assoc. f_equal. f_equal. f_equal.
    unfold R. rewrite skipn_skipn. f_equal. rewrite ?app_length. lia.
  - replace ((0 <=? off + Z.of_nat (length d1)) && (off + Z.of_nat (length d1) + Z.of_nat (length d2) <=? Z.of_nat (length img))) with false by lia.
    replace ((0 <=? off) && (off + Z.of_nat (length d1 + length d2) <=? Z.of_nat (length img))) with false by lia.
    reflexivity.
Qed.

Fixpoint store_frags (img : bytes) (base : Z) (frs : list (Z * bytes)) : option bytes :=
  match frs with
  | [] => Some img
  | (o, sgm) :: r => match put_bytes img (base + o) sgm with Some i => store_frags i base r | None => None end
  end.

Lemma store_frags_from img base o segs :
  store_frags img base (combine (offsets_from o segs) segs) = put_bytes img (base + o) (concat segs) \/ segs = [].
Proof.
  revert img o. induction segs as [|sg r IH]; intros img o; [right; reflexivity|left].
  cbn [offsets_from combine store_frags concat].
  destruct (put_bytes img (base + o) sg) as [i|] eqn:E.
  - destruct (IH i (o + Z.of_nat (length sg))) as [H| ->].
    + rewrite H. rewrite <- (put_bytes_app img (base + o) sg (concat r) i E). f_equal. unfold Expect.blen. lia.
    + cbn [offsets_from combine store_frags concat]. rewrite app_nil_r. symmetry. exact E.
  - (* the first segment does not fit: neither does the whole *)
    revert E. unfold put_bytes, Expect.blen. rewrite app_length.
    destruct ((0 <=? base + o) && (base + o + Z.of_nat (length sg) <=? Z.of_nat (length img))) eqn:E1; [discriminate|].
    intros _. replace ((0 <=? base + o) && (base + o + Z.of_nat (length sg + length (concat r)) <=? Z.of_nat (length img))) with false by lia.
    reflexivity.
Qed.

(* the stores of the fragments _send_write_fragmented emits, applied in order at the addressed
   place, leave the image that one store of the whole value leaves *)
Theorem frag_stores_compose img base conn ovh value :
  0 < conn - ovh -> value <> [] ->
  store_frags img base (write_fragments conn ovh value) = put_bytes img base value.
Proof.
  intros Hpos Hne. unfold write_fragments.
  set (segs := LogixPlan.chunks (length value) (Z.to_nat (conn - ovh)) value).
  assert (Hc : concat segs = value) by (apply chunks_concat; lia).
  destruct (store_frags_from img base 0 segs) as [H| H].
  - rewrite H, Hc, Z.add_0_r. reflexivity.
  - rewrite H in Hc. cbn in Hc. congruence.
Qed.

(* a store changes nothing outside its range, whatever the data (arrays, strings, RMW words) *)
Theorem store_frame m img inst off d img' :
  put_bytes img off d = Some img' ->
  (forall j, j <> inst -> mem_get (mem_set m inst img') j = mem_get m j)
  /\ mem_get (mem_set m inst img') inst = Some img'
  /\ length img' = length img
  /\ (forall k, (k < Z.to_nat off \/ Z.to_nat off + length d <= k)%nat -> nth k img' 0 = nth k img 0)
  /\ get_bytes img' off (Expect.blen d) = Some d.
Proof.
  intros H. split; [intros j Hj; apply mem_get_set_other; congruence|]. split; [apply mem_get_set_same|].
  split; [eapply put_bytes_len; eassumption|]. split; [intros k Hk; eapply put_bytes_outside; eassumption|].
  eapply put_get_bytes; eassumption.
Qed.

(* the reference write at a data place as one put: one value / `{n}` values of an integer / REAL / LREAL type *)
Lemma write_place_value p img inst off c dims avail rv d s :
  atom_size c = Some s -> encode_atom c rv = Some d -> Expect.blen d = s ->
  write_place p img (PlData inst off (BAtom c) dims avail) None None rv = put_bytes img off d.
Proof.
  intros Hs He Hl. unfold write_place. cbn [base_size]. rewrite Hs. unfold depth_fuel. cbn [encode_val].
  rewrite He, Hl, Z.eqb_refl. reflexivity.
Qed.

Lemma concat_sizes s ds : forallb (fun d => Expect.blen d =? s) ds = true -> Expect.blen (concat ds) = s * Z.of_nat (length ds).
Proof.
  induction ds as [|d r IH]; intros H; cbn [concat length forallb] in *; [unfold Expect.blen; cbn; lia|].
  apply andb_true_iff in H as [H1 H2]. rewrite blen_app, (IH H2). lia.
Qed.

Lemma write_place_array p img inst off c dims avail vs n d s :
  value_atom c = true -> atom_size c = Some s -> 1 <= n <= avail -> n <= Z.of_nat (length vs) ->
  encode_array_with (encode_val (depth_fuel p) p) (BAtom c) s n (RList (firstn (Z.to_nat n) vs)) = Some d ->
  write_place p img (PlData inst off (BAtom c) dims avail) None (Some n) (RList vs) = put_bytes img off d.
Proof.
  intros Hv Hs Hn Hl He. unfold write_place, take_values. cbn [base_size is_bits_ty].
  rewrite Hs, (proj2 (value_atom_plain c Hv)).
  replace ((1 <=? n) && (n <=? avail)) with true by lia. replace (n <=? Z.of_nat (length vs)) with true by lia.
  rewrite He. revert He. unfold encode_array_with. cbn [is_bits_ty]. rewrite (proj2 (value_atom_plain c Hv)).
  destruct (_ =? n) eqn:En; [|discriminate]. destruct (all_some _) as [ds|] eqn:E; [|discriminate].
  destruct (forallb _ ds) eqn:F; [|discriminate]. intros H; injection H as <-.
  apply all_some_length in E. rewrite map_length in E. rewrite (concat_sizes s ds F), E.
  replace (s * Z.of_nat (length (firstn (Z.to_nat n) vs)) =? s * n) with true by lia. reflexivity.
Qed.
