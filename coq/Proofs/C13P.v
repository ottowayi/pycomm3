(* Proofs/C13P.v — vocabulary of the C13 statement, concrete witnesses (evaluated on the model in
   Props/C13.v; the same bytes are replayed on the implementation from corpus/C13), and the parts
   of the theorems of Props/C13.v assembled from Reply*.v. *)
From Coq Require Import String ZifyBool.
From PV Require Import Base.Bytes Base.PyStr.
From PV Require Import Gen.Status Gen.Consts Gen.ReplyTables.
From PV Require Import Model.Reply Spec.ReplyReader.
From PV Require Import Proofs.ReplyBase Proofs.ReplyValid Proofs.ReplyError Proofs.ReplyMulti Proofs.ReplyCalls.
Open Scope Z_scope.

(* exceptions.py (regenerated): every exception class the model calls "library" derives from
   PycommError, and BufferEmptyError from DataError *)
Lemma library_exceptions_derive :
  forallb (fun '(_, lib, _) => lib) library_exceptions = true
  /\ existsb (fun '(n, _, de) => text_eqb n (T "BufferEmptyError") && de) library_exceptions = true.
Proof. split; reflexivity. Qed.

Definition bytes_list_ok (l : list bytes) : Prop := Forall (fun r => bytes_ok r = true) l.

(* the response kind the request of a call is answered with (None: handshakes, open) *)
Definition reply_kind (c : call) : option rkind :=
  match c with
  | CRead _ | CWrite _ | CReadFrag _ | CMulti _ => Some KUnit
  | CGeneric KUnit _ => Some KUnit
  | CGeneric KRR _ => Some KRR
  | _ => None
  end.
Definition one_request (c : call) : bool :=
  match c with CRead _ | CWrite _ | CGeneric _ _ => true | _ => false end.
Definition status_is_6 (raw : bytes) : bool := match byte_at 48 raw with Some g => g =? 6 | None => false end.

(* "well-formed error reply" for the request of call c *)
Definition wf_error_for (c : call) (k : rkind) (raw : bytes) : bool :=
  wf_error k raw
  && match c with
     | CMulti reqs => no_service_data raw && match reqs with [] => false | _ => true end
                                           (* with service data the per-service words decide *)
     | CReadFrag _ => negb (status_is_6 raw)      (* status 6 asks the fragmented read to continue *)
     | _ => true
     end.

Definition all_falsy_with_text (o : rm out) : Prop :=
  exists tags, o = ROk (OTags tags) /\ tags <> [] /\ Forall falsy_text tags.

Definition dint_dec : rdecoder := read_decoder (RAtomic DINT_t) 1.
(* bytes 4..41 of a SendUnitData reply: session handle 7, encapsulation status 0, sender context "_pycomm_", options,
   interface handle, timeout, item count 2, connected address item (0xA1, length 4, connection id), connected data
   item type 0xB1.  A witness puts command 0x70 and the length in front and the data item length, the sequence
   count and the message-router reply (service, reserved, general status, additional-status size, ...) behind. *)
Definition hdr46 : bytes :=
  [7; 0; 0; 0; 0; 0; 0; 0; 95; 112; 121; 99; 111; 109; 109; 95; 0; 0; 0; 0; 0; 0; 0; 0; 0; 0; 2; 0; 161; 0; 4; 0; 39; 4; 25; 113; 177; 0].
(* multi-service reply with reply count 0 *)
Definition w_count0 : bytes := [112; 0; 28; 0] ++ [7; 0; 0; 0; 0; 0; 0; 0] ++ skipn 8 hdr46 ++ [8; 0; 1; 0; 138; 0; 0; 0; 0; 0].
(* header-only encapsulation error (status 0x65) *)
Definition w_hdr : bytes := [112; 0; 26; 0; 7; 0; 0; 0; 101; 0; 0; 0; 95; 112; 121; 99; 111; 109; 109; 95; 0; 0; 0; 0].
(* message-router error 0x08 (service not supported) answering a multi-service request: no data *)
Definition w_toperr : bytes := [112; 0; 26; 0] ++ hdr46 ++ [6; 0; 1; 0; 138; 0; 8; 0].
(* complete multi-service reply, two successful Read Tag replies, encapsulation status 1 *)
Definition w_encap : bytes :=
  [112; 0; 52; 0; 7; 0; 0; 0; 1; 0; 0; 0] ++ skipn 8 hdr46 ++
  [32; 0; 1; 0; 138; 0; 0; 0; 2; 0; 6; 0; 16; 0; 204; 0; 0; 0; 196; 0; 7; 0; 0; 0; 204; 0; 0; 0; 196; 0; 9; 0; 0; 0].
(* the same with encapsulation status 0, second service failing with status 5 + extended status 0 *)
Definition w_mixed : bytes :=
  [112; 0; 48; 0] ++ hdr46 ++
  [28; 0; 1; 0; 138; 0; 30; 0; 2; 0; 6; 0; 16; 0; 204; 0; 0; 0; 196; 0; 7; 0; 0; 0; 204; 0; 5; 1; 0; 0].
(* Read Tag error reply: general status 0xFF, extended status 0x2105 *)
Definition w_err : bytes := [112; 0; 28; 0] ++ hdr46 ++ [8; 0; 1; 0; 204; 0; 255; 1; 5; 33].
(* Read Tag success: DINT 42 *)
Definition w_read : bytes := [112; 0; 32; 0] ++ hdr46 ++ [12; 0; 1; 0; 204; 0; 0; 0; 196; 0; 42; 0; 0; 0].
(* multi-service request rejected with general status 5 and TWO additional-status words 0x0080 0x0000 *)
Definition w_ext2 : bytes := [112; 0; 30; 0] ++ hdr46 ++ [10; 0; 1; 0; 138; 0; 5; 2; 128; 0; 0; 0].

Definition two_reads : list sreq := [SRead dint_dec; SRead dint_dec].
Definition two_writes : list sreq := [SWrite (VInt 1); SWrite (VInt 2)].

Lemma wit_ok : bytes_ok w_count0 = true /\ bytes_ok w_hdr = true /\ bytes_ok w_toperr = true /\ bytes_ok w_encap = true
  /\ bytes_ok w_mixed = true /\ bytes_ok w_err = true /\ bytes_ok w_read = true /\ bytes_ok w_ext2 = true.
Proof. vm_compute. repeat split; reflexivity. Qed.

(* fragmented read: a well-formed error reply ends it *)
Lemma read_frag_wf_error dec raw rest : bytes_ok raw = true ->
  wf_error KUnit raw = true -> status_is_6 raw = false ->
  all_falsy_with_text (run_call (CReadFrag dec) (raw :: rest)).
Proof.
  intros Hok Hw H6.
  destruct (error_of_wf_error KUnit raw (or_introl eq_refl) Hok Hw) as (Hv & e & He & Hne). cbn [parse_k] in Hv, He.
  assert (Hst : opt_is (r_service_status (parse_unit raw)) INSUFFICIENT_PACKETS = false).
  { unfold parse_unit. destruct (r_service_status _) as [g|] eqn:E; [|reflexivity].
    destruct (parse_cip_status _ _ _ _ _ Hok E) as (_ & _ & _ & H48 & _).
    unfold status_is_6, byte_at in H6. now rewrite H48 in H6. }
  cbn [run_call]. unfold read_fragmented. cbn [read_frag_loop]. cbv zeta.
  rewrite (parse_read_frag_r raw), Hst, He. cbn [app forallb]. rewrite (parse_read_frag_r raw), Hv. cbn [andb].
  change (tag_of_response KUnit failed_fragments None) with (ROk {| t_value := None; t_error := Some fragments_failed |}). cbn [tag_out].
  eexists. split; [reflexivity|]. split; [discriminate|]. constructor; [|constructor].
  split; [reflexivity|]. eexists. split; [reflexivity|]. discriminate.
Qed.

Lemma error_text_k k raw : k = KUnit \/ k = KRR -> bytes_ok raw = true ->
  wf_cip_reply (layout_k k) raw = true -> spec_success (partial_k k) (layout_k k) raw = false ->
  exists t, error k (parse_k k raw) = ROk (Some t) /\ t <> []
    /\ (encap_status raw = Some 0 ->
        exists gs, byte_at (l_status (layout_k k)) raw = Some gs /\ gs <> 0
          /\ names_status service_status extend_codes gs (ext_value (ext_status (layout_k k) raw)) t = true).
Proof.
  intros Hk. apply error_text_gen. destruct Hk as [->| ->]; auto.
Qed.

Lemma one_reply_inv f raw rest t : one_reply (raw :: rest) f = ROk (OTags [t]) -> f raw = ROk t.
Proof. unfold one_reply. destruct (f raw); [|discriminate]. now intros [= ->]. Qed.
Lemma tag_out_inv r t : tag_out r = ROk (OTags [t]) -> r = ROk t.
Proof. unfold tag_out. destruct r; [|discriminate]. now intros [= ->]. Qed.

Lemma success_one_request c k raw rest t : one_request c = true -> reply_kind c = Some k -> bytes_ok raw = true ->
  run_call c (raw :: rest) = ROk (OTags [t]) -> tag_truthy t = true ->
  spec_success (partial_k k) (layout_k k) raw = true.
Proof.
  intros H1 Hk Hok Hr Ht. destruct c as [dec|dec|v|v n|reqs|k0 dt| |f c]; try discriminate; cbn [run_call] in Hr.
  - injection Hk as <-. apply one_reply_inv in Hr. exact (read_truthy dec raw t Hok Hr Ht).
  - injection Hk as <-. apply one_reply_inv in Hr. cbn [partial_k layout_k]. now rewrite <- (write_truthy_iff v raw t Hok Hr).
  - apply one_reply_inv in Hr. destruct k0; try discriminate; injection Hk as <-.
    + exact (generic_truthy KUnit dt raw t (or_introl eq_refl) Hok Hr Ht).
    + exact (generic_truthy KRR dt raw t (or_intror eq_refl) Hok Hr Ht).
Qed.

Lemma success_multi reqs raw rest tags i t : bytes_ok raw = true ->
  run_call (CMulti reqs) (raw :: rest) = ROk (OTags tags) -> nth_error tags i = Some t -> tag_truthy t = true ->
  multi_sub_success raw i = true.
Proof.
  intros Hok Hr Hi Ht. cbn [run_call] in Hr. unfold tags_out in Hr.
  destruct (rw_multi reqs raw) as [l|] eqn:E; [|discriminate]. injection Hr as ->.
  exact (multi_truthy reqs raw tags i t Hok E Hi Ht).
Qed.

Lemma wf_errors_falsy c k raw rest : reply_kind c = Some k -> bytes_ok raw = true -> wf_error_for c k raw = true ->
  all_falsy_with_text (run_call c (raw :: rest)).
Proof.
  intros Hk Hok Hw. unfold wf_error_for in Hw. apply andb_true_iff in Hw as [Hw Hc].
  assert (Hone : forall f, (exists t, f raw = ROk t /\ falsy_text t) -> all_falsy_with_text (one_reply (raw :: rest) f)).
  { intros f (t & Hf & Ht). unfold one_reply. rewrite Hf. exists [t]. split; [reflexivity|]. split; [discriminate|]. now constructor. }
  destruct c as [dec|dec|v|v n|reqs|k0 dt| |f c]; try discriminate; cbn [run_call].
  - injection Hk as <-. apply Hone, read_wf_error; assumption.
  - injection Hk as <-. apply negb_true_iff in Hc. exact (read_frag_wf_error dec raw rest Hok Hw Hc).
  - injection Hk as <-. apply Hone, write_wf_error; assumption.
  - injection Hk as <-. apply andb_true_iff in Hc as [Hn Hne].
    assert (Hreqs : reqs <> []) by (destruct reqs; [discriminate|discriminate]).
    destruct (multi_wf_error reqs raw Hreqs Hok Hw Hn) as (tags & -> & Ht1 & Ht2).
    exists tags. auto.
  - destruct k0; try discriminate; injection Hk as <-; apply Hone, generic_wf_error; auto.
Qed.
