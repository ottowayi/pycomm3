(* Proofs/IdentityP.v — C16: decoding what the Spec puts on the wire for an identity gives the view
   the statement demands, for every identity with fields in range (universally quantified: all ids,
   codes, revisions, status words, serials, names of every length 0..255 over Latin-1, addresses,
   states), through every entry point of Model/Identity.v; and encode-then-decode is the identity on
   the dictionary domain. *)
From Coq Require Import String ZifyBool.
From PV Require Import Base.Bytes Base.BytesLemmas Base.Res Base.Proto Base.PyStr Model.Identity Spec.IdentitySpec.
From PV Require Import Proofs.IdentityPrim Proofs.IdentityHex Proofs.IdentityTables.
From PV Require Proofs.IdentityLayout.   (* the regenerated struct declarations are the ones the model follows *)
From PV Require Gen.Vendors Gen.Status.
Open Scope Z_scope.
Ltac Zify.zify_post_hook ::= Z.to_euclidean_division_equations.

Lemma fields_in_range_spec i : fields_in_range i = true ->
  0 <= i_vendor i < 65536 /\ 0 <= i_product_type i < 65536 /\ 0 <= i_product_code i < 65536
  /\ 0 <= i_major i < 256 /\ 0 <= i_minor i < 256 /\ 0 <= i_status i < 65536
  /\ 0 <= i_serial i < 4294967296 /\ (length (i_name i) <= 255)%nat /\ forallb in8 (i_name i) = true
  /\ 0 <= i_encap_version i < 65536 /\ 0 <= i_sin_family i < 65536 /\ 0 <= i_sin_port i < 65536
  /\ 0 <= i_ip i < 4294967296 /\ 0 <= i_state i < 256.
Proof.
  unfold fields_in_range, in16, in8, in32. intros H.
  repeat (apply andb_true_iff in H as [H ?]).
  repeat split; try lia; assumption.
Qed.

Definition raw_of (i : ident) : raw_identity :=
  {| r_vendor := i_vendor i; r_product_type := i_product_type i; r_product_code := i_product_code i;
     r_major := i_major i; r_minor := i_minor i; r_status := spec_u16le (i_status i);
     r_serial := i_serial i; r_product_name := i_name i |}.

Lemma members_decode i rest : (length (i_name i) <= 255)%nat ->
  identity_members_decode (spec_identity_object i ++ rest) = Ok (raw_of i, rest).
Proof.
  intros Hl. unfold identity_members_decode, spec_identity_object. rewrite <- !app_assoc.
  rewrite dec_UINT. cbn [bind]. rewrite dec_UINT. cbn [bind]. rewrite dec_UINT. cbn [bind].
  cbn [app]. rewrite dec_Revision. cbn [bind].
  rewrite (dec_bytes 2 (spec_u16le (i_status i))) by (reflexivity || lia). cbn [bind].
  rewrite dec_UDINT. cbn [bind]. rewrite dec_SHORT_STRING by assumption. cbn [bind fst snd].
  reflexivity.
Qed.

Lemma post_process_view i : 0 <= i_serial i < 4294967296 -> post_process (raw_of i) = view_module i.
Proof.
  intros H. unfold post_process, view_module, raw_of.
  cbn [r_vendor r_product_type r_product_code r_major r_minor r_status r_serial r_product_name].
  rewrite VENDORS_get_spec, PRODUCT_TYPES_get_spec, fmt_08x_hex8 by assumption. reflexivity.
Qed.

(* ModuleIdentityObject.decode on the Identity object attributes (+ whatever a device appends) *)
Theorem module_object_faithful i extra : fields_in_range i = true ->
  ModuleIdentityObject_decode (spec_identity_object i ++ extra) = Ok (view_module i).
Proof.
  intros H. destruct (fields_in_range_spec i H) as (_ & _ & _ & _ & _ & _ & Hser & Hlen & _).
  unfold ModuleIdentityObject_decode, ModuleIdentityObject_decode_stream.
  rewrite members_decode by assumption. cbn [bind wrap_decode].
  rewrite post_process_view by assumption. reflexivity.
Qed.

Lemma list_object_faithful i len rest : fields_in_range i = true ->
  ListIdentityObject_decode (spec_u16le 12 ++ spec_u16le len ++ spec_list_identity_item i ++ rest) = Ok (view_list i).
Proof.
  intros H. destruct (fields_in_range_spec i H) as (_ & _ & _ & _ & _ & _ & Hser & Hlen & _ & _ & _ & _ & Hip & _).
  unfold ListIdentityObject_decode, ListIdentityObject_decode_stream, spec_list_identity_item.
  rewrite <- !app_assoc.
  rewrite dec_UINT. cbn [bind]. rewrite dec_UINT. cbn [bind]. rewrite dec_UINT. cbn [bind].
  rewrite (dec_INT_raw (spec_u16be (i_sin_family i))) by reflexivity. cbn [bind].
  rewrite (dec_UINT_raw (spec_u16be (i_sin_port i))) by reflexivity. cbn [bind].
  rewrite dec_IPAddress by assumption. cbn [bind].
  rewrite (dec_ULINT_raw (zeros 8)) by reflexivity. cbn [bind].
  rewrite members_decode by assumption. cbn [bind].
  cbn [app]. rewrite dec_USINT. cbn [bind wrap_decode].
  rewrite post_process_view by assumption. reflexivity.
Qed.

Lemma ResponsePacket_parse_ok cmd len ses ctx opt body :
  ResponsePacket_parse (spec_encap_header cmd len ses 0 ctx opt ++ body) = {| b_error := false; b_command_status := Some 0 |}.
Proof. reflexivity. Qed.

Lemma base_valid_ok : base_is_valid {| b_error := false; b_command_status := Some 0 |} = true.
Proof. vm_compute. reflexivity. Qed.

Lemma list_reply_tail ctx i : length ctx = 8%nat ->
  skipn 26 (spec_list_identity_reply ctx i)
  = spec_u16le 12 ++ spec_u16le (Z.of_nat (length (spec_list_identity_item i))) ++ spec_list_identity_item i ++ [].
Proof.
  intros H. destruct ctx as [|c0 [|c1 [|c2 [|c3 [|c4 [|c5 [|c6 [|c7 [|? ?]]]]]]]]]; try discriminate H.
  unfold spec_list_identity_reply. cbv zeta. rewrite app_nil_r. reflexivity.
Qed.

(* the ListIdentity reply packet: valid, and its identity is the view *)
Theorem list_reply_packet ctx i : length ctx = 8%nat -> fields_in_range i = true ->
  let r := ListIdentityResponsePacket (spec_list_identity_reply ctx i) in
  li_is_valid r = true /\ lr_identity r = Some (view_list i).
Proof.
  intros Hc H. cbv zeta. unfold ListIdentityResponsePacket.
  rewrite list_reply_tail by assumption. rewrite list_object_faithful by assumption.
  unfold spec_list_identity_reply. cbv zeta. rewrite ResponsePacket_parse_ok.
  unfold li_is_valid. cbn [lr_base lr_error lr_identity]. rewrite base_valid_ok. split; reflexivity.
Qed.

(* CIPDriver.list_identity / _list_identity *)
Theorem list_identity_faithful ctx i : length ctx = 8%nat -> fields_in_range i = true ->
  list_identity (spec_list_identity_reply ctx i) = Some (view_list i).
Proof. intros Hc H. unfold list_identity. apply (list_reply_packet ctx i Hc H). Qed.

(* the response loop of discover: every device that answered is reported, in order, as its view *)
Theorem discover_faithful (l : list (list Z * ident)) :
  Forall (fun p => length (fst p) = 8%nat /\ fields_in_range (snd p) = true) l ->
  broadcast_discover_responses (map (fun p => spec_list_identity_reply (fst p) (snd p)) l)
  = map (fun p => view_list (snd p)) l.
Proof.
  unfold broadcast_discover_responses.
  induction 1 as [|[ctx i] l [Hc H] _ IH]; [reflexivity|].
  cbn [map flat_map fst snd] in *. destruct (list_reply_packet ctx i Hc H) as [Hv Hi]. cbv zeta in Hv, Hi.
  rewrite Hv, Hi, IH. reflexivity.
Qed.

Lemma rr_parse ses ctx i extra : length ctx = 8%nat ->
  SendRRDataResponsePacket_parse (spec_identity_object_reply ses ctx i extra)
  = {| rr_base := {| b_error := false; b_command_status := Some 0 |}; rr_error := false;
       rr_service_status := Some 0; rr_data := Some (spec_identity_object i ++ extra) |}.
Proof.
  intros H. destruct ctx as [|c0 [|c1 [|c2 [|c3 [|c4 [|c5 [|c6 [|c7 [|? ?]]]]]]]]]; try discriminate H. reflexivity.
Qed.

Lemma rr_valid_ok d :
  rr_is_valid {| rr_base := {| b_error := false; b_command_status := Some 0 |}; rr_error := false;
                 rr_service_status := Some 0; rr_data := d |} = true.
Proof. vm_compute. reflexivity. Qed.

(* CIPDriver.get_module_info (UCMM or Unconnected Send: the reply has the same layout) *)
Theorem module_identity_faithful ses ctx i extra : length ctx = 8%nat -> fields_in_range i = true ->
  get_module_info (spec_identity_object_reply ses ctx i extra) = Ok (view_module i).
Proof.
  intros Hc H. unfold get_module_info. rewrite rr_parse by assumption. cbn [rr_data].
  rewrite rr_valid_ok, module_object_faithful by assumption. reflexivity.
Qed.

(* LogixDriver.get_plc_info: the same view plus the keyswitch text of the two status bytes *)
Theorem plc_info_faithful ses ctx i extra : length ctx = 8%nat -> fields_in_range i = true ->
  get_plc_info (spec_identity_object_reply ses ctx i extra) = Ok (view_plc i).
Proof.
  intros Hc H. unfold get_plc_info. rewrite rr_parse by assumption.
  rewrite rr_valid_ok. cbn [rr_data]. rewrite module_object_faithful by assumption.
  unfold view_module at 1. cbn [d_status]. rewrite keyswitch_spec. reflexivity.
Qed.

(* the dictionaries ModuleIdentityObject.encode is meant for = the ones decode produces for known ids *)
Definition in_dom (d : mi_dict) : bool :=
  known_name Gen.Vendors.vendors (d_vendor d) && known_name Gen.Status.product_types (d_product_type d)
  && in16 (d_product_code d) && in8 (d_major d) && in8 (d_minor d)
  && (length (d_status d) =? 2)%nat && bytes_ok (d_status d)
  && is_hex8 (d_serial d)
  && (length (d_product_name d) <=? 255)%nat && latin1_ok (d_product_name d).

Lemma in_dom_view i : fields_in_range i = true ->
  known_name Gen.Vendors.vendors (d_vendor (view_module i)) = true ->
  known_name Gen.Status.product_types (d_product_type (view_module i)) = true ->
  in_dom (view_module i) = true.
Proof.
  intros H Hv Hp. destruct (fields_in_range_spec i H) as (? & ? & ? & ? & ? & ? & ? & ? & Hn & _).
  unfold in_dom. rewrite Hv, Hp. cbn [view_module d_product_code d_major d_minor d_status d_serial d_product_name].
  rewrite is_hex8_hex8 by assumption.
  change (latin1_ok (i_name i)) with (forallb in8 (i_name i)). rewrite Hn.
  unfold in16, in8, bytes_ok, byte_ok. cbn [length forallb]. lia.
Qed.

Theorem identity_encode_decode d : in_dom d = true ->
  exists b, ModuleIdentityObject_encode d = Ok b /\ ModuleIdentityObject_decode b = Ok d.
Proof.
  destruct d as [v p c ma mi st se nm]. unfold in_dom.
  cbn [d_vendor d_product_type d_product_code d_major d_minor d_status d_serial d_product_name].
  intros H.
  apply andb_true_iff in H as [H Hnb]. apply andb_true_iff in H as [H Hnl]. apply andb_true_iff in H as [H Hse].
  apply andb_true_iff in H as [H Hsb]. apply andb_true_iff in H as [H Hsl]. apply andb_true_iff in H as [H Hmi].
  apply andb_true_iff in H as [H Hma]. apply andb_true_iff in H as [H Hc]. apply andb_true_iff in H as [Hv Hp].
  destruct (getitem_get _ v vendors_nodup Hv) as (kv & Ekv & Ikv & Nkv).
  destruct (getitem_get _ p product_types_nodup Hp) as (kp & Ekp & Ikp & Nkp).
  pose proof (keys_u16_in _ _ _ vendors_u16 Ikv) as Rkv.
  pose proof (keys_u16_in _ _ _ product_types_u16 Ikp) as Rkp.
  destruct (is_hex8_value se Hse) as (n & Rn & ->).
  destruct st as [|s0 [|s1 [|? ?]]]; cbn [length] in Hsl; try discriminate Hsl.
  unfold bytes_ok, byte_ok in Hsb. cbn [forallb] in Hsb.
  unfold in16 in Hc. unfold in8 in Hma, Hmi.
  set (i := {| i_vendor := kv; i_product_type := kp; i_product_code := c; i_major := ma; i_minor := mi;
               i_status := s0 + 256 * s1; i_serial := n; i_name := nm;
               i_encap_version := 0; i_sin_family := 0; i_sin_port := 0; i_ip := 0; i_state := 0 |}).
  assert (Hst : spec_u16le (s0 + 256 * s1) = [s0; s1]) by (unfold spec_u16le; list_lia).
  assert (Hr : fields_in_range i = true).
  { unfold fields_in_range, i, in16, in8, in32.
    cbn [i_vendor i_product_type i_product_code i_major i_minor i_status i_serial i_name i_encap_version i_sin_family i_sin_port i_ip i_state].
    change (forallb (fun v0 : Z => (0 <=? v0) && (v0 <? 256)) nm) with (latin1_ok nm). rewrite Hnb. lia. }
  exists (spec_identity_object i ++ []). split.
  - unfold ModuleIdentityObject_encode, ModuleIdentityObject_encode_inner.
    cbn [d_vendor d_product_type d_product_code d_major d_minor d_status d_serial d_product_name].
    unfold PRODUCT_TYPES_getitem, VENDORS_getitem. rewrite Ekp, Ekv. cbn [bind].
    rewrite fromhex_hex8 by assumption. cbn [bind]. rewrite int_from_u32be.
    rewrite !enc_UINT by lia. cbn [bind]. rewrite enc_Revision by lia. cbn [bind].
    unfold bytes_encode. cbn [firstn bind]. rewrite enc_UDINT by assumption. cbn [bind].
    rewrite enc_SHORT_STRING by (lia || assumption). cbn [bind wrap_all].
    rewrite app_nil_r. unfold spec_identity_object, i.
    cbn [i_vendor i_product_type i_product_code i_major i_minor i_status i_serial i_name].
    rewrite Hst. reflexivity.
  - rewrite module_object_faithful by assumption. f_equal.
    unfold view_module, i.
    cbn [i_vendor i_product_type i_product_code i_major i_minor i_status i_serial i_name].
    rewrite Nkv, Nkp.
    change [(s0 + 256 * s1) mod 256; (s0 + 256 * s1) / 256] with (spec_u16le (s0 + 256 * s1)).
    rewrite Hst. reflexivity.
Qed.

Definition identity_faithful_at (i : ident) : Prop :=
  (forall ctx, length ctx = 8%nat ->
     list_identity (spec_list_identity_reply ctx i) = Some (view_list i)
     /\ li_is_valid (ListIdentityResponsePacket (spec_list_identity_reply ctx i)) = true)
  /\ (forall ses ctx extra, length ctx = 8%nat ->
        get_module_info (spec_identity_object_reply ses ctx i extra) = Ok (view_module i)
        /\ get_plc_info (spec_identity_object_reply ses ctx i extra) = Ok (view_plc i))
  /\ (forall extra, ModuleIdentityObject_decode (spec_identity_object i ++ extra) = Ok (view_module i))
  /\ (forall len rest, ListIdentityObject_decode (spec_u16le 12 ++ spec_u16le len ++ spec_list_identity_item i ++ rest) = Ok (view_list i)).

Lemma identity_faithful_all i : fields_in_range i = true -> identity_faithful_at i.
Proof.
  intros H. repeat split.
  - apply list_identity_faithful; assumption.
  - apply (list_reply_packet ctx i); assumption.
  - apply module_identity_faithful; assumption.
  - apply plc_info_faithful; assumption.
  - intros extra. apply module_object_faithful; assumption.
  - intros len rest. apply list_object_faithful; assumption.
Qed.

Lemma serial_text_all n : 0 <= n < 4294967296 ->
  length (hex8 n) = 8%nat /\ forallb lower_hex (hex8 n) = true /\ unhex (hex8 n) = Some n /\ fmt_08x n = hex8 n.
Proof.
  intros H. split; [reflexivity|]. split; [apply hex8_lower; assumption|].
  split; [apply hex8_roundtrip; assumption|apply fmt_08x_hex8; assumption].
Qed.
