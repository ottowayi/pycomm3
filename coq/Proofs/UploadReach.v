(* Proofs/UploadReach.v — C05, the reference side: the types of a view.
   * [reach_closure]: with the fuel abstract_view gives it, Spec/Expect.reach returns a set closed
     under "structure type of a member" that holds exactly the template ids reachable from the
     roots (a pigeonhole argument: every round that does not stop adds a new template id, and
     there are only so many);
   * [odef_of_closed]: [odef_of] (Spec/UploadObs) on the types of a view, i.e. the templates whose
     ids form a closed set, in definition order: it yields the observation [Exp] demands. *)
From Coq Require Import ZifyBool String.
From PV Require Import Base.Bytes Base.ListLemmas.
From PV Require Import Spec.Project Spec.Expect Spec.UploadObs.
From PV Require Import Proofs.TargetLogixP Proofs.UploadFilter Proofs.UploadObsP Proofs.UploadMirror.
Open Scope string_scope.
Open Scope list_scope.
Open Scope Z_scope.

Lemma zmem_In x l : zmem x l = true <-> In x l.
Proof.
  unfold zmem. rewrite existsb_exists. split.
  - intros (y & Hy & E). apply Z.eqb_eq in E. subst. exact Hy.
  - intros H. exists x. split; [exact H | apply Z.eqb_refl].
Qed.

Lemma find_vtype_map l tid : find_vtype (map view_type l) tid = option_map view_type (find_template l tid).
Proof.
  induction l as [|t l IH]; [reflexivity|]. cbn [map find_vtype find_template view_type vy_id].
  destruct (t_id t =? tid); [reflexivity | exact IH].
Qed.

Lemma find_template_filter keep : forall l tid t,
  find_template l tid = Some t -> keep t = true -> find_template (filter keep l) tid = Some t.
Proof.
  induction l as [|x l IH]; intros tid t Hf Hk; [discriminate|]. cbn [find_template filter] in *.
  destruct (t_id x =? tid) eqn:E.
  - injection Hf as <-. rewrite Hk. cbn [find_template]. rewrite E. reflexivity.
  - destruct (keep x); [cbn [find_template]; rewrite E|]; apply IH; assumption.
Qed.

(* [all_some] over lists related element by element *)
Lemma all_some_map {A B C} (R : A -> B -> Prop) (g : A -> option C) (h : B -> C) : forall l r,
  Forall2 R l r -> (forall a b, In a l -> R a b -> g a = Some (h b)) -> all_some (map g l) = Some (map h r).
Proof.
  induction 1 as [|a b l r Hab _ IH]; intros H; [reflexivity|]. cbn [map all_some].
  rewrite (H a b (or_introl eq_refl) Hab), IH; [reflexivity|]. intros a' b' Ha. apply H. right. exact Ha.
Qed.

Lemma tids_nodup : forall l acc, templates_ok acc l = true -> NoDup (map t_id l).
Proof.
  induction l as [|t l IH]; intros acc H; [constructor|].
  cbn [templates_ok] in H. apply andb_prop in H. destruct H as [_ Hl]. cbn [map]. constructor; [|exact (IH _ Hl)].
  intros Hin. apply in_map_iff in Hin. destruct Hin as (y & Ey & Hy). apply in_split in Hy. destruct Hy as (a & b & ->).
  apply (template_ok_fresh _ y (templates_ok_at a _ y b Hl) t); [|symmetry; exact Ey].
  apply in_or_app. left. apply in_or_app. right. left. reflexivity.
Qed.

Section Templates.
  Variable p : project.
  Let ts := p_templates p.
  Hypothesis Hts : templates_ok [] ts = true.

  Definition tids : list Z := map t_id ts.

  Lemma split_ok e t l : ts = e ++ t :: l -> template_ok e t = true.
  Proof. intros Hsplit. apply (templates_ok_at e [] t l). rewrite <- Hsplit. exact Hts. Qed.

  Lemma find_own t : In t ts -> find_template ts (t_id t) = Some t.
  Proof.
    intros Hin. apply in_split in Hin. destruct Hin as (e & l & Hsplit). rewrite Hsplit.
    exact (proj1 (find_template_skip e t l (t_id t) (template_ok_fresh e t (split_ok e t l Hsplit)) eq_refl)).
  Qed.

  (* a structure member's type is defined before the structure *)
  Lemma member_type_earlier e t l tid' :
    ts = e ++ t :: l -> In tid' (struct_ids_of_members t) -> exists t', In t' e /\ t_id t' = tid'.
  Proof.
    intros Hsplit Hm. destruct (struct_ids_in t tid' Hm) as (m & Hm' & Hty).
    pose proof (split_ok e t l Hsplit) as Hok. unfold template_ok in Hok. split_andb.
    match goal with H : forallb (member_ok _ t) _ = true |- _ => rewrite forallb_forall in H; pose proof (H m Hm') as Hmo end.
    destruct (member_struct_found e t m tid' Hmo Hty) as (t' & Ef). exists t'. exact (find_template_in e tid' t' Ef).
  Qed.

  Lemma member_ids_known t tid' : In t ts -> In tid' (struct_ids_of_members t) -> In tid' tids.
  Proof.
    intros Hin Hm. apply in_split in Hin. destruct Hin as (e & l & Hsplit).
    destruct (member_type_earlier e t l tid' Hsplit Hm) as (t' & Hin' & <-).
    apply in_map. rewrite Hsplit. apply in_or_app. left. exact Hin'.
  Qed.

  Definition closed (S : list Z) : Prop :=
    forall tid t tid', In tid S -> find_template ts tid = Some t -> In tid' (struct_ids_of_members t) -> In tid' S.

  Lemma Reach_in_closed (R : Z -> Prop) S : closed S -> (forall x, R x -> In x S) -> forall x, Reach p R x -> In x S.
  Proof.
    intros Hc Hr x H. induction H as [tid Ht | tid t tid' _ IH Hf Hm]; [exact (Hr tid Ht) | exact (Hc tid t tid' IH Hf Hm)].
  Qed.

  (* the ids one round of [reach] adds *)
  Definition news (seen : list Z) : list Z :=
    filter (fun x => negb (zmem x seen))
           (flat_map (fun t => if zmem (t_id t) seen then struct_ids_of_members t else []) ts).

  Lemma news_spec seen x :
    In x (news seen) <-> ~ In x seen /\ exists t, In t ts /\ In (t_id t) seen /\ In x (struct_ids_of_members t).
  Proof.
    unfold news. rewrite filter_In, in_flat_map, negb_true_iff, <- not_true_iff_false, zmem_In. split.
    - intros [(t & Ht & Hx) Hn]. split; [exact Hn|]. destruct (zmem (t_id t) seen) eqn:E; [|destruct Hx]. apply zmem_In in E. eauto.
    - intros [Hn (t & Ht & Hs & Hx)]. split; [|exact Hn]. exists t. apply zmem_In in Hs. rewrite Hs. auto.
  Qed.

  Lemma reach_unfold f seen :
    reach (S f) ts seen = match news seen with [] => seen | new => reach f ts (seen ++ nodup Z.eq_dec new) end.
  Proof. cbn [reach]. fold (news seen). destruct (news seen); reflexivity. Qed.

  Variable R : Z -> Prop.

  Lemma reach_spec : forall fuel seen,
    NoDup seen -> incl seen tids -> (forall x, In x seen -> Reach p R x) ->
    (length tids < fuel + length seen)%nat ->
    let r := reach fuel ts seen in
    closed r /\ incl seen r /\ incl r tids /\ (forall x, In x r -> Reach p R x).
  Proof.
    induction fuel as [|f IH]; intros seen Hnd Hincl Hreach Hlen.
    - exfalso. pose proof (NoDup_incl_length Hnd Hincl). lia.
    - cbv zeta. rewrite reach_unfold. pose proof (news_spec seen) as Hnew.
      destruct (news seen) as [|n0 new0].
      + split; [|auto using incl_refl]. intros tid t tid' Hs Hf Hm.
        destruct (in_dec Z.eq_dec tid' seen) as [H|H]; [exact H|]. apply find_template_in in Hf. destruct Hf as [Ht <-].
        destruct (proj2 (Hnew tid')). eauto.
      + set (new := n0 :: new0) in *.
        destruct (IH (seen ++ nodup Z.eq_dec new)) as (Hc & Hi & Hr);
          [| | | |split; [exact Hc|]; split; [|exact Hr]; intros x Hx; apply Hi, in_or_app; left; exact Hx].
        * apply NoDup_app_intro; [exact Hnd | apply NoDup_nodup |]. intros x Hs Hn. apply nodup_In, Hnew in Hn. exact (proj1 Hn Hs).
        * apply incl_app; [exact Hincl|]. intros x Hx. apply nodup_In, Hnew in Hx. destruct Hx as (_ & t & Ht & _ & Hx').
          exact (member_ids_known t x Ht Hx').
        * intros x Hx. apply in_app_iff in Hx. destruct Hx as [Hx | Hx]; [apply Hreach; exact Hx|].
          apply nodup_In, Hnew in Hx. destruct Hx as (_ & t & Ht & Hs & Hx').
          exact (Reach_step p R _ t x (Hreach _ Hs) (find_own t Ht) Hx').
        * rewrite app_length.
          assert (In n0 (nodup Z.eq_dec new)) by (apply nodup_In; left; reflexivity).
          destruct (nodup Z.eq_dec new); [contradiction | cbn [length]; lia].
  Qed.

  Theorem reach_closure roots :
    NoDup roots -> incl roots tids -> (forall x, In x roots <-> R x) ->
    let r := reach (S (length ts)) ts roots in
    closed r /\ incl r tids /\ (forall x, In x r <-> Reach p R x).
  Proof.
    intros Hnd Hincl HR.
    destruct (reach_spec (S (length ts)) roots Hnd Hincl) as (Hc & Hi & Ht & Hr).
    - intros x Hx. apply Reach_root, HR, Hx.
    - unfold tids. rewrite map_length. lia.
    - split; [exact Hc|]. split; [exact Ht|]. intros x. split; [apply Hr|].
      apply Reach_in_closed; [exact Hc|]. intros y Hy. apply Hi, HR, Hy.
  Qed.

  Variable ks : list Z.                    (* the ids of the types of the view *)
  Hypothesis ks_closed : closed ks.

  Let keep (t : template) : bool := zmem (t_id t) ks.
  Let types := map view_type (filter keep ts).

  (* the definition of a kept type, with enough fuel for its position among the kept types *)
  Lemma odef_of_exp : forall f e t l od,
    ts = e ++ t :: l -> In (t_id t) ks -> (length (filter keep e) < f)%nat ->
    Exp ts (t_id t) od -> odef_of f types (t_id t) = Some od.
  Proof.
    induction f as [|f IH]; intros e t l od Hsplit Hk Hf Hexp; [lia|].
    assert (Hfind : find_template ts (t_id t) = Some t) by (apply find_own; rewrite Hsplit; apply in_elt).
    inversion Hexp as [tid t0 ms Hf0 HF]; subst. rewrite Hfind in Hf0. injection Hf0 as <-.
    cbn [odef_of]. unfold types. rewrite find_vtype_map, (find_template_filter keep ts (t_id t) t Hfind) by (apply zmem_In; exact Hk).
    cbn [option_map view_type vy_members vy_name vy_handle vy_size vy_defsize vy_count vy_string]. rewrite map_map.
    rewrite (all_some_map _ _ (fun o => o) _ _ HF), map_id.
    - unfold str_obs. destruct (string_shape t); rewrite ?map_map; reflexivity.
    - intros m o Hm Hmo. cbn [view_member vm_ty vm_name vm_arr vm_off vm_bit].
      inversion Hmo as [m0 c Hty | m0 tid' d Hty Hd]; subst; rewrite Hty; [reflexivity|].
      pose proof (in_struct_ids t m tid' (in_visible t m Hm) Hty) as Hm'.
      destruct (member_type_earlier e t l tid' Hsplit Hm') as (t' & Hin' & <-).
      pose proof (ks_closed _ t _ Hk Hfind Hm') as Hk'.
      apply in_split in Hin'. destruct Hin' as (e1 & e2 & ->).
      fold types. rewrite (IH e1 t' (e2 ++ t :: l) d); [reflexivity | rewrite Hsplit, <- app_assoc; reflexivity | exact Hk' | | exact Hd].
      apply zmem_In in Hk'. rewrite filter_app, app_length in Hf. cbn [filter] in Hf. fold (keep t') in Hk'. rewrite Hk' in Hf.
      cbn [length] in Hf. lia.
  Qed.

  Theorem odef_of_closed tid od : In tid ks -> Exp ts tid od -> odef_of (S (length types)) types tid = Some od.
  Proof.
    intros Hk Hexp. inversion Hexp as [tid0 t ms Hf _]; subst.
    apply find_template_in in Hf. destruct Hf as [Hin <-]. apply in_split in Hin. destruct Hin as (e & l & Hsplit).
    apply (odef_of_exp _ e t l _ Hsplit Hk); [|exact Hexp].
    unfold types. rewrite map_length, Hsplit, filter_app, app_length. lia.
  Qed.
End Templates.
