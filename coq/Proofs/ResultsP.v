(* Proofs/ResultsP.v — C03, generic part and reads: the results dict of _send_requests is exactly the
   bindings of its packets; with the plan partition (Proofs/PlanP.v) every valid request id is carried
   by a packet, and against an independent peer all bindings of an id are the same Tag; the result list
   of read() is a MAP over the requests. *)
From PV Require Import Base.Bytes Base.ListLemmas Base.Proto Base.Res Base.PyStr Gen.LogixParseGen.
From PV Require Import Model.LogixParse Model.LogixPlan Model.Path Model.LogixResults Proofs.PlanP Proofs.LogixParseP.
From Coq Require Import Permutation ZifyBool.
Open Scope Z_scope.

Definition results_of (r : result) : list tag := match r with ROne t => [t] | RList l => l end.

Lemma results_of_shape l : results_of (shape l) = l.
Proof. destruct l as [|a [|b l]]; reflexivity. Qed.

Lemma shape_of_results l r : r = shape l -> r = shape (results_of r).
Proof. intros ->. now rewrite results_of_shape. Qed.

Lemma shape_spec l n : length l = n ->
  length (results_of (shape l)) = n
  /\ (n = 1%nat -> exists t, shape l = ROne t)
  /\ (n <> 1%nat -> exists l', shape l = RList l' /\ length l' = n).
Proof.
  intros <-. rewrite results_of_shape. split; [reflexivity|].
  destruct l as [|a [|b l]]; cbn; split; intros H; try easy; eauto.
Qed.

(* Tag.__bool__ *)
Theorem tag_truthy_iff t :
  truthy t = true <-> (val_is_none (t_value t) = false /\ t_error t = None).
Proof.
  unfold truthy. destruct (val_is_none (t_value t)), (t_error t); cbn; split; intros H; try discriminate;
    try (destruct H; discriminate); auto.
Qed.

Lemma exc_tag_falsy r k : truthy (exc_tag r k) = false.
Proof. reflexivity. Qed.

Lemma map_res_ok {A B} (f : A -> res B) : forall l l', map_res f l = Ok l' ->
  length l' = length l /\ forall k da db, (k < length l)%nat -> f (nth k l da) = Ok (nth k l' db).
Proof.
  induction l as [|a l IH]; intros l' H; cbn in H.
  - inversion H. split; [reflexivity|]. intros k da db Hk. cbn in Hk. lia.
  - destruct (f a) as [b|e] eqn:Ea; cbn in H; [|discriminate].
    destruct (map_res f l) as [bs|e] eqn:El; cbn in H; [|discriminate]. inversion H; subst l'.
    destruct (IH bs eq_refl) as [HL HN]. split; [cbn; now rewrite HL|].
    intros k da db Hk. destruct k as [|k]; cbn; [exact Ea|]. apply HN. cbn in Hk. lia.
Qed.

Lemma map_res_ok_map {A B C} (f : A -> res B) (g : B -> C) (h : A -> C) : forall l l',
  map_res f l = Ok l' -> (forall a b, In a l -> f a = Ok b -> g b = h a) -> map g l' = map h l.
Proof.
  induction l as [|a l IH]; intros l' H Hg; cbn in H.
  - inversion H. reflexivity.
  - destruct (f a) as [b|e] eqn:Ea; cbn in H; [|discriminate].
    destruct (map_res f l) as [bs|e] eqn:El; cbn in H; [|discriminate]. inversion H; subst l'.
    cbn. f_equal; [apply Hg; [now left | exact Ea]|]. apply IH; [reflexivity|].
    intros a' b' Hin. apply Hg. now right.
Qed.

Definition res_ok {A} (r : res A) : bool := match r with Ok _ => true | Err _ => false end.

Lemma map_res_total {A B} (f : A -> res B) : forall l,
  forallb (fun a => res_ok (f a)) l = true -> exists l', map_res f l = Ok l'.
Proof.
  induction l as [|a l IH]; intros H; cbn in *; [eauto|].
  apply andb_prop in H. destruct H as [Ha Hl]. destruct (f a) as [b|e]; [|discriminate].
  destruct (IH Hl) as [l' ->]. cbn. eauto.
Qed.

Lemma map_res_fails {A B} (f : A -> res B) : forall l,
  forallb (fun a => res_ok (f a)) l = false -> exists e, map_res f l = Err e.
Proof.
  induction l as [|a l IH]; intros H; cbn in *; [discriminate|].
  destruct (f a) as [b|e]; cbn in *; [|eauto].
  destruct (IH H) as [e ->]. cbn. eauto.
Qed.

Lemma rlookup_In i t : forall rs, rlookup i rs = Some t -> In (i, t) rs.
Proof.
  induction rs as [|[k v] rs IH]; cbn; intros H; [discriminate|].
  destruct (k =? i) eqn:E; [inversion H; left; f_equal; lia | right; auto].
Qed.

Lemma rlookup_unique i t : forall rs, In (i, t) rs -> (forall t', In (i, t') rs -> t' = t) -> rlookup i rs = Some t.
Proof.
  induction rs as [|[k v] rs IH]; cbn [rlookup]; intros H U; [contradiction|].
  destruct (k =? i) eqn:E.
  - f_equal. apply U. left. f_equal. lia.
  - apply IH; [|intros t' H'; apply U; now right]. destruct H as [[= -> ->]|H]; [lia | exact H].
Qed.

Lemma rlookup_not_In i : forall rs, ~ In i (map fst rs) -> rlookup i rs = None.
Proof.
  induction rs as [|[k v] rs IH]; cbn; intros H; [reflexivity|].
  destruct (k =? i) eqn:E; [exfalso; apply H; left; lia | apply IH; tauto].
Qed.

(* the bindings one packet adds, in the order they are made *)
Definition opt_binding (name : option text) (i : Z) (r : reply) : list (Z * tag) :=
  match name with Some n => [(i, tag_of_reply n r)] | None => [] end.
Fixpoint multi_bindings (names : Z -> option text) (ids : list Z) (reps : list reply) : list (Z * tag) :=
  match ids, reps with
  | i :: ids', r :: reps' => opt_binding (names i) i r ++ multi_bindings names ids' reps'
  | _, _ => []
  end.
Definition packet_results (names : Z -> option text) (P : peer) (pk : packet) : list (Z * tag) :=
  match pk with
  | PSingle i => opt_binding (names i) i (p_one P i)
  | PFrag i => opt_binding (names i) i (p_one P i)
  | PMulti ids => multi_bindings names ids (pad_replies ids (p_multi P ids) (missing_reply (p_multi_error P ids)))
  | PRmw rid ids => [(rid, tag_of_reply (rmw_tag names ids) (p_one P rid))]
  end.

Lemma set_one_eq name i r rs : set_one name i r rs = rev (opt_binding name i r) ++ rs.
Proof. destruct name; reflexivity. Qed.

Lemma set_multi_eq names : forall ids reps rs,
  set_multi names ids reps rs = rev (multi_bindings names ids reps) ++ rs.
Proof.
  induction ids as [|i ids IH]; intros reps rs; [reflexivity|].
  destruct reps as [|r reps]; [reflexivity|]. cbn [set_multi multi_bindings].
  rewrite IH, set_one_eq, rev_app_distr, <- app_assoc. reflexivity.
Qed.

Lemma send_packet_eq names P rs pk : send_packet names P rs pk = rev (packet_results names P pk) ++ rs.
Proof. destruct pk; cbn [send_packet packet_results]; try apply set_one_eq; [apply set_multi_eq | reflexivity]. Qed.

Lemma send_fold_eq names P : forall ps acc,
  fold_left (send_packet names P) ps acc = rev (flat_map (packet_results names P) ps) ++ acc.
Proof.
  induction ps as [|pk ps IH]; intros acc; [reflexivity|].
  cbn [fold_left flat_map]. rewrite IH, send_packet_eq, rev_app_distr, <- app_assoc. reflexivity.
Qed.

Lemma send_requests_eq names P ps :
  send_requests names P ps = rev (flat_map (packet_results names P) ps).
Proof. unfold send_requests. now rewrite send_fold_eq, app_nil_r. Qed.

(* every binding of a non-RMW key is a Tag named after THAT request's plc tag *)
Lemma opt_binding_named name j r i t : In (i, t) (opt_binding name j r) -> exists n, name = Some n /\ i = j /\ t = tag_of_reply n r.
Proof. destruct name as [n|]; [|intros []]. intros [[= <- <-]|[]]. eauto. Qed.

Lemma multi_bindings_named names : forall ids reps i t, In (i, t) (multi_bindings names ids reps) ->
  exists n r, names i = Some n /\ t = tag_of_reply n r.
Proof.
  induction ids as [|j ids IH]; intros reps i t H; [contradiction|].
  destruct reps as [|r reps]; [contradiction|]. cbn [multi_bindings] in H. apply in_app_or in H.
  destruct H as [H|H]; [|eapply IH, H]. apply opt_binding_named in H. destruct H as [n [Hn [-> ->]]]. eauto.
Qed.

Definition is_rmw (pk : packet) : bool := match pk with PRmw _ _ => true | _ => false end.

Lemma packet_results_named names P pk i t : is_rmw pk = false -> In (i, t) (packet_results names P pk) ->
  exists n r, names i = Some n /\ t = tag_of_reply n r.
Proof.
  destruct pk; cbn [is_rmw packet_results]; intros HR H; try discriminate; [eapply multi_bindings_named, H| |];
    apply opt_binding_named in H; destruct H as [n [Hn [-> ->]]]; eauto.
Qed.

Lemma send_requests_named names P ps i t : forallb (fun pk => negb (is_rmw pk)) ps = true ->
  rlookup i (send_requests names P ps) = Some t -> exists n r, names i = Some n /\ t = tag_of_reply n r.
Proof.
  intros HR H. apply rlookup_In in H. rewrite send_requests_eq, <- in_rev in H.
  apply in_flat_map in H. destruct H as [pk [Hpk Hin]].
  rewrite forallb_forall in HR. specialize (HR pk Hpk).
  eapply packet_results_named; [|exact Hin]. now destruct (is_rmw pk).
Qed.

(* independent peers: each service of a multi-service packet is answered like the same service alone *)
Definition independent (P : peer) : Prop := forall ids, p_multi P ids = map (p_one P) ids.

Lemma pad_replies_full m : forall (ids : list Z) (one : Z -> reply), pad_replies ids (map one ids) m = map one ids.
Proof. induction ids as [|i ids IH]; intros one; cbn; [reflexivity | now rewrite IH]. Qed.

Lemma multi_bindings_indep names (one : Z -> reply) (name : Z -> text) : forall ids,
  (forall i, In i ids -> names i = Some (name i)) ->
  multi_bindings names ids (map one ids) = map (fun i => (i, tag_of_reply (name i) (one i))) ids.
Proof.
  induction ids as [|i ids IH]; intros H; [reflexivity|]. cbn [map multi_bindings].
  rewrite (H i (or_introl eq_refl)). cbn [opt_binding app]. f_equal. apply IH. intros j Hj. apply H. now right.
Qed.

Lemma packet_results_indep names P (name : Z -> text) pk : independent P -> is_rmw pk = false ->
  (forall i, In i (packet_ids pk) -> names i = Some (name i)) ->
  packet_results names P pk = map (fun i => (i, tag_of_reply (name i) (p_one P i))) (packet_ids pk).
Proof.
  intros HI HR HN. destruct pk as [ids|i|i|rid ids]; try discriminate; cbn [packet_results packet_ids map] in *.
  - rewrite HI, pad_replies_full. apply multi_bindings_indep, HN.
  - now rewrite (HN i (or_introl eq_refl)).
  - now rewrite (HN i (or_introl eq_refl)).
Qed.

(* a request id carried by a packet that is not a read-modify-write: every binding of that id is the
   same Tag, so it does not matter which one the dict keeps *)
Lemma send_lookup names P (name : Z -> text) ps i :
  independent P ->
  (forall j, In j (plan_ids ps) -> names j = Some (name j)) ->
  (forall rid ids, In (PRmw rid ids) ps -> rid <> i) ->
  (exists pk, In pk ps /\ is_rmw pk = false /\ In i (packet_ids pk)) ->
  rlookup i (send_requests names P ps) = Some (tag_of_reply (name i) (p_one P i)).
Proof.
  intros HI HN HR [pk [Hpk [ER Hi]]].
  assert (HNk : forall pk', In pk' ps -> forall j, In j (packet_ids pk') -> names j = Some (name j))
    by (intros pk' H' j Hj; apply HN, in_flat_map; eauto).
  rewrite send_requests_eq. apply rlookup_unique.
  - rewrite <- in_rev. apply in_flat_map. exists pk. split; [exact Hpk|].
    rewrite (packet_results_indep names P name pk HI ER (HNk pk Hpk)). apply in_map_iff; eauto.
  - intros t' H'. rewrite <- in_rev in H'. apply in_flat_map in H'. destruct H' as [pk' [Hpk' Hin]].
    destruct (is_rmw pk') eqn:ER'.
    + destruct pk' as [| | |rid ids]; try discriminate. destruct Hin as [[= -> _]|[]]. now destruct (HR _ _ Hpk').
    + rewrite (packet_results_indep names P name pk' HI ER' (HNk pk' Hpk')) in Hin.
      apply in_map_iff in Hin. now destruct Hin as [j [[= -> <-] _]].
Qed.

Lemma find_key {A} (key : A -> Z) : forall l a, NoDup (map key l) -> In a l ->
  List.find (fun x => key x =? key a) l = Some a.
Proof.
  induction l as [|x l IH]; intros a ND H; [contradiction|]. cbn [List.find].
  cbn [map] in ND. inversion ND as [|? ? Hn ND']; subst. destruct H as [->|H].
  - now rewrite Z.eqb_refl.
  - destruct (key x =? key a) eqn:E; [|apply IH; assumption].
    exfalso. apply Hn. assert (E' : key x = key a) by lia. rewrite E'. now apply in_map.
Qed.

Lemma find_q_find i : forall qs, find_q qs i = List.find (fun q => q_id q =? i) qs.
Proof. induction qs as [|q qs IH]; cbn; [reflexivity | now rewrite IH]. Qed.

Lemma find_q_In qs q : NoDup (map q_id qs) -> In q qs -> find_q qs (q_id q) = Some q.
Proof. rewrite find_q_find. apply find_key. Qed.

Lemma read_build_multi_no_rmw conn rr : forallb (fun pk => negb (is_rmw pk)) (read_build_multi conn rr) = true.
Proof.
  unfold read_build_multi. rewrite forallb_app. apply andb_true_intro. split.
  - destruct (groups conn _) as [|g0 gs]; [reflexivity|]. destruct (is_nil g0); [reflexivity|].
    apply forallb_forall. intros pk H. apply in_map_iff in H. destruct H as [g [<- _]]. reflexivity.
  - apply forallb_forall. intros pk H. apply in_map_iff in H. destruct H as [g [<- _]]. reflexivity.
Qed.

Lemma filter_map_single_no_rmw conn : forall rr,
  forallb (fun pk => negb (is_rmw pk)) (filter_map (read_build_single conn) rr) = true.
Proof.
  induction rr as [|r rr IH]; [reflexivity|]. cbn [filter_map]. unfold read_build_single at 1.
  destruct (r_err r); [exact IH|]. destruct (r_data r + r_msg r >? conn); cbn; exact IH.
Qed.

Lemma read_plan_no_rmw conn micro rr :
  forallb (fun pk => negb (is_rmw pk)) (read_build_requests conn micro rr) = true.
Proof.
  unfold read_build_requests. destruct (negb (length rr =? 1)%nat && negb micro);
    [apply read_build_multi_no_rmw | apply filter_map_single_no_rmw].
Qed.

(* a request that gets a packet: parsed, and its packet can be built *)
Definition rq_ok (c : cfg) (q : preq) : bool := negb (r_err (mk_rreq c q)).

Lemma mk_rreq_id c q : r_id (mk_rreq c q) = q_id q.
Proof. unfold mk_rreq. destruct (q_parsed q) as [p|e]; [destruct (read_msg_len c p)|]; reflexivity. Qed.

Lemma rvalid_ids c : forall qs, map r_id (rvalid (map (mk_rreq c) qs)) = map q_id (filter (rq_ok c) qs).
Proof.
  unfold rvalid, rq_ok. induction qs as [|q qs IH]; [reflexivity|]. cbn [map filter].
  destruct (negb (r_err (mk_rreq c q))); cbn [map]; [f_equal; [apply mk_rreq_id|] |]; exact IH.
Qed.

(* plan partition, in the form used here: the ids carried by the read plan are exactly the ids of the
   valid requests *)
Lemma read_plan_ids c qs :
  let plan := read_build c qs in
  (forall i, In i (plan_ids plan) <-> In i (map q_id (filter (rq_ok c) qs)))
  /\ forallb (fun pk => negb (is_rmw pk)) plan = true.
Proof.
  intros plan. unfold plan, read_build.
  pose proof (read_plan_partition (c_conn c) (c_micro800 c) (map (mk_rreq c) qs)) as PP.
  rewrite (rvalid_ids c qs) in PP. split; [|apply read_plan_no_rmw].
  intros i. split; apply Permutation_in; [exact PP | apply Permutation_sym, PP].
Qed.

Lemma in_plan_packet ps i : In i (plan_ids ps) -> exists pk, In pk ps /\ In i (packet_ids pk).
Proof. unfold plan_ids. intros H. apply in_flat_map in H. exact H. Qed.

Lemma run_read_eq c db P reqs r : run_read c db P reqs = Ok r ->
  r = shape (map (assemble_read c (send_requests (plc_of (parse_requested_tags db RwRead reqs)) P
                                     (read_build c (parse_requested_tags db RwRead reqs))))
                 (parse_requested_tags db RwRead reqs)).
Proof. unfold run_read. intros H; inversion H. reflexivity. Qed.

Theorem read_result_shape c db P reqs r : run_read c db P reqs = Ok r ->
  length (results_of r) = length reqs
  /\ (length reqs = 1%nat -> exists t, r = ROne t)
  /\ (length reqs <> 1%nat -> exists l, r = RList l /\ length l = length reqs).
Proof. intros H. rewrite (run_read_eq _ _ _ _ _ H). apply shape_spec. now rewrite map_length, parse_requested_length. Qed.

Lemma tag_of_reply_name n r : t_tag (tag_of_reply n r) = ReqText n.
Proof. unfold tag_of_reply. now destruct (rp_ok r). Qed.

Lemma assemble_read_ok_name req p r :
  t_tag r = ReqText (plc_tag p) ->
  (bit p = None -> is_dword_name (tag_info p) = false -> plc_tag p = user_tag p) ->
  let t := assemble_read_ok req p r in
  (t_tag t = ReqText (user_tag p) \/ (t_tag t = req /\ truthy t = false)).
Proof.
  intros Hn Hp. unfold assemble_read_ok.
  destruct (truthy r); [|left; reflexivity].
  destruct (is_dword_name (tag_info p)) eqn:ED; cbn [negb].
  - destruct (bool_elements p).
    + destruct (py_slice _ _ _) as [l|[| | | | |k]]; cbn; auto.
    + destruct (py_index _ _) as [l|[| | | | |k]]; cbn; auto.
  - destruct (bit p) eqn:EB.
    + destruct (value_bit _ _) as [l|[| | | | |k]]; cbn; auto.
    + left. rewrite Hn, Hp; auto.
Qed.

Theorem read_result_names c db P reqs r : run_read c db P reqs = Ok r ->
  forall k, (k < length reqs)%nat ->
    let t := nth k (results_of r) (exc_tag (ReqOther TypeError) TypeError) in
    let rq := nth k reqs (ReqOther TypeError) in
    (t_tag t = rq /\ truthy t = false)
    \/ (exists s, rq = ReqText s /\ t_tag t = ReqText (drop_count s)).
Proof.
  intros H k Hk. rewrite (run_read_eq _ _ _ _ _ H), results_of_shape, parsed_map_nth by exact Hk.
  set (qs := parse_requested_tags db RwRead reqs) in *.
  assert (Hq : In (nth k qs dflt_q) qs) by (apply nth_In; unfold qs; now rewrite parse_requested_length).
  unfold qs in Hq at 1. rewrite parse_requested_nth in Hq by exact Hk.
  assert (ND : NoDup (map q_id qs)) by apply parse_requested_ids_NoDup.
  set (rq := nth k reqs (ReqOther TypeError)) in *.
  set (q := mkPreq (Z.of_nat k) rq (parse_request_obj db RwRead rq)) in *.
  cbn zeta. unfold assemble_read. cbn [q_parsed q_request q_id q].
  destruct (parse_request_obj db RwRead rq) as [p|e] eqn:EP; [|left; split; reflexivity].
  destruct (read_msg_len c p) as [m|x]; [|left; split; reflexivity].
  destruct (rlookup (Z.of_nat k) _) as [t0|] eqn:EL; [|left; split; reflexivity].
  destruct (read_plan_ids c qs) as [_ HNR].
  destruct (send_requests_named _ _ _ _ _ HNR EL) as [n [rp [Hn ->]]].
  unfold plc_of in Hn. change (Z.of_nat k) with (q_id q) in Hn. rewrite (find_q_In qs q ND Hq) in Hn.
  cbn [q_parsed q] in Hn. injection Hn as <-.
  destruct rq as [s|x] eqn:ER; cbn [parse_request_obj] in EP; [|discriminate].
  destruct (parse_ok_tags _ _ _ _ EP) as [HU HP].
  destruct (assemble_read_ok_name (ReqText s) p (tag_of_reply (plc_tag p) rp) (tag_of_reply_name _ _)) as [A|A].
  - intros Hb Hd. apply HP; [exact Hb|].
    destruct (is_dword_dt (tag_info p)) eqn:E; [|reflexivity]. apply is_dword_dt_name in E. congruence.
  - right. exists s. split; [reflexivity|]. now rewrite A, HU.
  - left. exact A.
Qed.

Lemma exn_name_nonempty e : exn_name e <> [].
Proof. destruct e as [| | | | |k]; try discriminate. destruct k; discriminate. Qed.

Lemma build_text_nonempty pre e : pre ++ exn_name e <> [].
Proof. intros H. apply app_eq_nil in H. destruct H as [_ H]. exact (exn_name_nonempty e H). Qed.

Lemma build_err_tag_falsy rq pre e :
  truthy (build_err_tag rq pre e) = false /\ t_tag (build_err_tag rq pre e) = rq
  /\ exists txt, t_error (build_err_tag rq pre e) = Some txt /\ txt <> [].
Proof. split; [reflexivity|]. split; [reflexivity|]. eexists. split; [reflexivity | apply build_text_nonempty]. Qed.

Theorem read_parse_error_falsy c db P reqs r : run_read c db P reqs = Ok r ->
  forall k, (k < length reqs)%nat ->
    let t := nth k (results_of r) (exc_tag (ReqOther TypeError) TypeError) in
    let rq := nth k reqs (ReqOther TypeError) in
    (forall e, parse_request_obj db RwRead rq = inr e ->
       t = mkTag rq VNone None (Some (perr_text e)) /\ truthy t = false /\ perr_text e <> [])
    /\ (forall p e, parse_request_obj db RwRead rq = inl p -> read_msg_len c p = Err e ->
       t = build_err_tag rq err_build e /\ truthy t = false).
Proof.
  intros H k Hk. rewrite (run_read_eq _ _ _ _ _ H), results_of_shape, parsed_map_nth by exact Hk.
  cbn zeta. unfold assemble_read. cbn [q_parsed q_request]. split.
  - intros e ->. split; [reflexivity|]. split; [reflexivity | apply perr_text_nonempty].
  - intros p e -> ->. split; reflexivity.
Qed.

Definition no_reply_ : reply := mkReply false VNone None [].

(* the peer of a call whose reply to the service of request i is a function [f] of that request alone *)
Definition reply_of (f : parsed -> reply) (qs : list preq) (i : Z) : reply :=
  match find_q qs i with
  | Some q => match q_parsed q with inl p => f p | inr _ => no_reply_ end
  | None => no_reply_
  end.
Definition peer_of (f : parsed -> reply) (qs : list preq) : peer :=
  mkPeer (reply_of f qs) (fun ids => map (reply_of f qs) ids) (fun _ => None).

Lemma peer_of_independent f qs : independent (peer_of f qs).
Proof. intros ids. reflexivity. Qed.

(* what read() returns for ONE request, as a function of that request only *)
Definition read_outcome (c : cfg) (f : parsed -> reply) (rq : request) (pr : parsed + perr) : tag :=
  match pr with
  | inr e => mkTag rq VNone None (Some (perr_text e))
  | inl p => match read_msg_len c p with
             | Err e => build_err_tag rq err_build e
             | Ok _ => assemble_read_ok rq p (tag_of_reply (plc_tag p) (f p))
             end
  end.

Definition name_of (qs : list preq) (i : Z) : text := match plc_of qs i with Some n => n | None => [] end.

Lemma plan_names c qs : NoDup (map q_id qs) ->
  forall j, In j (plan_ids (read_build c qs)) -> plc_of qs j = Some (name_of qs j).
Proof.
  intros ND j Hj. apply (read_plan_ids c qs) in Hj.
  apply in_map_iff in Hj. destruct Hj as [q [<- Hq]]. apply filter_In in Hq. destruct Hq as [Hq Hok].
  unfold name_of, plc_of. rewrite (find_q_In qs q ND Hq). unfold rq_ok, mk_rreq in Hok.
  destruct (q_parsed q); [reflexivity | discriminate].
Qed.

Lemma read_lookup c qs f q p m : NoDup (map q_id qs) ->
  In q qs -> q_parsed q = inl p -> read_msg_len c p = Ok m ->
  rlookup (q_id q) (send_requests (plc_of qs) (peer_of f qs) (read_build c qs)) = Some (tag_of_reply (plc_tag p) (f p)).
Proof.
  intros ND Hq Hp Hm. destruct (read_plan_ids c qs) as [HI HNR]. set (plan := read_build c qs) in *.
  assert (Hin : In (q_id q) (plan_ids plan)).
  { apply HI. apply in_map. apply filter_In. split; [exact Hq|]. unfold rq_ok, mk_rreq. now rewrite Hp, Hm. }
  rewrite (send_lookup (plc_of qs) (peer_of f qs) (name_of qs) plan (q_id q) (peer_of_independent f qs)
             (plan_names c qs ND)).
  - unfold name_of, plc_of. cbn [p_one peer_of]. unfold reply_of. rewrite (find_q_In qs q ND Hq), Hp. reflexivity.
  - intros rid ids H. apply (forallb_In _ _ _ HNR) in H. discriminate.
  - destruct (in_plan_packet plan _ Hin) as [pk [Hpk Hi]]. exists pk. split; [exact Hpk|]. split; [|exact Hi].
    apply (forallb_In _ _ _ HNR) in Hpk. now destruct (is_rmw pk).
Qed.

(* THE read theorem: against a peer answering each service independently, read() is a MAP over its
   requests of a function of the single request — one result per request, in request order, and
   the result of request k does not depend on the other requests of the call *)
Theorem read_results_map c db f reqs r :
  run_read c db (peer_of f (parse_requested_tags db RwRead reqs)) reqs = Ok r ->
  results_of r = map (fun rq => read_outcome c f rq (parse_request_obj db RwRead rq)) reqs.
Proof.
  intros H. rewrite (run_read_eq _ _ _ _ _ H), results_of_shape.
  rewrite <- (parse_requested_map db RwRead (read_outcome c f) reqs 0). fold (parse_requested_tags db RwRead reqs).
  set (qs := parse_requested_tags db RwRead reqs).
  apply map_ext_in. intros q Hq. unfold assemble_read, read_outcome.
  destruct (q_parsed q) as [p|e] eqn:EP; [|reflexivity].
  destruct (read_msg_len c p) as [m|x] eqn:EM; [|reflexivity].
  now rewrite (read_lookup c qs f q p m (parse_requested_ids_NoDup _ _ _) Hq EP EM).
Qed.

Corollary read_isolation c db f reqs r k r1 :
  (k < length reqs)%nat ->
  run_read c db (peer_of f (parse_requested_tags db RwRead reqs)) reqs = Ok r ->
  run_read c db (peer_of f (parse_requested_tags db RwRead [nth k reqs (ReqOther TypeError)])) [nth k reqs (ReqOther TypeError)] = Ok r1 ->
  r1 = ROne (nth k (results_of r) (exc_tag (ReqOther TypeError) TypeError)).
Proof.
  intros Hk H H1. rewrite (shape_of_results _ _ (run_read_eq _ _ _ _ _ H1)), (read_results_map _ _ _ _ _ H1).
  now rewrite (read_results_map _ _ _ _ _ H), (nth_map_lt _ _ _ _ (ReqOther TypeError)).
Qed.

Theorem read_controller_error_falsy c db f reqs r k p m :
  (k < length reqs)%nat ->
  run_read c db (peer_of f (parse_requested_tags db RwRead reqs)) reqs = Ok r ->
  parse_request_obj db RwRead (nth k reqs (ReqOther TypeError)) = inl p -> read_msg_len c p = Ok m -> rp_ok (f p) = false ->
  nth k (results_of r) (exc_tag (ReqOther TypeError) TypeError)
  = mkTag (ReqText (user_tag p)) VNone None (Some (rp_error (f p))).
Proof.
  intros Hk H HP HM HF. rewrite (read_results_map _ _ _ _ _ H), (nth_map_lt _ _ _ _ (ReqOther TypeError)), HP by exact Hk.
  unfold read_outcome. rewrite HM. unfold assemble_read_ok, tag_of_reply. rewrite HF. reflexivity.
Qed.

Theorem read_no_exception c db P reqs : exists r, run_read c db P reqs = Ok r.
Proof. unfold run_read. eauto. Qed.
