(* Proofs/ReplyCalls.v — the public calls (LogixDriver.read/write, CIPDriver.generic_message/open,
   the forward-open handshake) over ARBITRARY reply bytes: which exceptions can escape, what a
   truthy result implies about the status words, and what well-formed error replies produce. *)
From Coq Require Import String ZifyBool.
From PV Require Import Base.Bytes Base.BytesLemmas Base.Res Base.PyStr.
From PV Require Import Gen.Consts.
From PV Require Import Model.Reply Spec.ReplyReader.
From PV Require Import Proofs.ReplyBase Proofs.ReplyValid Proofs.ReplyError Proofs.ReplyMulti.
Open Scope Z_scope.
Ltac Zify.zify_post_hook ::= Z.to_euclidean_division_equations.

Definition nf {A} (r : rm A) : Prop := match r with ROk _ => True | RErr e _ => is_foreign e = false end.

Lemma nf_library {A} (r : rm A) : nf r <-> rm_is_library r = true.
Proof. destruct r as [a|e m]; cbn; [tauto|]. unfold rm_is_library, is_library. cbn. destruct (is_foreign e); cbn; split; congruence. Qed.

Lemma lib_nf {A} (r : rm A) : rm_lib r -> nf r.
Proof. destruct r as [a|e m]; cbn; [auto|]. intros [->| ->]; reflexivity. Qed.

(* every step of the model that can fail passes the failure on unchanged: `match r with RErr e m =>
   RErr e m | ROk a => k a end` *)
Lemma nf_bind {A B} (r : rm A) (k : A -> rm B) : nf r -> (forall a, nf (k a)) ->
  nf (match r with ROk a => k a | RErr e m => RErr e m end).
Proof. destruct r; cbn; auto. Qed.

Lemma get_extended_status_nf msg st : nf (get_extended_status msg st).
Proof.
  unfold get_extended_status.
  apply nf_bind; [apply lib_nf, decode_elem_stream_lib|]. intros [status s1].
  apply nf_bind; [apply lib_nf, decode_elem_stream_lib|]. intros [sz s2]. cbv zeta.
  assert (One : forall t w r k, nf (match decode_elem_stream t w r with ROk (e, _) => ROk (k e) | RErr e m => RErr e m end : rm (option text)))
    by (intros; apply nf_bind; [apply lib_nf, decode_elem_stream_lib | now intros []]).
  destruct (sz * 2 =? 0); [exact I|]. destruct (sz * 2 =? 1); [apply One|].
  destruct (sz * 2 =? 2); [apply One|]. destruct (sz * 2 =? 4); [apply One | exact I].
Qed.

Lemma extended_status_nf k r c : nf (extended_status k r c).
Proof.
  unfold extended_status.
  destruct k; try exact I; (destruct (r_raw r); [|reflexivity]; apply nf_bind; [apply get_extended_status_nf | now intros]).
Qed.

Lemma error_nf k r : nf (error k r).
Proof.
  unfold error, some_text. destruct (is_valid k r); [exact I|]. destruct (r_error r); [exact I|].
  destruct (not_none_or_success (r_command_status r)); [apply nf_bind; [apply extended_status_nf | now intros]|].
  destruct (not_none_or_success (r_service_status r)); [apply nf_bind; [apply extended_status_nf | now intros] | exact I].
Qed.

Lemma error_none_iff k r t : error k r = ROk t -> is_none t = is_valid k r.
Proof.
  unfold error, some_text. destruct (is_valid k r); [now intros [= <-]|]. destruct (r_error r); [now intros [= <-]|].
  destruct (not_none_or_success (r_command_status r)) as [z|]; [destruct (extended_status k r z); now intros [= <-]|].
  destruct (not_none_or_success (r_service_status r)) as [z|]; [destruct (extended_status k r z)|]; now intros [= <-].
Qed.

Lemma tag_of_response_nf k r v : nf (tag_of_response k r v).
Proof. unfold tag_of_response. apply nf_bind; [apply error_nf | intros; now destruct (is_valid k r)]. Qed.

Lemma forward_open_nf raw : nf (forward_open raw).
Proof. unfold forward_open, generic_message. cbv zeta. do 2 (apply nf_bind; [|now intros]). apply error_nf. Qed.
Lemma with_forward_open_nf f replies : nf (with_forward_open f replies).
Proof.
  unfold with_forward_open. destruct replies as [|r1 rest]; [reflexivity|].
  apply nf_bind; [apply forward_open_nf|]. intros [|]; [exact I|]. destruct rest as [|r2 rest']; [reflexivity|].
  apply nf_bind; [apply forward_open_nf | now intros [|]].
Qed.

Lemma parse_read_frag_r raw : f_r (parse_read_frag raw) = parse_unit raw.
Proof. unfold parse_read_frag. destruct (r_data (parse_unit raw)) as [b|]; [destruct (is_struct_reply b)|]; reflexivity. Qed.

Lemma read_frag_loop_nf dec replies : forall acc, nf (read_frag_loop dec replies acc).
Proof.
  induction replies as [|raw rest IH]; intros acc; cbn [read_frag_loop]; [reflexivity|]. cbv zeta.
  destruct (opt_is _ INSUFFICIENT_PACKETS); [apply IH|].
  apply nf_bind; [apply error_nf | intros; now destruct (forallb _ _)].
Qed.

Lemma write_frag_loop_spec n : forall replies acc rs, write_frag_loop n replies acc = ROk rs ->
  rs = acc ++ map parse_unit (firstn n replies) /\ (n <= length replies)%nat.
Proof.
  induction n as [|n IH]; intros replies acc rs H; cbn [write_frag_loop] in H.
  - injection H as <-. cbn. now rewrite app_nil_r; split; [|lia].
  - destruct replies as [|raw rest]; [discriminate|]. apply IH in H as [-> Hl].
    cbn [firstn map length]. rewrite <- app_assoc. split; [reflexivity|lia].
Qed.
Lemma write_frag_loop_nf n : forall replies acc, nf (write_frag_loop n replies acc).
Proof.
  induction n as [|n IH]; intros replies acc; cbn [write_frag_loop]; [exact I|].
  destruct replies; [reflexivity|apply IH].
Qed.
Lemma write_fragmented_nf v n replies : (0 < n)%nat -> nf (write_fragmented v n replies).
Proof.
  intros Hn. unfold write_fragmented. pose proof (write_frag_loop_nf n replies []) as H.
  destruct (write_frag_loop n replies []) as [rs|e m] eqn:E; [|exact H].
  apply write_frag_loop_spec in E as [-> Hl]. cbn [app].
  destruct (forallb _ _); [|apply nf_bind; [apply tag_of_response_nf | now intros]].
  destruct (rev _) as [|last q] eqn:Er; [|apply nf_bind; [apply tag_of_response_nf | now intros]].
  apply (f_equal (@length _)) in Er. rewrite rev_length, map_length, firstn_length in Er. cbn in Er. lia.
Qed.

Lemma multi_tags_nf rs : nf (multi_tags rs).
Proof.
  induction rs as [|s rest IH]; [exact I|]. cbn [multi_tags]. apply nf_bind; [|intros; now apply nf_bind].
  destruct (is_valid KUnit (s_r s)); [exact I | apply nf_bind; [apply error_nf | now intros]].
Qed.

Lemma rw_multi_nf reqs raw : nf (rw_multi reqs raw).
Proof.
  unfold rw_multi. destruct (parse_multi reqs raw) as [r subs].
  apply nf_bind; [apply multi_tags_nf|]. intros ts. destruct (skipn _ reqs); [exact I|].
  apply nf_bind; [|now intros]. unfold rest_error.
  pose proof (error_nf KUnit r) as H. now destruct (error KUnit r) as [[[|c t]|]|e m].
Qed.

Lemma with_forward_open_rest f replies rest : with_forward_open f replies = ROk rest ->
  exists used, replies = used ++ rest.
Proof.
  unfold with_forward_open. destruct replies as [|r1 q]; [discriminate|].
  destruct (forward_open r1) as [[|]|]; try discriminate.
  - intros [= <-]. now exists [r1].
  - destruct q as [|r2 q']; [discriminate|]. destruct (forward_open r2) as [[|]|]; try discriminate.
    intros [= <-]. now exists [r1; r2].
Qed.

Lemma one_reply_nf replies f : (forall raw, nf (f raw)) -> nf (one_reply replies f).
Proof. intros H. unfold one_reply. destruct replies as [|raw q]; [reflexivity|]. apply nf_bind; [apply H | now intros]. Qed.

(* no foreign exception escapes any call, whatever the reply bytes *)
Theorem calls_library_only c : forall replies, nf (run_call c replies).
Proof.
  induction c as [dec|dec|v|v n|reqs|k dt| |f c IH]; intros replies; cbn [run_call].
  - apply one_reply_nf. intros raw. unfold read_single. cbv zeta. apply nf_bind; [apply tag_of_response_nf | now intros].
  - unfold tag_out, read_fragmented. apply nf_bind; [|now intros].
    apply nf_bind; [apply read_frag_loop_nf|]. intros [r v]. apply nf_bind; [apply tag_of_response_nf | now intros].
  - apply one_reply_nf. intros raw. unfold write_single. apply nf_bind; [apply tag_of_response_nf | now intros].
  - unfold tag_out. apply nf_bind; [apply write_fragmented_nf, Nat.lt_0_succ | now intros].
  - destruct replies as [|raw q]; [reflexivity|]. unfold tags_out. apply nf_bind; [apply rw_multi_nf | now intros].
  - apply one_reply_nf. intros raw. unfold generic_message. cbv zeta. apply nf_bind; [apply error_nf | now intros].
  - unfold open_call. now destruct replies.
  - apply nf_bind; [apply with_forward_open_nf | apply IH].
Qed.

Lemma tag_of_response_inv k r v t : tag_of_response k r v = ROk t ->
  t_value t = (if is_valid k r then v else None) /\ is_none (t_error t) = is_valid k r.
Proof.
  unfold tag_of_response. destruct (error k r) as [err|] eqn:E; [|discriminate]. apply error_none_iff in E.
  destruct (is_valid k r); intros [= <-]; auto.
Qed.
Lemma tag_of_response_truthy k r v t : tag_of_response k r v = ROk t -> tag_truthy t = true -> is_valid k r = true.
Proof. intros H Ht. apply tag_of_response_inv in H as [_ <-]. now apply andb_true_iff in Ht. Qed.
Lemma read_post_truthy t : tag_truthy (read_post t) = tag_truthy t.
Proof. unfold read_post. destruct (tag_truthy t) eqn:E; [exact E|reflexivity]. Qed.
Lemma write_post_truthy k r v t : tag_of_response k r (Some v) = ROk t -> tag_truthy (write_post v t) = is_valid k r.
Proof. intros H. now apply tag_of_response_inv in H as [_ <-]. Qed.

Theorem read_truthy dec raw t : bytes_ok raw = true ->
  read_single dec raw = ROk t -> tag_truthy t = true -> spec_success true unit_layout raw = true.
Proof.
  intros Hok H Ht. unfold read_single in H.
  destruct (tag_of_response KUnit (g_r (parse_read_tag dec raw)) (g_value (parse_read_tag dec raw))) as [t0|] eqn:E; [|discriminate].
  injection H as <-. rewrite read_post_truthy in Ht.
  rewrite <- (unit_valid_iff raw Hok). apply (read_tag_valid dec). eapply tag_of_response_truthy; eauto.
Qed.

Theorem write_truthy_iff v raw t : bytes_ok raw = true ->
  write_single v raw = ROk t -> tag_truthy t = spec_success true unit_layout raw.
Proof.
  intros Hok H. unfold write_single in H.
  destruct (tag_of_response KUnit (parse_unit raw) (Some v)) as [t0|] eqn:E; [|discriminate]. injection H as <-.
  now rewrite (write_post_truthy _ _ _ _ E), (unit_valid_iff raw Hok).
Qed.

Lemma parse_generic_r k dt raw : k = KUnit \/ k = KRR ->
  g_r (parse_generic k dt raw) = parse_k k raw
  \/ (is_valid k (parse_k k raw) = true /\ is_valid k (g_r (parse_generic k dt raw)) = false).
Proof.
  intros Hk. unfold parse_generic.
  replace (match k with KRR => parse_rr raw | _ => parse_unit raw end) with (parse_k k raw) by (destruct Hk as [->| ->]; reflexivity).
  destruct dt as [d|]; [|now left]. destruct (is_valid k (parse_k k raw)) eqn:Ev; [|now left].
  destruct (r_data (parse_k k raw)) as [data|]; [destruct (d data)|]; cbn [g_r]; auto using set_error_invalid.
Qed.

Definition layout_k (k : rkind) : layout := match k with KRR => rr_layout | _ => unit_layout end.
Lemma valid_k_iff k raw : k = KUnit \/ k = KRR -> bytes_ok raw = true ->
  is_valid k (parse_k k raw) = spec_success (partial_k k) (layout_k k) raw.
Proof. intros [->| ->] Hok; [apply unit_valid_iff|apply rr_valid_iff]; exact Hok. Qed.

Theorem generic_truthy k dt raw t : k = KUnit \/ k = KRR -> bytes_ok raw = true ->
  generic_message k dt raw = ROk t -> tag_truthy t = true -> spec_success (partial_k k) (layout_k k) raw = true.
Proof.
  intros Hk Hok H Ht. unfold generic_message in H.
  destruct (error k (g_r (parse_generic k dt raw))) as [err|] eqn:E; [|discriminate]. injection H as <-.
  apply andb_true_iff in Ht as [_ Ht]. cbn [t_error] in Ht. rewrite (error_none_iff _ _ _ E) in Ht.
  rewrite <- (valid_k_iff k raw Hk Hok). destruct (parse_generic_r k dt raw Hk) as [<-|[_ Hg]]; congruence.
Qed.

Lemma valid_k_has_data k raw : k = KUnit \/ k = KRR -> bytes_ok raw = true ->
  is_valid k (parse_k k raw) = true -> exists d, r_data (parse_k k raw) = Some d.
Proof.
  intros [->| ->] Hok Hv; cbn [is_valid parse_k] in *; apply andb_true_iff in Hv as [_ Hv];
    unfold parse_unit, parse_rr in *; rewrite parse_cip_data by exact Hok;
    (destruct (r_service_status _); [cbn; eauto | discriminate]).
Qed.

(* without a data type (forward open, raw generic messages): exactly the status-word rule *)
Theorem generic_raw_truthy_iff k raw t : k = KUnit \/ k = KRR -> bytes_ok raw = true ->
  generic_message k None raw = ROk t -> tag_truthy t = spec_success (partial_k k) (layout_k k) raw.
Proof.
  intros Hk Hok H. unfold generic_message in H.
  assert (Hg : g_r (parse_generic k None raw) = parse_k k raw /\ g_value (parse_generic k None raw) = option_map VBytes (r_data (parse_k k raw))).
  { unfold parse_generic. destruct Hk as [->| ->]; split; reflexivity. }
  destruct Hg as [Hg1 Hg2]. rewrite Hg1, Hg2 in H.
  destruct (error k (parse_k k raw)) as [err|] eqn:E; [|discriminate]. injection H as <-.
  rewrite <- (valid_k_iff k raw Hk Hok). unfold tag_truthy. cbn [t_value t_error]. rewrite (error_none_iff _ _ _ E).
  destruct (is_valid k (parse_k k raw)) eqn:Ev; [|apply andb_false_r].
  now destruct (valid_k_has_data k raw Hk Hok Ev) as [d ->].
Qed.

Lemma frag_parse_value_valid dec f j : is_valid KUnit (f_r (frag_parse_value dec f j)) = true -> is_valid KUnit (f_r f) = true.
Proof.
  unfold frag_parse_value. destruct (is_valid KUnit (f_r f)) eqn:E; [reflexivity|]. cbn [f_r]. now rewrite E.
Qed.

Lemma read_frag_loop_valid dec : forall replies acc r v,
  read_frag_loop dec replies acc = ROk (r, v) -> is_valid KUnit r = true ->
  forallb (fun f => is_valid KUnit (f_r f)) acc = true
  /\ exists used rest, replies = used ++ rest /\ used <> []
       /\ Forall (fun raw => is_valid KUnit (parse_unit raw) = true) used.
Proof.
  induction replies as [|raw rest IH]; intros acc r v H Hv; [discriminate|].
  cbn [read_frag_loop] in H. cbv zeta in H.
  (* either way every fragment so far, this one included, is valid *)
  assert (Hstep : forallb (fun f => is_valid KUnit (f_r f)) (acc ++ [parse_read_frag raw]) = true
                  /\ exists used rest', rest = used ++ rest' /\ Forall (fun raw => is_valid KUnit (parse_unit raw) = true) used).
  { destruct (opt_is _ INSUFFICIENT_PACKETS).
    - destruct (IH _ _ _ H Hv) as (Ha & used & rest' & -> & _ & Hu). eauto.
    - destruct (error KUnit _); [|discriminate].
      destruct (forallb _ (acc ++ _)); [|injection H as <- <-; discriminate Hv]. split; [reflexivity|]. exists [], rest. split; [reflexivity|constructor]. }
  destruct Hstep as (Ha & used & rest' & -> & Hu). rewrite forallb_app in Ha. apply andb_true_iff in Ha as [Ha Hf].
  cbn [forallb] in Hf. rewrite andb_true_r, parse_read_frag_r in Hf.
  split; [exact Ha|]. exists (raw :: used), rest'. split; [reflexivity|]. split; [discriminate|]. now constructor.
Qed.

Theorem read_frag_truthy dec replies t : Forall (fun r => bytes_ok r = true) replies ->
  read_fragmented dec replies = ROk t -> tag_truthy t = true ->
  exists used rest, replies = used ++ rest /\ used <> []
    /\ Forall (fun raw => spec_success true unit_layout raw = true) used.
Proof.
  intros Hok H Ht. unfold read_fragmented in H.
  destruct (read_frag_loop dec replies []) as [[r v]|] eqn:El; [|discriminate].
  destruct (tag_of_response KUnit r v) as [t0|] eqn:E; [|discriminate]. injection H as <-.
  rewrite read_post_truthy in Ht. pose proof (tag_of_response_truthy _ _ _ _ E Ht) as Hv.
  destruct (read_frag_loop_valid dec replies [] r v El Hv) as (_ & used & rest & -> & Hne & Hu).
  exists used, rest. split; [reflexivity|]. split; [exact Hne|].
  apply Forall_app in Hok as [Hok _]. rewrite Forall_forall in *. intros raw Hin.
  rewrite <- (unit_valid_iff raw (Hok raw Hin)). now apply Hu.
Qed.

Theorem write_frag_truthy v n replies t : Forall (fun r => bytes_ok r = true) replies ->
  write_fragmented v n replies = ROk t -> tag_truthy t = true ->
  (n <= length replies)%nat /\ Forall (fun raw => spec_success true unit_layout raw = true) (firstn n replies).
Proof.
  intros Hok H Ht. unfold write_fragmented in H.
  destruct (write_frag_loop n replies []) as [rs|] eqn:El; [|discriminate].
  apply write_frag_loop_spec in El as [-> Hl]. cbn [app] in H. split; [exact Hl|].
  destruct (forallb (is_valid KUnit) (map parse_unit (firstn n replies))) eqn:Eall.
  - rewrite forallb_forall in Eall. apply Forall_forall. intros raw Hin.
    assert (Hokr : bytes_ok raw = true).
    { rewrite Forall_forall in Hok. apply Hok. rewrite <- (firstn_skipn n replies). apply in_or_app. now left. }
    rewrite <- (unit_valid_iff raw Hokr). apply Eall. now apply in_map.
  - destruct (tag_of_response KUnit failed_fragments (Some v)) as [t0|] eqn:E; [|discriminate]. injection H as <-.
    rewrite (write_post_truthy _ _ _ _ E) in Ht. discriminate.
Qed.

Theorem open_true replies : Forall (fun r => bytes_ok r = true) replies ->
  open_call replies = ROk true -> exists raw rest, replies = raw :: rest /\ encap_zero raw = true.
Proof.
  intros Hok H. unfold open_call in H. destruct replies as [|raw rest]; [discriminate|].
  inversion Hok as [|? ? Hr _]; subst. exists raw, rest. split; [reflexivity|].
  assert (Hs : is_some (register_session raw) = true) by congruence.
  unfold register_session in Hs. rewrite <- (register_valid_iff raw Hr).
  destruct (is_valid KRegister (parse_register raw)); [reflexivity|discriminate].
Qed.

Lemma forward_open_true raw : bytes_ok raw = true -> forward_open raw = ROk true -> spec_success false rr_layout raw = true.
Proof.
  intros Hok H. unfold forward_open in H. destruct (generic_message KRR None raw) as [t|] eqn:E; [|discriminate].
  injection H as H. rewrite <- H. symmetry. apply (generic_raw_truthy_iff KRR raw t); auto.
Qed.
Theorem with_forward_open_ok f replies rest : Forall (fun r => bytes_ok r = true) replies ->
  with_forward_open f replies = ROk rest ->
  exists raw, In raw replies /\ spec_success false rr_layout raw = true.
Proof.
  intros Hok H. unfold with_forward_open in H. destruct replies as [|r1 q]; [discriminate|].
  inversion Hok as [|? ? H1 Hq]; subst.
  destruct (forward_open r1) as [[|]|] eqn:E1; try discriminate.
  - exists r1. split; [now left|now apply forward_open_true].
  - destruct q as [|r2 q']; [discriminate|]. inversion Hq as [|? ? H2 _]; subst.
    destruct (forward_open r2) as [[|]|] eqn:E2; try discriminate.
    exists r2. split; [right; now left|now apply forward_open_true].
Qed.

Lemma multi_tags_nth : forall subs ts, multi_tags subs = ROk ts ->
  forall i t, nth_error ts i = Some t ->
  exists s, nth_error subs i = Some s /\ (is_valid KUnit (s_r s) = false -> t_value t = None /\ t_error t <> None).
Proof.
  induction subs as [|s rest IH]; intros ts H i t Hi; cbn [multi_tags] in H; [injection H as <-; destruct i; discriminate|].
  destruct (is_valid KUnit (s_r s)) eqn:Ev; [|destruct (error KUnit (s_r s)) as [err|] eqn:Ee; [|discriminate]];
    (destruct (multi_tags rest) as [ts'|] eqn:Er; [|discriminate]); injection H as <-;
    (destruct i as [|i]; [injection Hi as <-; exists s; split; [reflexivity|] | cbn [nth_error] in *; eapply IH; eauto]).
  - now rewrite Ev.
  - intros _. split; [reflexivity|]. cbn [t_error]. intros ->. apply error_none_iff in Ee. rewrite Ev in Ee. discriminate.
Qed.

Lemma collect_results_nth : forall reqs ts k i t, nth_error (collect_results k reqs ts) i = Some t ->
  (exists q t0, nth_error ts i = Some t0 /\ t = post_multi q t0) \/ tag_truthy t = false.
Proof.
  induction reqs as [|q reqs IH]; intros ts k i t H; [destruct i; discriminate|].
  cbn [collect_results] in H. destruct ts as [|t0 ts]; (destruct i as [|i]; [injection H as <-|cbn [nth_error] in H]).
  - now right.
  - destruct (IH [] (S k) i t H) as [(q' & t' & Hn & _)|Hf]; [destruct i; discriminate | now right].
  - left. now exists q, t0.
  - apply (IH ts (S k) i t H).
Qed.

Lemma post_multi_falsy q t0 : t_value t0 = None -> t_error t0 <> None -> tag_truthy (post_multi q t0) = false.
Proof.
  intros Hv He. destruct q as [dec|v]; cbn [post_multi].
  - rewrite read_post_truthy. unfold tag_truthy. now rewrite Hv.
  - unfold write_post, tag_truthy. cbn [t_value t_error is_some andb]. destruct (t_error t0); [reflexivity|congruence].
Qed.

(* a truthy per-service result: the service reply's own words say success AND the enclosing frame's
   encapsulation status is 0 *)
Theorem multi_truthy reqs raw tags i t : bytes_ok raw = true ->
  rw_multi reqs raw = ROk tags -> nth_error tags i = Some t -> tag_truthy t = true ->
  multi_sub_success raw i = true.
Proof.
  intros Hok H Hi Ht. unfold rw_multi in H.
  destruct (parse_multi reqs raw) as [r subs] eqn:Ep.
  destruct (multi_tags subs) as [ts|] eqn:Em; [|discriminate].
  assert (Hall : exists fill, tags = collect_results 0 reqs (ts ++ fill)
                              /\ Forall (fun t0 => t_value t0 = None /\ t_error t0 <> None) fill).
  { destruct (skipn (length subs) reqs) as [|m ms].
    - exists []. rewrite app_nil_r. split; [congruence|constructor].
    - destruct (rest_error r) as [e|]; [|discriminate]. injection H as <-. eexists. split; [reflexivity|].
      apply Forall_forall. intros t0 Ht0. apply (in_map_iff _ (m :: ms)) in Ht0 as [_ [<- _]]. split; [reflexivity|discriminate]. }
  destruct Hall as (fill & -> & Hfill).
  destruct (collect_results_nth _ _ _ _ _ Hi) as [(q & t0 & Ht0 & ->)|Hf]; [|congruence].
  destruct (Nat.lt_ge_cases i (length ts)) as [Hlt|Hge].
  - rewrite nth_error_app1 in Ht0 by exact Hlt. destruct (multi_tags_nth _ _ Em _ _ Ht0) as (s & Hs & Hbad).
    destruct (is_valid KUnit (s_r s)) eqn:Hv; [exact (multi_sub_words_of_valid reqs raw r subs i s Hok Ep Hs Hv)|].
    destruct (Hbad eq_refl) as [Hval Herr]. rewrite (post_multi_falsy q t0 Hval Herr) in Ht. discriminate.
  - rewrite nth_error_app2 in Ht0 by lia. apply nth_error_In in Ht0.
    rewrite Forall_forall in Hfill. destruct (Hfill _ Ht0) as [Hval Herr].
    rewrite (post_multi_falsy q t0 Hval Herr) in Ht. discriminate.
Qed.

Definition wf_error (k : rkind) (raw : bytes) : bool :=
  (wf_cip_reply (layout_k k) raw && negb (spec_success (partial_k k) (layout_k k) raw)) || wf_header_only_error raw.

Lemma error_of_wf_error k raw : k = KUnit \/ k = KRR -> bytes_ok raw = true -> wf_error k raw = true ->
  is_valid k (parse_k k raw) = false /\ exists t, error k (parse_k k raw) = ROk (Some t) /\ t <> [].
Proof.
  intros Hk Hok Hw. unfold wf_error in Hw. apply orb_true_iff in Hw as [Hw|Hw].
  - apply andb_true_iff in Hw as [Hw Hn]. apply negb_true_iff in Hn. split; [now rewrite (valid_k_iff k raw Hk Hok)|].
    assert (HkL : (k = KUnit /\ layout_k k = unit_layout) \/ (k = KRR /\ layout_k k = rr_layout)) by (destruct Hk as [->| ->]; auto).
    destruct (error_text_gen k (layout_k k) raw HkL Hok Hw Hn) as (t & He & Hne & _). eauto.
  - apply (header_only_error k raw Hk Hok Hw).
Qed.

Definition falsy_text (t : tag) : Prop := tag_truthy t = false /\ exists e, t_error t = Some e /\ e <> [].
Lemma falsy_text_err v e : e <> [] -> falsy_text {| t_value := v; t_error := Some e |}.
Proof. intros H. split; [apply andb_false_r | exists e; auto]. Qed.

Theorem read_wf_error dec raw : bytes_ok raw = true -> wf_error KUnit raw = true ->
  exists t, read_single dec raw = ROk t /\ falsy_text t.
Proof.
  intros Hok Hw. destruct (error_of_wf_error KUnit raw (or_introl eq_refl) Hok Hw) as (Hv & e & He & Hne).
  cbn [parse_k] in Hv, He. unfold read_single, parse_read_tag, tag_of_response. rewrite Hv. cbn [g_r g_value]. rewrite He, Hv.
  eexists. split; [reflexivity|]. apply falsy_text_err, Hne.
Qed.
Theorem write_wf_error v raw : bytes_ok raw = true -> wf_error KUnit raw = true ->
  exists t, write_single v raw = ROk t /\ falsy_text t.
Proof.
  intros Hok Hw. destruct (error_of_wf_error KUnit raw (or_introl eq_refl) Hok Hw) as (Hv & e & He & Hne).
  cbn [parse_k] in Hv, He. unfold write_single, tag_of_response. rewrite He, Hv.
  eexists. split; [reflexivity|]. apply falsy_text_err, Hne.
Qed.
Theorem generic_wf_error k dt raw : k = KUnit \/ k = KRR -> bytes_ok raw = true -> wf_error k raw = true ->
  exists t, generic_message k dt raw = ROk t /\ falsy_text t.
Proof.
  intros Hk Hok Hw. destruct (error_of_wf_error k raw Hk Hok Hw) as (Hv & e & He & Hne).
  unfold generic_message. destruct (parse_generic_r k dt raw Hk) as [->|[Hg _]]; [|congruence]. rewrite He. eexists. split; [reflexivity|]. apply falsy_text_err, Hne.
Qed.

(* multi-service: an error reply without service data fails every request *)
Definition no_service_data (raw : bytes) : bool :=
  wf_header_only_error raw
  || match byte_at 49 raw with Some n => Z.of_nat (length raw) =? 50 + 2 * n | None => false end.
Lemma collect_results_fill : forall reqs k t0,
  collect_results k reqs (map (fun _ => t0) reqs) = map (fun q => post_multi q t0) reqs.
Proof. induction reqs as [|q reqs IH]; intros k t0; cbn [map collect_results]; [reflexivity|]. f_equal. apply IH. Qed.

Lemma parse_multi_nothing reqs raw : bytes_ok raw = true ->
  no_service_data raw = true -> parse_multi reqs raw = (parse_unit raw, []).
Proof.
  intros Hok Hn. unfold parse_multi. destruct (_ || _ || _) eqn:Eg; [reflexivity|].
  unfold parse_unit. rewrite parse_cip_data by exact Hok. destruct (is_some (r_service_status _)); [|reflexivity].
  (* no additional status is announced, so the reply ends after its four header bytes *)
  apply orb_false_iff in Eg as [_ Ena]. apply negb_false_iff in Ena. rewrite no_additional_status_spec in Ena.
  unfold no_service_data, byte_at in Hn. destruct (nth_error raw 49) as [n|] eqn:E49; [|discriminate].
  apply nth_error_some_lt in E49. unfold wf_header_only_error in Hn.
  destruct (length raw =? 24)%nat eqn:E24; [lia|]. cbn [andb orb] in Hn.
  assert (Hl : length (skipn 50 raw) = 0%nat) by (rewrite skipn_length; lia).
  destruct (skipn 50 raw); [reflexivity|discriminate].
Qed.

Theorem multi_wf_error reqs raw : reqs <> [] -> bytes_ok raw = true -> wf_error KUnit raw = true ->
  no_service_data raw = true ->
  exists tags, rw_multi reqs raw = ROk tags /\ tags <> [] /\ Forall falsy_text tags.
Proof.
  intros Hne Hok Hw Hn.
  destruct (error_of_wf_error KUnit raw (or_introl eq_refl) Hok Hw) as (Hv & e & He & Hnee). cbn [parse_k] in Hv, He.
  unfold rw_multi. rewrite (parse_multi_nothing reqs raw Hok Hn). cbn [multi_tags length skipn].
  destruct reqs as [|q qs]; [congruence|].
  unfold rest_error. rewrite He. destruct e as [|c e']; [congruence|].
  cbn [app]. rewrite collect_results_fill.
  eexists. split; [reflexivity|]. split; [discriminate|].
  apply Forall_forall. intros t Ht. apply in_map_iff in Ht as (q0 & <- & _).
  split.
  - apply post_multi_falsy; [reflexivity|discriminate].
  - exists (c :: e'). split; [|discriminate]. destruct q0 as [dec|v]; reflexivity.
Qed.
