(* Proofs/WriteBools.v — BOOL arrays (C02): `arr[i]{n}` with i and n multiples of 32 writes whole
   32-bit words.  pycomm3 encodes 32 booleans per DWORD (BitArrayType._encode through UDINT); the
   reference stores the bits 8 per byte (Spec/Expect.bytes_of_bools).  Both are the little-endian
   image of the same number. *)
From Coq Require Import ZifyBool String.
From PV Require Import Base.Bytes Base.BytesLemmas Base.Res Base.Proto Base.PyStr Model.CodecFloat Model.Path Model.LogixPlan Model.LogixWrite.
From PV Require Import Spec.EncapParser Spec.MRParser Spec.TargetIface Spec.TargetCore Spec.Project Spec.Expect Spec.TargetLogix.
From PV Require Import Proofs.TargetCoreP Proofs.TargetLogixP Proofs.WriteBits Proofs.WriteMsg Proofs.WriteEnc Proofs.WriteFull.
Open Scope Z_scope.
Ltac Zify.zify_post_hook ::= Z.to_euclidean_division_equations.

Lemma bits_value_bval l : forall w, bits_value l w = w * bval (map truthy l).
Proof.
  induction l as [|x r IH]; intros w; cbn [bits_value map bval]; [lia|].
  rewrite IH. destruct (truthy x); cbn [Z.b2z]; lia.
Qed.

Lemma byte_of_bools_spec k : forall l rest w acc, length l = k ->
  byte_of_bools k (l ++ rest) w acc = (acc + w * bval l, rest).
Proof.
  induction k as [|k IH]; intros l rest w acc Hl.
  - destruct l; [|discriminate]. cbn [app byte_of_bools bval]. f_equal. lia.
  - destruct l as [|b l]; [discriminate|]. cbn [app byte_of_bools bval]. rewrite IH by (cbn [length] in Hl; lia).
    f_equal. destruct b; cbn [Z.b2z]; lia.
Qed.

Lemma le_enc_split a : forall b x y, 0 <= x < pow256 a ->
  le_enc (a + b) (x + pow256 a * y) = le_enc a x ++ le_enc b y.
Proof.
  induction a as [|a IH]; intros b x y Hx.
  - rewrite pow256_0 in *. cbn [Nat.add le_enc app]. f_equal. lia.
  - rewrite pow256_S in *. cbn [Nat.add le_enc app]. pose proof (pow256_pos a) as Hp.
    f_equal; [lia|].
    replace ((x + 256 * pow256 a * y) / 256) with (x / 256 + pow256 a * y) by lia.
    apply IH. lia.
Qed.

(* 8 bits per byte: the reference byte packing is the little-endian image of the number *)
Lemma bytes_of_bools_le_enc n : forall fuel l, (n <= fuel)%nat -> length l = (8 * n)%nat ->
  bytes_of_bools fuel l = le_enc n (bval l).
Proof.
  induction n as [|n IH]; intros fuel l Hf Hl.
  - destruct l; [|discriminate]. destruct fuel; reflexivity.
  - destruct fuel as [|fuel]; [lia|].
    assert (Hs : l = firstn 8 l ++ skipn 8 l) by (symmetry; apply firstn_skipn).
    set (a := firstn 8 l) in *. set (r := skipn 8 l) in *.
    assert (Ha : length a = 8%nat) by (unfold a; rewrite firstn_length; lia).
    assert (Hr : length r = (8 * n)%nat) by (unfold r; rewrite skipn_length; lia).
    rewrite Hs. cbn [bytes_of_bools].
    destruct (a ++ r) as [|x xs] eqn:E; [destruct a; discriminate|]. rewrite <- E.
    rewrite (byte_of_bools_spec 8 a r 1 0 Ha).
    rewrite (IH fuel r ltac:(lia) Hr).
    rewrite bval_app, Ha. change (2 ^ Z.of_nat 8) with (pow256 1).
    pose proof (bval_range a) as Ra. rewrite Ha in Ra. change (2 ^ Z.of_nat 8) with 256 in Ra.
    change (S n) with (1 + n)%nat. rewrite (le_enc_split 1 n (bval a) (bval r)) by (change (pow256 1) with 256; lia).
    cbn [le_enc app]. f_equal. lia.
Qed.

Lemma dword_encode ch : length ch = 32%nat ->
  elem_encode n_DWORD (PList ch) = Ok (le_enc 4 (bval (map truthy ch))).
Proof.
  intros Hl. unfold elem_encode, elem_encode_raw.
  (* the rows of DWORD and of its host class UDINT in the generated table of type classes (Gen/Types.v) *)
  change (class_row n_DWORD) with (Some (n_DWORD, 211, 4, ([] : list Z), ([] : list Z), ([] : list Z), zs_of_string "UDINT")).
  cbn [row_fmt row_host row_size]. change (PyStr.text_eqb n_DWORD n_BOOL) with false. cbn [fmt_sem py_items].
  change (zs_of_string "UDINT") with [85; 68; 73; 78; 84].
  unfold LogixWrite.zlen. rewrite Hl. cbn [Nat.eqb Z.of_nat Z.eqb negb].
  replace (Z.of_nat 32 =? 8 * 4) with true by reflexivity. cbn [negb].
  change (class_row [85; 68; 73; 78; 84]) with (Some ([85; 68; 73; 78; 84], 200, 4, [60; 73], ([] : list Z), ([] : list Z), ([] : list Z))).
  cbn [row_fmt fmt_sem]. unfold pack_int. rewrite bits_value_bval, Z.mul_1_l.
  pose proof (bval_range (map truthy ch)) as R. rewrite map_length, Hl in R.
  unfold in_urange. change (pow256 4) with 4294967296. change (2 ^ Z.of_nat 32) with 4294967296 in R.
  replace ((0 <=? bval (map truthy ch)) && (bval (map truthy ch) <? 4294967296)) with true by lia.
  cbn [wrap_all]. rewrite Z.mod_small by lia. reflexivity.
Qed.

Lemma chunk_list_cons {A} fuel c (l : list A) : l <> [] ->
  chunk_list (S fuel) c l = firstn c l :: chunk_list fuel c (skipn c l).
Proof. destruct l; [congruence|reflexivity]. Qed.

Lemma chunk_list_32 k : forall fuel (l : list pv), (k <= fuel)%nat -> length l = (32 * k)%nat ->
  map_res (elem_encode n_DWORD) (firstn k (map PList (chunk_list fuel 32 l)))
  = Ok (map (fun ch => le_enc 4 (bval (map truthy ch))) (chunk_list k 32 l))
  /\ concat (map (fun ch => le_enc 4 (bval (map truthy ch))) (chunk_list k 32 l)) = le_enc (4 * k) (bval (map truthy l))
  /\ length (chunk_list k 32 l) = k.
Proof.
  induction k as [|k IH]; intros fuel l Hf Hl.
  - destruct l; [|discriminate]. repeat split; reflexivity.
  - destruct fuel as [|fuel]; [lia|].
    assert (Hs : l = firstn 32 l ++ skipn 32 l) by (symmetry; apply firstn_skipn).
    set (a := firstn 32 l) in *. set (r := skipn 32 l) in *.
    assert (Ha : length a = 32%nat) by (unfold a; rewrite firstn_length; lia).
    assert (Hr : length r = (32 * k)%nat) by (unfold r; rewrite skipn_length; lia).
    assert (Hne : l <> []) by (intros E; rewrite E in Hl; discriminate).
    rewrite !chunk_list_cons by exact Hne. fold a r.
    destruct (IH fuel r ltac:(lia) Hr) as (I1 & I2 & I3).
    cbn [map firstn map_res concat length]. rewrite (dword_encode a Ha), I1, I2, I3. repeat split.
    replace (bval (map truthy l)) with (bval (map truthy (a ++ r))) by (rewrite <- Hs; reflexivity).
    rewrite map_app, bval_app, map_length, Ha.
    replace (4 * S k)%nat with (4 + 4 * k)%nat by lia.
    pose proof (bval_range (map truthy a)) as Ra. rewrite map_length, Ha in Ra.
    change (2 ^ Z.of_nat 32) with (pow256 4) in *.
    rewrite (le_enc_split 4 (4 * k) _ _ Ra). reflexivity.
Qed.

Lemma dword_array_encode cls_len len l k :
  length l = (32 * k)%nat -> (0 < k)%nat ->
  match len with Some x => if x =? 0 then cls_len else x | None => cls_len end <= Z.of_nat (32 * k) ->
  array_encode (encode_ty (WElem n_DWORD)) (Some 32) cls_len (PList l) len = Ok (bytes_of_bools (32 * k) (map truthy l)).
Proof.
  intros Hl Hk Hlen. unfold array_encode. cbn [py_items]. unfold LogixWrite.zlen. rewrite Hl.
  destruct (Z.of_nat (32 * k) <? _) eqn:E; [lia|]. clear E Hlen.
  change (32 <=? 0) with false. cbv beta iota.
  replace (Z.of_nat (32 * k) / 32) with (Z.of_nat k) by lia. rewrite Nat2Z.id.
  change (Z.to_nat 32) with 32%nat. change (encode_ty (WElem n_DWORD)) with (elem_encode n_DWORD).
  destruct (chunk_list_32 k (32 * k)%nat l ltac:(lia) Hl) as (C1 & C2 & C3).
  rewrite C1, map_length, C3, Z.ltb_irrefl, C2. cbn [wrap_all]. f_equal. symmetry.
  apply bytes_of_bools_le_enc; [lia|]. rewrite map_length. lia.
Qed.

(* Array(n0, DWORD).encode(values, count) for count = 32 k booleans *)
Theorem dword_encode_spec l k n0 :
  length l = (32 * k)%nat -> (0 < k)%nat ->
  encode_ty_len (WArray n0 (WElem n_DWORD)) (PList l) (Z.of_nat (32 * k))
  = Ok (bytes_of_bools (32 * k) (map truthy l)).
Proof.
  intros Hl Hk. apply (dword_array_encode n0 (Some (Z.of_nat (32 * k))) l k Hl Hk).
  destruct (Z.of_nat (32 * k) =? 0) eqn:E; lia.
Qed.

Lemma dword_member_encode l k : length l = (32 * k)%nat -> (0 < k)%nat ->
  encode_ty (WArray (Z.of_nat k) (WElem n_DWORD)) (PList l) = Ok (bytes_of_bools (32 * k) (map truthy l)).
Proof. intros Hl Hk. apply (dword_array_encode (Z.of_nat k) None l k Hl Hk). lia. Qed.

Lemma as_bools_map bl : as_bools (RList (map RBool bl)) = Some bl.
Proof.
  cbn [as_bools]. induction bl as [|b r IH]; [reflexivity|]. cbn [map all_some]. cbn [map] in IH. rewrite IH. reflexivity.
Qed.

Lemma all_true_map l : all_true l = map RBool (map truthy l).
Proof. unfold all_true. rewrite map_map. reflexivity. Qed.

Lemma write_place_words p img inst off nbits start bl k img' :
  0 <= start -> start mod 32 = 0 -> (0 < k)%nat ->
  write_place p img (PlBools inst off nbits start) None (Some (Z.of_nat (32 * k))) (RList (map RBool bl)) = Some img' ->
  (32 * k <= length bl)%nat /\ start + Z.of_nat (32 * k) <= nbits
  /\ put_bytes img (off + 4 * (start / 32)) (bytes_of_bools (32 * k) (firstn (32 * k) bl)) = Some img'.
Proof.
  intros Hs0 Hsm Hk. unfold write_place, take_values. rewrite map_length.
  destruct (_ <=? Z.of_nat (length bl)) eqn:E1; [|discriminate]. rewrite Nat2Z.id, firstn_map, as_bools_map.
  destruct ((1 <=? _) && (_ <=? nbits)) eqn:E2; [|discriminate].
  replace (start / 8) with (4 * (start / 32)) by lia.
  replace ((start + Z.of_nat (32 * k) - 1) / 8 - 4 * (start / 32) + 1) with (Z.of_nat (4 * k)) by lia.
  destruct (get_bytes img _ _) as [d|] eqn:Hg; [|discriminate].
  apply get_bytes_len in Hg. unfold Expect.blen in Hg.
  replace (Z.to_nat (start - 8 * (4 * (start / 32)))) with 0%nat by lia. cbn [firstn app Nat.add].
  rewrite skipn_all2 by (rewrite bools_of_bytes_length, firstn_length; lia).
  rewrite app_nil_r, firstn_length_le by lia. intros H. repeat split; (lia || exact H).
Qed.

(* `arr[i]{n}`, i and n multiples of 32: whole 32-bit words are written, from DWORD i/32, and the
   memory the target is left with is the reference memory (only those words change) *)
Theorem write_correct_bools : stmt_bools.
Proof.
  intros p m r inst off nbits start n l_py m_ref img id tag n0 tyh inst_id ui seq path
         Hres Hbit Hcnt Hmem _ Hs0 Hsm Hn Hnm Hw Hseq info q l Hpath.
  destruct (ref_write_inv _ _ _ _ _ _ _ Hres Hmem Hw) as (img' & Hwp & ->). rewrite Hbit, Hcnt in Hwp.
  set (k := Z.to_nat (n / 32)).
  assert (Hnk : n = Z.of_nat (32 * k)) by (unfold k; lia).
  assert (Hk : (0 < k)%nat) by (unfold k; lia).
  rewrite all_true_map, Hnk in Hwp.
  destruct (write_place_words _ _ _ _ _ _ _ _ _ Hs0 Hsm Hk Hwp) as (Hl1 & Hl2 & Hput). rewrite map_length in Hl1.
  clear Hwp. rewrite firstn_map in Hput.
  assert (Hlt : length (firstn (32 * k) l_py) = (32 * k)%nat) by (rewrite firstn_length; lia).
  set (data := bytes_of_bools (32 * k) (map truthy (firstn (32 * k) l_py))) in *.
  assert (Hev : encode_value q = Ok (data, n / 32)).
  { rewrite (encode_value_list q l_py eq_refl eq_refl) by (intros _; exact Hsm). cbn zeta.
    unfold q_value_elements, q_new_elements, q_dword.
    cbn [q info q_bool_elements q_elements q_info q_bit ti_type_name ti_type z_or opt_or0].
    change (PyStr.text_eqb n_DWORD n_DWORD) with true.
    replace (n =? 0) with false by lia. replace (1 <? n) with true by lia.
    replace (LogixWrite.zlen l_py <? n) with false by (unfold LogixWrite.zlen; lia).
    rewrite Hnk at 1 2. rewrite Nat2Z.id, (dword_encode_spec _ k n0 Hlt Hk). f_equal. f_equal. lia. }
  apply (request_stores_intro p m img l q ui seq path (le_enc 2 C_DWORD) (inl C_DWORD) (n / 32) data 4 img'
           Hev eq_refl Hpath Hseq (fun rest => eq_refl) eq_refl eq_refl); [cbn [w_avail l]; lia|lia| |reflexivity|exact Hput].
  unfold data. rewrite (bytes_of_bools_le_enc (4 * k) (32 * k)) by (rewrite ?map_length; lia).
  unfold Expect.blen. rewrite le_enc_length. lia.
Qed.

Lemma bval_testbit l : forall i, 0 <= i -> Z.testbit (bval l) i = nth (Z.to_nat i) l false.
Proof.
  induction l as [|b r IH]; intros i Hi; cbn [bval].
  - rewrite Z.bits_0. destruct (Z.to_nat i); reflexivity.
  - rewrite Z.add_comm. destruct (Z.eq_dec i 0) as [->|Hne].
    + rewrite Z.testbit_0_r. reflexivity.
    + replace i with (Z.succ (i - 1)) at 1 by lia. rewrite Z.testbit_succ_r by lia. rewrite IH by lia.
      replace (Z.to_nat i) with (S (Z.to_nat (i - 1))) by lia. reflexivity.
Qed.

Lemma nth_splice (x : bool) : forall k old i, (k < length old)%nat ->
  nth i (firstn k old ++ [x] ++ skipn (S k) old) false = if Nat.eqb i k then x else nth i old false.
Proof.
  induction k as [|k IH]; intros old i Hk; destruct old as [|o r]; try (cbn in Hk; lia).
  - cbn [firstn app skipn]. destruct i; reflexivity.
  - cbn [firstn app skipn]. destruct i as [|i]; [reflexivity|]. cbn [nth Nat.eqb]. apply IH. cbn [length] in Hk. lia.
Qed.

(* the reference's byte-level bit write: 8 bits unpacked, one replaced, packed again *)
Lemma splice_byte y k x : 0 <= y < 256 -> 0 <= k < 8 ->
  let old := bools_of_bytes [y] in
  let new := firstn (Z.to_nat k) old ++ [x] ++ skipn (Z.to_nat k + length [x]) old in
  bytes_of_bools (length new) new = [set_bit_byte y k x].
Proof.
  intros Hy Hk old new.
  assert (Hold : old = map (fun i => Z.testbit y (Z.of_nat i)) (seq 0 8)).
  { unfold old, bools_of_bytes. cbn [flat_map]. rewrite app_nil_r. reflexivity. }
  assert (Hlo : length old = 8%nat) by (rewrite Hold; reflexivity).
  assert (Hln : length new = 8%nat).
  { unfold new. rewrite !app_length, firstn_length, skipn_length, Hlo. cbn [length]. lia. }
  rewrite (bytes_of_bools_le_enc 1 (length new) new) by lia.
  cbn [le_enc]. f_equal.
  assert (Hnth : forall i, (i < 8)%nat -> nth i old false = Z.testbit y (Z.of_nat i)).
  { intros i Hi. rewrite Hold. do 8 (destruct i as [|i]; [reflexivity|]). lia. }
  assert (E : bval new = set_bit_byte y k x).
  { apply Z.bits_inj'. intros i Hi. rewrite bval_testbit by exact Hi. rewrite set_bit_byte_testbit by lia.
    unfold new. cbn [length]. replace (Z.to_nat k + 1)%nat with (S (Z.to_nat k)) by lia.
    rewrite nth_splice by lia.
    destruct (Nat.eqb_spec (Z.to_nat i) (Z.to_nat k)) as [E|E]; destruct (Z.eqb_spec i k) as [E2|E2]; try lia; try reflexivity.
    destruct (Z_lt_le_dec i 8) as [Hlt|Hge].
    - rewrite Hnth by lia. f_equal. lia.
    - rewrite nth_overflow by lia. symmetry. apply (testbit_small y 8 i Hy Hge). }
  rewrite E.
  assert (R : 0 <= set_bit_byte y k x < 256).
  { rewrite <- E. pose proof (bval_range new) as Rn. rewrite Hln in Rn. change (2 ^ Z.of_nat 8) with 256 in Rn. exact Rn. }
  lia.
Qed.

(* setting bit e of a number = setting bit e mod 8 of byte e / 8 of its little-endian image *)
Lemma set_bit_low V e x : 0 <= e < 8 ->
  (set_bit_byte V e x) mod 256 = set_bit_byte (V mod 256) e x /\ (set_bit_byte V e x) / 256 = V / 256.
Proof.
  intros He. change 256 with (2 ^ 8). split; apply Z.bits_inj'; intros k Hk.
  - rewrite set_bit_byte_testbit, !Z.testbit_mod_pow2, set_bit_byte_testbit by lia.
    destruct (Z.eqb_spec k e); [replace (k <? 8) with true by lia|]; reflexivity.
  - rewrite !Z.div_pow2_bits, set_bit_byte_testbit by lia. replace (k + 8 =? e) with false by lia. reflexivity.
Qed.

Lemma set_bit_high V e x : 8 <= e ->
  (set_bit_byte V e x) mod 256 = V mod 256 /\ (set_bit_byte V e x) / 256 = set_bit_byte (V / 256) (e - 8) x.
Proof.
  intros He. change 256 with (2 ^ 8). split; apply Z.bits_inj'; intros k Hk.
  - rewrite !Z.testbit_mod_pow2, set_bit_byte_testbit by lia.
    destruct (k <? 8) eqn:E; [replace (k =? e) with false by lia|]; reflexivity.
  - rewrite set_bit_byte_testbit, !Z.div_pow2_bits, set_bit_byte_testbit by lia.
    destruct (Z.eqb_spec k (e - 8)); [replace (k + 8 =? e) with true by lia|replace (k + 8 =? e) with false by lia]; reflexivity.
Qed.

Lemma le_enc_set_bit n : forall V e x, 0 <= e < 8 * Z.of_nat n ->
  let old := le_enc n V in
  let j := Z.to_nat (e / 8) in
  le_enc n (set_bit_byte V e x) = firstn j old ++ [set_bit_byte (nth j old 0) (e mod 8) x] ++ skipn (S j) old.
Proof.
  induction n as [|n IH]; intros V e x He; [lia|]. cbn zeta. cbn [le_enc].
  destruct (Z_lt_le_dec e 8) as [Hlt|Hge].
  - destruct (set_bit_low V e x ltac:(lia)) as [-> ->].
    replace (e / 8) with 0 by lia. replace (e mod 8) with e by lia. reflexivity.
  - destruct (set_bit_high V e x Hge) as [-> ->].
    replace (Z.to_nat (e / 8)) with (S (Z.to_nat ((e - 8) / 8))) by lia. replace (e mod 8) with ((e - 8) mod 8) by lia.
    cbn [firstn nth skipn app]. f_equal. apply IH. lia.
Qed.

Lemma set_bit_byte_range y k x : 0 <= y < 256 -> 0 <= k < 8 -> 0 <= set_bit_byte y k x < 256.
Proof.
  intros Hy Hk. destruct (set_bit_low y k x Hk) as [E _]. rewrite (Z.mod_small y) in E by lia. rewrite <- E.
  apply Z.mod_pos_bound. lia.
Qed.

Lemma nth_cut {A} (d : list A) a : forall j, (j < length d)%nat -> d = firstn j d ++ [nth j d a] ++ skipn (S j) d.
Proof.
  induction d as [|y d IH]; intros j Hj; [cbn in Hj; lia|]. destruct j as [|j]; [reflexivity|].
  cbn [firstn nth skipn app]. f_equal. apply IH. cbn [length] in Hj. lia.
Qed.

(* byte j of a range inside an image: read, and replaced by one put *)
Lemma put_byte_of_range P d R j b : (j < length d)%nat ->
  let d' := firstn j d ++ [b] ++ skipn (S j) d in
  put_bytes (P ++ d ++ R) (Z.of_nat (length P) + Z.of_nat j) [b] = Some (P ++ d' ++ R)
  /\ get_bytes (P ++ d ++ R) (Z.of_nat (length P) + Z.of_nat j) 1 = Some [nth j d 0].
Proof.
  intros Hj d'. assert (Hl : length (P ++ firstn j d) = (length P + j)%nat) by (rewrite app_length, firstn_length; lia).
  assert (E : P ++ d ++ R = (P ++ firstn j d) ++ [nth j d 0] ++ skipn (S j) d ++ R).
  { rewrite (nth_cut d 0 j Hj) at 1. rewrite <- !app_assoc. reflexivity. }
  rewrite <- Nat2Z.inj_add, <- Hl. split.
  - rewrite E at 1. rewrite (put_bytes_decomp _ [nth j d 0] _ [b]) by reflexivity. unfold d'. rewrite <- !app_assoc. reflexivity.
  - rewrite E. apply get_bytes_mid. reflexivity.
Qed.

(* the reference's write of one BOOL-array element: bit start mod 8 of the byte at start / 8 *)
Lemma write_place_bool p img inst off nbits start x y img' :
  0 <= start -> get_bytes img (off + start / 8) 1 = Some [y] -> 0 <= y < 256 ->
  write_place p img (PlBools inst off nbits start) None None (RBool x) = Some img' ->
  put_bytes img (off + start / 8) [set_bit_byte y (start mod 8) x] = Some img'.
Proof.
  intros Hs Hg Hy. unfold write_place. destruct ((1 <=? 1) && (start + 1 <=? nbits)); [|discriminate].
  replace ((start + 1 - 1) / 8 - start / 8 + 1) with 1 by lia. rewrite Hg.
  replace (Z.to_nat (start - 8 * (start / 8))) with (Z.to_nat (start mod 8)) by lia.
  rewrite (splice_byte y (start mod 8) x Hy) by lia. intros H; exact H.
Qed.

(* `arr[i]` := value: ONE Read-Modify-Write of the DWORD i / 32 naming bit i mod 32; the memory it
   leaves is the reference memory (only bit i changes) *)
Theorem write_correct_bool_element : stmt_bool_element.
Proof.
  intros p m r inst off nbits start v m_ref img Hres Hbit Hcnt Hmem Hok Hs0 Hoff Hin Hw l o a.
  destruct (ref_write_inv _ _ _ _ _ _ _ Hres Hmem Hw) as (img' & Hwp & ->). rewrite Hbit, Hcnt in Hwp.
  set (x := truthy v) in *. set (e := start mod 32). set (j := Z.to_nat (e / 8)).
  assert (He : 0 <= e < 32) by (unfold e; lia).
  assert (Hold : exists old, get_bytes img (w_off l) 4 = Some old /\ bytes_ok old = true).
  { unfold get_bytes. cbn [w_off l].
    replace ((0 <=? off + 4 * (start / 32)) && (0 <=? 4) && (off + 4 * (start / 32) + 4 <=? Expect.blen img)) with true by lia.
    eexists. split; [reflexivity|]. apply bytes_ok_firstn, bytes_ok_skipn, Hok. }
  destruct Hold as (old & Hg & Hok4).
  (* the target stores the DWORD with bit e set *)
  assert (Hall64 : Forall (fun bv : Z * bool => 0 <= eff_bit true (fst bv) < 64) [(start, x)])
    by (constructor; [cbn [fst eff_bit]; lia|constructor]).
  destruct (rmw_executes p m img l true [(start, x)] 4 old eq_refl eq_refl eq_refl ltac:(lia) Hg Hok4 Hall64)
    as (Mo & Ma & P & R & -> & HP & Hl4 & Hsvc).
  cbv zeta in Hsvc. change (Z.to_nat 4) with 4%nat in *. fold o a in Mo, Ma, Hsvc.
  cbn [eff map fst snd eff_bit filter] in Hsvc. fold e in Hsvc. unfold in_width in Hsvc. cbn [fst] in Hsvc.
  replace (e <? 8 * 4) with true in Hsvc by lia. unfold apply_bits in Hsvc. cbn [fold_left fst snd] in Hsvc.
  rewrite (le_enc_set_bit 4 _ e x) in Hsvc by lia. cbv zeta in Hsvc. fold j in Hsvc.
  assert (HV : le_enc 4 (le_dec old) = old) by (rewrite <- Hl4; apply le_enc_dec, Hok4). rewrite HV in Hsvc.
  (* the reference sets bit e mod 8 of byte j of the DWORD *)
  assert (Hj : (j < length old)%nat) by (unfold j; lia).
  destruct (put_byte_of_range P old R j (set_bit_byte (nth j old 0) (e mod 8) x) Hj) as (Pb & Gb). cbv zeta in Pb.
  assert (Hat : off + start / 8 = Z.of_nat (length P) + Z.of_nat j) by (cbn [w_off l] in HP; unfold j, e; lia).
  assert (Hyj : 0 <= nth j old 0 < 256) by (apply (bytes_ok_In old _ Hok4), nth_In, Hj).
  pose proof (write_place_bool p (P ++ old ++ R) inst off nbits start x (nth j old 0) img' Hs0) as Href.
  rewrite Hat in Href. replace (start mod 8) with (e mod 8) in Href by (unfold e; lia).
  specialize (Href Gb Hyj Hwp). rewrite Pb in Href. injection Href as <-.
  do 3 eexists. split; [exact Mo|]. split; [exact Ma|exact Hsvc].
Qed.

(* any item: the packet's set_bit unwraps the one-item list (pycomm3 4698d97) *)
Theorem write_correct_bool_slice1 : stmt_bool_slice1.
Proof.
  unfold stmt_bool_slice1. intros p m r inst off nbits start x m_ref img Hres Hbit Hcnt Hmem Hok Hs0 Hoff Hin Hw.
  set (r' := mkReq (r_prog r) (r_segs r) (r_bit r) None).
  assert (Hres' : resolve p r' = Some (PlBools inst off nbits start)) by exact Hres.
  assert (Hw' : ref_write p m r' (RBool (truthy (PBool x))) = Some m_ref).
  { unfold ref_write in *. rewrite Hres'. rewrite Hres in Hw. cbn [place_inst] in *. rewrite Hmem in *.
    cbn [r_bit r_count r' truthy]. rewrite Hcnt in Hw. rewrite Hbit in Hw |- *. exact Hw. }
  exact (write_correct_bool_element p m r' inst off nbits start (PBool x) m_ref img Hres' Hbit eq_refl Hmem Hok Hs0 Hoff Hin Hw').
Qed.
