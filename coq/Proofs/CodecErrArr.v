(* Proofs/CodecErrArr.v — C08: an unbounded array over a buffer that holds a whole number of
   elements decodes exactly those elements. *)
From PV Require Import Base.Bytes Base.Res.
From PV Require Import Model.Codec.
From PV Require Import Proofs.CodecErrDefs Proofs.CodecErrBase Proofs.CodecErrStrict.
From Coq Require Import ZifyBool.
Open Scope Z_scope.
Ltac Zify.zify_post_hook ::= Z.to_euclidean_division_equations.

(* [items]: the chunks of the buffer with the value each one holds.  Every chunk is non-empty and
   decodes to its value wherever it stands (whatever follows it); on the exhausted buffer the
   element decoder raises BufferEmptyError. *)
Lemma decode_all_exact dec (items : list (bytes * val)) :
  (forall b v, In (b, v) items -> b <> [] /\ forall tail, dec (b ++ tail) = DOk v tail) ->
  dec [] = DEmpty [] ->
  forall f, (length (concat (map fst items)) < f)%nat ->
    decode_all dec f (concat (map fst items)) = DOk (VList (map snd items)) [].
Proof.
  intros Hit Hnil. induction items as [|[b v] items IH]; intros f Hf; cbn [map concat fst snd] in *.
  - destruct f as [|f]; [lia|]. cbn [decode_all]. now rewrite Hnil.
  - destruct f as [|f]; [lia|]. cbn [decode_all].
    destruct (Hit b v (or_introl eq_refl)) as [Hb Hd]. rewrite Hd.
    assert (Hne : (length (concat (map fst items)) =? length (b ++ concat (map fst items)))%nat = false).
    { apply Nat.eqb_neq. rewrite app_length. destruct b; [contradiction|cbn [length]; lia]. }
    rewrite Hne. rewrite IH.
    + reflexivity.
    + intros b' v' Hin. apply Hit. now right.
    + rewrite app_length in Hf. destruct b; [contradiction|cbn [length] in Hf; lia].
Qed.

(* the elementary classes that decode every byte string of their width *)
Definition total_leaf (t : ty) : bool :=
  match t with
  | TBool | TReal _ | TIPAddr | TDateTime => true
  | TInt _ w => (0 <? w)%nat
  | _ => false
  end.

(* a wrapped read of [w] bytes fails on a buffer cut inside them, or in its continuation *)
Lemma stream_read_err (w : nat) bs k e :
  dwrap (stream_read (Z.of_nat w) bs k) = DErr e ->
  (0 < length bs < w)%nat \/ exists d x e', length d = w /\ k d x = DErr e'.
Proof.
  intros E. destruct (stream_read_spec (Z.of_nat w) bs k) as [(_ & _ & Hr)|[(Hne & Hlt & _)|(d & x & _ & Hr & _ & Hd)]].
  - rewrite Hr in E. discriminate E.
  - left. unfold zlen in Hlt. destruct bs; [contradiction|cbn [length] in *; lia].
  - right. rewrite Hr in E. destruct (k d x) as [| e0 | |] eqn:Ek; try discriminate E. exists d, x, e0. split; [unfold zlen in Hd; lia|exact Ek].
Qed.

Lemma elem_decode_err size unpack bs e :
  (forall d, length d = size -> exists v, unpack d = Ok v) ->
  elem_decode size unpack bs = DErr e -> (0 < length bs < size)%nat.
Proof.
  intros Hu [H|(d & x & e' & Hd & Ek)]%stream_read_err; [exact H|]. destruct (Hu d Hd) as [v Hv]. rewrite Hv in Ek. discriminate Ek.
Qed.

Lemma int_decode_err sg w bs e : int_decode sg w bs = DErr e -> (0 < length bs < w)%nat.
Proof. apply elem_decode_err. intros d Hd. unfold unpack_int. rewrite Hd, Nat.eqb_refl. eauto. Qed.

Lemma total_leaf_err t : total_leaf t = true ->
  forall fuel bs e, decode_fuel fuel t bs = DErr e -> (0 < length bs < swidth t)%nat.
Proof.
  destruct t; intros Ht fuel bs e; try discriminate Ht; cbn [decode_fuel swidth].
  - apply elem_decode_err. intros d _. eauto.
  - apply int_decode_err.
  - apply elem_decode_err. intros d Hd. unfold unpack_real. destruct dbl; rewrite Hd; cbn [Nat.eqb]; eauto.
  - unfold datetime_decode. rewrite named_UDINT_decode, named_UINT_decode. intros E.
    pose proof (int_decode_strict false 4 bs) as H4. destruct (int_decode false 4 bs) as [v1 r1|e1|x|] eqn:E1; try discriminate E.
    + pose proof (int_decode_strict false 2 r1) as H2. cbn in H4. cbn [dbind] in E.
      destruct (int_decode false 2 r1) as [v2 r2|e2|x|] eqn:E2; try discriminate E. apply int_decode_err in E2. lia.
    + apply int_decode_err in E1. lia.
  - unfold ip_decode. intros [H|(d & x & e' & Hd & Ek)]%(stream_read_err 4); [exact H|].
    destruct d as [|a [|b [|c [|d' [|? ?]]]]]; try discriminate Hd. discriminate Ek.
Qed.

(* the loop over a buffer of k whole elements of a strict decoder that fails only inside an element *)
Lemma decode_all_whole dec w : (0 < w)%nat -> Strict w dec ->
  (forall bs e, dec bs = DErr e -> (0 < length bs < w)%nat) ->
  forall k bs, length bs = (k * w)%nat ->
  exists vs, length vs = k /\ forall f, (length bs < f)%nat -> decode_all dec f bs = DOk (VList vs) [].
Proof.
  intros Hw Hs He. induction k as [|k IH]; intros bs Hl; pose proof (Hs bs) as H; cbn [Nat.mul] in Hl.
  - destruct bs; [|discriminate Hl]. exists []. split; [reflexivity|]. intros [|f] Hf; [lia|]. cbn [decode_all].
    destruct (dec []) as [v x|e|x|] eqn:E; cbn in H; [lia|apply He in E; cbn in E; lia| |contradiction].
    destruct H as [-> _]. reflexivity.
  - destruct (dec bs) as [v x|e|x|] eqn:E; cbn in H; [|apply He in E; lia|lia|contradiction].
    destruct (IH x) as (vs & Hn & Hvs); [lia|]. exists (v :: vs). split; [cbn [length]; lia|].
    intros [|f] Hf; [lia|]. cbn [decode_all]. rewrite E. replace (length x =? length bs)%nat with false by lia.
    rewrite Hvs by lia. reflexivity.
Qed.

Theorem unbounded_array_exact_fixed t k bs :
  total_leaf t = true -> length bs = (k * swidth t)%nat ->
  exists vs, length vs = k /\ forall fuel, (length bs < fuel)%nat -> decode_fuel fuel (TArrAll t) bs = DOk (VList vs) [].
Proof.
  intros Ht Hl.
  assert (Hs : strict t = true /\ progress t = true /\ is_bits t = false /\ forall fuel, decode_fuel fuel t = decode_fuel 0 t)
    by (destruct t; try discriminate Ht; repeat split; auto).
  destruct Hs as (Hs & Hp & Hb & Hfu).
  destruct (decode_all_whole _ _ (strict_progress_width t Hs Hp) (strict_decode t Hs 0%nat) (total_leaf_err t Ht 0%nat) k bs Hl)
    as (vs & Hn & Hvs).
  exists vs. split; [exact Hn|]. intros fuel Hf. cbn [decode_fuel]. unfold array_decode_all. rewrite Hfu, Hb, (Hvs fuel Hf). reflexivity.
Qed.
