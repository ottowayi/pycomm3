(* Proofs/UploadHistory.v — C05, the history clause: get_tag_list after ANY earlier uploads.
   The model threads the driver state from call to call (Model/LogixUpload.get_tag_list takes the
   state the previous call left and performs the resets the code performs: the template caches
   always; info['programs'|'tasks'] and self._data_types for the scopes None and "*").
   * [get_tag_list_forgets]: for the scopes None and "*" the call does not depend on the earlier state
     AT ALL: it is the call of a fresh driver (so data_types holds exactly the current definitions);
   * [get_tag_list_history]: get_tag_list(program=P) started from any state u0 has the same outcome,
     tags, programs, tasks and template cache as on a driver with an empty _data_types; its data_types
     is the earlier dictionary updated with the entries that driver would hold;
   * [dts_lookup]: every name a fresh driver would list maps to the SAME (current) definition; a name
     only the earlier dictionary had keeps its old definition ([reupload_keeps_stale_types]): that is
     what get_tag_list(program=P) is meant to do (it adds P's types to what is there) and what the
     scopes None and "*" did before /repo 0c7d79e. *)
From PV Require Import Base.Bytes Base.PyStr Base.Res Model.LogixUpload Proofs.UploadDict.
Open Scope list_scope.
Open Scope Z_scope.

Definition dset (D : list (option text * datatype)) (nd : option text * datatype) : list (option text * datatype) :=
  dict_set otext_eqb D (fst nd) (snd nd).

(* u: the state of a driver whose _data_types started empty; u': the same driver with D0 in it *)
Definition Rel (D0 : list (option text * datatype)) (u u' : ustate) : Prop :=
  u_programs u' = u_programs u /\ u_tasks u' = u_tasks u /\ u_structs u' = u_structs u /\ u_udts u' = u_udts u
  /\ exists L, u_data_types u = fold_left dset L [] /\ u_data_types u' = fold_left dset L D0.

Lemma Rel_programs D0 x u u' : Rel D0 u u' -> Rel D0 (set_programs x u) (set_programs x u').
Proof. intros (A & B & C & D & E). repeat split; cbn; auto. Qed.
Lemma Rel_tasks D0 x u u' : Rel D0 u u' -> Rel D0 (set_tasks x u) (set_tasks x u').
Proof. intros (A & B & C & D & E). repeat split; cbn; auto. Qed.
Lemma Rel_structs D0 x u u' : Rel D0 u u' -> Rel D0 (set_structs x u) (set_structs x u').
Proof. intros (A & B & C & D & E). repeat split; cbn; auto. Qed.
Lemma Rel_udts D0 x u u' : Rel D0 u u' -> Rel D0 (set_udts x u) (set_udts x u').
Proof. intros (A & B & C & D & E). repeat split; cbn; auto. Qed.
Lemma Rel_dset D0 n d u u' :
  Rel D0 u u' ->
  Rel D0 (set_data_types (dict_set otext_eqb (u_data_types u) n d) u) (set_data_types (dict_set otext_eqb (u_data_types u') n d) u').
Proof.
  intros (A & B & C & D & L & E1 & E2). repeat split; cbn; auto.
  exists (L ++ [(n, d)]). rewrite !fold_left_app, <- E1, <- E2. split; reflexivity.
Qed.

Section History.
  Variable St : Type.
  Variable call : St -> ureq -> St * option urep.
  Variable rev_major : Z.
  Variable D0 : list (option text * datatype).

  (* two runs agree: same peer state, same outcome, related driver states *)
  Definition agree {A} (x y : St * ustate * outcome A) : Prop :=
    fst (fst x) = fst (fst y) /\ snd x = snd y /\ Rel D0 (snd (fst x)) (snd (fst y)).

  Lemma agree_same {A} s (o : outcome A) u u' : Rel D0 u u' -> agree (s, u, o) (s, u', o).
  Proof. intros H. split; [reflexivity|]. split; [reflexivity | exact H]. Qed.

  (* the only shape of two runs that agree *)
  Inductive agree_spec {A} : St * ustate * outcome A -> St * ustate * outcome A -> Prop :=
    AgreeSpec s u u' o : Rel D0 u u' -> agree_spec (s, u, o) (s, u', o).

  Lemma agree_inv {A} (x y : St * ustate * outcome A) : agree x y -> agree_spec x y.
  Proof.
    destruct x as [[s u] o], y as [[s' u'] o']. intros (E1 & E2 & H). cbn [fst snd] in *. subst s' o'.
    constructor. exact H.
  Qed.

  (* every step below: the two runs take the same branch, because nothing reads _data_types; where
     one run stops both stop ([agree_same]), where it calls on, the callee's runs agree ([agree_inv]) *)
  Local Hint Resolve agree_same : core.

  Lemma makeup_agree u u' s tid : Rel D0 u u' ->
    agree (get_structure_makeup St call u s tid) (get_structure_makeup St call u' s tid).
  Proof.
    intros H. pose proof H as (_ & _ & C & _). unfold get_structure_makeup. rewrite C.
    destruct (dict_get Z.eqb (u_structs u) tid); auto.
    destruct (template_request _ _ _) as [rq|]; auto.
    destruct (call s rq) as [s' [r|]]; auto.
    destruct (p_error_raises r || negb (p_valid r)); auto.
    destruct (parse_structure_makeup (p_data r)); auto.
    apply agree_same, Rel_structs, H.
  Qed.

  Definition gdt_agree (g : ustate -> St -> Z -> Z -> St * ustate * outcome datatype) : Prop :=
    forall u u' s tid w, Rel D0 u u' -> agree (g u s tid w) (g u' s tid w).

  Lemma member_info_agree g u u' s chunk : gdt_agree g -> Rel D0 u u' ->
    agree (parse_member_info St g u s chunk) (parse_member_info St g u' s chunk).
  Proof.
    intros Hg H. unfold parse_member_info.
    destruct (member_record chunk) as [[[ti typ] off]|]; auto.
    destruct (match datatypes_get_code typ with Some n => _ | None => _ end) as [[n c]|]; auto.
    destruct (agree_inv _ _ (Hg u u' s (Z.land typ 4095) typ H)) as [s1 u1 u2 o1 H1].
    destruct o1; auto.
  Qed.

  Lemma member_infos_agree g : gdt_agree g -> forall chunks u u' s, Rel D0 u u' ->
    agree (parse_member_infos St g u s chunks) (parse_member_infos St g u' s chunks).
  Proof.
    intros Hg. induction chunks as [|c r IH]; intros u u' s H; [apply agree_same, H|].
    cbn [parse_member_infos].
    destruct (agree_inv _ _ (member_info_agree g u u' s c Hg H)) as [s1 u1 u2 o1 H1].
    destruct o1 as [m| |]; auto.
    destruct (agree_inv _ _ (IH u1 u2 s1 H1)) as [s3 u3 u4 o3 H3].
    destruct o3; auto.
  Qed.

  Lemma get_data_type_agree : forall fuel, gdt_agree (get_data_type St call fuel).
  Proof.
    induction fuel as [|f IH]; intros u u' s tid w H; pose proof H as (_ & _ & _ & D & _);
      cbn [get_data_type]; rewrite D; destruct (dict_get Z.eqb (u_udts u) tid); auto.
    destruct (agree_inv _ _ (makeup_agree u u' s tid H)) as [s1 u1 u2 o1 H1].
    destruct o1 as [template| |]; auto.
    destruct (read_template St call (S f) s1 tid (ta_defsize template) 0 []) as [s3 [data| |]]; auto.
    unfold parse_template_data. set (chunks := info_chunks _ _).
    destruct (agree_inv _ _ (member_infos_agree _ IH chunks u1 u2 s3 H1)) as [s4 u4 u5 o4 H4].
    destruct o4 as [infos| |]; auto.
    destruct (template_and_member_names _ _ _) as [tname mnames]. set (d := build_datatype _ _ _).
    pose proof H4 as (_ & _ & _ & Du & _). rewrite Du.
    apply agree_same. exact (Rel_dset D0 (dt_name d) d _ _ (Rel_udts D0 _ u4 u5 H4)).
  Qed.

  Lemma isolate_agree fuel program : forall all u u' s acc, Rel D0 u u' ->
    agree (isolate_user_tags St call fuel u s program all acc) (isolate_user_tags St call fuel u' s program all acc).
  Proof.
    induction all as [|tag rest IH]; intros u u' s acc H; [apply agree_same, H|].
    pose proof H as (A & B & _). cbn [isolate_user_tags].
    destruct (classify (rt_name tag) (rt_stype tag)).
    - rewrite A. apply IH, Rel_programs, H.
    - apply IH. destruct program as [p|]; [|exact H]. rewrite A.
      destruct (dict_get PyStr.text_eqb (u_programs u) p) as [[i rs]|]; [apply Rel_programs|]; exact H.
    - rewrite B. apply IH, Rel_tasks, H.
    - apply IH, H.
    - unfold create_tag. destruct (sym_is_struct (rt_stype tag)); [|apply IH, H].
      destruct (agree_inv _ _ (get_data_type_agree fuel u u' s (sym_template_id (rt_stype tag)) (rt_stype tag) H)) as [s1 u1 u2 o1 H1].
      destruct o1; auto.
  Qed.

  Lemma scope_agree fuel u u' s program : Rel D0 u u' ->
    agree (get_tag_list_scope St call rev_major fuel u s program) (get_tag_list_scope St call rev_major fuel u' s program).
  Proof.
    intros H. unfold get_tag_list_scope.
    destruct (get_instance_attribute_list St call rev_major fuel s program 0 []) as [s1 [tags| |]]; auto.
    apply isolate_agree, H.
  Qed.

  Lemma programs_agree fuel : forall progs u u' s tags, Rel D0 u u' ->
    agree (program_tag_lists St call rev_major fuel u s progs tags) (program_tag_lists St call rev_major fuel u' s progs tags).
  Proof.
    induction progs as [|p r IH]; intros u u' s tags H; [apply agree_same, H|].
    pose proof H as (A & _). cbn [program_tag_lists].
    destruct (agree_inv _ _ (scope_agree fuel u u' s (Some p) H)) as [s1 u1 u2 o1 H1].
    destruct o1 as [ts| |]; auto.
    pose proof H1 as (A1 & _). rewrite A, A1.
    destruct (negb (Nat.eqb (length (u_programs u1)) (length (u_programs u)))); auto.
  Qed.

  (* LogixDriver.get_tag_list on a driver that already uploaded: u0 is ANY state; the fresh driver is
     the same state with an empty _data_types *)
  Definition fresh (u0 : ustate) : ustate := set_data_types [] u0.

  (* get_tag_list(program=P) adds to what is there *)
  Theorem get_tag_list_history fuel u0 s pn :
    u_data_types u0 = D0 ->
    match get_tag_list St call rev_major fuel (fresh u0) s (ArgProgram pn), get_tag_list St call rev_major fuel u0 s (ArgProgram pn) with
    | (s1, Done r1), (s2, Done r2) =>
        s1 = s2 /\ res_tags r2 = res_tags r1 /\ Rel D0 (res_state r1) (res_state r2)
    | (s1, Failed e1), (s2, Failed e2) => s1 = s2 /\ e1 = e2
    | (s1, OutOfFuel), (s2, OutOfFuel) => s1 = s2
    | _, _ => False
    end.
  Proof.
    intros HD.
    assert (H0 : Rel D0 (fresh u0) u0) by (repeat split; exists []; auto).
    unfold get_tag_list.
    destruct (agree_inv _ _ (scope_agree fuel _ _ s (Some pn) (Rel_udts D0 [] _ _ (Rel_structs D0 [] _ _ H0)))) as [s1 u1 u2 o1 H1].
    destruct o1; cbn [res_tags res_state]; auto.
  Qed.

  (* scopes None and "*": nothing of the earlier state survives the resets *)
  Theorem get_tag_list_forgets fuel u0 s arg :
    match arg with ArgProgram _ => False | _ => True end ->
    get_tag_list St call rev_major fuel u0 s arg = get_tag_list St call rev_major fuel init_ustate s arg.
  Proof. destruct arg; intros H; [reflexivity | reflexivity | contradiction]. Qed.
End History.

(* a name the fresh driver lists maps to the same definition; any other name keeps what it had *)
Theorem dts_lookup : forall L D0 k,
  dict_get otext_eqb (fold_left dset L D0) k
  = match dict_get otext_eqb (fold_left dset L []) k with
    | Some d => Some d
    | None => dict_get otext_eqb D0 k
    end.
Proof.
  intros L. induction L as [|[n d] L IH] using rev_ind; intros D0 k; [reflexivity|].
  rewrite !fold_left_app. cbn [fold_left]. unfold dset at 1 3. cbn [fst snd].
  rewrite !(dict_get_set _ otext_eqb_eq).
  destruct (otext_eqb n k); [reflexivity | apply IH].
Qed.

(* the stale entry: an earlier dictionary's name that the current upload does not produce survives *)
Corollary reupload_keeps_stale_types L D0 k d :
  dict_get otext_eqb (fold_left dset L []) k = None -> dict_get otext_eqb D0 k = Some d ->
  dict_get otext_eqb (fold_left dset L D0) k = Some d.
Proof. intros H1 H2. rewrite dts_lookup, H1. exact H2. Qed.
