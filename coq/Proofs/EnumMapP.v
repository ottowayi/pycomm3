(* Proofs/EnumMapP.v — generic lemmas about the EnumMap model (C19). The unbounded part (every
   letter-casing of every name, every key) is proved here for any table; the finite residue is a
   boolean check [table_ok] evaluated on the regenerated tables in Proofs/C19P.v. *)
From PV Require Import Base.Bytes Base.Proto Base.PyStrLemmas Model.EnumMapDefs Model.EnumMap.
Open Scope Z_scope.

Lemma key_eqb_eq a b : key_eqb a b = true <-> a = b.
Proof.
  destruct a, b; cbn; split; intros H; try congruence;
    try (apply zs_eqb_eq in H; congruence); try (injection H as ->; apply zs_eqb_refl).
  - apply Z.eqb_eq in H; congruence.
  - injection H as ->. apply Z.eqb_refl.
Qed.

Lemma lower_c_idem c : lower_c (lower_c c) = lower_c c.
Proof. unfold lower_c. destruct ((65 <=? c) && (c <=? 90)) eqn:E; [|now rewrite E].
  destruct ((65 <=? c + 32) && (c + 32 <=? 90)) eqn:E2; lia. Qed.
Lemma lower_upper_c c : lower_c (upper_c c) = lower_c c.
Proof. unfold lower_c, upper_c.
  destruct ((97 <=? c) && (c <=? 122)) eqn:E1; destruct ((65 <=? c) && (c <=? 90)) eqn:E2;
  try destruct ((65 <=? c - 32) && (c - 32 <=? 90)) eqn:E3; lia. Qed.
Lemma lower_idem s : lower (lower s) = lower s.
Proof. unfold lower. rewrite map_map. apply map_ext, lower_c_idem. Qed.
Lemma lower_upper s : lower (upper s) = lower s.
Proof. unfold lower, upper. rewrite map_map. apply map_ext, lower_upper_c. Qed.
(* any per-character re-casing of a name has the same lower-casing *)
Lemma lower_recase s n : Forall2 (fun a b => lower_c a = lower_c b) s n -> lower s = lower n.
Proof. unfold lower. induction 1 as [|a b s n H _ IH]; cbn; congruence. Qed.

Definition okey_eqb (a b : option key) : bool :=
  match a, b with Some x, Some y => key_eqb x y | None, None => true | _, _ => false end.
Lemma okey_eqb_eq a b : okey_eqb a b = true <-> a = b.
Proof. destruct a, b; cbn; split; intros H; try congruence; try reflexivity.
  - apply key_eqb_eq in H; congruence.
  - injection H as ->. now apply key_eqb_eq. Qed.

Section Generic.
  Variable tc : list (list Z * Z).

  (* the finite check, one boolean per member *)
  Definition name_ok (t : table) (m : list Z * key) : bool :=
    let '(n, v) := m in okey_eqb (getitem tc t (KStr (lower n))) (Some v).
  Definition code_ok (t : table) (m : list Z * key) : bool :=
    let '(n, v) := m in
    match getitem tc t (vkey tc t v) with
    | Some (KStr n') => match getitem tc t (KStr n') with
                        | Some v' => key_eqb (vkey tc t v') (vkey tc t v) && mem_name (t_members t) (lower n')
                        | None => false
                        end
    | _ => false
    end.
  Definition table_ok (t : table) : bool :=
    forallb (name_ok t) (t_members t) && (negb (t_bidir t) || forallb (code_ok t) (t_members t)).

  (* The same check against an explicit dictionary.  [getitem] rebuilds [merged t], itself quadratic in
     the table, at every call; evaluated on [merged t] passed once as an argument, the check builds it
     once per table. *)
  Definition getitem_in (d : pydict) (t : table) (k : key) : option key :=
    option_map (caps t) (lookup d (norm_key k)).
  Definition table_ok_in (d : pydict) (t : table) : bool :=
    forallb (fun '(n, v) => okey_eqb (getitem_in d t (KStr (lower n))) (Some v)) (t_members t)
    && (negb (t_bidir t)
        || forallb (fun '(n, v) =>
             match getitem_in d t (vkey tc t v) with
             | Some (KStr n') =>
                 match getitem_in d t (KStr n') with
                 | Some v' => key_eqb (vkey tc t v') (vkey tc t v) && mem_name (t_members t) (lower n')
                 | None => false
                 end
             | _ => false
             end) (t_members t)).
  Lemma table_ok_merged t : table_ok t = table_ok_in (merged tc t) t.
  Proof. reflexivity. Qed.

  Lemma getitem_any_case t s : getitem tc t (KStr s) = getitem tc t (KStr (lower s)).
  Proof. unfold getitem. cbn [norm_key]. now rewrite lower_idem. Qed.
  Lemma get_is_getitem t k : get tc t k None = getitem tc t k.
  Proof. unfold get, getitem. destruct (lookup _ _); reflexivity. Qed.
  Lemma contains_iff t k : contains tc t k = true <-> getitem tc t k <> None.
  Proof. unfold contains, getitem. destruct (lookup _ _); cbn; split; congruence. Qed.
  Lemma get_default t k d : getitem tc t k = None -> get tc t k (Some d) = Some (caps t d).
  Proof. unfold get, getitem. destruct (lookup _ _); cbn; congruence. Qed.

  Lemma by_name_any_case t n v s :
    table_ok t = true -> In (n, v) (t_members t) -> lower s = lower n ->
    getitem tc t (KStr s) = Some v /\ get tc t (KStr s) None = Some v /\ contains tc t (KStr s) = true.
  Proof.
    intros Hok Hin Hs. unfold table_ok in Hok. apply andb_true_iff in Hok as [Hn _].
    rewrite forallb_forall in Hn. specialize (Hn _ Hin). cbn in Hn. apply okey_eqb_eq in Hn.
    assert (G : getitem tc t (KStr s) = Some v) by (rewrite getitem_any_case, Hs; exact Hn).
    repeat split; [exact G | rewrite get_is_getitem; exact G | apply contains_iff; congruence].
  Qed.

  Lemma by_code t n v :
    table_ok t = true -> t_bidir t = true -> In (n, v) (t_members t) ->
    exists n' v', getitem tc t (vkey tc t v) = Some (KStr n')
                  /\ getitem tc t (KStr n') = Some v' /\ vkey tc t v' = vkey tc t v
                  /\ mem_name (t_members t) (lower n') = true.
  Proof.
    intros Hok Hb Hin. unfold table_ok in Hok. apply andb_true_iff in Hok as [_ Hc].
    rewrite Hb in Hc. cbn in Hc. rewrite forallb_forall in Hc. specialize (Hc _ Hin). cbn in Hc.
    destruct (getitem tc t (vkey tc t v)) as [[n'| | |]|]; try discriminate.
    destruct (getitem tc t (KStr n')) as [v'|] eqn:E; try discriminate.
    apply andb_true_iff in Hc as [H1 H2]. apply key_eqb_eq in H1. exists n', v'. auto.
  Qed.
End Generic.


(* sub-list containment, for "the message contains the hex code" *)
Fixpoint prefix_b (p s : list Z) : bool :=
  match p, s with
  | [], _ => true
  | x :: p', y :: s' => (x =? y) && prefix_b p' s'
  | _, [] => false
  end.
Fixpoint contains_sub (p s : list Z) : bool :=
  prefix_b p s || match s with [] => false | _ :: s' => contains_sub p s' end.
