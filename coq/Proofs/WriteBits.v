(* Proofs/WriteBits.v — the Read-Modify-Write masks (C02 `rmw_effect`), by bitwise reasoning
   (Z.testbit), for ALL bit lists; nothing is enumerated.

     masks_testbit        bit k of the OR / AND mask after any sequence of set_bit calls = the value of
                          the LAST call naming k, else the initial bit
     apply_bits_testbit   the reference (Spec/Expect.set_bit_byte folded over the list) likewise
     rmw_bytes_le_enc     the target's byte-wise (old | or) & and on little-endian images = the same
                          operation on the integers
     masks_range, mask_bytes_width
                          the masks fit 64 bits, and ULINT.encode(m)[:size] is the size-byte encoding of m:
                          the masks have the tag's width
     rmw_effect           for every old value, every list of bit writes (merged per tag): what the
                          target stores = the reference applied to exactly the named bits below the
                          width; every other bit keeps its old value (rmw_stored: the stored bytes) *)
From Coq Require Import ZifyBool.
From PV Require Import Base.Bytes Base.BytesLemmas Base.Res Model.Path Model.LogixWrite Spec.Project Spec.Expect Spec.TargetLogix.
Open Scope Z_scope.
Ltac Zify.zify_post_hook ::= Z.to_euclidean_division_equations.

Fixpoint last_write (bl : list (Z * bool)) (k : Z) : option bool :=
  match bl with
  | [] => None
  | (b, v) :: r => match last_write r k with
                   | Some v' => Some v'
                   | None => if b =? k then Some v else None
                   end
  end.

Definition or_default (o : option bool) (d : bool) : bool := match o with Some v => v | None => d end.

Lemma last_write_app bl b v k :
  last_write (bl ++ [(b, v)]) k = if b =? k then Some v else last_write bl k.
Proof.
  induction bl as [|[b' v'] r IH]; cbn [app last_write].
  - reflexivity.
  - rewrite IH. destruct (b =? k); [reflexivity|]. reflexivity.
Qed.

(* the bit a set_bit call really names *)
Definition eff_bit (dword : bool) (b : Z) : Z := if dword then b mod 32 else b.
Definition eff (dword : bool) (bl : list (Z * bool)) : list (Z * bool) := map (fun bv => (eff_bit dword (fst bv), snd bv)) bl.

Lemma testbit_one_shift b k : 0 <= b -> Z.testbit (Z.shiftl 1 b) k = (b =? k).
Proof. intros Hb. rewrite Z.shiftl_1_l. apply Z.pow2_bits_eqb, Hb. Qed.

Lemma step_testbit dword o a b v k : 0 <= eff_bit dword b -> 0 <= k ->
  let '(o', a') := set_bit_masks dword o a b v in
  Z.testbit o' k = (if eff_bit dword b =? k then v else Z.testbit o k)
  /\ Z.testbit a' k = (if eff_bit dword b =? k then v else Z.testbit a k).
Proof.
  intros Hb Hk. unfold set_bit_masks. fold (eff_bit dword b). set (e := eff_bit dword b) in *.
  destruct v.
  - rewrite !Z.lor_spec, testbit_one_shift by exact Hb. destruct (e =? k); split; try reflexivity; apply orb_false_r || apply orb_true_r.
  - rewrite !Z.land_spec, Z.lnot_spec, testbit_one_shift by assumption.
    destruct (e =? k); cbn [negb]; split; try apply andb_false_r; apply andb_true_r.
Qed.

Lemma fold_masks_testbit dword bl : forall o a k,
  Forall (fun bv => 0 <= eff_bit dword (fst bv)) bl -> 0 <= k ->
  let r := fold_left (fun st bv => set_bit_masks dword (fst st) (snd st) (fst bv) (snd bv)) bl (o, a) in
  Z.testbit (fst r) k = or_default (last_write (eff dword bl) k) (Z.testbit o k)
  /\ Z.testbit (snd r) k = or_default (last_write (eff dword bl) k) (Z.testbit a k).
Proof.
  induction bl as [|[b v] r IH] using rev_ind; intros o a k Hall Hk.
  - cbn. auto.
  - apply Forall_app in Hall as [Hr Hb]. inversion Hb as [|? ? Hb0 _]; subst. cbn [fst] in Hb0.
    rewrite fold_left_app. cbn [fold_left].
    specialize (IH o a k Hr Hk). cbn zeta in IH.
    set (st := fold_left _ r (o, a)) in *. destruct st as [o1 a1]. cbn [fst snd] in *.
    pose proof (step_testbit dword o1 a1 b v k Hb0 Hk) as S.
    destruct (set_bit_masks dword o1 a1 b v) as [o2 a2]. cbn [fst snd].
    unfold eff. rewrite map_app. cbn [map fst snd]. rewrite last_write_app.
    destruct S as [S1 S2]. rewrite S1, S2.
    destruct (eff_bit dword b =? k); [split; reflexivity|].
    fold (eff dword r). exact IH.
Qed.

Theorem masks_testbit dword bl k :
  Forall (fun bv => 0 <= eff_bit dword (fst bv)) bl -> 0 <= k ->
  Z.testbit (fst (rmw_masks dword bl)) k = or_default (last_write (eff dword bl) k) false
  /\ Z.testbit (snd (rmw_masks dword bl)) k = or_default (last_write (eff dword bl) k) (k <? 64).
Proof.
  intros Hall Hk. unfold rmw_masks.
  pose proof (fold_masks_testbit dword bl 0 (Z.ones 64) k Hall Hk) as H. cbn zeta in H.
  rewrite Z.bits_0, Z.testbit_ones_nonneg in H by lia. exact H.
Qed.

Definition apply_bits (old : Z) (bl : list (Z * bool)) : Z :=
  fold_left (fun x bv => set_bit_byte x (fst bv) (snd bv)) bl old.

Lemma set_bit_byte_testbit y k x i : 0 <= k -> 0 <= i ->
  Z.testbit (set_bit_byte y k x) i = if i =? k then x else Z.testbit y i.
Proof.
  intros Hk Hi. unfold set_bit_byte. destruct x.
  - rewrite Z.setbit_eqb by lia. destruct (Z.eqb_spec k i); destruct (Z.eqb_spec i k); try lia.
    all: reflexivity.
  - rewrite Z.clearbit_eqb by lia. destruct (Z.eqb_spec k i); destruct (Z.eqb_spec i k); try lia.
    all: cbn [negb]; rewrite ?andb_false_r, ?andb_true_r; reflexivity.
Qed.

Lemma apply_bits_testbit bl : forall old k,
  Forall (fun bv => 0 <= fst bv) bl -> 0 <= k ->
  Z.testbit (apply_bits old bl) k = or_default (last_write bl k) (Z.testbit old k).
Proof.
  induction bl as [|[b v] r IH] using rev_ind; intros old k Hall Hk.
  - reflexivity.
  - apply Forall_app in Hall as [Hr Hb]. inversion Hb as [|? ? Hb0 _]; subst. cbn [fst] in Hb0.
    unfold apply_bits. rewrite fold_left_app. cbn [fold_left fst snd]. fold (apply_bits old r).
    rewrite last_write_app, set_bit_byte_testbit, (Z.eqb_sym k b) by lia.
    destruct (b =? k); [reflexivity|apply IH; assumption].
Qed.

Lemma land_lor_mod256 x y z : Z.land (Z.lor (x mod 256) (y mod 256)) (z mod 256) = (Z.land (Z.lor x y) z) mod 256.
Proof.
  apply Z.bits_inj'. intros n Hn. change 256 with (2 ^ 8).
  rewrite Z.land_spec, Z.lor_spec, !Z.testbit_mod_pow2 by lia. rewrite Z.land_spec, Z.lor_spec.
  destruct (n <? 8); cbn [andb]; [reflexivity|]. reflexivity.
Qed.

Lemma land_lor_div256 x y z : Z.land (Z.lor (x / 256) (y / 256)) (z / 256) = (Z.land (Z.lor x y) z) / 256.
Proof.
  apply Z.bits_inj'. intros n Hn. change 256 with (2 ^ 8).
  rewrite Z.land_spec, Z.lor_spec, !Z.div_pow2_bits by lia. rewrite Z.land_spec, Z.lor_spec. reflexivity.
Qed.

Theorem rmw_bytes_le_enc n : forall x y z,
  rmw_bytes (le_enc n x) (le_enc n y) (le_enc n z) = le_enc n (Z.land (Z.lor x y) z).
Proof.
  induction n as [|n IH]; intros x y z; cbn [le_enc rmw_bytes]; [reflexivity|].
  rewrite IH, land_lor_mod256, land_lor_div256. reflexivity.
Qed.

Lemma firstn_le_enc n : forall m z, (n <= m)%nat -> firstn n (le_enc m z) = le_enc n z.
Proof.
  induction n as [|n IH]; intros m z H; [reflexivity|].
  destruct m as [|m]; [lia|]. cbn [le_enc firstn]. rewrite IH by lia. reflexivity.
Qed.

Lemma below_pow2_of_bits z : (forall k, 64 <= k -> Z.testbit z k = false) -> 0 <= z < 2 ^ 64.
Proof.
  intros Hz.
  assert (Hn : 0 <= z) by (apply Z.bits_iff_nonneg_ex; exists 64; intros m Hm; apply Hz; lia).
  split; [exact Hn|]. destruct (Z.eq_dec z 0) as [->|Hnz]; [lia|].
  apply Z.log2_lt_pow2; [lia|]. destruct (Z_lt_le_dec (Z.log2 z) 64) as [H|H]; [exact H|].
  pose proof (Z.bit_log2 z ltac:(lia)) as Hb. rewrite (Hz _ H) in Hb. discriminate.
Qed.

Theorem masks_range dword bl :
  Forall (fun bv => 0 <= eff_bit dword (fst bv) < 64) bl ->
  0 <= fst (rmw_masks dword bl) < 2 ^ 64 /\ 0 <= snd (rmw_masks dword bl) < 2 ^ 64.
Proof.
  intros Hall.
  assert (Hnn : Forall (fun bv => 0 <= eff_bit dword (fst bv)) bl) by (eapply Forall_impl; [|exact Hall]; cbn; lia).
  assert (Hlw : forall k, 64 <= k -> last_write (eff dword bl) k = None).
  { intros k Hk. clear Hnn. induction Hall as [|[b v] r Hb Hr IH]; [reflexivity|].
    cbn [eff map last_write fst snd]. fold (eff dword r). rewrite IH. cbn [fst] in Hb.
    destruct (eff_bit dword b =? k) eqn:E; [lia|reflexivity]. }
  split; apply below_pow2_of_bits; intros k Hk; destruct (masks_testbit dword bl k Hnn ltac:(lia)) as [H1 H2];
    rewrite Hlw in H1, H2 by exact Hk; [exact H1|]. cbn [or_default] in H2. rewrite H2. lia.
Qed.

(* ULINT.encode(mask)[: size] is the size-byte encoding: masks have the tag's width *)
Theorem mask_bytes_width m size : 0 <= m < 2 ^ 64 -> 0 <= size <= 8 ->
  mask_bytes m size = Ok (le_enc (Z.to_nat size) m) /\ length (le_enc (Z.to_nat size) m) = Z.to_nat size.
Proof.
  intros Hm Hs. unfold mask_bytes, uint_encode, in_urange.
  replace (pow256 8) with (2 ^ 64) by reflexivity.
  replace ((0 <=? m) && (m <? 2 ^ 64)) with true by lia.
  rewrite firstn_le_enc by lia. split; [reflexivity|apply le_enc_length].
Qed.

Definition in_width (size : Z) (bv : Z * bool) : bool := fst bv <? 8 * size.

Lemma last_write_filter (g : Z -> bool) bl k :
  last_write (filter (fun bv => g (fst bv)) bl) k = if g k then last_write bl k else None.
Proof.
  induction bl as [|[b v] r IH]; [destruct (g k); reflexivity|]. cbn [filter last_write fst].
  destruct (g b) eqn:E; cbn [last_write]; rewrite IH; destruct (g k) eqn:Ek; try reflexivity.
  - destruct (b =? k) eqn:Eb; [|reflexivity]. apply Z.eqb_eq in Eb. congruence.
  - destruct (last_write r k); [reflexivity|]. destruct (b =? k) eqn:Eb; [|reflexivity]. apply Z.eqb_eq in Eb. congruence.
Qed.

Lemma testbit_small z n k : 0 <= z < 2 ^ n -> n <= k -> Z.testbit z k = false.
Proof.
  intros Hz Hk. destruct (Z.eq_dec z 0) as [->|Hnz]; [apply Z.bits_0|].
  apply Z.bits_above_log2; [lia|]. apply Z.log2_lt_pow2; [lia|].
  apply Z.lt_le_trans with (2 ^ n); [lia|]. apply Z.pow_le_mono_r; lia.
Qed.

(* For every old value of the tag, every merged list of bit writes with named bits 0 <= b < 64, and
   the tag's width size (1/2/4/8 — any 0 < size <= 8): the integer the target stores,
   (old | OR) & AND computed byte-wise on the size-byte images with the masks cut to that size, is
   the reference set_bit_byte applied, in call order, to the named bits that lie inside the width.
   So: a named bit gets the value of the LAST call naming it; every other bit keeps its old value. *)
Theorem rmw_effect dword bl size old :
  Forall (fun bv => 0 <= eff_bit dword (fst bv) < 64) bl -> 0 < size <= 8 -> 0 <= old < pow256 (Z.to_nat size) ->
  let o := fst (rmw_masks dword bl) in
  let a := snd (rmw_masks dword bl) in
  let w := Z.to_nat size in
  mask_bytes o size = Ok (le_enc w o) /\ mask_bytes a size = Ok (le_enc w a)
  /\ length (le_enc w o) = w /\ length (le_enc w a) = w
  /\ le_dec (rmw_bytes (le_enc w old) (le_enc w o) (le_enc w a)) = apply_bits old (filter (in_width size) (eff dword bl))
  /\ forall k, 0 <= k ->
       Z.testbit (apply_bits old (filter (in_width size) (eff dword bl))) k
       = if k <? 8 * size then or_default (last_write (eff dword bl) k) (Z.testbit old k) else false.
Proof.
  intros Hall Hsize Hold o a w.
  destruct (masks_range dword bl Hall) as [Ho Ha]. fold o a in Ho, Ha.
  destruct (mask_bytes_width o size Ho ltac:(lia)) as [Mo Lo].
  destruct (mask_bytes_width a size Ha ltac:(lia)) as [Ma La].
  assert (Hnn : Forall (fun bv => 0 <= eff_bit dword (fst bv)) bl) by (eapply Forall_impl; [|exact Hall]; cbn; lia).
  assert (Heff : Forall (fun bv => 0 <= fst bv) (filter (in_width size) (eff dword bl))).
  { apply Forall_forall. intros [b v] Hin. apply filter_In in Hin as [Hin _]. unfold eff in Hin.
    apply in_map_iff in Hin as [[b0 v0] [E Hin]]. inversion E; subst. cbn [fst].
    rewrite Forall_forall in Hnn. apply (Hnn _ Hin). }
  assert (Hw8 : 8 * Z.of_nat w = 8 * size) by (unfold w; lia).
  assert (Hbits : forall k, 0 <= k ->
            Z.testbit (apply_bits old (filter (in_width size) (eff dword bl))) k
            = if k <? 8 * size then or_default (last_write (eff dword bl) k) (Z.testbit old k) else false).
  { intros k Hk. rewrite apply_bits_testbit by assumption. rewrite (last_write_filter (fun b => b <? 8 * size)).
    destruct (k <? 8 * size) eqn:E; [reflexivity|]. cbn [or_default].
    rewrite pow256_pow2 in Hold. fold w in Hold. rewrite Hw8 in Hold. apply (testbit_small old (8 * size) k Hold). lia. }
  repeat split; try assumption.
  rewrite rmw_bytes_le_enc, le_dec_enc, pow256_pow2. fold w. rewrite Hw8.
  apply Z.bits_inj'. intros k Hk. rewrite Hbits by exact Hk.
  rewrite Z.testbit_mod_pow2 by lia.
  destruct (k <? 8 * size) eqn:E; cbn [andb]; [|reflexivity].
  rewrite Z.land_spec, Z.lor_spec.
  destruct (masks_testbit dword bl k Hnn Hk) as [H1 H2]. fold o in H1. fold a in H2. rewrite H1, H2.
  destruct (last_write (eff dword bl) k) as [v|]; cbn [or_default].
  - destruct v; [rewrite orb_true_r; reflexivity|apply andb_false_r].
  - replace (k <? 64) with true by lia. rewrite orb_false_r, andb_true_r. reflexivity.
Qed.

Corollary rmw_stored dword bl size old :
  Forall (fun bv => 0 <= eff_bit dword (fst bv) < 64) bl -> 0 < size <= 8 -> 0 <= old < pow256 (Z.to_nat size) ->
  let w := Z.to_nat size in
  rmw_bytes (le_enc w old) (le_enc w (fst (rmw_masks dword bl))) (le_enc w (snd (rmw_masks dword bl)))
  = le_enc w (apply_bits old (filter (in_width size) (eff dword bl))).
Proof.
  intros Hall Hsize Hold w. destruct (rmw_effect dword bl size old Hall Hsize Hold) as (_ & _ & _ & _ & E & _).
  fold w in E. rewrite rmw_bytes_le_enc in *. rewrite le_dec_enc in E. rewrite <- E. symmetry. apply le_enc_mod.
Qed.

Lemma eff_in_width s bl : Forall (fun bv => 0 <= fst bv < 8 * s) bl -> filter (in_width s) (eff false bl) = bl.
Proof.
  induction 1 as [|[b x] r Hb Hr IH]; [reflexivity|]. cbn [eff map filter fst snd eff_bit]. fold (eff false r).
  unfold in_width at 1. cbn [fst] in *. replace (b <? 8 * s) with true by lia. f_equal. exact IH.
Qed.

(* non-vacuity / hand check: bits 3 := 1, 0 := 0, 3 := 0, 9 := 1 on an INT holding 0x00FF *)
Example rmw_effect_example :
  rmw_masks false [(3, true); (0, false); (3, false); (9, true)] = (512, 18446744073709551606)
  /\ le_dec (rmw_bytes (le_enc 2 255) (le_enc 2 512) (le_enc 2 18446744073709551606)) = 758
  /\ apply_bits 255 [(3, true); (0, false); (3, false); (9, true)] = 758.
Proof. vm_compute. repeat split; reflexivity. Qed.
