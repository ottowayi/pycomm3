(* Proofs/WriteStruct2.v — C02, whole structures written from a dict: the boundary of the covered class.

   Props/C02.C02_full asks the struct clause for EVERY well-formed project.  That is false of the faithful
   model, by the two witnesses below (both well-formed, both outside Proofs/WriteStruct.ty_guard):

     struct_full_refuted   a BOOL member listed BEFORE a visible member that covers its byte, written with an
                           INCONSISTENT dict (Pt00 = True, Data = 0, Pt00 being bit 0 of Data): StructTag._encode
                           stores all non-BOOL members and then sets the bits (bits win: Data = 1); the reference
                           (Spec/Expect.encode_val) applies the visible members in template order (the later host
                           wins: Data = 0).  No memory holds "Pt00 = True and Data = 0": the property text ("a
                           structure sets every visible member") cannot be met by ANY encoder on this input, and the
                           reference's tie-break is a convention of the reference, not a statement of the property.
                           With a consistent dict the two orders give the same bytes (bh_consistent).
     struct_hidden_bool    a hidden BOOL member: the uploaded class lists it among its bit members, _encode looks it
                           up in the dict -> KeyError -> the request fails with RequestError and NOTHING is sent
                           (C02 speaks of writes that report success: not a violation; the clause of C02_full fails
                           only because it also demands that the request succeeds).

   BYTE / WORD / LWORD bit-string members and strings whose LEN / DATA are not at offsets 0 / 4 stay outside the
   class as well: for the former model and reference agree where tried (bits_members_agree; the general proof needs
   the 8 / 16 / 64-bit versions of Proofs/WriteBools.dword_encode / chunk_list_32), for the latter they differ
   (odd_string_differs: FixedSizeString always emits LEN at 0 and the characters at 4) — no controller lays a
   string type out like that. *)
From Coq Require Import ZifyBool String.
From PV Require Import Base.Bytes Base.BytesLemmas Base.Res Base.Proto Base.PyStr Model.CodecFloat Model.Path Model.LogixPlan Model.LogixWrite.
From PV Require Import Spec.EncapParser Spec.MRParser Spec.TargetIface Spec.TargetCore Spec.Project Spec.Expect Spec.TargetLogix.
From PV Require Import Proofs.WriteMsg Proofs.WriteFull Proofs.WriteStruct.
Open Scope Z_scope.

Definition bh_t : template :=
  mkTemplate (zs "modT") None 3900 4660 4 0
    [ mkMember (zs "Pt00") (BAtom C_BOOL) 0 0 0 false;
      mkMember (zs "Data") (BAtom C_INT) 0 0 0 false;
      mkMember (zs "Pad") (BAtom C_INT) 0 2 0 false ].
Definition bh_proj : project := mkProject [bh_t] [mkTag (zs "m") 5 ScCtrl (BStruct 3900) [] 0 false 0 0 0 0].
Definition bh_mem : mem := [(5, [9; 9; 9; 9])].
Definition bh_req : request_ast := mkReq None [mkSeg (zs "m") []] None None.
Definition bh_rv (pt00 : bool) (data : Z) : rvalue := RStruct [(zs "Pt00", RBool pt00); (zs "Data", RInt data); (zs "Pad", RInt 3)].
Definition bh_ty : option wty := Eval vm_compute in wty_of (depth_fuel bh_proj) bh_proj (BStruct 3900).

Definition bh_wty : wty := match bh_ty with Some t => t | None => WElem [] end.
Definition bh_path : bytes := Eval vm_compute in
  match path_of (zs "m") (mkInfo true (zs "modT") bh_wty 4660 (Some 5)) false with Ok (Some b) => b | _ => [] end.

Lemma bh_denotes b z : denotes (py_of (bh_rv b z)) (bh_rv b z).
Proof. cbv [py_of bh_rv]. repeat (constructor; cbn [fst snd]). Qed.

Example bh_facts :
  wf_project bh_proj = true /\ wf_mem bh_proj bh_mem = true
  /\ ty_guard (depth_fuel bh_proj) bh_proj (BStruct 3900) = false
  /\ ref_write bh_proj bh_mem bh_req (bh_rv true 0) = Some [(5, [0; 0; 3; 0])]
  /\ match bh_ty with
     | Some ty => encode_ty ty (py_of (bh_rv true 0)) = Ok [1; 0; 3; 0]
     | None => False
     end.
Proof. vm_compute. repeat split; reflexivity. Qed.

(* with a dict that agrees with itself (Pt00 = bit 0 of Data) the code's encoding IS the reference's *)
Example bh_consistent :
  match bh_ty with
  | Some ty =>
      encode_ty ty (py_of (bh_rv true 4097)) = Ok [1; 16; 3; 0]
      /\ encode_val (depth_fuel bh_proj) bh_proj (BStruct 3900) (bh_rv true 4097) = Some [1; 16; 3; 0]
      /\ encode_ty ty (py_of (bh_rv false (-2))) = Ok [254; 255; 3; 0]
      /\ encode_val (depth_fuel bh_proj) bh_proj (BStruct 3900) (bh_rv false (-2)) = Some [254; 255; 3; 0]
  | None => False
  end.
Proof. vm_compute. repeat split; reflexivity. Qed.

Theorem struct_full_refuted : ~ stmt_struct_with (fun p _ => wf_project p = true).
Proof.
  intros H.
  destruct (H bh_proj bh_mem bh_req 5 0 3900 [] 1 bh_t (py_of (bh_rv true 0)) (bh_rv true 0) [(5, [0; 0; 3; 0])] [9; 9; 9; 9] 0 (zs "m")
               bh_wty (Some 5) false 1 bh_path)
    as (data & pk & pk1 & E1 & _ & _ & _ & E5).
  - vm_compute. reflexivity.
  - vm_compute. reflexivity.
  - reflexivity.
  - reflexivity.
  - reflexivity.
  - vm_compute. reflexivity.
  - vm_compute. reflexivity.
  - change (0 <= 4660 < 65536). lia.
  - vm_compute. reflexivity.
  - vm_compute. reflexivity.
  - apply bh_denotes.
  - vm_compute. reflexivity.
  - lia.
  - lia.
  - vm_compute. reflexivity.
  - vm_compute in E1. injection E1 as <-. vm_compute in E5. discriminate.
Qed.

Definition hb_t : template :=
  mkTemplate (zs "hidB") None 3901 4661 4 0
    [ mkMember (zs "ZZZZZZZZZZhidB0") (BAtom C_SINT) 0 0 0 true;
      mkMember (zs "vis") (BAtom C_BOOL) 0 0 0 false;
      mkMember (zs "__hid") (BAtom C_BOOL) 0 0 1 true;
      mkMember (zs "N") (BAtom C_INT) 0 2 0 false ].
Definition hb_proj : project := mkProject [hb_t] [mkTag (zs "m") 5 ScCtrl (BStruct 3901) [] 0 false 0 0 0 0].
Definition hb_rv : rvalue := RStruct [(zs "vis", RBool true); (zs "N", RInt 3)].
Definition hb_ty : option wty := Eval vm_compute in wty_of (depth_fuel hb_proj) hb_proj (BStruct 3901).

Example struct_hidden_bool :
  wf_project hb_proj = true
  /\ ty_guard (depth_fuel hb_proj) hb_proj (BStruct 3901) = false
  /\ ref_write hb_proj [(5, [9; 9; 9; 9])] (mkReq None [mkSeg (zs "m") []] None None) hb_rv = Some [(5, [1; 0; 3; 0])]
  /\ match hb_ty with
     | Some ty =>
         (* the dict of the visible members: refused, nothing is sent *)
         encode_value (mkParsed 0 false (zs "m") None 1 None (mkInfo true (zs "hidB") ty 4661 (Some 5)) (py_of hb_rv)) = Err RequestError
         (* the caller can name the hidden bit: then the visible members are stored as the reference says *)
         /\ encode_value (mkParsed 0 false (zs "m") None 1 None (mkInfo true (zs "hidB") ty 4661 (Some 5))
                            (PDict [(zs "vis", PBool true); (zs "N", PInt 3); (zs "__hid", PBool false)])) = Ok ([1; 0; 3; 0], 1)
     | None => False
     end.
Proof. vm_compute. repeat split; reflexivity. Qed.

Definition bm_t : template :=
  mkTemplate (zs "bitsT") None 3902 4662 16 0
    [ mkMember (zs "B") (BAtom C_BYTE) 0 0 0 false;
      mkMember (zs "W") (BAtom C_WORD) 0 2 0 false;
      mkMember (zs "WA") (BAtom C_WORD) 2 4 0 false;
      mkMember (zs "L") (BAtom C_LWORD) 0 8 0 false ].
Definition bm_proj : project := mkProject [bm_t] [mkTag (zs "m") 5 ScCtrl (BStruct 3902) [] 0 false 0 0 0 0].
Definition bm_bl (n : nat) : rvalue := RList (map (fun k => RBool (Z.odd (Z.of_nat k / 3))) (seq 0 n)).
Definition bm_rv : rvalue := RStruct [(zs "B", bm_bl 8); (zs "W", bm_bl 16); (zs "WA", bm_bl 32); (zs "L", bm_bl 64)].
Example bits_members_agree :
  wf_project bm_proj = true /\ ty_guard (depth_fuel bm_proj) bm_proj (BStruct 3902) = false
  /\ match wty_of (depth_fuel bm_proj) bm_proj (BStruct 3902), encode_val (depth_fuel bm_proj) bm_proj (BStruct 3902) bm_rv with
     | Some ty, Some d => encode_ty ty (py_of bm_rv) = Ok d /\ Expect.blen d = 16
     | _, _ => False
     end.
Proof. vm_compute. repeat split; reflexivity. Qed.

Definition os_t : template :=
  mkTemplate (zs "oddS") None 3903 4663 16 0
    [ mkMember (zs "__pad") (BAtom C_DINT) 0 0 0 true;
      mkMember (zs "LEN") (BAtom C_DINT) 0 4 0 false;
      mkMember (zs "DATA") (BAtom C_SINT) 6 8 0 false ].
Definition os_proj : project := mkProject [os_t] [mkTag (zs "m") 5 ScCtrl (BStruct 3903) [] 0 false 0 0 0 0].
Example odd_string_differs :
  wf_project os_proj = true /\ ty_guard (depth_fuel os_proj) os_proj (BStruct 3903) = false
  /\ encode_val (depth_fuel os_proj) os_proj (BStruct 3903) (RStr [65; 66]) = Some [0; 0; 0; 0; 2; 0; 0; 0; 65; 66; 0; 0; 0; 0; 0; 0]
  /\ match wty_of (depth_fuel os_proj) os_proj (BStruct 3903) with
     | Some ty => encode_ty ty (PStr [65; 66]) = Ok [2; 0; 0; 0; 65; 66; 0; 0; 0; 0; 0; 0; 0; 0; 0; 0]
     | None => False
     end.
Proof. vm_compute. repeat split; reflexivity. Qed.
