(* Proofs/UploadFilter.v — C05: the symbol filter and the tag record of the upload model against
   the project ADT of the reference target (Spec/Project.v):
   * [create_tag_fields]: from the symbol type word Spec/Project.sym_type_word builds, for ALL
     in-range fields, _create_tag recovers the struct flag, the number of dimensions, the template
     id / the elementary type code, the BOOL bit position; the alias flag from attribute 6; and the
     product of the dimensions;
   * [isolate_filter_exact]: _isolate_user_tags keeps a symbol iff Spec/Project.hidden_symbol says it
     is user-visible, on the names of the Logix naming rules ([colon_regular], [opaque_marked]);
     [filter_differs_outside_rules] shows the two differ outside them (model = code: the
     cases `classify` of the C05 correspondence, harness/props/c05.py), so the hypothesis is needed;
   * program / routine / task names recovered by str.replace. *)
From Coq Require Import ZifyBool String.
Open Scope string_scope.
From PV Require Import Base.Bytes Base.BytesLemmas Base.Proto Base.PyStr Base.PyStrLemmas Base.Res.
From PV Require Import Spec.Project Spec.Expect Spec.TargetLogix Model.LogixUpload Proofs.TargetLogixP Proofs.UploadTemplate.
From PV Require Gen.Consts.
Open Scope Z_scope.

Lemma shiftr_land_field x s w : 0 <= s -> 0 <= w ->
  Z.shiftr (Z.land x (Z.shiftl (Z.ones w) s)) s = (x / 2 ^ s) mod 2 ^ w.
Proof.
  intros Hs Hw.
  rewrite Z.shiftr_land, Z.shiftr_shiftl_l by lia. rewrite Z.sub_diag, Z.shiftl_0_r.
  rewrite Z.land_ones by lia. rewrite Z.shiftr_div_pow2 by lia. reflexivity.
Qed.

Lemma land_bit_zero x n : 0 <= n -> (Z.land x (2 ^ n) =? 0) = ((x / 2 ^ n) mod 2 =? 0).
Proof.
  intros Hn. rewrite <- Z.testbit_spec', land_pow2 by exact Hn.
  pose proof (Z.pow_pos_nonneg 2 n eq_refl Hn). destruct (Z.testbit x n); cbn [Z.b2z]; lia.
Qed.

Lemma sym_alias_eq a : sym_alias a = negb (Z.testbit a 26).
Proof.
  unfold sym_alias. change Consts.BASE_TAG_BIT with (2 ^ 26). rewrite land_pow2 by lia.
  destruct (Z.testbit a 26); reflexivity.
Qed.

Ltac split_andb :=
  repeat match goal with H : _ && _ = true |- _ => apply andb_prop in H; destruct H end.

Definition word_fields_ok (g : tagdef) : Prop :=
  (length (g_dims g) <= 3)%nat /\
  match g_ty g with
  | BAtom c => 0 <= c < 256 /\ 0 <= g_bitpos g < 8 /\ (c <> C_BOOL -> g_bitpos g = 0)
  | BStruct tid => 0 <= tid < 4096
  | BOpaque w => 0 <= w < 65536
  end.

Lemma templates_ok_ids : forall ts earlier t, templates_ok earlier ts = true -> In t ts -> 0 < t_id t < 4096.
Proof.
  induction ts as [|a ts IH]; intros earlier t H Hin; [destruct Hin|].
  cbn [templates_ok] in H. apply andb_prop in H. destruct H as [Ha Hr].
  destruct Hin as [<- | Hin]; [|eapply IH; eassumption].
  unfold template_ok in Ha. split_andb. lia.
Qed.

Lemma tag_ok_word_fields p g : templates_ok [] (p_templates p) = true -> tag_ok p g = true -> word_fields_ok g.
Proof.
  intros Hts H. unfold tag_ok in H. unfold word_fields_ok.
  apply andb_prop in H. destruct H as [H Hty]. split_andb.
  split; [match goal with H : Nat.leb _ _ = true |- _ => apply Nat.leb_le in H; exact H end|].
  destruct (g_ty g) as [c|tid|w].
  - split_andb. destruct (atom_size c) as [s0|] eqn:Es; [|discriminate].
    apply atom_size_in, atoms_range in Es. unfold C_BOOL in *. lia.
  - split_andb. destruct (find_template (p_templates p) tid) as [t|] eqn:Ef; [|discriminate].
    apply find_template_in in Ef. destruct Ef as [Hin <-].
    pose proof (templates_ok_ids _ _ _ Hts Hin). lia.
  - split_andb. lia.
Qed.

Lemma sym_type_word_range g : word_fields_ok g -> 0 <= sym_type_word g < 65536.
Proof.
  intros (Hd & Hty). unfold sym_type_word. cbv zeta.
  destruct (g_ty g) as [c|tid|w]; [destruct Hty as (Hc & Hb & _); destruct (c =? C_BOOL) | |]; destruct (g_system g); lia.
Qed.

Definition nd (g : tagdef) : Z := Z.of_nat (length (g_dims g)).

(* a symbol type word by its fields, as _create_tag / _isolate_user_tags mask them out: bits 0-11
   (elementary code and BOOL bit number, or template id), the system bit 12, the number of
   dimensions in bits 13-14, the structure bit 15 *)
Lemma type_word_fields w lo sb n st :
  w = lo + 4096 * sb + 8192 * n + 32768 * st -> 0 <= lo < 4096 -> 0 <= sb <= 1 -> 0 <= n <= 3 -> 0 <= st <= 1 ->
  0 <= w /\ sym_atomic_code w = lo mod 256 /\ sym_bit_position w = (lo / 256) mod 8 /\ sym_template_id w = lo
  /\ (Z.land w SYSTEM_BIT =? 0) = (sb =? 0) /\ sym_dim w = n /\ sym_is_struct w = negb (st =? 0).
Proof.
  intros -> Hlo Hsb Hn Hst. set (w := lo + _ + _ + _). assert (Hw : 0 <= w) by lia. unfold sym_is_struct.
  pose proof Pos2Z.is_nonneg as P.
  rewrite (shiftr_land_field w 8 3 (P _) (P _) : sym_bit_position w = _),
    (shiftr_land_field w 13 2 (P _) (P _) : sym_dim w = _),
    (Z.land_ones w 8 (P _) : sym_atomic_code w = _), (Z.land_ones w 12 (P _) : sym_template_id w = _),
    (land_bit_zero w 12 (P _) : (Z.land w SYSTEM_BIT =? 0) = _), (land_bit_zero w 15 (P _) : (Z.land w 32768 =? 0) = _).
  clear P.
  subst w. split; [exact Hw|]. split; [lia|]. split; [lia|]. split; [lia|]. split; [f_equal; lia|].
  split; [lia | do 2 f_equal; lia].
Qed.

(* the fields _create_tag reads, for every in-range combination *)
Theorem create_tag_fields g :
  word_fields_ok g ->
  let w := sym_type_word g in
  0 <= w /\
  match g_ty g with
  | BAtom c =>
      sym_is_struct w = false /\ sym_dim w = nd g /\ sym_atomic_code w = c
      /\ (c = C_BOOL -> sym_bit_position w = g_bitpos g)
      /\ ((Z.land w SYSTEM_BIT =? 0) = negb (g_system g))
  | BStruct tid =>
      sym_is_struct w = true /\ sym_dim w = nd g /\ sym_template_id w = tid
      /\ ((Z.land w SYSTEM_BIT =? 0) = negb (g_system g))
  | BOpaque _ => True
  end.
Proof.
  intros (Hd & Hty). unfold sym_type_word, nd. cbv zeta.
  set (n := Z.of_nat (length (g_dims g))). assert (Hn : 0 <= n <= 3) by lia. clearbody n. clear Hd.
  assert (Hsys : exists sb, (if g_system g then 4096 else 0) = 4096 * sb /\ (sb =? 0) = negb (g_system g) /\ 0 <= sb <= 1)
    by (destruct (g_system g); [exists 1 | exists 0]; cbn; lia).
  destruct Hsys as (sb & -> & Hsb & Hsys).
  destruct (g_ty g) as [c|tid|w]; [| |split; [lia | exact I]].
  - destruct Hty as (Hc & Hb & Hb0).
    assert (Hbp : exists b, (if c =? C_BOOL then 256 * g_bitpos g else 0) = 256 * b /\ 0 <= b < 8 /\ (c = C_BOOL -> b = g_bitpos g))
      by (destruct (c =? C_BOOL) eqn:E; [exists (g_bitpos g) | exists 0]; lia).
    destruct Hbp as (b & -> & Hb8 & Hbb). clear Hb Hb0.
    destruct (type_word_fields (c + 256 * b + 8192 * n + 4096 * sb) (c + 256 * b) sb n 0)
      as (Hw & -> & Hbit & _ & -> & -> & ->); [ring | lia | exact Hsys | exact Hn | lia |].
    repeat split; try assumption; [clear - Hc; lia|].
    intros Ec. rewrite Hbit, <- (Hbb Ec). clear - Hc Hb8. lia.
  - destruct (type_word_fields (32768 + tid + 8192 * n + 4096 * sb) tid sb n 1)
      as (Hw & _ & _ & -> & -> & -> & ->); [ring | exact Hty | exact Hsys | exact Hn | lia |].
    repeat split; assumption.
Qed.

(* reduce(operator.mul, dimensions[:dim], 1) over the three wire dimensions = the number of elements *)
Lemma fold_left_mul l a : fold_left Z.mul l a = a * fold_right Z.mul 1 l.
Proof.
  revert a. induction l as [|x l IH]; intros a; cbn [fold_left fold_right]; [lia|].
  rewrite IH. lia.
Qed.

Lemma firstn_pad3 (dims : list Z) : (length dims <= 3)%nat -> firstn (length dims) (pad3 3 dims) = dims.
Proof.
  intros H. destruct dims as [|a [|b [|c [|d r]]]]; cbn in *; try reflexivity. lia.
Qed.

Theorem total_elements_dims (dims : list Z) :
  (length dims <= 3)%nat ->
  total_elements (Z.of_nat (length dims)) (pad3 3 dims) = dims_count dims.
Proof.
  intros H. unfold total_elements, dims_count. rewrite Nat2Z.id, firstn_pad3 by exact H.
  rewrite fold_left_mul. lia.
Qed.

Theorem alias_flag_eq g : 0 <= g_attr6 g -> sym_alias (g_attr6 g) = alias_flag g.
Proof. intros _. apply sym_alias_eq. Qed.

Lemma txt_Program_eq : txt_Program_ = txt_Program. Proof. reflexivity. Qed.
Lemma txt_Routine_eq : txt_Routine_ = txt_Routine. Proof. reflexivity. Qed.
Lemma txt_Task_eq : txt_Task_ = txt_Task. Proof. reflexivity. Qed.

Lemma replace_no_occurrence p q : forall s fuel i, find_from p s i = None -> replace_str_fuel fuel p q s = s.
Proof.
  induction s as [|c s IH]; intros [|f] i H; try reflexivity.
  cbn [find_from] in H. cbn [replace_str_fuel]. destruct (starts_with p (c :: s)); [discriminate|].
  rewrite (IH f (S i) H). reflexivity.
Qed.

(* name.replace(prefix, "") of a name that starts with the prefix, when the rest does not contain it *)
Lemma replace_prefix p n :
  p <> [] -> starts_with p n = true -> contains_str p (skipn (length p) n) = false ->
  replace_str p [] n = skipn (length p) n.
Proof.
  intros Hp Hs Hc. unfold replace_str. destruct p as [|a p']; [contradiction|].
  destruct n as [|c n']; [discriminate|]. cbn [replace_str_fuel]. rewrite Hs. cbn [app].
  unfold contains_str, find in Hc. destruct (find_from _ _ 0) eqn:E in Hc; [discriminate|].
  exact (replace_no_occurrence _ _ _ _ _ E).
Qed.

(* the names on which the code's substring test for module I/O tags (":I" ":O" ":C" ":S" anywhere)
   and the reference's structural test (Name:Kind / Name:slot:Kind) agree; names without ':' and
   the reserved prefixes are always in *)
Definition colon_regular (n : text) : bool :=
  negb (contains_chr COLON n)
  || starts_with txt_Program n || starts_with txt_Routine n || starts_with txt_Task n
  || contains_str txt_Map n || contains_str txt_Cxn n
  || Bool.eqb (io_like n) (module_io_name n).

(* a symbol that is not data is recognisable as such: by its name, or by the system bit *)
Definition opaque_marked (g : tagdef) : bool :=
  match g_ty g with
  | BOpaque w =>
      let n := g_name g in
      starts_with txt_Program n || starts_with txt_Routine n || starts_with txt_Task n
      || contains_str txt_Map n || contains_str txt_Cxn n || starts_with txt_UU n
      || (contains_chr COLON n && negb (io_like n))
      || negb (Z.land w SYSTEM_BIT =? 0)
  | _ => true
  end.

Definition kept (c : iso_class) : bool := match c with IsoKeep => true | _ => false end.

(* the code's filter as one boolean, in the order of [opaque_marked] *)
Lemma kept_classify n w :
  kept (classify n w)
  = negb (starts_with txt_Program n || starts_with txt_Routine n || starts_with txt_Task n
          || contains_str txt_Map n || contains_str txt_Cxn n || starts_with txt_UU n
          || (contains_chr COLON n && negb (io_like n))
          || negb (Z.land w SYSTEM_BIT =? 0)).
Proof.
  unfold classify. rewrite txt_Program_eq, txt_Routine_eq, txt_Task_eq.
  change (T "Map:") with txt_Map. change (T "Cxn:") with txt_Cxn. change (T "__") with txt_UU. change 58 with COLON.
  destruct (starts_with txt_Program n); [reflexivity|].
  destruct (starts_with txt_Routine n); [reflexivity|].
  destruct (starts_with txt_Task n); [reflexivity|].
  destruct (contains_str txt_Map n); [reflexivity|].
  destruct (contains_str txt_Cxn n); [reflexivity|].
  rewrite (andb_comm (negb _)), (orb_comm (_ && _)). cbn [orb].
  destruct (starts_with txt_UU n || contains_chr COLON n && negb (io_like n)); [reflexivity|].
  destruct (Z.land w SYSTEM_BIT =? 0); reflexivity.
Qed.

Theorem isolate_filter_exact g :
  word_fields_ok g -> colon_regular (g_name g) = true -> opaque_marked g = true ->
  kept (classify (g_name g) (sym_type_word g)) = negb (hidden_symbol g).
Proof.
  intros Hw Hreg Hop. rewrite kept_classify. f_equal.
  assert (Hs : (exists w, g_ty g = BOpaque w)
               \/ (Z.land (sym_type_word g) SYSTEM_BIT =? 0) = negb (g_system g)
                  /\ match g_ty g with BOpaque _ => true | _ => false end = false).
  { pose proof (create_tag_fields g Hw) as [_ Hf].
    destruct (g_ty g) as [c|tid|w]; [right; split; [apply Hf | reflexivity].. | left; exists w; reflexivity]. }
  unfold hidden_symbol, colon_regular, opaque_marked in *. cbv zeta.
  destruct Hs as [[w Ety] | [Hs Edata]].
  - (* not data: marked, so the code skips it too *)
    unfold sym_type_word. rewrite Ety in *. rewrite Hop, orb_true_r. reflexivity.
  - rewrite Hs, Edata, negb_involutive.
    destruct (g_system g); [rewrite orb_true_r; reflexivity|].
    rewrite orb_false_r. cbn [orb].
    (* without ':' nothing is left to compare; with it, the name is reserved or the two tests agree *)
    destruct (contains_chr COLON (g_name g)); [|rewrite !andb_false_l; reflexivity].
    cbn [negb orb andb] in *.
    apply orb_prop in Hreg as [E | E]; [rewrite E | apply eqb_prop in E; rewrite E]; reflexivity.
Qed.

(* outside the naming rules the two tests differ: "A:B:Ix" is not of the form Name:slot:Kind (B is
   not a slot number) yet contains ":I": the code keeps it, the reference hides it.  (Likewise the
   real driver keeps a symbol named "Trend:Speed" because it contains ":S".)  Logix tag names are
   identifiers, so such symbols do not occur in a project; hence a hypothesis, not a finding. *)
Example filter_differs_outside_rules :
  let g := mkTag [65; 58; 66; 58; 73; 120] 1 ScCtrl (BAtom C_DINT) [] 0 false 0 0 0 0 in
  colon_regular (g_name g) = false
  /\ kept (classify (g_name g) (sym_type_word g)) = true /\ hidden_symbol g = true.
Proof. vm_compute. auto. Qed.

Example colon_regular_module_io : colon_regular [76; 111; 99; 97; 108; 58; 49; 58; 73] = true.   (* Local:1:I *)
Proof. reflexivity. Qed.

Lemma colon_regular_no_colon n : contains_chr COLON n = false -> colon_regular n = true.
Proof. intros H. unfold colon_regular. rewrite H. reflexivity. Qed.

Lemma starts_with_first_char a b n x y :
  starts_with (x :: a) n = true -> x <> y -> starts_with (y :: b) n = false.
Proof.
  destruct n as [|c n]; [discriminate|]. cbn. intros H Hne.
  apply andb_prop in H. destruct H as [E _].
  destruct (y =? c) eqn:E2; [lia | reflexivity].
Qed.

(* the three reserved prefixes differ in their first character, so a name starts with at most one
   of them; the recorded name is what follows the prefix *)
Lemma classify_prefix p k n w :
  In (p, k) [(txt_Program, IsoProgram); (txt_Routine, IsoRoutine); (txt_Task, IsoTask)] ->
  starts_with p n = true -> contains_str p (skipn (length p) n) = false ->
  classify n w = k (skipn (length p) n).
Proof.
  intros Hin H1 H2. unfold classify. rewrite txt_Program_eq, txt_Routine_eq, txt_Task_eq.
  destruct Hin as [E | [E | [E | []]]]; injection E as <- <-;
    rewrite <- (replace_prefix _ n) by (try discriminate; assumption).
  - rewrite H1. reflexivity.
  - rewrite (starts_with_first_char _ _ n 82 80 H1 ltac:(lia) : starts_with txt_Program n = false), H1. reflexivity.
  - rewrite (starts_with_first_char _ _ n 84 80 H1 ltac:(lia) : starts_with txt_Program n = false),
      (starts_with_first_char _ _ n 84 82 H1 ltac:(lia) : starts_with txt_Routine n = false), H1. reflexivity.
Qed.

Lemma classify_program n w :
  starts_with txt_Program n = true -> contains_str txt_Program (skipn 8 n) = false ->
  classify n w = IsoProgram (skipn 8 n).
Proof. apply (classify_prefix txt_Program IsoProgram). left. reflexivity. Qed.

Lemma classify_routine n w :
  starts_with txt_Routine n = true -> contains_str txt_Routine (skipn 8 n) = false ->
  classify n w = IsoRoutine (skipn 8 n).
Proof. apply (classify_prefix txt_Routine IsoRoutine). right. left. reflexivity. Qed.

Lemma classify_task n w :
  starts_with txt_Task n = true -> contains_str txt_Task (skipn 5 n) = false ->
  classify n w = IsoTask (skipn 5 n).
Proof. apply (classify_prefix txt_Task IsoTask). do 2 right. left. reflexivity. Qed.
