(* Proofs/LogixParseP.v — lemmas about the shared request parser (Model/LogixParse.v) used by C03:
   ids are positions, failures are RequestError only and carry a non-empty text, the user tag is the
   request without its {n} suffix, the plc tag is the user tag unless a bit or a BOOL array is involved,
   unknown tags / members are reported as such. *)
From PV Require Import Base.Bytes Base.Proto Base.Res Base.PyStr Gen.LogixParseGen Model.LogixParse.
From Coq Require Import ZifyBool.
Open Scope Z_scope.

Lemma parse_tag_request_errors db m s :
  (exists p, parse_tag_request db m s = Ok p) \/ parse_tag_request db m s = Err RequestError.
Proof. unfold parse_tag_request. destruct (parse_tag_request_ex db m s); [left; eauto | right; reflexivity]. Qed.

Lemma perr_text_nonempty e : perr_text e <> [].
Proof. destruct e; cbn; discriminate. Qed.

Lemma parse_requested_from_length db m : forall reqs i, length (parse_requested_from db m i reqs) = length reqs.
Proof. induction reqs as [|r reqs IH]; intros i; cbn; [reflexivity | now rewrite IH]. Qed.

Lemma parse_requested_length db m reqs : length (parse_requested_tags db m reqs) = length reqs.
Proof. apply parse_requested_from_length. Qed.

Definition dflt_q : preq := mkPreq (-1) (ReqOther TypeError) (inr (PE_TagData TypeError)).

Lemma nth_map_lt {A B} (F : A -> B) l k d d' : (k < length l)%nat -> nth k (map F l) d = F (nth k l d').
Proof. intros H. rewrite (nth_indep _ d (F d')) by now rewrite map_length. apply map_nth. Qed.

Lemma parse_requested_from_nth db m : forall reqs i k d, (k < length reqs)%nat ->
  nth k (parse_requested_from db m i reqs) d
  = mkPreq (i + Z.of_nat k) (nth k reqs (ReqOther TypeError)) (parse_request_obj db m (nth k reqs (ReqOther TypeError))).
Proof.
  induction reqs as [|r reqs IH]; intros i k d Hk; cbn [length] in Hk; [lia|].
  destruct k as [|k]; cbn [parse_requested_from nth].
  - f_equal. lia.
  - rewrite IH by lia. f_equal. lia.
Qed.

Lemma parse_requested_nth db m reqs k d : (k < length reqs)%nat ->
  nth k (parse_requested_tags db m reqs) d
  = mkPreq (Z.of_nat k) (nth k reqs (ReqOther TypeError)) (parse_request_obj db m (nth k reqs (ReqOther TypeError))).
Proof. intros H. unfold parse_requested_tags. rewrite parse_requested_from_nth by exact H. f_equal. Qed.

Lemma parsed_map_nth {B} db m (F : preq -> B) reqs k d : (k < length reqs)%nat ->
  nth k (map F (parse_requested_tags db m reqs)) d
  = F (mkPreq (Z.of_nat k) (nth k reqs (ReqOther TypeError)) (parse_request_obj db m (nth k reqs (ReqOther TypeError)))).
Proof. intros H. rewrite (nth_map_lt F _ k d dflt_q) by now rewrite parse_requested_length. now rewrite parse_requested_nth. Qed.

Lemma parse_requested_map {B} db m (G : request -> parsed + perr -> B) : forall reqs i,
  map (fun q => G (q_request q) (q_parsed q)) (parse_requested_from db m i reqs)
  = map (fun rq => G rq (parse_request_obj db m rq)) reqs.
Proof. induction reqs as [|r reqs IH]; intros i; cbn; [reflexivity | now rewrite IH]. Qed.

(* ids are the positions i, i+1, ... *)
Fixpoint zseq (i : Z) (n : nat) : list Z := match n with O => [] | S n' => i :: zseq (i + 1) n' end.

Lemma parse_requested_from_ids db m : forall reqs i, map q_id (parse_requested_from db m i reqs) = zseq i (length reqs).
Proof. induction reqs as [|r reqs IH]; intros i; cbn; [reflexivity | now rewrite IH]. Qed.

Lemma zseq_lower : forall n i x, In x (zseq i n) -> i <= x.
Proof. induction n as [|n IH]; intros i x H; cbn in H; [contradiction|]. destruct H as [<-|H]; [lia|]. apply IH in H. lia. Qed.

Lemma zseq_NoDup : forall n i, NoDup (zseq i n).
Proof.
  induction n as [|n IH]; intros i; cbn; constructor; [|apply IH].
  intros H. apply zseq_lower in H. lia.
Qed.

Lemma parse_requested_ids_NoDup db m reqs : NoDup (map q_id (parse_requested_tags db m reqs)).
Proof. unfold parse_requested_tags. rewrite parse_requested_from_ids. apply zseq_NoDup. Qed.

Lemma parse_requested_ids_nonneg db m reqs q : In q (parse_requested_tags db m reqs) -> 0 <= q_id q.
Proof.
  intros H. apply (in_map q_id) in H. unfold parse_requested_tags in H.
  rewrite parse_requested_from_ids in H. now apply zseq_lower in H.
Qed.

(* the parse of a request does not depend on its position or on the other requests *)
Lemma parse_requested_from_parsed db m : forall reqs i q, In q (parse_requested_from db m i reqs) ->
  q_parsed q = parse_request_obj db m (q_request q).
Proof.
  induction reqs as [|r reqs IH]; intros i q H; cbn in H; [contradiction|].
  destruct H as [<-|H]; [reflexivity | eapply IH, H].
Qed.

(* the text before the first occurrence of c *)
Fixpoint before (c : Z) (s : text) : text :=
  match s with
  | [] => []
  | x :: r => if x =? c then [] else x :: before c r
  end.

(* SPEC: a request name without its {n} element-count suffix *)
Definition drop_count (s : text) : text :=
  if ends_with [c_rbrace] s && contains_chr c_lbrace s then before c_lbrace s else s.

Lemma split_chr_aux_hd c : forall s cur, exists rest, split_chr_aux c s cur = (rev cur ++ before c s) :: rest.
Proof.
  induction s as [|x s IH]; intros cur; cbn [split_chr_aux before].
  - exists []. now rewrite app_nil_r.
  - destruct (x =? c) eqn:E.
    + eexists. rewrite app_nil_r. reflexivity.
    + destruct (IH (x :: cur)) as [rest Hr]. exists rest. rewrite Hr. cbn [rev]. now rewrite <- app_assoc.
Qed.

Lemma split_chr_hd c s t rest : split_chr c s = t :: rest -> t = before c s.
Proof.
  unfold split_chr. intros H. destruct (split_chr_aux_hd c s []) as [r Hr]. rewrite Hr in H.
  cbn in H. now inversion H.
Qed.

(* the user tag is the request without its {n}; without a bit and outside BOOL arrays it is also the
   tag sent to the PLC *)
Theorem parse_ok_tags db m s p : parse_tag_request_ex db m s = inl p ->
  user_tag p = drop_count s
  /\ (bit p = None -> is_dword_dt (tag_info p) = false -> plc_tag p = user_tag p).
Proof.
  unfold parse_tag_request_ex, pfail.
  (* st1: the stage that strips the {n} element count; st3 (below): the stage that takes a trailing bit number *)
  set (st1 := if ends_with _ _ && _ then _ else _).
  assert (E1 : forall t n b, st1 = inl (t, n, b) -> t = drop_count s).
  { subst st1. unfold drop_count. destruct (_ && _); [|congruence].
    destruct (split_chr c_lbrace s) as [|t [|tmp [|]]] eqn:ES; try discriminate.
    apply split_chr_hd in ES. destruct (int_of_text _); congruence. }
  destruct st1 as [[[tag elems] impl]|]; [|discriminate].
  rewrite <- (E1 _ _ _ eq_refl). clear E1.
  destruct (split_chr c_dot tag) as [|base0 attrs0]; [discriminate|].
  destruct (if starts_with _ _ then _ else _) as [[base attrs1]|]; [|discriminate].
  set (st3 := match rev attrs1 with [] => _ | _ => _ end).
  assert (E3 : forall a t, st3 = inl (None, a, t) -> t = tag).
  { subst st3. destruct (rev attrs1); [|destruct (isdigit _); [destruct (int_of_text _)|]]; congruence. }
  destruct st3 as [[[bit0 attrs] tag3]|]; [|discriminate].
  destruct (get_tag_info_raw db base attrs) as [ti| |k|k]; try discriminate.
  destruct (is_dword_dt ti) eqn:Ed.
  - destruct (get_array_index tag3) as [[tag_ idx]|]; [|discriminate].
    intros [= <-]. cbn. split; congruence.
  - intros [= <-]. cbn. split; [reflexivity|]. intros -> _. eapply E3; reflexivity.
Qed.

Lemma is_dword_dt_name t : is_dword_dt t = true -> is_dword_name t = true.
Proof. unfold is_dword_dt, is_dword_name. destruct (ti_struct t); cbn; [discriminate | auto]. Qed.

(* a request without {n}, not program-scoped, whose base tag is not in the database fails, and an
   unknown base tag that reaches the lookup is a PE_NoTag (a trailing numeric attribute of more than
   4300 digits fails earlier, in int(), as PE_Parse ValueError) *)
Theorem unknown_tag_is_reported db m s base attrs :
  ends_with [c_rbrace] s && contains_chr c_lbrace s = false ->
  split_chr c_dot s = base :: attrs -> starts_with s_Program base = false ->
  lookup (strip_array base) db = None ->
  exists e, parse_tag_request_ex db m s = inr e
            /\ (e = PE_NoTag (strip_array base) \/ exists t, e = PE_Parse ValueError t).
Proof.
  intros E1 ES EP EL. unfold parse_tag_request_ex, pfail. rewrite E1, ES, EP.
  assert (G : forall a, get_tag_info_raw db base a = GKeyError (strip_array base)).
  { intros a. unfold get_tag_info_raw. now rewrite EL. }
  destruct (rev attrs) as [|last init_rev]; [rewrite G; eauto|].
  destruct (isdigit last); [|rewrite G; eauto].
  destruct (int_of_text last); [rewrite G; eauto|].
  eexists; split; [reflexivity|]. right. eauto.
Qed.

(* an unknown LAST member of a known structure tag (one level) *)
Theorem unknown_member_is_reported db m s base mem t :
  ends_with [c_rbrace] s && contains_chr c_lbrace s = false ->
  split_chr c_dot s = [base; mem] -> starts_with s_Program base = false -> isdigit mem = false ->
  lookup (strip_array base) db = Some t -> ti_struct t = true ->
  lookup (strip_array mem) (ti_members t) = None ->
  parse_tag_request_ex db m s = inr (PE_NoTag (strip_array mem)).
Proof.
  intros E1 ES EP ED EL ET EM. unfold parse_tag_request_ex, pfail. rewrite E1, ES, EP.
  cbn [rev app]. rewrite ED.
  unfold get_tag_info_raw. rewrite EL. unfold internal_tags. rewrite ET.
  cbn [recurse_attrs]. now rewrite EM.
Qed.
