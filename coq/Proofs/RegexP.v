(* Proofs/RegexP.v — lemmas about the backtracking matcher of Model/Regex.v.

   "Success form": a greedy digit run [\d{lo,hi}] / [\d+] followed by something that is not a digit
   consumes the whole run, provided the continuation then succeeds — the greedy choice is tried
   first, so no backtracking takes place.  "Failure form": a pattern whose first character class
   rejects the next character cannot match there ([first_miss], [m_miss]), a search over a text none
   of whose characters can start the pattern finds nothing ([search_from_none]), a digit run longer
   than the repetition allows is never consumed up to a non-digit ([rep_digits_overlong]), and a
   digit run before a continuation that fails on digits is consumed whole or not at all
   ([digit_blind], [a_group_digits]).  An alternation of literal words under a continuation that
   wants the end of the text: [m_words_end].
   Nothing here enumerates texts: digit runs and words are arbitrary lists. *)
From PV Require Import Base.Bytes Base.Proto Base.Res Base.PyStr Model.Regex.
From Coq Require Import ZifyBool.
Open Scope Z_scope.
Ltac Zify.zify_post_hook ::= Z.to_euclidean_division_equations.

Definition all_digits (ds : text) : Prop := Forall (fun c => is_ascii_digit c = true) ds.
Definition nohead (p : Z -> bool) (s : text) : Prop :=
  match s with [] => True | c :: _ => p c = false end.
Definition nodigit_head : text -> Prop := nohead is_ascii_digit.

Lemma span_app (a b : text) : span (a ++ b) b = a.
Proof.
  unfold span. rewrite app_length.
  replace (length a + length b - length b)%nat with (length a) by lia.
  rewrite firstn_app, Nat.sub_diag, firstn_all. cbn. apply app_nil_r.
Qed.

Lemma span_nil (s : text) : span s [] = s.
Proof. unfold span. cbn. rewrite Nat.sub_0_r. apply firstn_all. Qed.

Lemma span_cons c (a b : text) : span (c :: a ++ b) b = c :: a.
Proof. exact (span_app (c :: a) b). Qed.

Lemma cc_digit ic c : cc_match ic [CDigit] c = is_ascii_digit c.
Proof. cbn. apply orb_false_r. Qed.

Lemma m_chr_ok fuel ic cs c s g k : cc_match ic cs c = true -> m fuel ic (Chr cs) (c :: s) g k = k s g.
Proof. intros H. cbn. rewrite H. reflexivity. Qed.

Lemma m_chr_miss fuel ic cs c s g k : cc_match ic cs c = false -> m fuel ic (Chr cs) (c :: s) g k = NoMatch.
Proof. intros H. cbn. rewrite H. reflexivity. Qed.

Lemma m_opt_some fuel ic a s g k e gf :
  m fuel ic a s g k = Match e gf -> m fuel ic (Opt a) s g k = Match e gf.
Proof. intros H. cbn [m]. rewrite H. reflexivity. Qed.

Lemma m_opt_none fuel ic a s g k :
  m fuel ic a s g k = NoMatch -> m fuel ic (Opt a) s g k = k s g.
Proof. intros H. cbn [m]. rewrite H. reflexivity. Qed.

Fixpoint nullable (r : re) : bool :=
  match r with
  | Eps => true
  | Chr _ => false
  | Seq a _ => nullable a                 (* conservative: the second component is ignored *)
  | Alt a b => nullable a || nullable b
  | Opt _ => true
  | Rep lo _ a => match lo with O => true | _ => nullable a end
  | Plus a => nullable a
  | Group _ _ a => nullable a
  end.

(* could a match of [r] start with the character [c]?  (conservative) *)
Fixpoint first_ok (ic : bool) (r : re) (c : Z) : bool :=
  match r with
  | Eps => true
  | Chr cs => cc_match ic cs c
  | Seq a _ => if nullable a then true else first_ok ic a c
  | Alt a b => first_ok ic a c || first_ok ic b c
  | Opt _ => true
  | Rep lo _ a => match lo with O => true | _ => first_ok ic a c end
  | Plus a => first_ok ic a c
  | Group _ _ a => first_ok ic a c
  end.

Lemma first_ok_nullable ic r c : nullable r = true -> first_ok ic r c = true.
Proof.
  induction r; cbn; intros H; try reflexivity; try discriminate.
  - rewrite H. reflexivity.
  - apply orb_true_iff in H. destruct H as [H|H]; [rewrite IHr1|rewrite IHr2]; auto using orb_true_r.
  - destruct lo; auto.
  - auto.
  - auto.
Qed.

Lemma nohead_impl (p q : Z -> bool) s : (forall c, p c = false -> q c = false) -> nohead p s -> nohead q s.
Proof. destruct s; cbn; auto. Qed.

Lemma m_miss ic : forall r fuel s g k, (0 < fuel)%nat -> nullable r = false -> nohead (first_ok ic r) s ->
  m fuel ic r s g k = NoMatch.
Proof.
  induction r; intros fuel s g k Hf Hn H; cbn [nullable] in Hn; try discriminate.
  - destruct s as [|c s]; [reflexivity|apply m_chr_miss; exact H].
  - cbn [m]. apply IHr1; [exact Hf|exact Hn|]. revert H. apply nohead_impl. intros c. cbn [first_ok]. rewrite Hn. auto.
  - apply orb_false_iff in Hn.
    assert (H' : nohead (first_ok ic r1) s /\ nohead (first_ok ic r2) s)
      by (split; revert H; apply nohead_impl; intros c Hc; cbn [first_ok] in Hc; apply orb_false_iff in Hc; tauto).
    cbn [m]. rewrite IHr1 by tauto. apply IHr2; tauto.
  - destruct lo as [|lo]; [discriminate|]. cbn [m].
    destruct hi as [|hi]; cbn [rep_loop]; [reflexivity|]. rewrite IHr by assumption. reflexivity.
  - cbn [m]. destruct fuel as [|fuel]; [lia|]. cbn [plus_loop]. apply IHr; [lia|exact Hn|exact H].
  - cbn [m]. apply IHr; assumption.
Qed.

(* a pattern whose first character class rejects [c] is not nullable either *)
Lemma first_miss ic r fuel c s g k : (0 < fuel)%nat -> first_ok ic r c = false -> m fuel ic r (c :: s) g k = NoMatch.
Proof.
  intros Hf H. apply m_miss; [exact Hf| |exact H].
  destruct (nullable r) eqn:E; [|reflexivity]. rewrite first_ok_nullable in H by exact E. discriminate.
Qed.

Lemma empty_miss ic r fuel g k : (0 < fuel)%nat -> nullable r = false -> m fuel ic r [] g k = NoMatch.
Proof. intros Hf Hn. apply m_miss; [exact Hf|exact Hn|exact I]. Qed.

Definition cannot_start (rx : regex) (c : Z) : Prop := first_ok (rx_ic rx) (rx_re rx) c = false.

Lemma search_from_skip rx fuel : (0 < fuel)%nat -> forall s1 s2 pos,
  Forall (cannot_start rx) s1 ->
  search_from fuel rx pos (s1 ++ s2) = search_from fuel rx (pos + length s1)%nat s2.
Proof.
  intros Hf. induction s1 as [|c s1 IH]; intros s2 pos H.
  - cbn. rewrite Nat.add_0_r. reflexivity.
  - inversion H as [|? ? H1 H2]; subst. cbn [app].
    cbn [search_from]. unfold match_here at 1. rewrite first_miss by assumption.
    rewrite IH by assumption. cbn [length]. f_equal. lia.
Qed.

Lemma search_from_none rx fuel pos s : (0 < fuel)%nat -> nullable (rx_re rx) = false ->
  Forall (cannot_start rx) s -> search_from fuel rx pos s = SNoMatch.
Proof.
  intros Hf Hn H. rewrite <- (app_nil_r s). rewrite search_from_skip by assumption.
  cbn. unfold match_here. rewrite empty_miss by assumption. reflexivity.
Qed.

Lemma search_none rx s : nullable (rx_re rx) = false -> Forall (cannot_start rx) s -> search rx s = SNoMatch.
Proof. intros. unfold search, search_fuel. apply search_from_none; [lia|assumption|assumption]. Qed.

Lemma search_hit rx s e g :
  match_here (S (length s)) rx s = Match e g -> search rx s = SMatch O (span s e) g.
Proof.
  intros H. unfold search, search_fuel. destruct s; cbn [search_from]; rewrite H; reflexivity.
Qed.

(* one-step unfoldings, as equations (so that the other constructors stay folded) *)
Lemma m_seq fuel ic a b s g k : m fuel ic (Seq a b) s g k = m fuel ic a s g (fun s' g' => m fuel ic b s' g' k).
Proof. reflexivity. Qed.
Lemma m_group fuel ic i nm a s g k :
  m fuel ic (Group i nm a) s g k = m fuel ic a s g (fun s' g' => k s' (gset i (span s s') g')).
Proof. reflexivity. Qed.
Lemma span_cons1 c (s : text) : span (c :: s) s = [c].
Proof. exact (span_app [c] s). Qed.

Lemma lower_c_digit c : is_ascii_digit c = true -> lower_c c = c.
Proof. unfold is_ascii_digit, lower_c. intros H. destruct ((65 <=? c) && (c <=? 90)) eqn:E; lia. Qed.

Lemma lit_match_ic l c : cc_match true [CLit l] c = (lower_c c =? lower_c l).
Proof. cbn. apply orb_false_r. Qed.

(* int() of a digit run *)
Definition dval (ds : text) : Z := fold_left (fun a c => a * 10 + (c - 48)) ds 0.

Lemma digits_val_fold : forall ds acc, all_digits ds ->
  digits_val ds acc = Some (fold_left (fun a c => a * 10 + (c - 48)) ds acc).
Proof.
  induction ds as [|d ds IH]; intros acc H; [reflexivity|].
  inversion H as [|? ? H1 H2]; subst. cbn [digits_val fold_left]. rewrite H1. apply IH. exact H2.
Qed.

Lemma py_int_digits ds : all_digits ds -> ds <> [] -> py_int ds = Ok (dval ds).
Proof.
  intros H Hne. destruct ds as [|d ds]; [congruence|].
  inversion H as [|? ? H1 H2]; subst.
  unfold py_int. unfold is_ascii_digit in H1.
  assert (d <> 45 /\ d <> 43) as [N1 N2] by lia.
  destruct d as [|p|p]; try lia.
  do 6 (destruct p as [p|p|]; try lia; try (rewrite digits_val_fold by exact H; reflexivity)).
Qed.

(* a literal word and an alternation of words, in the shape the pattern parser gives them *)
Fixpoint word (w : text) : re :=
  match w with [] => Eps | [l] => Chr [CLit l] | l :: r => Seq (Chr [CLit l]) (word r) end.
Fixpoint words (ws : list text) : re :=
  match ws with [] => Chr [] | [w] => word w | w :: r => Alt (word w) (words r) end.

Definition spells (ic : bool) (w v : text) : Prop := Forall2 (fun l c => ci_match ic (CLit l) c = true) w v.

Lemma m_word_cons fuel ic l w s g k :
  m fuel ic (word (l :: w)) s g k =
  match s with
  | c :: s' => if ci_match ic (CLit l) c then m fuel ic (word w) s' g k else NoMatch
  | [] => NoMatch
  end.
Proof. destruct w; destruct s as [|c s]; cbn; rewrite ?orb_false_r; reflexivity. Qed.

Lemma m_word_ok fuel ic : forall w v s g k, spells ic w v -> m fuel ic (word w) (v ++ s) g k = k s g.
Proof.
  induction w as [|l w IH]; intros v s g k H; inversion H as [|? c ? v' Hc Hv]; subst; [reflexivity|].
  cbn [app]. rewrite m_word_cons, Hc. apply IH. exact Hv.
Qed.

Lemma m_word_inv fuel ic : forall w s g k,
  m fuel ic (word w) s g k = NoMatch \/ exists s', m fuel ic (word w) s g k = k s' g.
Proof.
  induction w as [|l w IH]; intros s g k; [right; exists s; reflexivity|].
  rewrite m_word_cons. destruct s as [|c s]; [left; reflexivity|].
  destruct (ci_match ic (CLit l) c); [|left; reflexivity].
  apply IH.
Qed.

(* under a continuation that wants the end of the text, the first alternative that spells the
   whole text decides; earlier ones fail or stop short *)
Lemma m_words_end fuel ic w v g k e gf :
  (forall c s g', k (c :: s) g' = NoMatch) -> spells ic w v -> k [] g = Match e gf ->
  forall ws, In w ws -> m fuel ic (words ws) v g k = Match e gf.
Proof.
  intros Hk Hw HK. induction ws as [|w0 ws IH]; intros Hin; [contradiction|].
  assert (E0 : w0 = w -> m fuel ic (word w0) v g k = Match e gf).
  { intros ->. rewrite <- (app_nil_r v). rewrite m_word_ok by exact Hw. exact HK. }
  destruct ws as [|w1 ws]; [destruct Hin as [E|[]]; exact (E0 E)|].
  change (words (w0 :: w1 :: ws)) with (Alt (word w0) (words (w1 :: ws))). cbn [m].
  destruct Hin as [E|Hin]; [rewrite (E0 E); reflexivity|].
  destruct (m_word_inv fuel ic w0 v g k) as [E|(s' & E)]; rewrite E.
  - apply IH. exact Hin.
  - destruct s' as [|c s']; [rewrite HK; reflexivity|]. rewrite Hk. apply IH. exact Hin.
Qed.

Lemma lower_upper_c c : lower_c (upper_c c) = lower_c c.
Proof.
  unfold lower_c, upper_c. destruct ((97 <=? c) && (c <=? 122)) eqn:E1;
    destruct ((65 <=? c) && (c <=? 90)) eqn:E2; destruct ((65 <=? c - 32) && (c - 32 <=? 90)) eqn:E3; lia.
Qed.

Lemma spells_upper v : spells true (upper v) v.
Proof.
  induction v as [|c v IH]; constructor; [|exact IH]. cbn. rewrite lower_upper_c. apply Z.eqb_refl.
Qed.

Lemma at_end_cons c s g : at_end (c :: s) g = NoMatch.
Proof. reflexivity. Qed.

Lemma fullmatch_hit rx s e g : fullmatch_here (S (length s)) rx s = Match e g -> fullmatch rx s = SMatch O s g.
Proof. intros H. unfold fullmatch. rewrite H. reflexivity. Qed.
Lemma fullmatch_miss rx s : fullmatch_here (S (length s)) rx s = NoMatch -> fullmatch rx s = SNoMatch.
Proof. intros H. unfold fullmatch. rewrite H. reflexivity. Qed.
Lemma fullmatch_first_miss rx c s : cannot_start rx c -> fullmatch rx (c :: s) = SNoMatch.
Proof. intros H. apply fullmatch_miss. unfold fullmatch_here. apply first_miss; [lia|exact H]. Qed.

(* could [r] consume the character [c] first?  (conservative; [r] may be nullable) *)
Fixpoint firstc (ic : bool) (r : re) (c : Z) : bool :=
  match r with
  | Eps => false
  | Chr cs => cc_match ic cs c
  | Seq a b => firstc ic a c || (nullable a && firstc ic b c)
  | Alt a b => firstc ic a c || firstc ic b c
  | Opt a => firstc ic a c
  | Rep _ _ a => firstc ic a c
  | Plus a => first_ok ic a c
  | Group _ _ a => firstc ic a c
  end.

Lemma firstc_first_ok ic c : forall r, nullable r = false -> firstc ic r c = false -> first_ok ic r c = false.
Proof.
  induction r; cbn [nullable firstc first_ok]; intros Hn H; try discriminate; try assumption.
  - rewrite Hn in H |- *. apply orb_false_iff in H. destruct H as [H _]. apply IHr1; assumption.
  - apply orb_false_iff in Hn. destruct Hn. apply orb_false_iff in H. destruct H.
    rewrite IHr1, IHr2 by assumption. reflexivity.
  - destruct lo; [discriminate|]. apply IHr; assumption.
  - apply IHr; assumption.
Qed.

Lemma m_skip ic fuel c s : (0 < fuel)%nat -> forall r g k,
  firstc ic r c = false -> (forall g', k (c :: s) g' = NoMatch) -> m fuel ic r (c :: s) g k = NoMatch.
Proof.
  intros Hf. induction r; intros g k H Hk; cbn [firstc] in H.
  - apply Hk.
  - apply m_chr_miss. exact H.
  - apply orb_false_iff in H. destruct H as [H1 H2]. destruct (nullable r1) eqn:En.
    + cbn [andb] in H2. rewrite m_seq. apply IHr1; [exact H1|]. intros g'. apply IHr2; assumption.
    + rewrite m_seq. apply first_miss; [exact Hf|]. apply firstc_first_ok; assumption.
  - apply orb_false_iff in H. destruct H as [H1 H2]. cbn [m]. rewrite IHr1 by assumption. apply IHr2; assumption.
  - cbn [m]. rewrite IHr by assumption. apply Hk.
  - cbn [m]. revert lo g. induction hi as [|hi IHhi]; intros lo g; cbn [rep_loop].
    + destruct lo; [apply Hk|reflexivity].
    + rewrite IHr; [destruct lo; [apply Hk|reflexivity]|exact H|]. intros g'. apply IHhi.
  - cbn [m]. destruct fuel as [|fuel]; [lia|]. cbn [plus_loop]. apply first_miss; [lia|exact H].
  - rewrite m_group. apply IHr; [exact H|]. intros g'. apply Hk.
Qed.

(* a digit run followed by a continuation that fails on every text starting with a digit: only the
   split after the whole run can succeed, so the repetition behaves deterministically *)
Definition digit_blind (k : K) : Prop := forall d s g, is_ascii_digit d = true -> k (d :: s) g = NoMatch.

(* the greedy choice, the whole run, decides: it is the first one tried if the continuation succeeds
   there, and the only one possible if the continuation fails on digits *)
Lemma rep_digits_greedy fuel ic : forall ds lo hi rest g K,
  all_digits ds -> (lo <= length ds)%nat -> (length ds <= hi)%nat -> nodigit_head rest ->
  K rest g <> NoMatch \/ digit_blind K ->
  rep_loop (m fuel ic (Chr [CDigit])) lo hi (ds ++ rest) g K = K rest g.
Proof.
  induction ds as [|d ds IH]; intros lo hi rest g K Hd Hlo Hhi Hend HK.
  - cbn in Hlo. assert (lo = O) by lia. subst lo. cbn [app].
    destruct hi as [|hi]; cbn [rep_loop]; [reflexivity|].
    destruct rest as [|c rest]; [reflexivity|]. cbn in Hend.
    rewrite m_chr_miss by (rewrite cc_digit; exact Hend). reflexivity.
  - destruct hi as [|hi]; [cbn in Hhi; lia|].
    inversion Hd as [|? ? Hd1 Hd2]; subst.
    cbn [app rep_loop]. rewrite m_chr_ok by (rewrite cc_digit; exact Hd1).
    rewrite (IH (pred lo) hi rest g K) by (try assumption; cbn in Hlo, Hhi; lia).
    destruct (K rest g) eqn:E; try reflexivity.
    destruct lo; [|reflexivity]. destruct HK as [HK|HK]; [congruence|apply HK; exact Hd1].
Qed.

Lemma a_group_digits fuel ic i nm lo hi ds rest g k R :
  all_digits ds -> (lo <= length ds)%nat -> (length ds <= hi)%nat -> nodigit_head rest ->
  R <> NoMatch \/ digit_blind k ->
  k rest (gset i ds g) = R -> m fuel ic (Group i nm (Rep lo hi (Chr [CDigit]))) (ds ++ rest) g k = R.
Proof.
  intros Hd Hlo Hhi Hend Hk HR.
  change (rep_loop (m fuel ic (Chr [CDigit])) lo hi (ds ++ rest) g
            (fun s' g' => k s' (gset i (span (ds ++ rest) s') g')) = R).
  rewrite rep_digits_greedy; try assumption; cbv beta; rewrite span_app; [exact HR|].
  destruct Hk as [Hk|Hk]; [left; rewrite HR; exact Hk|right; intros d s g' H; apply Hk; exact H].
Qed.

Lemma group_digits_ok fuel ic i nm lo hi ds rest g k e gf :
  all_digits ds -> (lo <= length ds)%nat -> (length ds <= hi)%nat -> nodigit_head rest ->
  k rest (gset i ds g) = Match e gf ->
  m fuel ic (Group i nm (Rep lo hi (Chr [CDigit]))) (ds ++ rest) g k = Match e gf.
Proof. intros Hd Hlo Hhi Hend Hk. apply a_group_digits; try assumption. left. discriminate. Qed.

Lemma plus_digits_ok f0 ic : forall ds fuel rest g K e gf,
  all_digits ds -> ds <> [] -> nodigit_head rest -> (length ds < fuel)%nat ->
  K rest g = Match e gf ->
  plus_loop (m f0 ic (Chr [CDigit])) fuel (ds ++ rest) g K = Match e gf.
Proof.
  induction ds as [|d ds IH]; intros fuel rest g K e gf Hd Hne Hend Hfuel HK; [congruence|].
  inversion Hd as [|? ? Hd1 Hd2]; subst.
  destruct fuel as [|fuel]; [cbn in Hfuel; lia|].
  cbn [app plus_loop]. rewrite m_chr_ok by (rewrite cc_digit; exact Hd1).
  destruct ds as [|d2 ds].
  - cbn [app]. destruct fuel as [|fuel]; [cbn in Hfuel; lia|].
    cbn [plus_loop]. destruct rest as [|c rest].
    + cbn. exact HK.
    + cbn in Hend. rewrite m_chr_miss by (rewrite cc_digit; exact Hend). exact HK.
  - rewrite (IH fuel rest g K e gf); try assumption; [reflexivity|congruence|cbn in Hfuel |- *; lia].
Qed.

Lemma group_plus_digits_ok fuel ic i nm ds rest g k e gf :
  all_digits ds -> ds <> [] -> nodigit_head rest -> (length ds < fuel)%nat ->
  k rest (gset i ds g) = Match e gf ->
  m fuel ic (Group i nm (Plus (Chr [CDigit]))) (ds ++ rest) g k = Match e gf.
Proof.
  intros Hd Hne Hend Hf Hk.
  change (plus_loop (m fuel ic (Chr [CDigit])) fuel (ds ++ rest) g
            (fun s' g' => k s' (gset i (span (ds ++ rest) s') g')) = Match e gf).
  apply plus_digits_ok; try assumption. rewrite span_app. exact Hk.
Qed.

(* a digit run LONGER than the repetition allows can never be consumed up to the character the
   pattern wants next: at every split point the continuation meets a digit *)
Lemma rep_digits_overlong fuel ic rest K :
  (forall d ds' g', is_ascii_digit d = true -> all_digits ds' -> K (d :: ds' ++ rest) g' = NoMatch) ->
  forall hi lo ds g, all_digits ds -> (hi < length ds)%nat ->
  rep_loop (m fuel ic (Chr [CDigit])) lo hi (ds ++ rest) g K = NoMatch.
Proof.
  intros HK. induction hi as [|hi IH]; intros lo ds g Hd Hl;
    (destruct ds as [|d ds]; [cbn in Hl; lia|]); inversion Hd; subst; cbn [app rep_loop].
  - destruct lo; [apply HK; assumption|reflexivity].
  - rewrite m_chr_ok by (rewrite cc_digit; assumption). rewrite IH by (try assumption; cbn in Hl; lia).
    destruct lo; [apply HK; assumption|reflexivity].
Qed.

Lemma group_digits_overlong fuel ic i nm lo hi ds rest g k :
  all_digits ds -> (hi < length ds)%nat ->
  (forall d ds' g', is_ascii_digit d = true -> all_digits ds' -> k (d :: ds' ++ rest) g' = NoMatch) ->
  m fuel ic (Group i nm (Rep lo hi (Chr [CDigit]))) (ds ++ rest) g k = NoMatch.
Proof.
  intros Hd Hlen Hk.
  change (rep_loop (m fuel ic (Chr [CDigit])) lo hi (ds ++ rest) g
            (fun s' g' => k s' (gset i (span (ds ++ rest) s') g')) = NoMatch).
  apply rep_digits_overlong; try assumption. intros d ds' g' H H'. apply Hk; assumption.
Qed.

Lemma group_digits_overlong_k fuel ic i nm lo hi ds rest g k :
  all_digits ds -> (hi < length ds)%nat -> digit_blind k ->
  m fuel ic (Group i nm (Rep lo hi (Chr [CDigit]))) (ds ++ rest) g k = NoMatch.
Proof. intros Hd Hlen Hk. apply group_digits_overlong; try assumption. intros d ds' g' H _. apply Hk. exact H. Qed.

(* a digit run of any length before a digit-blind continuation: consumed whole if the repetition
   allows its length, no match otherwise; the same for an optional group that is present *)
Lemma a_group_digits_any fuel ic i nm hi ds rest g k :
  all_digits ds -> ds <> [] -> nodigit_head rest -> digit_blind k ->
  ((length ds <= hi)%nat -> k rest (gset i ds g) = NoMatch) ->
  m fuel ic (Group i nm (Rep 1 hi (Chr [CDigit]))) (ds ++ rest) g k = NoMatch.
Proof.
  intros Hd Hne Hr Hk HR. destruct (le_lt_dec (length ds) hi) as [L|L].
  - apply a_group_digits; auto. destruct ds; [congruence|cbn; lia].
  - apply group_digits_overlong_k; assumption.
Qed.

Lemma a_opt_group_digits_any fuel ic i nm hi ds rest g k :
  all_digits ds -> ds <> [] -> nodigit_head rest -> digit_blind k ->
  ((length ds <= hi)%nat -> k rest (gset i ds g) = NoMatch) ->
  m fuel ic (Opt (Group i nm (Rep 1 hi (Chr [CDigit])))) (ds ++ rest) g k = NoMatch.
Proof.
  intros Hd Hne Hr Hk HR. rewrite m_opt_none by (apply a_group_digits_any; assumption).
  destruct ds as [|d ds]; [congruence|]. inversion Hd; subst. apply Hk. assumption.
Qed.

Lemma digit_blind_skip ic fuel r k : (0 < fuel)%nat ->
  (forall d, is_ascii_digit d = true -> firstc ic r d = false) -> digit_blind k ->
  digit_blind (fun s g => m fuel ic r s g k).
Proof. intros Hf Hr Hk d s g Hd. apply m_skip; [exact Hf|apply Hr; exact Hd|]. intros g'. apply Hk. exact Hd. Qed.

Lemma digit_blind_at_end : digit_blind at_end.
Proof. intros d s g _. reflexivity. Qed.

Lemma digit_blind_first ic fuel r k : (0 < fuel)%nat ->
  (forall d, is_ascii_digit d = true -> first_ok ic r d = false) -> digit_blind (fun s g => m fuel ic r s g k).
Proof. intros Hf Hr d s g Hd. apply first_miss; [exact Hf|apply Hr; exact Hd]. Qed.
