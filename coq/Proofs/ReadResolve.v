(* Proofs/ReadResolve.v — names a request may use, the two first segments of a tag's request path (symbolic
   name, symbol instance) with the target's reading of them, and how target, reference and client (LogixDriver._tags
   after the upload, [upload_ok]) look a visible tag up. *)
From Coq Require Import ZifyBool String.
From PV Require Import Base.Bytes Base.BytesLemmas Base.Res Base.Proto Base.PyStr.
From PV Require Import Gen.Consts Gen.PathTables Model.Path Model.Reply Model.LogixPlan Model.LogixRead.
From PV Require Import Spec.EncapParser Spec.MRParser Spec.TargetIface Spec.TargetCore Spec.Project Spec.Expect Spec.TargetLogix.
From PV Require Import Proofs.PathStr Proofs.TargetCoreP Proofs.TargetLogixP Proofs.ReadDecode Proofs.ReadTarget
  Proofs.ReadValue Proofs.ReadCorrect.
Open Scope list_scope.
Open Scope Z_scope.
Ltac Zify.zify_post_hook ::= Z.to_euclidean_division_equations.

Definition plain_char (c : Z) : bool :=
  (0 <=? c) && (c <? 128) && negb (c =? 46) && negb (c =? 91) && negb (c =? 93) && negb (c =? 123) && negb (c =? 125)
  && negb (c =? 58).
Definition plain_name (n : text) : bool :=
  forallb plain_char n && negb (match n with [] => true | _ => false end) && (Path.len n <? 256).

Lemma plain_nosep c n : forallb plain_char n = true -> (c = 46 \/ c = 91 \/ c = 93 \/ c = 123 \/ c = 125 \/ c = 58) ->
  nosep c n = true.
Proof.
  intros H Hc. unfold nosep. apply (forallb_impl plain_char); [|exact H]. unfold plain_char. lia.
Qed.

Lemma split_nosep c n : nosep c n = true -> split_chr c n = [n].
Proof. intros H. exact (split_join c n [] H eq_refl). Qed.

Lemma find_nosep c n : nosep c n = true -> find [c] n = None.
Proof.
  unfold find. intros H. generalize 0%nat as i. revert H. induction n as [|x n IH]; intros H i; cbn [find_from starts_with].
  - reflexivity.
  - unfold nosep in H. cbn [forallb] in H. apply andb_prop in H. destruct H as [Hx Hn].
    replace (c =? x) with false by lia. cbn [andb]. apply IH. exact Hn.
Qed.

Lemma starts_with_program n : forallb plain_char n = true -> starts_with txt_Program_ n = false.
Proof.
  intros H. destruct (starts_with txt_Program_ n) eqn:E; [|reflexivity].
  apply starts_with_app in E. destruct E as [r ->]. rewrite forallb_forall in H.
  assert (Hin : In 58 (txt_Program_ ++ r)) by (apply in_or_app; left; vm_compute; tauto).
  specialize (H 58 Hin). vm_compute in H. discriminate.
Qed.

Definition sym_seg_bytes (n : text) : bytes := [145; Path.len n] ++ n ++ (if odd_len n then [0] else []).

Lemma plain_ascii n : forallb plain_char n = true -> ascii_ok n = true.
Proof.
  unfold ascii_ok. apply forallb_impl. unfold plain_char. lia.
Qed.

Lemma even_len_sym n : Z.even (Path.len (sym_seg_bytes n)) = true.
Proof.
  unfold sym_seg_bytes, Path.len, odd_len. rewrite !app_length. cbn [length].
  destruct (Nat.odd (length n)) eqn:E; cbn [length].
  - apply Nat.odd_spec in E. destruct E as [k Hk]. apply Z.even_spec. exists (Z.of_nat k + 2). lia.
  - assert (Ev : Nat.even (length n) = true) by (rewrite <- Nat.negb_odd, E; reflexivity).
    apply Nat.even_spec in Ev. destruct Ev as [k Hk]. apply Z.even_spec. exists (Z.of_nat k + 1). lia.
Qed.

Lemma sym_seg_len4 n : 1 <= Path.len n -> 4 <= Path.len (sym_seg_bytes n).
Proof.
  intros H. unfold sym_seg_bytes, Path.len, odd_len in *. rewrite !app_length. cbn [length].
  destruct (Nat.odd (length n)) eqn:E; cbn [length]; [lia|].
  assert (length n <> 1%nat) by (intros E1; rewrite E1 in E; discriminate). lia.
Qed.

Definition inst_seg_bytes (inst : Z) : bytes :=
  [32; 107] ++ (if inst <=? 255 then [36; inst]
                else if inst <=? 65535 then 37 :: 0 :: le_enc 2 inst
                else 38 :: 0 :: le_enc 4 inst).

Lemma encode_class_seg : encode_logical true (txt "class_id") (LBytes class_symbol_object) = Ok [32; 107].
Proof. vm_compute. reflexivity. Qed.

Lemma logical_value_int v : 0 <= v < 4294967296 ->
  logical_value_bytes (LInt v) = Ok (if v <=? 255 then [v] else if v <=? 65535 then le_enc 2 v else le_enc 4 v).
Proof.
  intros H. unfold logical_value_bytes, UINT_encode, UDINT_encode, uint_encode, in_urange.
  change (pow256 2) with 65536. change (pow256 4) with 4294967296.
  destruct (v <=? 255) eqn:E1; [|destruct (v <=? 65535) eqn:E2; [|replace (v <=? 4294967295) with true by lia]].
  - apply USINT_small. lia.
  - replace ((0 <=? v) && (v <? 65536)) with true by lia. reflexivity.
  - replace ((0 <=? v) && (v <? 4294967296)) with true by lia. reflexivity.
Qed.

Lemma encode_inst_seg inst : 0 < inst < 4294967296 ->
  encode_logical true (txt "instance_id") (LInt inst)
  = Ok (if inst <=? 255 then [36; inst] else if inst <=? 65535 then 37 :: 0 :: le_enc 2 inst else 38 :: 0 :: le_enc 4 inst).
Proof.
  intros H. unfold encode_logical, encode_logical_with. rewrite logical_value_int by lia.
  destruct (inst <=? 255); [|destruct (inst <=? 65535)]; reflexivity.
Qed.

Lemma pl_32 v r : parse_logical 32 (v :: r) = Some (0, v, r).
Proof. reflexivity. Qed.
Lemma pl_36 v r : parse_logical 36 (v :: r) = Some (1, v, r).
Proof. reflexivity. Qed.
Lemma pl_37 lo hi r : parse_logical 37 (0 :: lo :: hi :: r) = Some (1, u16 lo hi, r).
Proof. reflexivity. Qed.
Lemma pl_38 b0 b1 b2 b3 r : parse_logical 38 (0 :: b0 :: b1 :: b2 :: b3 :: r) = Some (1, u32 b0 b1 b2 b3, r).
Proof. reflexivity. Qed.

Lemma pseg_log b r : (b =? 145) = false ->
  parse_pseg b r = match parse_logical b r with Some (lt, v, r') => Some (PLog lt v, r') | None => None end.
Proof. intros H. unfold parse_pseg. rewrite H. reflexivity. Qed.

Lemma scope_eqb_refl sc : scope_eqb sc sc = true.
Proof. destruct sc; [reflexivity|apply name_eqb_refl]. Qed.

Lemma tag_key_sym a b : tag_key_eqb a b = tag_key_eqb b a.
Proof.
  unfold tag_key_eqb, name_eqb. rewrite (teqb_sym (lower (g_name a))). f_equal.
  destruct (g_scope a), (g_scope b); try reflexivity. cbn. unfold name_eqb. apply teqb_sym.
Qed.

Lemma find_tag_name_distinct gs g : distinct_by tag_key_eqb gs = true -> In g gs ->
  find_tag_name gs (g_scope g) (g_name g) = Some g.
Proof.
  induction gs as [|h r IH]; intros Hd Hin; [contradiction|].
  cbn [distinct_by] in Hd. apply andb_prop in Hd. destruct Hd as [Hh Hr]. apply negb_true_iff in Hh.
  cbn [find_tag_name]. destruct Hin as [->|Hin].
  - rewrite scope_eqb_refl, name_eqb_refl. reflexivity.
  - destruct (scope_eqb (g_scope h) (g_scope g) && name_eqb (g_name h) (g_name g)) eqn:E; [|apply IH; assumption].
    exfalso. assert (existsb (tag_key_eqb h) r = true); [|congruence].
    apply existsb_exists. exists g. split; [exact Hin|exact E].
Qed.

Lemma find_tag_inst_distinct gs g : distinct_by Z.eqb (map g_inst gs) = true -> In g gs ->
  find_tag_inst gs (g_inst g) = Some g.
Proof.
  induction gs as [|h r IH]; intros Hd Hin; [contradiction|].
  cbn [map distinct_by] in Hd. apply andb_prop in Hd. destruct Hd as [Hh Hr]. apply negb_true_iff in Hh.
  cbn [find_tag_inst]. destruct Hin as [->|Hin].
  - rewrite Z.eqb_refl. reflexivity.
  - destruct (g_inst h =? g_inst g) eqn:E; [|apply IH; assumption].
    exfalso. assert (existsb (Z.eqb (g_inst h)) (map g_inst r) = true); [|congruence].
    apply existsb_exists. exists (g_inst g). split; [apply in_map; exact Hin|exact E].
Qed.

(* LogixDriver._tags[name] *)
Definition tags_step (p : project) (d : tagdb) (g : tagdef) : tagdb :=
  match tag_info p g with Some i => dset (full_name g) i d | None => d end.

Lemma dget_dset_other {A} k k' (v : A) d : k' <> k -> dget k (dset k' v d) = dget k d.
Proof.
  intros Hne. induction d as [|[k0 v0] r IH]; cbn.
  - rewrite teqb_neq by exact Hne. reflexivity.
  - destruct (text_eqb k0 k') eqn:E.
    + apply teqb_eq in E. subst k0. cbn. rewrite teqb_neq by exact Hne. reflexivity.
    + cbn. destruct (text_eqb k0 k); [reflexivity|exact IH].
Qed.

Lemma fold_tags_other p l : forall d k, ~ In k (map full_name l) -> dget k (fold_left (tags_step p) l d) = dget k d.
Proof.
  induction l as [|h r IH]; intros d k Hk; [reflexivity|].
  cbn [fold_left]. rewrite IH by (intros H; apply Hk; right; exact H).
  unfold tags_step. destruct (tag_info p h); [|reflexivity].
  apply dget_dset_other. intros E. apply Hk. left. exact E.
Qed.

Lemma client_tags_lookup p g info : NoDup (map full_name (visible_tags p)) -> In g (visible_tags p) ->
  tag_info p g = Some info -> dget (full_name g) (client_tags p) = Some info.
Proof.
  unfold client_tags. change (fun d g0 => match tag_info p g0 with Some i => dset (full_name g0) i d | None => d end) with (tags_step p).
  generalize (@nil (text * tinfo)) as d. induction (visible_tags p) as [|h r IH]; intros d Hnd Hin Hi; [contradiction|].
  cbn [map] in Hnd. inversion Hnd as [|x y Hn Hd]; subst. cbn [fold_left].
  destruct Hin as [->|Hin].
  - rewrite fold_tags_other by exact Hn. unfold tags_step. rewrite Hi. apply dget_dset_same.
  - apply IH; assumption.
Qed.

Lemma dims_count_pos dims : forallb (fun d => 0 <? d) dims = true -> 1 <= dims_count dims.
Proof.
  induction dims as [|d r IH]; intros H; [cbn; lia|]. cbn [forallb] in H. apply andb_prop in H. destruct H as [Hd Hr].
  unfold dims_count in *. cbn [fold_right]. specialize (IH Hr). nia.
Qed.

Lemma wf_mem_size p mem g s img : wf_mem p mem = true -> In g (p_tags p) -> tag_size p g = Some s ->
  mem_get mem (g_inst g) = Some img -> Path.len img = s.
Proof.
  unfold wf_mem. intros H Hin Hs Hg. apply andb_prop in H. destruct H as [H _]. apply andb_prop in H. destruct H as [Ht _].
  rewrite forallb_forall in Ht. specialize (Ht g Hin). rewrite Hs, Hg in Ht. apply andb_prop in Ht. unfold Path.len. lia.
Qed.

Definition upload_ok (p : project) : bool :=
  forallb (fun g => match tag_info p g with Some _ => true | None => false end) (visible_tags p)
  && distinct_by text_eqb (map full_name (visible_tags p))
  && forallb (fun t => negb (text_eqb (client_type_name (t_name t)) txt_DWORD)) (p_templates p).

Lemma atom_client_name c s : atom_size c = Some s ->
  exists n k, atom_class c = Some (n, s, k) /\ atom_name c = Some n /\ client_type_name n = n
              /\ text_eqb n txt_DWORD = (c =? C_DWORD) /\ text_eqb n txt_BOOL = (c =? C_BOOL).
Proof.
  intros H. atom_cases H; vm_compute in H; injection H as <-;
  eexists; eexists; (split; [vm_compute; reflexivity|]); vm_compute; repeat split; reflexivity.
Qed.

Lemma tag_info_inst p g info : tag_info p g = Some info -> ti_inst info = Some (g_inst g).
Proof.
  unfold tag_info. destruct (g_ty g) as [c|tid|w]; [| |discriminate].
  - destruct (atom_class c) as [[[n sz] k]|]; [|discriminate]. intros H; injection H as <-. reflexivity.
  - destruct (struct_dtype (client_fuel p) p tid) as [[[[[n tc] sz] attrs] mem]|]; [|discriminate].
    intros H; injection H as <-. reflexivity.
Qed.

Lemma struct_dtype_S f p tid :
  struct_dtype (S f) p tid
  = match find_template (p_templates p) tid with
    | None => None
    | Some t => match member_infos (struct_dtype f p) (t_members t) with
                | Some infos => Some (dtype_of t infos)
                | None => None
                end
    end.
Proof. reflexivity. Qed.

Section VisibleTag.
  Variables (p : project) (g : tagdef).
  Hypothesis Hwf : wf_project p = true.
  Hypothesis Hvis : In g (visible_tags p).

  Lemma pl_in_tags : In g (p_tags p).
  Proof. unfold visible_tags in Hvis. apply filter_In in Hvis. tauto. Qed.

  Lemma pl_wf : tag_ok p g = true /\ distinct_by Z.eqb (map g_inst (p_tags p)) = true
                /\ distinct_by tag_key_eqb (p_tags p) = true.
  Proof.
    pose proof Hwf as H. unfold wf_project in H. repeat (apply andb_prop in H; destruct H as [H ?]).
    repeat split; try assumption. apply (forallb_In _ (p_tags p)); [assumption|exact pl_in_tags].
  Qed.

  Lemma pl_info : upload_ok p = true -> exists info, tag_info p g = Some info /\ dget (full_name g) (client_tags p) = Some info.
  Proof.
    intros Hup. unfold upload_ok in Hup. apply andb_prop in Hup. destruct Hup as [Hup1 _]. apply andb_prop in Hup1. destruct Hup1 as [Hinfo Hdist].
    pose proof (forallb_In _ _ _ Hinfo Hvis) as Hi. cbv beta in Hi.
    destruct (tag_info p g) as [info|] eqn:E; [|discriminate]. exists info. split; [reflexivity|].
    apply client_tags_lookup; [apply (distinct_by_NoDup _ _ teqb_refl); exact Hdist|exact Hvis|exact E].
  Qed.

  Lemma pl_find_name : find_tag_name (p_tags p) (g_scope g) (g_name g) = Some g.
  Proof. apply find_tag_name_distinct; [apply pl_wf|exact pl_in_tags]. Qed.

  Lemma pl_find_inst : find_tag_inst (p_tags p) (g_inst g) = Some g.
  Proof. apply find_tag_inst_distinct; [apply pl_wf|exact pl_in_tags]. Qed.

  Lemma pl_inst_range : 0 < g_inst g < 4294967296.
  Proof. destruct pl_wf as [Hok _]. unfold tag_ok in Hok. repeat (apply andb_prop in Hok; destruct Hok as [Hok ?]). lia. Qed.
End VisibleTag.
