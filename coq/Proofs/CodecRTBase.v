(* Proofs/CodecRTBase.v — C06: lemmas about the primitives of the codec model (streams, integer
   and text codecs, bit strings) used by the round-trip induction (Proofs/CodecRT.v). *)
From PV Require Import Base.Bytes Base.BytesLemmas Base.Res.
From PV Require Import Model.Codec Model.CodecDom.
From PV Require Export Proofs.CodecTy.
From Coq Require Import ZifyBool.
Open Scope Z_scope.
Ltac Zify.zify_post_hook ::= Z.to_euclidean_division_equations.

Lemma zlen_app {A} (a b : list A) : zlen (a ++ b) = zlen a + zlen b.
Proof. unfold zlen. rewrite app_length. lia. Qed.

Lemma zlen_nonneg {A} (a : list A) : 0 <= zlen a.
Proof. unfold zlen. lia. Qed.

Lemma zmin_app {A} (a b : list A) : Z.to_nat (Z.min (zlen a) (zlen (a ++ b))) = length a.
Proof. rewrite zlen_app. pose proof (zlen_nonneg b). unfold zlen in *. lia. Qed.

Lemma zmin_all {A} n (a : list A) : zlen a <= n -> Z.to_nat (Z.min n (zlen a)) = length a.
Proof. unfold zlen. lia. Qed.

Lemma ztake_app_exact {A} (a b : list A) : ztake (zlen a) (a ++ b) = a.
Proof. unfold ztake. rewrite zmin_app. apply firstn_app_exact. Qed.

Lemma zdrop_app_exact {A} (a b : list A) : zdrop (zlen a) (a ++ b) = b.
Proof. unfold zdrop. rewrite zmin_app. apply skipn_app_exact. Qed.

Lemma ztake_all {A} (n : Z) (a : list A) : zlen a <= n -> ztake n a = a.
Proof. intros H. unfold ztake. rewrite zmin_all by exact H. apply firstn_all. Qed.

Lemma zdrop_all {A} (n : Z) (a : list A) : zlen a <= n -> zdrop n a = [].
Proof. intros H. unfold zdrop. rewrite zmin_all by exact H. apply skipn_all. Qed.

Lemma stream_take_app (a r : bytes) : stream_take (zlen a) (a ++ r) = (a, r).
Proof.
  unfold stream_take. pose proof (zlen_nonneg a) as H.
  destruct (zlen a <? 0) eqn:E; [lia|]. now rewrite ztake_app_exact, zdrop_app_exact.
Qed.

Lemma match_pos {A} (c : nat) (a b : A) : (0 < c)%nat -> match c with O => a | S _ => b end = b.
Proof. destruct c; [lia|reflexivity]. Qed.

Lemma stream_read_app (a r : bytes) (k : bytes -> bytes -> dres) :
  stream_read (zlen a) (a ++ r) k = k a r.
Proof.
  unfold stream_read. rewrite stream_take_app. destruct a as [|x a]; [reflexivity|].
  destruct (zlen (x :: a) <? zlen (x :: a)) eqn:E; [lia|reflexivity].
Qed.

Lemma stream_read_nil (n : Z) (k : bytes -> bytes -> dres) : n <> 0 -> stream_read n [] k = DEmpty [].
Proof.
  intros Hn. unfold stream_read, stream_take. destruct (n <? 0).
  - destruct (n =? 0) eqn:E; [lia|reflexivity].
  - unfold ztake, zdrop. rewrite firstn_nil, skipn_nil. destruct (n =? 0) eqn:E; [lia|reflexivity].
Qed.

Lemma elem_decode_app size unpack (data rest : bytes) :
  length data = size -> (0 < size)%nat ->
  elem_decode size unpack (data ++ rest) = dwrap (dres_of_res (unpack data) rest).
Proof.
  intros Hl Hs. unfold elem_decode. replace (Z.of_nat size) with (zlen data) by (unfold zlen; lia).
  now rewrite stream_read_app.
Qed.

Lemma elem_decode_nil size unpack : (0 < size)%nat -> elem_decode size unpack [] = DEmpty [].
Proof. intros H. unfold elem_decode. now rewrite stream_read_nil by lia. Qed.

Lemma zlen_cons {A} (x : A) (l : list A) : zlen (x :: l) = 1 + zlen l.
Proof. unfold zlen. cbn [length]. lia. Qed.

Lemma zlen_0_nil {A} (l : list A) : zlen l = 0 -> l = [].
Proof. destruct l; [reflexivity|]. rewrite zlen_cons. pose proof (zlen_nonneg l). lia. Qed.

Lemma nonempty_zlen {A} (l : list A) : 0 < zlen l -> l <> [].
Proof. destruct l; unfold zlen; cbn; [lia|congruence]. Qed.

Lemma pow256_Z (w : nat) : pow256 w = 256 ^ Z.of_nat w.
Proof. reflexivity. Qed.

Lemma int_encode_ok sg w z :
  int_in_range sg w z = true -> int_encode sg w (VInt z) = Ok (le_enc w z).
Proof. intros H. unfold int_encode, pub_encode, pack_int. now rewrite H. Qed.

Lemma int_roundtrip_value sg w z :
  (0 < w)%nat -> int_in_range sg w z = true ->
  (if sg then to_signed w (le_dec (le_enc w z)) else le_dec (le_enc w z)) = z.
Proof.
  intros Hw H. rewrite le_dec_enc. destruct sg; cbn [int_in_range] in H.
  - change (z mod pow256 w) with (of_signed w z). now apply to_of_signed.
  - unfold in_urange in H. apply Z.mod_small. lia.
Qed.

Lemma int_decode_bytes sg w bs rest :
  (0 < w)%nat -> length bs = w ->
  int_decode sg w (bs ++ rest) = DOk (VInt (if sg then to_signed w (le_dec bs) else le_dec bs)) rest.
Proof.
  intros Hw Hl. unfold int_decode. rewrite elem_decode_app by assumption. unfold unpack_int. now rewrite Hl, Nat.eqb_refl.
Qed.

Lemma int_decode_ok sg w z rest :
  (0 < w)%nat -> int_in_range sg w z = true ->
  int_decode sg w (le_enc w z ++ rest) = DOk (VInt z) rest.
Proof.
  intros Hw H. rewrite int_decode_bytes by (try apply le_enc_length; exact Hw). now rewrite int_roundtrip_value.
Qed.

Lemma int_decode_nil sg w : (0 < w)%nat -> int_decode sg w [] = DEmpty [].
Proof. apply elem_decode_nil. Qed.

Lemma single_byte_enc_char e c : single_byte e c = true -> enc_char e c = Some [c].
Proof.
  destruct e; cbn [single_byte enc_char]; intros H; try discriminate.
  - now rewrite H.
  - assert (Hs : scalar_ok c = true) by (unfold scalar_ok, is_surrogate; lia).
    rewrite Hs. cbn [negb]. destruct (c <? 128) eqn:E; [reflexivity|lia].
Qed.

Lemma text_encode_single e s : forallb (single_byte e) s = true -> text_encode e s = Ok s.
Proof.
  induction s as [|c s IH]; cbn [forallb text_encode]; [reflexivity|].
  intros H. apply andb_prop in H as [Hc Hs]. rewrite (single_byte_enc_char _ _ Hc), (IH Hs). reflexivity.
Qed.

Lemma utf8_decode_ascii s fuel :
  (length s <= fuel)%nat -> forallb (single_byte Utf8) s = true -> utf8_decode fuel s = Some s.
Proof.
  revert fuel. induction s as [|c s IH]; intros fuel Hf H.
  - destruct fuel; reflexivity.
  - destruct fuel as [|f]; [cbn in Hf; lia|]. cbn [forallb] in H. apply andb_prop in H as [Hc Hs].
    cbn [utf8_decode]. cbn [single_byte] in Hc.
    destruct (c <? 128) eqn:E; [|lia]. rewrite IH; [reflexivity| cbn in Hf; lia | exact Hs].
Qed.

Lemma forallb_false_nil {A} (s : list A) : forallb (fun _ => false) s = true -> s = [].
Proof. destruct s; [reflexivity|discriminate]. Qed.

Lemma text_decode_single e s : forallb (single_byte e) s = true -> text_decode e s = Ok s.
Proof.
  destruct e; cbn [text_decode]; intros H.
  - reflexivity.
  - now rewrite utf8_decode_ascii.
  - apply forallb_false_nil in H. now subst.
  - apply forallb_false_nil in H. now subst.
Qed.

Lemma codec_inverts_spec e s :
  codec_inverts e s = true ->
  exists d, text_encode e s = Ok d /\ zlen d = code_units e s * enc_char_size e /\ text_decode e d = Ok s.
Proof.
  unfold codec_inverts, code_units. destruct (text_encode e s) as [d|]; [|discriminate].
  intros H. apply andb_prop in H as [H1 H2]. exists d. split; [reflexivity|]. split.
  - destruct e; cbn [enc_char_size] in *; lia.
  - destruct (text_decode e d) as [s'|]; [|discriminate]. f_equal. now apply text_eqb_eq.
Qed.

Lemma text_decode_nil e : text_decode e [] = Ok [].
Proof. destruct e; reflexivity. Qed.

Lemma text_encode_latin1_chars s d : text_encode Latin1 s = Ok d -> d = s /\ forallb (single_byte Latin1) s = true.
Proof.
  revert d. induction s as [|c s IH]; intros d H; cbn [text_encode] in H.
  - injection H as <-. now split.
  - cbn [enc_char] in H. destruct ((0 <=? c) && (c <? 256)) eqn:E; [|discriminate].
    destruct (text_encode Latin1 s) as [rs|] eqn:Er; [|discriminate]. injection H as <-.
    destruct (IH rs eq_refl) as [-> Hs]. split; [reflexivity|]. cbn [forallb single_byte]. now rewrite E, Hs.
Qed.

Lemma latin1_dom lsg lw s :
  str_dom lsg lw Latin1 s = true -> int_in_range lsg lw (zlen s) = true /\ forallb (single_byte Latin1) s = true.
Proof.
  unfold str_dom. intros H. apply andb_prop in H as [H1 H2].
  destruct (codec_inverts_spec _ _ H1) as (d & He & Hl & _).
  destruct (text_encode_latin1_chars _ _ He) as [-> Hs]. split; [|exact Hs].
  unfold code_units in H2. rewrite He in H2. cbn [enc_char_size] in H2. now rewrite Z.div_1_r in H2.
Qed.

Lemma latin1_inverts s : forallb (single_byte Latin1) s = true -> codec_inverts Latin1 s = true.
Proof.
  intros H. unfold codec_inverts. rewrite text_encode_single by exact H. cbn [enc_char_size text_decode].
  now rewrite Z.mod_1_r, text_eqb_refl.
Qed.

Lemma bits_value_range l : 0 <= bits_value l < 2 ^ Z.of_nat (length l).
Proof.
  induction l as [|v l IH]; [cbn; lia|].
  cbn [bits_value length]. rewrite Nat2Z.inj_succ, Z.pow_succ_r by lia.
  destruct (truthy v); lia.
Qed.

Lemma value_bits_bits_value l :
  forallb is_vbool l = true -> value_bits (length l) (bits_value l) = l.
Proof.
  induction l as [|v l IH]; [reflexivity|].
  cbn [forallb]. intros H. apply andb_prop in H as [Hv Hl].
  destruct v; try discriminate. cbn [length value_bits bits_value truthy].
  f_equal.
  - f_equal. destruct b; [rewrite Z.odd_add_mul_2| rewrite Z.odd_add_mul_2]; reflexivity.
  - replace ((if b then 1 else 0) + 2 * bits_value l) with (bits_value l * 2 + (if b then 1 else 0)) by lia.
    rewrite Z.div_add_l by lia. replace ((if b then 1 else 0) / 2) with 0 by (destruct b; reflexivity).
    rewrite Z.add_0_r. now apply IH.
Qed.

Lemma py_iter_vbools l : py_iter (VList l) = Ok l.
Proof. reflexivity. Qed.

Lemma bits_value_in_range w l : zlen l = 8 * Z.of_nat w -> int_in_range false w (bits_value l) = true.
Proof.
  intros Hl. cbn [int_in_range]. unfold in_urange. pose proof (bits_value_range l) as H. rewrite pow256_pow2.
  replace (8 * Z.of_nat w) with (Z.of_nat (length l)) by (unfold zlen in Hl; lia). lia.
Qed.

Lemma bits_encode_ok w l :
  zlen l = 8 * Z.of_nat w -> bits_encode w (VList l) = Ok (le_enc w (bits_value l)).
Proof.
  intros Hl. unfold bits_encode, pub_encode. cbn [py_len bind]. rewrite Hl, Z.eqb_refl. cbn [negb py_iter bind pack_int].
  now rewrite (bits_value_in_range w l Hl).
Qed.

Lemma bits_decode_ok w l rest :
  (0 < w)%nat -> zlen l = 8 * Z.of_nat w -> forallb is_vbool l = true ->
  bits_decode w (le_enc w (bits_value l) ++ rest) = DOk (VList l) rest.
Proof.
  intros Hw Hl Hb. unfold bits_decode.
  rewrite int_decode_ok by (try apply bits_value_in_range; assumption). cbn [dbind as_int dwrap].
  replace (8 * w)%nat with (length l) by (unfold zlen in Hl; lia).
  now rewrite value_bits_bits_value.
Qed.

Lemma slc_swap_involutive s :
  Nat.even (length s) = true -> exists t, slc_swap s = Some t /\ slc_swap t = Some s /\ length t = length s.
Proof.
  revert s. fix IH 1. intros [|a [|b r]] H.
  - exists []. repeat split.
  - discriminate.
  - cbn [length Nat.even] in H. destruct (IH r H) as (t & H1 & H2 & H3).
    exists (b :: a :: t). cbn [slc_swap]. rewrite H1, H2. cbn. repeat split. now rewrite H3.
Qed.

Lemma split_dot_join s cur :
  fold_right (fun p acc => match acc with None => Some p | Some a => Some (p ++ [46] ++ a) end) None (split_dot s cur)
  = Some (rev cur ++ s).
Proof.
  revert cur. induction s as [|c s IH]; intros cur; cbn [split_dot].
  - cbn. now rewrite app_nil_r.
  - destruct (c =? 46) eqn:E.
    + cbn [fold_right]. rewrite IH. cbn [rev app]. assert (c = 46) by lia. subst. reflexivity.
    + rewrite IH. cbn [rev]. now rewrite <- app_assoc.
Qed.

Lemma octet_dec3 s v : octet s = Some v -> dec3 v = s /\ 0 <= v < 256.
Proof.
  unfold octet. destruct s as [|c1 s]; [discriminate|]. cbv zeta.
  remember (digits_val (c1 :: s) 0) as v0 eqn:Hv0.
  destruct (forallb is_dig (c1 :: s) && (length (c1 :: s) <=? 3)%nat
            && negb ((c1 =? 48) && negb (length (c1 :: s) =? 1)%nat)) eqn:E; [|discriminate].
  apply andb_prop in E as [E E3]. apply andb_prop in E as [E1 E2].
  destruct (v0 <=? 255) eqn:Ev; [|discriminate].
  intros H. injection H as <-.
  destruct s as [|c2 [|c3 [|c4 s]]]; cbn [length] in E2; try (cbn in E2; discriminate);
    cbn [forallb] in E1; unfold is_dig in E1; cbn [length Nat.eqb negb andb] in E3; cbn [digits_val] in Hv0;
    (split; [|lia]); unfold dec3.
  - destruct (v0 <? 10) eqn:A; [|lia]. f_equal. lia.
  - destruct (v0 <? 10) eqn:A; [lia|]. destruct (v0 <? 100) eqn:B; [|lia]. f_equal; [lia|f_equal; lia].
  - destruct (v0 <? 10) eqn:A; [lia|]. destruct (v0 <? 100) eqn:B; [lia|].
    f_equal; [lia|f_equal; [lia|f_equal; lia]].
Qed.

Lemma parse_ipv4_text s a b c d :
  map octet (split_dot s []) = [Some a; Some b; Some c; Some d] ->
  s = dec3 a ++ [46] ++ dec3 b ++ [46] ++ dec3 c ++ [46] ++ dec3 d.
Proof.
  intros H. pose proof (split_dot_join s []) as J. cbn [rev app] in J.
  destruct (split_dot s []) as [|s1 [|s2 [|s3 [|s4 [|? ?]]]]]; try discriminate H.
  injection H as O1 O2 O3 O4. apply octet_dec3 in O1 as [-> _], O2 as [-> _], O3 as [-> _], O4 as [-> _].
  cbn [fold_right] in J. now injection J as <-.
Qed.

Lemma le_enc_unit u : 0 <= u < 65536 -> exists l h, le_enc 2 u = [l; h] /\ l + 256 * h = u.
Proof. intros H. exists (u mod 256), (u / 256 mod 256). split; [reflexivity|lia]. Qed.

Lemma utf16_roundtrip s :
  forallb scalar_ok s = true ->
  exists d, text_encode Utf16 s = Ok d /\ zlen d mod 2 = 0 /\ (length s <= length d)%nat
            /\ forall fuel, (length s <= fuel)%nat -> utf16_decode fuel d = Some s.
Proof.
  induction s as [|c s IH]; intros H.
  - exists []. repeat split; [constructor|]. intros [|f] _; reflexivity.
  - cbn [forallb] in H. apply andb_prop in H as [Hc Hs]. destruct (IH Hs) as (d & He & Hm & Hl & Hd).
    cbn [text_encode enc_char]. rewrite Hc. cbn [negb]. rewrite He. cbv zeta.
    unfold scalar_ok, is_surrogate in Hc.
    destruct (c <? 65536) eqn:E.
    + (* one unit, not a surrogate *)
      destruct (le_enc_unit c) as (l & h & -> & Hu); [lia|].
      eexists. split; [reflexivity|]. cbn [app]. rewrite !zlen_cons. cbn [length].
      split; [lia|]. split; [lia|].
      intros [|f] Hf; [cbn in Hf; lia|]. cbn [utf16_decode]. rewrite Hu.
      destruct ((55296 <=? c) && (c <=? 56319)) eqn:E1; [lia|].
      destruct ((56320 <=? c) && (c <=? 57343)) eqn:E2; [lia|].
      rewrite Hd by (cbn in Hf; lia). reflexivity.
    + (* a surrogate pair: 10 bits each of c - 0x10000 *)
      set (hi := 55296 + (c - 65536) / 1024). set (lo := 56320 + (c - 65536) mod 1024).
      assert (Hhi : 55296 <= hi <= 56319) by (unfold hi; lia).
      assert (Hlo : 56320 <= lo <= 57343) by (unfold lo; lia).
      assert (Hc' : 65536 + (hi - 55296) * 1024 + (lo - 56320) = c) by (unfold hi, lo; lia).
      clearbody hi lo.
      destruct (le_enc_unit hi) as (l1 & h1 & -> & Hu1); [lia|].
      destruct (le_enc_unit lo) as (l2 & h2 & -> & Hu2); [lia|].
      eexists. split; [reflexivity|]. cbn [app]. rewrite !zlen_cons. cbn [length].
      split; [lia|]. split; [lia|].
      intros [|f] Hf; [cbn in Hf; lia|]. cbn [utf16_decode]. rewrite Hu1, Hu2.
      destruct ((55296 <=? hi) && (hi <=? 56319)) eqn:E1; [|lia].
      destruct ((56320 <=? lo) && (lo <=? 57343)) eqn:E2; [|lia].
      rewrite Hd by (cbn in Hf; lia). cbn [option_map]. now rewrite Hc'.
Qed.

(* every string of Unicode scalar values is in STRING2's domain as far as the codec goes *)
Lemma utf16_inverts s : forallb scalar_ok s = true -> codec_inverts Utf16 s = true.
Proof.
  intros H. destruct (utf16_roundtrip s H) as (d & He & Hm & Hl & Hd). unfold codec_inverts. rewrite He.
  cbn [enc_char_size text_decode]. rewrite (Hd _ Hl), text_eqb_refl. lia.
Qed.
