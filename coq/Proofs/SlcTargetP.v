(* Proofs/SlcTargetP.v — lemmas about the reference side alone (Spec/SlcTarget.v): the word / byte
   encodings, the masked write, file lookup and update, and the facts about the reference
   interpretation the property speaks of, all read off one inversion of ref_write ([ref_write_inv]):
     [ref_write_frame] : a write changes only the addressed words of the addressed file — for a bit
                         write only the addressed bit —, the other files are untouched;
     [ref_write_read]  : reading the address after the reference write returns the written value;
     [ref_write_ok]    : the written table is still a table of 16-bit words. *)
From PV Require Import Base.Bytes Base.BytesLemmas Model.SlcVal Spec.SlcTarget.
From Coq Require Import ZifyBool.
Open Scope Z_scope.
Ltac Zify.zify_post_hook ::= Z.to_euclidean_division_equations.

Lemma bytes_words ws : forallb word_ok ws = true -> bytes_to_words (words_to_bytes ws) = ws.
Proof.
  induction ws as [|w ws IH]; intros H; [reflexivity|].
  cbn [forallb] in H. apply andb_true_iff in H. destruct H as [Hw H].
  cbn [words_to_bytes le16 app bytes_to_words]. rewrite IH by exact H. f_equal.
  unfold word_ok in Hw. lia.
Qed.

Lemma words_to_bytes_length ws : length (words_to_bytes ws) = (2 * length ws)%nat.
Proof. induction ws as [|w ws IH]; [reflexivity|]. cbn [words_to_bytes le16 app length]. lia. Qed.

Lemma words_to_bytes_app a b : words_to_bytes (a ++ b) = words_to_bytes a ++ words_to_bytes b.
Proof. induction a as [|w a IH]; [reflexivity|]. cbn [app words_to_bytes le16]. rewrite IH. reflexivity. Qed.

Lemma mask_all old d : 0 <= old < 65536 -> 0 <= d < 65536 -> mask_word 65535 old d = d.
Proof.
  intros Ho Hd. unfold mask_word.
  change 65535 with (Z.ones 16).
  rewrite Z.land_ones by lia. rewrite (Z.mod_small d) by lia.
  rewrite <- Z.ldiff_land, Z.ldiff_ones_r by lia.
  rewrite Z.shiftr_div_pow2 by lia. rewrite Z.div_small by lia. rewrite Z.shiftl_0_l. apply Z.lor_0_l.
Qed.

(* a bit write of the reference is the masked write of the target with mask 2^b *)
Lemma mask_bit (x : bool) old b : 0 <= b ->
  mask_word (2 ^ b) old (if x then 2 ^ b else 0) = if x then Z.setbit old b else Z.clearbit old b.
Proof.
  intros Hb. unfold mask_word. apply Z.bits_inj'. intros n Hn.
  rewrite Z.lor_spec, !Z.land_spec, Z.lnot_spec by lia. rewrite Z.pow2_bits_eqb by lia. destruct x.
  - rewrite Z.setbit_eqb, Z.pow2_bits_eqb by lia. destruct (Z.eqb_spec b n); cbn; [rewrite andb_false_r; reflexivity|].
    rewrite andb_true_r, orb_false_r. reflexivity.
  - rewrite Z.clearbit_eqb, Z.bits_0 by lia. cbn. rewrite orb_false_r. reflexivity.
Qed.

Lemma small_bits w n : 0 <= w < 65536 -> 16 <= n -> Z.testbit w n = false.
Proof.
  intros Hw Hn. destruct (Z.eq_dec w 0) as [->|N]; [apply Z.bits_0|].
  apply Z.bits_above_log2; [lia|]. assert (Z.log2 w < 16) by (apply Z.log2_lt_pow2; lia). lia.
Qed.

Lemma range_of_bits x : 0 <= x -> (forall n, 16 <= n -> Z.testbit x n = false) -> 0 <= x < 65536.
Proof.
  intros Hx H. assert (E : x = x mod 2 ^ 16).
  { apply Z.bits_inj'. intros n Hn. destruct (Z_lt_dec n 16).
    - rewrite Z.mod_pow2_bits_low by lia. reflexivity.
    - rewrite Z.mod_pow2_bits_high by lia. apply H. lia. }
  pose proof (Z.mod_pos_bound x (2 ^ 16)). lia.
Qed.

Lemma putbit_range (x : bool) w b : 0 <= w < 65536 -> 0 <= b <= 15 ->
  0 <= (if x then Z.setbit w b else Z.clearbit w b) < 65536.
Proof.
  intros Hw Hb. apply range_of_bits.
  - destruct x; [rewrite Z.setbit_spec'; apply Z.lor_nonneg; split; [lia|apply Z.pow_nonneg; lia]|].
    rewrite Z.clearbit_spec'. apply Z.ldiff_nonneg. left. lia.
  - intros n Hn. destruct x; [rewrite Z.setbit_neq by lia|rewrite Z.clearbit_neq by lia]; apply small_bits; assumption.
Qed.

Lemma putbit_other (x : bool) w b j : 0 <= j -> j <> b ->
  Z.testbit (if x then Z.setbit w b else Z.clearbit w b) j = Z.testbit w j.
Proof.
  intros Hj N. destruct x; [|apply Z.clearbit_neq; lia]. destruct (Z_lt_dec b 0) as [Hb|Hb].
  - rewrite Z.setbit_spec', Z.pow_neg_r, Z.lor_0_r by lia. reflexivity.
  - apply Z.setbit_neq; lia.
Qed.

Lemma find_put_same t f f' : find_file t (df_num f') = Some f -> find_file (put_file t f') (df_num f') = Some f'.
Proof.
  induction t as [|g t IH]; cbn [find_file put_file]; [discriminate|].
  destruct (df_num g =? df_num f') eqn:E; intros H.
  - cbn [find_file]. rewrite Z.eqb_refl. reflexivity.
  - cbn [find_file]. rewrite E. apply IH. exact H.
Qed.

Lemma find_put_other t f' n : n <> df_num f' -> find_file (put_file t f') n = find_file t n.
Proof.
  intros Hn. induction t as [|g t IH]; cbn [find_file put_file]; [reflexivity|].
  destruct (df_num g =? df_num f') eqn:E.
  - cbn [find_file]. assert (df_num g = df_num f') by lia.
    destruct (df_num f' =? n) eqn:E1; [lia|]. destruct (df_num g =? n) eqn:E2; [lia|]. reflexivity.
  - cbn [find_file]. destruct (df_num g =? n); [reflexivity|exact IH].
Qed.

Lemma find_file_num t n f : find_file t n = Some f -> df_num f = n.
Proof.
  induction t as [|g t IH]; cbn [find_file]; [discriminate|].
  destruct (df_num g =? n) eqn:E; intros H; [inversion H; subst; lia|auto].
Qed.

Lemma find_file_ok t n f : table_ok t = true -> find_file t n = Some f -> dfile_ok f = true.
Proof.
  induction t as [|g t IH]; cbn [find_file table_ok forallb]; [discriminate|].
  intros H. apply andb_true_iff in H. destruct H as [Hg H].
  destruct (df_num g =? n); intros E; [inversion E; subst; exact Hg|apply IH; assumption].
Qed.

Lemma upd_words_length ws i new : (i + length new <= length ws)%nat -> length (upd_words ws i new) = length ws.
Proof.
  intros H. unfold upd_words. rewrite !app_length, firstn_length, skipn_length. lia.
Qed.

Lemma upd_words_outside ws i new j d : (i + length new <= length ws)%nat ->
  (j < i \/ i + length new <= j)%nat -> nth j (upd_words ws i new) d = nth j ws d.
Proof.
  intros H Hj. unfold upd_words. destruct Hj as [Hj|Hj].
  - rewrite app_nth1 by (rewrite firstn_length; lia). apply nth_firstn. exact Hj.
  - rewrite app_nth2 by (rewrite firstn_length; lia). rewrite firstn_length.
    rewrite app_nth2 by lia. rewrite nth_skipn. f_equal. lia.
Qed.

Lemma upd_words_inside ws i new : (i + length new <= length ws)%nat ->
  firstn (length new) (skipn i (upd_words ws i new)) = new.
Proof.
  intros H. unfold upd_words.
  rewrite skipn_app. rewrite firstn_length.
  replace (i - Nat.min i (length ws))%nat with O by lia.
  rewrite skipn_all2 by (rewrite firstn_length; lia). cbn [app skipn].
  rewrite firstn_app, Nat.sub_diag, firstn_all. cbn. apply app_nil_r.
Qed.

Lemma region_some f elem sub n i ws : region f elem sub n = Some (i, ws) ->
  i = Z.to_nat (word_index f elem sub) /\ ws = firstn (Z.to_nat n) (skipn i (df_words f))
  /\ 0 <= elem /\ 0 <= sub < df_ew f /\ 0 < n /\ (i + Z.to_nat n <= length (df_words f))%nat /\ length ws = Z.to_nat n.
Proof.
  unfold region, word_index. intros H.
  destruct ((0 <=? elem) && (0 <=? sub) && (sub <? df_ew f) && (0 <? n)
            && (elem * df_ew f + sub + n <=? Z.of_nat (length (df_words f)))) eqn:E; [|discriminate].
  inversion H; subst. clear H.
  assert (Hb : 0 <= elem /\ 0 <= sub < df_ew f /\ 0 < n /\ elem * df_ew f + sub + n <= Z.of_nat (length (df_words f))) by lia.
  destruct Hb as (H1 & H2 & H3 & H4).
  assert (Hi : (Z.to_nat (elem * df_ew f + sub) + Z.to_nat n <= length (df_words f))%nat) by nia.
  repeat split; try lia. rewrite firstn_length, skipn_length. lia.
Qed.

Lemma region_words_ok f elem sub n i ws : dfile_ok f = true -> region f elem sub n = Some (i, ws) -> forallb word_ok ws = true.
Proof.
  intros Hf Hr. destruct (region_some _ _ _ _ _ _ Hr) as (_ & -> & _).
  unfold dfile_ok in Hf. repeat (apply andb_true_iff in Hf; destruct Hf as [Hf _]).
  apply forallb_firstn, forallb_skipn. exact Hf.
Qed.

Lemma words_of_spec ft v ws : words_of ft v = Some ws ->
  Z.of_nat (length ws) = vwords ft /\ forallb word_ok ws = true
  /\ forall rest, values_of ft (ws ++ rest) = v :: values_of ft rest.
Proof.
  unfold words_of. destruct ft; destruct v; try discriminate;
    match goal with |- (if ?c then _ else _) = _ -> _ => destruct c eqn:E; [|discriminate] end;
    intros H; inversion H; subst; (split; [reflexivity|]); (split; [unfold forallb, word_ok; lia|]);
    intros rest; cbn [app values_of]; f_equal; f_equal; unfold s16, s32; cbv zeta;
    repeat match goal with |- context [if ?c then _ else _] => destruct c eqn:? end; lia.
Qed.

Lemma words_of_list_spec ft : forall vs ws, words_of_list ft vs = Some ws ->
  Z.of_nat (length ws) = vwords ft * Z.of_nat (length vs) /\ forallb word_ok ws = true /\ values_of ft ws = vs.
Proof.
  induction vs as [|v vs IH]; intros ws H; cbn [words_of_list] in H.
  - inversion H; subst. repeat split; [cbn; lia|destruct ft; reflexivity].
  - destruct (words_of ft v) as [a|] eqn:Ea; [|discriminate].
    destruct (words_of_list ft vs) as [b|] eqn:Eb; [|discriminate]. inversion H; subst.
    destruct (words_of_spec _ _ _ Ea) as (La & Oa & Va). destruct (IH b eq_refl) as (Lb & Ob & Vb).
    rewrite app_length, forallb_app, Oa, Ob, Va, Vb. repeat split. cbn [length]. lia.
Qed.

Definition new_words (a : addr) (v : sval) : option (list Z) :=
  if a_count a =? 1 then words_of (a_ft a) v
  else match v with
       | VList vs => if Z.of_nat (length vs) =? a_count a then words_of_list (a_ft a) vs else None
       | _ => None
       end.

Lemma new_words_ok a v ws : new_words a v = Some ws ->
  Z.of_nat (length ws) = vwords (a_ft a) * a_count a /\ forallb word_ok ws = true
  /\ match values_of (a_ft a) ws with [x] => x | vs => VList vs end = v.
Proof.
  unfold new_words. destruct (a_count a =? 1) eqn:Ec; intros En.
  - destruct (words_of_spec _ _ _ En) as (L & O & V). split; [lia|]. split; [exact O|].
    rewrite <- (app_nil_r ws), V. destruct (a_ft a); reflexivity.
  - destruct v; try discriminate. destruct (Z.of_nat (length vs) =? a_count a) eqn:El; [|discriminate].
    destruct (words_of_list_spec _ _ _ En) as (L & O & V). split; [nia|]. split; [exact O|].
    rewrite V. destruct vs as [|x [|y vs]]; [reflexivity|cbn [length] in El; lia|reflexivity].
Qed.

Lemma file_for_find t a f : file_for t a = Some f ->
  find_file t (a_file a) = Some f /\ ftype_eqb (df_ft f) (a_ft a) = true /\ df_num f = a_file a.
Proof.
  unfold file_for. destruct (find_file t (a_file a)) as [g|] eqn:Eg; [|discriminate].
  destruct (ftype_eqb (df_ft g) (a_ft a)) eqn:Et; [|discriminate]. intros H. inversion H; subst.
  repeat split; try assumption. eapply find_file_num. eassumption.
Qed.

Lemma file_for_put t a f ws' : file_for t a = Some f ->
  file_for (put_file t (set_words f ws')) a = Some (set_words f ws').
Proof.
  intros H. destruct (file_for_find _ _ _ H) as (Hf & Ht & Hn).
  unfold file_for.
  replace (a_file a) with (df_num (set_words f ws')) by exact Hn.
  rewrite (find_put_same t f) by (cbn [set_words df_num]; rewrite Hn; exact Hf).
  cbn [set_words df_ft]. rewrite Ht. reflexivity.
Qed.

Lemma region_set_words f ws' elem sub n i old :
  region f elem sub n = Some (i, old) -> length ws' = length (df_words f) ->
  region (set_words f ws') elem sub n = Some (i, firstn (Z.to_nat n) (skipn i ws')).
Proof.
  unfold region, word_index. cbn [set_words df_ew df_words]. intros H L. rewrite L.
  destruct ((0 <=? elem) && (0 <=? sub) && (sub <? df_ew f) && (0 <? n)
            && (elem * df_ew f + sub + n <=? Z.of_nat (length (df_words f)))); [|discriminate].
  inversion H; subst. reflexivity.
Qed.

(* ref_write, inverted once: the file, the addressed words [old] at index [i], the words [new] that
   take their place (for a bit write the one word with the bit set or cleared) *)
Lemma ref_write_inv t a v t' : ref_write t a v = Some t' ->
  exists f i old new,
    file_for t a = Some f
    /\ region f (a_elem a) (a_sub a) (match a_bit a with Some _ => 1 | None => vwords (a_ft a) * a_count a end) = Some (i, old)
    /\ match a_bit a with
       | Some b => exists w, old = [w] /\ new = [if truthy v then Z.setbit w b else Z.clearbit w b]
       | None => new_words a v = Some new
       end
    /\ length new = length old /\ (i + length new <= length (df_words f))%nat
    /\ t' = put_file t (set_words f (upd_words (df_words f) i new)).
Proof.
  unfold ref_write. intros H. destruct (file_for t a) as [f|]; [|discriminate].
  destruct (a_bit a) as [b|].
  - destruct (region f (a_elem a) (a_sub a) 1) as [[i ws]|] eqn:Er; [|discriminate].
    destruct ws as [|w [|? ?]]; try discriminate. inversion H; subst t'.
    destruct (region_some _ _ _ _ _ _ Er) as (_ & _ & _ & _ & _ & Hlen & _).
    exists f, i, [w], [if truthy v then Z.setbit w b else Z.clearbit w b].
    split; [reflexivity|]. split; [exact Er|]. split; [exists w; split; reflexivity|].
    split; [reflexivity|]. split; [exact Hlen|reflexivity].
  - change (if a_count a =? 1 then words_of (a_ft a) v else _) with (new_words a v) in H.
    destruct (new_words a v) as [ws|] eqn:En; [|discriminate].
    destruct (region f (a_elem a) (a_sub a) (vwords (a_ft a) * a_count a)) as [[i old]|] eqn:Er; [|discriminate].
    inversion H; subst t'. destruct (region_some _ _ _ _ _ _ Er) as (_ & _ & _ & _ & _ & Hlen & Hl).
    destruct (new_words_ok _ _ _ En) as (Hk & _). exists f, i, old, ws. repeat split; try reflexivity; try assumption; lia.
Qed.

Definition same_but (t t' : table) (num : Z) : Prop :=
  forall n, n <> num -> find_file t' n = find_file t n.

Theorem ref_write_frame t a v t' :
  ref_write t a v = Some t' ->
  exists f f' i k,
    file_for t a = Some f /\ find_file t' (a_file a) = Some f' /\ same_but t t' (a_file a)
    /\ df_ft f' = df_ft f /\ df_ew f' = df_ew f /\ length (df_words f') = length (df_words f)
    /\ i = Z.to_nat (word_index f (a_elem a) (a_sub a))
    /\ k = (match a_bit a with Some _ => 1 | None => Z.to_nat (vwords (a_ft a) * a_count a) end)%nat
    /\ (i + k <= length (df_words f))%nat
    (* every word outside the addressed ones is unchanged *)
    /\ (forall j, (j < i \/ i + k <= j)%nat -> nth j (df_words f') 0 = nth j (df_words f) 0)
    (* a bit write leaves the other bits of the addressed word unchanged *)
    /\ (forall b, a_bit a = Some b -> forall j, 0 <= j -> j <> b ->
          Z.testbit (nth i (df_words f') 0) j = Z.testbit (nth i (df_words f) 0) j).
Proof.
  intros H. destruct (ref_write_inv _ _ _ _ H) as (f & i & old & new & Ef & Er & Hnew & Hlen & Hl & ->).
  destruct (file_for_find _ _ _ Ef) as (Hfind & _ & Hnum).
  destruct (region_some _ _ _ _ _ _ Er) as (Hi & Hold & _ & _ & _ & _ & Hk).
  exists f, (set_words f (upd_words (df_words f) i new)), i, (length new).
  split; [exact Ef|]. split.
  { rewrite <- Hnum in Hfind |- *. exact (find_put_same t f (set_words f (upd_words (df_words f) i new)) Hfind). }
  split; [intros n Hn; apply find_put_other; cbn [set_words df_num]; lia|].
  do 2 (split; [reflexivity|]). split; [apply upd_words_length; exact Hl|]. split; [exact Hi|].
  split; [rewrite Hlen, Hk; destruct (a_bit a); reflexivity|]. split; [exact Hl|].
  split; [intros j Hj; apply upd_words_outside; assumption|].
  intros b Eb j Hj Hjb. rewrite Eb in Hnew. destruct Hnew as (w & -> & ->). cbn [set_words df_words].
  assert (Hw : nth i (df_words f) 0 = w).
  { rewrite <- (Nat.add_0_r i), <- nth_skipn. rewrite Eb in Hold. change (Z.to_nat 1) with 1%nat in Hold.
    destruct (skipn i (df_words f)); [discriminate|]. inversion Hold. reflexivity. }
  pose proof (upd_words_inside (df_words f) i _ Hl) as Hw'. rewrite <- (Nat.add_0_r i) at 1. rewrite <- nth_skipn.
  destruct (skipn i (upd_words (df_words f) i [if truthy v then Z.setbit w b else Z.clearbit w b])) as [|w' r];
    [discriminate|]. inversion Hw'. rewrite Hw. cbn [nth].
  apply putbit_other; assumption.
Qed.

(* the value a read returns after the write: a bit read gives a boolean *)
Definition norm (a : addr) (v : sval) : sval :=
  match a_bit a with Some _ => VBool (truthy v) | None => v end.

Theorem ref_write_read t a v t' :
  ref_write t a v = Some t' -> match a_bit a with Some b => 0 <= b | None => True end ->
  ref_read t' a = Some (norm a v).
Proof.
  intros H Hb. destruct (ref_write_inv _ _ _ _ H) as (f & i & old & new & Ef & Er & Hnew & Hlen & Hl & ->).
  destruct (region_some _ _ _ _ _ _ Er) as (_ & _ & _ & _ & _ & _ & Hk).
  unfold ref_read, norm. rewrite (file_for_put _ _ _ _ Ef).
  destruct (a_bit a) as [b|]; rewrite (region_set_words _ _ _ _ _ _ _ Er) by (apply upd_words_length; exact Hl);
    rewrite <- Hk, <- Hlen, upd_words_inside by exact Hl.
  - destruct Hnew as (w & _ & ->). destruct (truthy v); [rewrite Z.setbit_eq by lia|rewrite Z.clearbit_eq]; reflexivity.
  - destruct (new_words_ok _ _ _ Hnew) as (_ & _ & <-). destruct (values_of (a_ft a) new) as [|x [|y l]]; reflexivity.
Qed.

Lemma forallb_upd (p : Z -> bool) ws i new :
  forallb p ws = true -> forallb p new = true -> forallb p (upd_words ws i new) = true.
Proof.
  intros H1 H2. unfold upd_words. rewrite !forallb_app, forallb_firstn, forallb_skipn, H2 by exact H1. reflexivity.
Qed.

Lemma put_file_ok t f' : table_ok t = true -> dfile_ok f' = true -> table_ok (put_file t f') = true.
Proof.
  intros Ht Hf. induction t as [|g t IH]; [reflexivity|].
  cbn [table_ok forallb] in Ht. apply andb_true_iff in Ht. destruct Ht as [Hg Ht].
  cbn [put_file]. destruct (df_num g =? df_num f'); cbn [table_ok forallb].
  - rewrite Hf. exact Ht.
  - rewrite Hg. apply IH. exact Ht.
Qed.

Theorem ref_write_ok t a v t' :
  table_ok t = true -> match a_bit a with Some b => 0 <= b <= 15 | None => True end ->
  ref_write t a v = Some t' -> table_ok t' = true.
Proof.
  intros Ht Hb H. destruct (ref_write_inv _ _ _ _ H) as (f & i & old & new & Ef & Er & Hnew & Hlen & Hl & ->).
  destruct (file_for_find _ _ _ Ef) as (Hfind & _ & _).
  pose proof (find_file_ok _ _ _ Ht Hfind) as Hok. pose proof (region_words_ok _ _ _ _ _ _ Hok Er) as Hold.
  assert (Hn : forallb word_ok new = true).
  { destruct (a_bit a) as [b|]; [|apply (new_words_ok _ _ _ Hnew)].
    destruct Hnew as (w & -> & ->). cbn [forallb] in *. rewrite andb_true_r in *. unfold word_ok in *.
    pose proof (putbit_range (truthy v) w b). lia. }
  apply put_file_ok; [exact Ht|]. unfold dfile_ok in *. cbn [set_words df_words df_ew df_ft].
  rewrite upd_words_length by exact Hl.
  apply andb_true_iff in Hok. destruct Hok as [Hok H4]. apply andb_true_iff in Hok. destruct Hok as [Hok H3].
  apply andb_true_iff in Hok. destruct Hok as [H1 H2].
  rewrite forallb_upd by assumption. rewrite H2, H3, H4. reflexivity.
Qed.
