(* Proofs/C15P.v — the headline lemmas of C15 (parse_sound, spellings_agree, the rejection
   theorems per class, never_bytes_on_error, the converse).  The vocabulary of the statements
   (must_accept, must_reject, silent, in_grammar, in_grammar_strict) is Spec/ConnPathGrammar.v. *)
From Coq Require Import String.
From PV Require Import Proofs.PathStr Proofs.PathSeg.
From PV Require Import Base.Bytes Base.ListLemmas Base.Proto Base.Res Base.PyStr Gen.PathTables
     Model.Path Model.ConnPath Spec.ConnPathGrammar Proofs.ConnPathStr Proofs.ConnPathEnc
     Proofs.ConnPathRef Proofs.ConnPathRender.
From Coq Require Import ZifyBool.
Ltac Zify.zify_post_hook ::= Z.to_euclidean_division_equations.
Open Scope Z_scope.

Lemma rendered_accepted a sp auto hs :
  wf_route a = true -> wf_spelling sp a = true -> hops_of auto (r_shape a) = Some hs -> fits hs = true ->
  must_accept (ref_parse auto (render sp a)) = Some (r_host a, r_tcp a, hs).
Proof.
  intros Hwf Hsp Hh Hf. rewrite (ref_parse_render a sp auto Hwf Hsp), Hh. unfold must_accept.
  cbn [v_tcp v_route v_host]. destruct (r_tcp a); cbn [tcp_reading]; now rewrite Hf.
Qed.

(* every spelling of every well-formed route yields the stated host, TCP port and route bytes
   (route = the reference wire form of the hops), for every CIP port number 1..65535 *)
Theorem parse_sound a sp auto pl hs :
  wf_route a = true -> wf_spelling sp a = true -> hops_of auto (r_shape a) = Some hs ->
  fits hs = true ->
  outcome (render sp a) auto pl = inr (r_host a, r_tcp a, route_wire pl hs).
Proof.
  intros Hwf Hsp Hh Hf. now apply grammar_accepted, rendered_accepted.
Qed.

(* all spellings of one route give the same outcome - identical route bytes, or the same exception -
   for every port number, not only the small ones *)
Theorem spellings_agree a sp1 sp2 auto pl :
  wf_route a = true -> wf_spelling sp1 a = true -> wf_spelling sp2 a = true ->
  outcome (render sp1 a) auto pl = outcome (render sp2 a) auto pl.
Proof.
  intros Hwf H1 H2.
  pose proof (ref_parse_render a sp1 auto Hwf H1) as R1. pose proof (ref_parse_render a sp2 auto Hwf H2) as R2.
  destruct (hops_of auto (r_shape a)) as [hs|] eqn:Eh.
  - assert (Ht : forall t, tcp_value (tcp_reading t) = Some t) by (intros [p|]; reflexivity).
    destruct (outcome_of_reading (render sp1 a) auto pl (r_tcp a) hs) as [O1 _];
      [rewrite R1; apply Ht|now rewrite R1|].
    destruct (outcome_of_reading (render sp2 a) auto pl (r_tcp a) hs) as [O2 _];
      [rewrite R2; apply Ht|now rewrite R2|].
    rewrite O1, O2, R1, R2. reflexivity.
  - unfold outcome.
    rewrite (odd_segments_rejected (render sp1 a) auto) by now rewrite R1.
    rewrite (odd_segments_rejected (render sp2 a) auto) by now rewrite R2. reflexivity.
Qed.

(* the drivers: which of them enable the shortcuts is regenerated from their class bodies *)
Lemma driver_flags :
  auto_slot_of CIPDriver = false /\ auto_slot_of LogixDriver = true /\ auto_slot_of SLCDriver = true.
Proof. repeat split; reflexivity. Qed.

Theorem driver_init_sound d a sp hs :
  wf_route a = true -> wf_spelling sp a = true -> hops_of (auto_slot_of d) (r_shape a) = Some hs ->
  fits hs = true ->
  exists segs, driver_init d (render sp a)
               = Ok (mkCfg (r_host a) (match r_tcp a with Some p => p | None => TCP_DEFAULT end) segs)
               /\ forall pl, encode_route segs pl = Ok (route_wire pl hs).
Proof.
  intros Hwf Hsp Hh Hf. pose proof (fun pl => parse_sound a sp (auto_slot_of d) pl hs Hwf Hsp Hh Hf) as Ho.
  unfold outcome, driver_init in *.
  destruct (parse_connection_path (render sp a) (auto_slot_of d)) as [[[h t] segs]|e]; [|discriminate (Ho true)].
  exists segs. split.
  - specialize (Ho true). destruct (encode_route segs true); [|discriminate]. injection Ho as -> -> _.
    cbn [bind]. do 2 f_equal. unfold wf_route in Hwf. apply andb_prop in Hwf as [Hwf _].
    apply andb_prop in Hwf as [_ Ht]. destruct (r_tcp a) as [p|]; [|reflexivity]. unfold wf_tcp in Ht.
    now replace (p =? 0) with false by lia.
  - intros pl. specialize (Ho pl). destruct (encode_route segs pl); [|discriminate]. now injection Ho as _ _ ->.
Qed.

(* the rejection classes, stated on the fields of the string (split at / \ , and at ':'), each
   universally quantified *)
Fixpoint some_pair (P : text -> text -> bool) (fs : list text) : bool :=
  match fs with p :: l :: r => P p l || some_pair P r | _ => false end.
Definition route_fields (s : text) : list text := snd (fields is_sep s).
Definition tcp_fields (s : text) : list text := snd (fields is_colon (fst (fields is_sep s))).
Definition is_bad_hop (p l : text) : bool :=
  match classify_hop p l with HBad _ => true | _ => false end.

Lemma some_bad_pair fs : some_pair is_bad_hop fs = true -> exists c, classify_pairs fs = RouteReject c.
Proof.
  induction fs as [| a | p l r IH] using list_ind2; cbn [some_pair]; try discriminate.
  intros H. cbn [classify_pairs]. unfold is_bad_hop in H.
  destruct (classify_hop p l) as [h| |c] eqn:Eh; cbn [orb] in H.
  - destruct (IH H) as [c Hc]. rewrite Hc. cbn. eauto.
  - destruct (IH H) as [c Hc]. rewrite Hc. cbn. eauto.
  - cbn. eauto.
Qed.

Lemma some_pair_impl (P Q : text -> text -> bool) fs :
  (forall p l, P p l = true -> Q p l = true) -> some_pair P fs = true -> some_pair Q fs = true.
Proof.
  intros H. induction fs as [| a | p l r IH] using list_ind2; cbn [some_pair]; try discriminate.
  intros E. apply orb_prop in E as [E|E]; [now rewrite (H _ _ E)|rewrite (IH E); apply orb_true_r].
Qed.

Definition rejected (s : text) (auto pl : bool) : Prop :=
  parse_connection_path s auto = Err RequestError
  \/ (exists h t segs, parse_connection_path s auto = Ok (h, t, segs) /\ encode_route segs pl = Err DataError).

Lemma rejected_outcome s auto pl : rejected s auto pl ->
  outcome s auto pl = inl RequestError \/ outcome s auto pl = inl DataError.
Proof. unfold outcome. intros [-> |[h [t [segs [-> ->]]]]]; auto. Qed.

Theorem odd_number_of_segments_rejected s auto :
  Nat.odd (List.length (route_fields s)) = true ->
  (auto = true -> List.length (route_fields s) <> 1%nat) ->
  parse_connection_path s auto = Err RequestError.
Proof.
  unfold route_fields. intros Ho Hn. apply odd_segments_rejected. rewrite ref_parse_eq. cbn [v_route].
  destruct (snd (fields is_sep s)) as [|a [|b r]]; [discriminate| |].
  - destruct auto; [exfalso; now apply Hn|reflexivity].
  - cbn [classify_route]. now rewrite Ho.
Qed.

Lemma even_pairs_route auto fs : (2 <= List.length fs)%nat -> Nat.even (List.length fs) = true ->
  classify_route auto fs = classify_pairs fs.
Proof.
  intros Hl He. destruct fs as [|a [|b r]]; cbn [List.length] in Hl; try lia.
  cbn [classify_route]. rewrite even_odd_len, He. reflexivity.
Qed.

Theorem bad_pair_rejected s auto pl :
  Nat.even (List.length (route_fields s)) = true -> some_pair is_bad_hop (route_fields s) = true ->
  rejected s auto pl.
Proof.
  unfold route_fields. intros He Hb. destruct (some_bad_pair _ Hb) as [c Hc].
  assert (Hl : (2 <= List.length (snd (fields is_sep s)))%nat).
  { destruct (snd (fields is_sep s)) as [|a [|b r]]; cbn in Hb; try discriminate. cbn. lia. }
  apply (bad_hop_rejected s auto pl c). rewrite ref_parse_eq. cbn [v_route]. now rewrite (even_pairs_route auto _ Hl He).
Qed.

(* unknown port name: neither a documented name nor a decimal number *)
Theorem unknown_port_name_rejected s auto pl :
  Nat.even (List.length (route_fields s)) = true ->
  some_pair (fun p _ => match lookup p doc_port_names with Some _ => false | None => negb (isdigit p) end)
            (route_fields s) = true ->
  rejected s auto pl.
Proof.
  intros He Hb. apply bad_pair_rejected; [exact He|]. revert Hb. apply some_pair_impl. intros p l H.
  unfold is_bad_hop, classify_hop, classify_port.
  destruct (lookup p doc_port_names); [discriminate|]. destruct (isdigit p); [discriminate|]. reflexivity.
Qed.

(* link out of range: a decimal number above 255 (of any length the interpreter reads) *)
Theorem link_out_of_range_rejected s auto pl :
  Nat.even (List.length (route_fields s)) = true ->
  some_pair (fun _ l => isdigit l && numeral_ok l && (255 <? dval l)) (route_fields s) = true ->
  rejected s auto pl.
Proof.
  intros He Hb. apply bad_pair_rejected; [exact He|]. revert Hb. apply some_pair_impl. intros p l H.
  apply andb_prop in H as [H H3]. apply andb_prop in H as [H1 H2].
  unfold is_bad_hop, classify_hop, classify_link. rewrite H1, H2. cbn [negb].
  replace (dval l <=? 255) with false by lia. destruct (classify_port p); reflexivity.
Qed.

(* a link that is neither a number nor a dotted quad (and has no ':') *)
Theorem malformed_link_rejected s auto pl :
  Nat.even (List.length (route_fields s)) = true ->
  some_pair (fun _ l => negb (isdigit l) && negb (existsb is_colon l) && negb (strict_quad l))
            (route_fields s) = true ->
  rejected s auto pl.
Proof.
  intros He Hb. apply bad_pair_rejected; [exact He|]. revert Hb. apply some_pair_impl. intros p l H.
  apply andb_prop in H as [H H3]. apply andb_prop in H as [H1 H2].
  unfold is_bad_hop, classify_hop, classify_link.
  destruct (isdigit l); [discriminate|]. destruct (existsb is_colon l); [discriminate|].
  destruct (strict_quad l); [discriminate|]. destruct (classify_port p); reflexivity.
Qed.

(* the slot shortcut with a slot out of range / not a number *)
Theorem bad_slot_shortcut_rejected s pl l c :
  route_fields s = [l] -> classify_link l = LinkBad c -> rejected s true pl.
Proof.
  unfold route_fields. intros Hf Hl. apply (bad_hop_rejected s true pl c).
  rewrite ref_parse_eq. cbn [v_route]. rewrite Hf. cbn [classify_route]. now rewrite Hl.
Qed.

(* invalid TCP port *)
Lemma tcp_bad_rejected s auto : classify_tcp (tcp_fields s) = TcpBad -> parse_connection_path s auto = Err RequestError.
Proof. intros H. apply bad_tcp_port_rejected. now rewrite ref_parse_eq. Qed.

Theorem tcp_port_out_of_range_rejected s auto p :
  tcp_fields s = [p] -> isdigit p = true -> (dval p <= 0 \/ 65535 <= dval p) ->
  parse_connection_path s auto = Err RequestError.
Proof.
  intros Hf Hd Hr. apply tcp_bad_rejected. rewrite Hf. cbn [classify_tcp]. rewrite Hd. unfold wf_tcp.
  replace ((1 <=? dval p) && (dval p <=? 65534)) with false by lia. reflexivity.
Qed.
Lemma isdigit_lenient p : isdigit p = true ->
  forallb lenient_char p = true /\ existsb is_ascii_digit p = true /\ existsb (fun c => c =? 45) p = false.
Proof.
  intros H. apply isdigit_forallb in H as [Hne Hd].
  destruct (chars_lenient is_ascii_digit p) as [L M]; [|exact Hd|].
  { intros c. unfold lenient_char, is_ascii_digit. lia. }
  repeat split; [exact L| |exact M]. destruct p as [|c r]; [contradiction|].
  cbn [forallb existsb] in *. now apply andb_prop in Hd as [-> _].
Qed.

Theorem tcp_port_non_numeric_rejected s auto p :
  tcp_fields s = [p] -> (existsb (fun c => negb (lenient_char c)) p = true \/ existsb is_ascii_digit p = false) ->
  parse_connection_path s auto = Err RequestError.
Proof.
  intros Hf Hc. apply tcp_bad_rejected. rewrite Hf. cbn [classify_tcp].
  assert (E : forallb lenient_char p && existsb is_ascii_digit p = false).
  { destruct Hc as [Hc| ->]; [|apply andb_false_r]. destruct (forallb lenient_char p) eqn:F; [|reflexivity].
    apply existsb_exists in Hc as (c & Hin & Hc). now rewrite (forallb_In _ _ _ F Hin) in Hc. }
  destruct (isdigit p) eqn:Ed; [|now rewrite E].
  destruct (isdigit_lenient p Ed) as (L & D & _). rewrite L, D in E. discriminate.
Qed.
Theorem tcp_port_negative_rejected s auto p :
  tcp_fields s = [p] -> existsb (fun c => c =? 45) p = true ->
  parse_connection_path s auto = Err RequestError.
Proof.
  intros Hf Hm. apply tcp_bad_rejected. rewrite Hf. cbn [classify_tcp].
  destruct (isdigit p) eqn:Ed; [destruct (isdigit_lenient p Ed) as (_ & _ & M); congruence|].
  rewrite Hm. destruct (forallb lenient_char p && existsb is_ascii_digit p); reflexivity.
Qed.
Theorem several_colons_rejected s auto p q r :
  tcp_fields s = p :: q :: r -> parse_connection_path s auto = Err RequestError.
Proof.
  intros Hf. apply tcp_bad_rejected. now rewrite Hf.
Qed.

Theorem never_bytes_on_error s auto pl :
  must_reject (ref_parse auto s) = true -> forall h t b, outcome s auto pl <> inr (h, t, b).
Proof. intros H h t b E. destruct (rejected_no_bytes s auto pl H) as [H'|H']; congruence. Qed.

(* no bytes on error on the other path the stored route takes either: Forward Open appends the
   message-router path *)
Lemma encode_segs_app segs more :
  encode_segs true (segs ++ more) =
  (let* a := encode_segs true segs in let* b := encode_segs true more in Ok (a ++ b)).
Proof.
  induction segs as [|x segs IH]; cbn [app encode_segs].
  - cbn [bind]. destruct (encode_segs true more); reflexivity.
  - rewrite IH. destruct (encode_seg true x); cbn [bind]; [|reflexivity].
    destruct (encode_segs true segs); cbn [bind]; [|reflexivity].
    destruct (encode_segs true more); cbn [bind]; [|reflexivity]. now rewrite app_assoc.
Qed.
Lemma msg_router_bytes : encode_segs true msg_router_path = Ok [32; 2; 36; 1].
Proof. reflexivity. Qed.
Theorem forward_open_never_bytes_on_error segs pl e :
  encode_route segs pl = Err e -> forward_open_path segs pl = Err DataError.
Proof.
  unfold encode_route, forward_open_path, epath_encode, padded_PADDED_EPATH.
  rewrite encode_segs_app, msg_router_bytes.
  destruct (encode_segs true segs) as [path|e0]; cbn [bind wrap_all]; [|reflexivity].
  pose proof (len_nonneg path). destruct (len path / 2 <=? 255) eqn:E; [now rewrite USINT_small by lia|].
  intros _. rewrite USINT_out; [reflexivity|]. right. rewrite len_app. change (len [32; 2; 36; 1]) with 4. lia.
Qed.

Definition accepts (s : text) (auto pl : bool) : Prop := exists h t b, outcome s auto pl = inr (h, t, b).

Theorem accepts_in_grammar s auto pl : accepts s auto pl -> in_grammar auto s = true.
Proof.
  intros [h [t [b H]]]. unfold in_grammar. destruct (must_reject (ref_parse auto s)) eqn:E; [|reflexivity].
  exfalso. exact (never_bytes_on_error s auto pl E h t b H).
Qed.

(* the strict converse holds outside the zones about which the property is silent *)
Theorem accepts_in_grammar_strict_partial s auto pl :
  accepts s auto pl -> in_grammar_strict auto s = true \/ silent (ref_parse auto s) = true.
Proof.
  intros H. apply accepts_in_grammar in H. unfold in_grammar, must_reject in H.
  unfold in_grammar_strict, must_accept, silent.
  destruct (v_tcp (ref_parse auto s)); destruct (v_route (ref_parse auto s)) as [hs| |c];
    try discriminate; try (right; reflexivity); destruct (fits hs); auto.
Qed.

(* rendered strings are in the strict grammar *)
Theorem rendered_in_grammar a sp auto hs :
  wf_route a = true -> wf_spelling sp a = true -> hops_of auto (r_shape a) = Some hs -> fits hs = true ->
  in_grammar_strict auto (render sp a) = true.
Proof.
  intros Hwf Hsp Hh Hf. unfold in_grammar_strict. now rewrite (rendered_accepted a sp auto hs).
Qed.

(* every route of at most 25 hops has a wire form (the property speaks of 0-4 hops) *)
Lemma hop_bytes_len h : wf_hop h = true -> (List.length (hop_bytes h) <= 20)%nat.
Proof.
  unfold wf_hop. intros H. apply andb_prop in H as [_ Hl]. pose proof (link_bytes_len _ Hl) as Hlen.
  unfold hop_bytes. set (lb := link_bytes (h_link h)) in *.
  destruct (h_port h <? 15); destruct (1 <? tlen lb);
    repeat (rewrite app_length; cbn [List.length]);
    match goal with |- context [if ?b then _ else _] => destruct b end; cbn [List.length]; lia.
Qed.
Lemma hops_bytes_len hs : forallb wf_hop hs = true ->
  (List.length (hops_bytes hs) <= 20 * List.length hs)%nat.
Proof.
  induction hs as [|h hs IH]; cbn [forallb hops_bytes flat_map List.length]; [lia|].
  intros H. apply andb_prop in H as [H1 H2]. rewrite app_length.
  pose proof (hop_bytes_len h H1). specialize (IH H2). unfold hops_bytes in IH. lia.
Qed.
Theorem short_routes_fit hs : forallb wf_hop hs = true -> (List.length hs <= 25)%nat -> fits hs = true.
Proof.
  intros Hw Hl. pose proof (hops_bytes_len hs Hw). unfold fits, route_words, tlen. lia.
Qed.

(* every IPv4 address, given by its four octets, is a well-formed link *)
Lemma octet_print n : 0 <= n <= 255 -> octet (print_nat_z n) = true.
Proof.
  intros H. apply (forallb_zrange (fun k => octet (print_nat_z k)) 256); [vm_compute; reflexivity|lia].
Qed.
Lemma print_none_dot n : none_of is_dot (print_nat_z n) = true.
Proof.
  apply digits_none; [|apply print_nat_z_digits]. intros c. unfold is_ascii_digit, is_dot, DOT. lia.
Qed.
Theorem addr_of_octets_wf a b c d :
  0 <= a <= 255 -> 0 <= b <= 255 -> 0 <= c <= 255 -> 0 <= d <= 255 ->
  wf_link (Addr (addr_of_octets a b c d)) = true.
Proof.
  intros Ha Hb Hc Hd. cbn [wf_link]. unfold strict_quad, addr_of_octets. cbn [app].
  rewrite (fields_app_sep is_dot _ DOT _ (print_none_dot a) eq_refl).
  rewrite (fields_app_sep is_dot _ DOT _ (print_none_dot b) eq_refl).
  rewrite (fields_app_sep is_dot _ DOT _ (print_none_dot c) eq_refl).
  rewrite (fields_none is_dot _ (print_none_dot d)). cbn [fst snd].
  now rewrite !octet_print.
Qed.
