(* Proofs/ReadValue.v — from the reply data of a read service to the Tag read() returns.
     read_response_204, parse_unit_210   the envelope of a valid Read Tag (Fragmented) reply is parsed away: what is
                              left is parse_read_reply on the service data (also behind the 46-byte padding)
     data_value               element(s) of a non-BOOL-array type: parse_read_reply . target image = the
                              reference value (single element, {n} list, {1} unwrapped, whole structures
                              re-ordered to their attribute order), type string = name / name[n]
     int_bit_value            tag.bit of an integer
     bool_value               a BOOL tag / BOOL member (one byte, 0 / non-zero)
     bools_value              BOOL-array element and range: value[bit], value[bit : bit + n] *)
From Coq Require Import ZifyBool Permutation.
From PV Require Import Base.Bytes Base.BytesLemmas Base.Res Base.Proto Base.PyStr.
From PV Require Import Gen.Consts Model.Path Model.Reply Model.LogixRead.
From PV Require Import Spec.Project Spec.Expect.
From PV Require Import Proofs.TargetLogixP Proofs.ReadBits Proofs.ReadDecode.
Open Scope Z_scope.
(* The imported files add the division equations to lia's preprocessing (zify_post_hook; an Ltac redefinition is global
   and reaches every importer), which is slow on every call. Off in this file, where the few goals about / and mod call
   Z.to_euclidean_division_equations themselves; the last line sets it again for the files that import this one. *)
Ltac Zify.zify_post_hook ::= idtac.

Lemma read_response_204 pre data info n : pre = unit_prefix \/ pre = padding46 ->
  read_response (pre ++ 204 :: 0 :: 0 :: 0 :: data) info n
  = match parse_read_reply_t data info n with Ok vt => Some vt | Err _ => None end.
Proof.
  intros Hpre. unfold read_response.
  assert (H : is_valid KUnit (parse_unit (pre ++ 204 :: 0 :: 0 :: 0 :: data)) = true
              /\ Reply.r_data (parse_unit (pre ++ 204 :: 0 :: 0 :: 0 :: data)) = Some data)
    by (destruct Hpre as [->| ->]; vm_compute; split; reflexivity).
  destruct H as [-> ->]. reflexivity.
Qed.

(* a Read Tag Fragmented reply, status 6 (more follows) or 0 (last): valid, its data is what follows the envelope *)
Lemma parse_unit_210 (more : bool) data :
  let r := parse_unit (unit_prefix ++ 210 :: 0 :: (if more then 6 else 0) :: 0 :: data) in
  is_valid KUnit r = true /\ Reply.r_data r = Some data /\ opt_is (r_service_status r) INSUFFICIENT_PACKETS = more.
Proof. destruct more; vm_compute; repeat split; reflexivity. Qed.

Lemma pyeq_dict_inv fa fb : pyeq (RStruct fa) (RStruct fb) -> NoDup (map fst fb) ->
  NoDup (map fst fa) /\ length fa = length fb /\ forall k v, In (k, v) fa -> exists v', dget k fb = Some v' /\ pyeq v v'.
Proof.
  intros H Hnb. inversion H; subst; [|auto]. split; [exact Hnb|]. split; [reflexivity|].
  intros k v Hin. exists v. split; [apply dget_nodup_in; assumption|apply pe_refl].
Qed.

Lemma dget_in {A} k (v : A) d : dget k d = Some v -> In (k, v) d.
Proof.
  induction d as [|[k' v'] r IH]; [discriminate|]. cbn. destruct (text_eqb k' k) eqn:E.
  - intros H; injection H as <-. apply teqb_eq in E. subst. left. reflexivity.
  - intros H. right. auto.
Qed.

Lemma dget_some_key {A} k (d : list (text * A)) : In k (map fst d) -> exists v, dget k d = Some v.
Proof.
  induction d as [|[k' v'] r IH]; [contradiction|]. cbn. intros [E|Hin].
  - subst. rewrite teqb_refl. eauto.
  - destruct (text_eqb k' k); [eauto|auto].
Qed.

(* {attr: value[attr] for attr in attrs}: attrs distinct and all present *)
Lemma pick_attrs_spec fs : forall attrs acc,
  NoDup attrs -> (forall a, In a attrs -> In a (map fst fs)) -> (forall a, In a attrs -> dget a acc = None) ->
  exists picked, pick_attrs fs attrs acc = Ok (acc ++ picked)
                 /\ map fst picked = attrs /\ forall k v, In (k, v) picked -> dget k fs = Some v.
Proof.
  induction attrs as [|a r IH]; intros acc Hnd Hin Hfr.
  - exists []. rewrite app_nil_r. split; [reflexivity|]. split; [reflexivity|]. intros k v [].
  - cbn [pick_attrs]. destruct (dget_some_key a fs (Hin a (or_introl eq_refl))) as [x Hx]. rewrite Hx.
    inversion Hnd as [|y l Hn Hd]; subst.
    rewrite (dset_fresh _ _ _ (Hfr a (or_introl eq_refl))).
    destruct (IH (acc ++ [(a, x)]) Hd) as (picked & Hp & Hk & Hv).
    + intros b Hb. apply Hin. right. exact Hb.
    + intros b Hb. rewrite dget_app, (Hfr b (or_intror Hb)). cbn [dget].
      rewrite teqb_neq; [reflexivity|]. intros E. subst. contradiction.
    + exists ((a, x) :: picked). rewrite Hp, <- app_assoc. split; [reflexivity|]. split; [cbn; congruence|].
      intros k v [E|Hkv]; [injection E as <- <-; exact Hx|apply Hv; exact Hkv].
Qed.

Lemma pick_attrs_pyeq fa fb : pyeq (RStruct fa) (RStruct fb) -> NoDup (map fst fb) ->
  exists picked, pick_attrs fa (map fst fb) [] = Ok picked /\ pyeq (RStruct picked) (RStruct fb).
Proof.
  intros Hpy Hnb. destruct (pyeq_dict_inv _ _ Hpy Hnb) as (Hna & Hlen & Hall).
  assert (Hincl : incl (map fst fb) (map fst fa)).
  { apply NoDup_length_incl; [exact Hna|rewrite !map_length, Hlen; reflexivity|].
    intros k Hk. apply in_map_iff in Hk. destruct Hk as ([k' v0] & E & Hin). cbn [fst] in E. subst k'.
    destruct (Hall k v0 Hin) as (v1 & Hg & _). apply dget_in in Hg. apply (in_map fst) in Hg. exact Hg. }
  destruct (pick_attrs_spec fa (map fst fb) [] Hnb Hincl (fun a _ => eq_refl)) as (picked & Hp & Hpk & Hpv).
  exists picked. split; [exact Hp|]. apply pe_dict; [rewrite Hpk; exact Hnb|exact Hnb| |].
  - rewrite <- (map_length fst picked), Hpk, map_length. reflexivity.
  - intros k v Hin. apply Hall, dget_in, Hpv, Hin.
Qed.

Definition info_elem (i : tinfo) : tclass := match ti_class i with KArr _ e => e | tc => tc end.
Definition info_is_arr (i : tinfo) : bool := match ti_class i with KArr _ _ => true | _ => false end.

(* pycomm3 returns the single value for an explicit {1} (a result that is a one-element list; a bit string stays a list) *)
Definition unwrap1 (cnt : option Z) (v : rvalue) : rvalue :=
  match cnt with
  | Some 1 => match v with RList [x] => x | _ => v end
  | _ => v
  end.

(* the type field of a read reply for element type [ty]: the target's [type_bytes] *)
Definition type_field (p : project) (ty : base_ty) (tb : bytes) : Prop :=
  match ty with
  | BAtom c => tb = le_enc 2 c /\ 0 <= c < 256
  | BStruct tid => exists t, find_template (p_templates p) tid = Some t /\ tb = 160 :: 2 :: le_enc 2 (t_handle t)
  | BOpaque _ => False
  end.

Lemma type_field_stream p ty tb d : type_field p ty tb ->
  (if is_struct_reply (tb ++ d) then skipn 4 (tb ++ d) else skipn 2 (tb ++ d)) = d
  /\ is_struct_reply (tb ++ d) = match ty with BStruct _ => true | _ => false end
  /\ (if is_struct_reply (tb ++ d) then firstn 4 (tb ++ d) else firstn 2 (tb ++ d)) = tb.
Proof.
  destruct ty as [c|tid|w]; cbn [type_field].
  - intros [-> Hc]. cbn [le_enc app]. unfold is_struct_reply. cbn [firstn].
    replace (c / 256 mod 256) with 0 by (Z.to_euclidean_division_equations; lia).
    assert (E : PyStr.text_eqb [c mod 256; 0] STRUCTURE_READ_REPLY = false).
    { unfold STRUCTURE_READ_REPLY. cbn. destruct (c mod 256 =? 160); reflexivity. }
    rewrite E. repeat split; reflexivity.
  - intros (t & _ & ->). cbn [le_enc app]. repeat split; reflexivity.
  - contradiction.
Qed.

Lemma chunks_one s (d : bytes) : length d = s -> Expect.chunks 1 s d = [d].
Proof. intros <-. cbn. rewrite firstn_all. reflexivity. Qed.

Lemma decode_array_one dv ty s d : is_bits_ty ty = false -> len d = s -> 0 <= s ->
  decode_array_with dv ty s 1 d = match dv ty d with Some x => Some (RList [x]) | None => None end.
Proof.
  intros Hb Hl Hs. unfold decode_array_with. rewrite Hb. change (Z.to_nat 1) with 1%nat.
  rewrite chunks_one by (unfold len in Hl; lia). cbn. destruct (dv ty d); reflexivity.
Qed.

Lemma pyeq_list1_inv x y : pyeq (RList [x]) (RList [y]) -> pyeq x y.
Proof.
  intros H. inversion H as [|xs ys HF|]; subst; [apply pe_refl|].
  inversion HF as [|a b la lb Hab Hrest]; subst. exact Hab.
Qed.

Lemma pyeq_list_shape xs v : pyeq (RList xs) v -> exists ys, v = RList ys /\ length ys = length xs.
Proof.
  intros H. inversion H as [|xs' ys HF|]; subst; [eauto|].
  apply Forall2_length in HF. eauto.
Qed.

Lemma rbools_not_single d : (1 <= length d)%nat -> forall x, rbools d <> RList [x].
Proof.
  intros Hl x H. unfold rbools in H. injection H as H. apply (f_equal (@length _)) in H.
  rewrite map_length, bools_of_bytes_length in H. cbn in H. lia.
Qed.

Lemma decode_val_fuel_struct_keys f p tid d fs t :
  decode_val f p (BStruct tid) d = Some (RStruct fs) -> find_template (p_templates p) tid = Some t ->
  map fst fs = map m_name (visible_members t).
Proof.
  intros H Hf. apply (decode_val_struct _ _ _ _ _ _ Hf) in H. destruct (string_shape t) as [[l dd]|].
  - unfold decode_string in H. repeat (destruct (get_bytes _ _ _); try discriminate). destruct (_ && _); discriminate.
  - destruct H as (f' & fs' & Ea & [= ->]). exact (ref_fields_keys _ _ _ _ _ Ea).
Qed.

Lemma array_spec_of p f1 ty e s n : layout_ok p = true -> elem_tc f1 p ty = Some e -> base_size p ty = Some s ->
  0 < s -> 0 <= n -> array_spec p ty e s n /\ is_bitarray e = is_bits_ty ty /\ elem_spec p ty e s.
Proof.
  intros Hlay He Hs Hpos Hn.
  pose proof (decode_elem_spec p Hlay f1 ty e s He Hs) as Hspec.
  destruct ty as [c|tid|w]; cbn [elem_tc] in He; try discriminate.
  - destruct (atom_class c); [|discriminate]. injection He as <-. cbn [base_size] in Hs.
    split; [apply decode_array_atom; assumption|]. split; [apply (is_bitarray_atom c s Hs)|exact Hspec].
  - destruct (struct_dtype f1 p tid) as [dt|] eqn:Esd; [|discriminate]. injection He as <-.
    pose proof (struct_dtype_not_bits _ _ _ _ Esd) as Hnb.
    split; [apply decode_array_elems; auto|]. split; [exact Hnb|exact Hspec].
Qed.

(* what read() shows for n elements: one element that is not a bit string comes without its list *)
Definition shown (f : nat) (p : project) (ty : base_ty) (s n : Z) (d : bytes) : option rvalue :=
  if (n =? 1) && negb (is_bits_ty ty) then decode_val f p ty d else decode_array_with (decode_val f p) ty s n d.

Definition reply_opt (data : bytes) (info : tinfo) (n : Z) : option (rvalue * text) :=
  match parse_read_reply_t data info n with Ok vt => Some vt | Err _ => None end.

Definition cnt_n (cnt : option Z) : Z := match cnt with Some k => k | None => 1 end.

Lemma read_place_shown p img off ty s avail cnt vref d :
  base_size p ty = Some s -> get_bytes img off (s * cnt_n cnt) = Some d ->
  read_place p img (PlData 0 off ty [] avail) None cnt = Some vref -> 1 <= len d ->
  shown (depth_fuel p) p ty s (cnt_n cnt) d = Some (unwrap1 cnt vref).
Proof.
  intros Hsz Hd Href Hd1. destruct (get_bytes_split _ _ _ _ Hd) as (_ & Hld & _ & Hs0 & _).
  assert (Hun : forall v, v = rbools d -> match v with RList [x] => x | _ => v end = v).
  { intros v ->. destruct (rbools d) as [| | | | | |[|x [|y r]]] eqn:Er; try reflexivity.
    exfalso. apply (rbools_not_single d ltac:(unfold len in Hd1; lia) x Er). }
  unfold read_place in Href. rewrite Hsz in Href. unfold shown.
  destruct cnt as [k|]; cbn [cnt_n unwrap1] in *.
  - destruct ((1 <=? k) && (k <=? avail)); [|discriminate]. rewrite Hd in Href.
    destruct (k =? 1) eqn:Ek; cbn [andb].
    + assert (k = 1) by lia. subst k. rewrite Z.mul_1_r in Hld. destruct (is_bits_ty ty) eqn:Eb; cbn [negb].
      * rewrite Href. f_equal. symmetry. apply Hun. unfold decode_array_with in Href. rewrite Eb in Href. congruence.
      * rewrite (decode_array_one _ ty s d Eb Hld) in Href by lia.
        destruct (decode_val (depth_fuel p) p ty d) as [x|]; [|discriminate]. injection Href as <-. reflexivity.
    + rewrite Href. destruct k as [|[| |]|]; try reflexivity; lia.
  - rewrite Z.mul_1_r in Hd, Hld. rewrite Hd in Href. cbn [Z.eqb Pos.eqb andb].
    destruct (is_bits_ty ty) eqn:Eb; cbn [negb]; [|exact Href].
    unfold decode_array_with. rewrite Eb. destruct ty as [c| |]; try discriminate.
    destruct (depth_fuel_S p) as [f Hf]. rewrite Hf in Href. cbn [decode_val] in Href.
    rewrite (decode_atom_bits c s d Hsz Eb) in Href. destruct (_ =? s); congruence.
Qed.

Section DataValue.
  Variables (p : project) (ty : base_ty) (s : Z) (info : tinfo) (tb : bytes).
  Hypothesis Hlay : layout_ok p = true.
  Hypothesis Hsz : base_size p ty = Some s.
  Hypothesis Hspos : 0 < s.
  Hypothesis Helem : exists f1, elem_tc f1 p ty = Some (info_elem info).
  Hypothesis Htb : type_field p ty tb.
  Hypothesis Hstruct :
    match ty with
    | BStruct tid => ti_struct info = true /\ exists t, find_template (p_templates p) tid = Some t
                                                   /\ ti_attrs info = map m_name (visible_members t)
    | _ => True
    end.

  (* an array class: n elements (one element: the element itself unless it is a bit string) *)
  Lemma parse_reply_array n d : info_is_arr info = true -> 1 <= n -> len d = s * n -> bytes_ok d = true ->
    exists v, parse_read_reply_t (tb ++ d) info n = Ok (v, type_string (ti_dtname info) n)
      /\ forall f2 x, shown f2 p ty s n d = Some x -> pyeq v x.
  Proof.
    intros Harr Hn Hl Hokd. destruct Helem as [f1 He].
    unfold parse_read_reply_t. destruct (type_field_stream p ty tb d Htb) as (Hstream & _). rewrite Hstream.
    unfold info_is_arr, info_elem in *. destruct (ti_class info) as [|n0 e| |]; try discriminate.
    destruct (array_spec_of p f1 ty e s n Hlay He Hsz Hspos ltac:(lia)) as (Harrspec & Hbits & Hes).
    unfold decode_array_len. replace (n =? 0) with false by lia.
    destruct (Harrspec d [] Hl Hokd) as (v' & Hv' & Hpy). rewrite app_nil_r in Hv'. rewrite Hv'. cbn [bind].
    rewrite Hbits. unfold shown.
    destruct ((n =? 1) && negb (is_bits_ty ty)) eqn:Ec.
    - apply andb_prop in Ec. destruct Ec as [E1 E2]. assert (n = 1) by lia. subst n.
      apply negb_true_iff in E2.
      destruct (Hes d [] ltac:(lia) Hokd) as (x' & Hx' & Hpx). rewrite app_nil_r in Hx'.
      assert (Hv1 : v' = RList [x']).
      { rewrite decode_tc_arr in Hv'. change (Z.to_nat 1) with 1%nat in Hv'. cbn [dec_many] in Hv'.
        rewrite Hx' in Hv'. cbn [bind wrap_decode] in Hv'. rewrite Hbits, E2 in Hv'. congruence. }
      subst v'. cbn [bind]. eexists. split; [reflexivity|]. exact Hpx.
    - cbn [bind]. eexists. split; [reflexivity|]. exact Hpy.
  Qed.

  Lemma visible_names_nodup t : In t (p_templates p) -> NoDup (map m_name (visible_members t)).
  Proof.
    intros Hin. unfold visible_members. apply NoDup_map_filter. apply (distinct_by_NoDup _ _ teqb_refl).
    pose proof (forallb_In _ _ _ Hlay Hin) as Ht. apply (sc_lay p t Ht).
  Qed.

  Lemma decode_struct_shape ms bits priv size d v r : decode_tc (KStruct ms bits priv size) d = Ok (v, r) ->
    exists fs, v = RStruct fs.
  Proof.
    rewrite decode_tc_struct. destruct (negb _ && _); [discriminate|].
    destruct (dec_members _ _ _ _) as [vals|]; [|destruct e; discriminate].
    cbn [bind]. destruct (dec_bits _ _ _) as [vals2|]; [|destruct e; discriminate].
    cbn [bind wrap_decode]. intros H. injection H as <- _. eauto.
  Qed.

  (* a non-array class: one element; a whole structure is re-ordered to its attribute list *)
  Lemma parse_reply_scalar d : info_is_arr info = false -> len d = s -> bytes_ok d = true ->
    forall f2 x, decode_val f2 p ty d = Some x ->
    exists v, parse_read_reply_t (tb ++ d) info 1 = Ok (v, type_string (ti_dtname info) 1) /\ pyeq v x.
  Proof.
    intros Harr Hl Hokd f2 x Hx. destruct Helem as [f1 He].
    unfold parse_read_reply_t. destruct (type_field_stream p ty tb d Htb) as (Hstream & Hsr & _). rewrite Hstream, Hsr.
    assert (Hcls : ti_class info = info_elem info).
    { unfold info_elem, info_is_arr in *. destruct (ti_class info); try reflexivity. discriminate. }
    pose proof (decode_elem_spec p Hlay f1 ty (info_elem info) s He Hsz) as Hspec.
    destruct (Hspec d [] Hl Hokd) as (v' & Hv' & Hpy). rewrite app_nil_r in Hv'.
    specialize (Hpy f2 x Hx).
    (* the model's catch-all branch `| tc => ...` for a variable class: usable without splitting [ti_class info]
       into its three constructors that are not arrays *)
    assert (Hgen : forall tc, tc = info_elem info ->
      exists v, (let* v0 := (let* (v1, _) := decode_tc tc d in
                   if (match ty with BStruct _ => true | _ => false end) && negb (match tc with KStr _ _ => true | _ => false end)
                   then match v1 with
                        | RStruct fs => let* fs' := pick_attrs fs (ti_attrs info) [] in
                                        if ti_struct info then Ok (RStruct fs') else Err (Foreign TypeError)
                        | _ => Err (Foreign TypeError)
                        end
                   else Ok v1) in Ok (v0, type_string (ti_dtname info) 1)) = Ok (v, type_string (ti_dtname info) 1)
                /\ pyeq v x).
    { intros tc ->. rewrite Hv'. cbn [bind].
      destruct ty as [c|tid|w]; cbn [andb].
      - eexists. split; [reflexivity|exact Hpy].
      - destruct Hstruct as (Hts & t & Hft & Hattrs).
        destruct (match info_elem info with KStr _ _ => true | _ => false end) eqn:Ek; cbn [negb].
        + eexists. split; [reflexivity|exact Hpy].
        + (* a structure: the client value is a dict; the reference value too *)
          assert (Hk : exists ms bits priv size, info_elem info = KStruct ms bits priv size).
          { cbn [elem_tc] in He. destruct (struct_dtype f1 p tid) as [dt|] eqn:Esd; [|discriminate]. injection He as He.
            destruct (struct_dtype_class _ _ _ _ Esd) as [(? & ? & E)|Hk]; rewrite He in *; [rewrite E in Ek; discriminate|exact Hk]. }
          destruct Hk as (ms & bits & priv & size & Hk). rewrite Hk in Hv'.
          destruct (decode_struct_shape _ _ _ _ _ _ _ Hv') as [fa ->].
          assert (Hxs : exists fb, x = RStruct fb).
          { inversion Hpy; subst; eauto. }
          destruct Hxs as [fb ->].
          pose proof (decode_val_fuel_struct_keys _ _ _ _ _ _ Hx Hft) as Hkeys.
          destruct (find_template_in _ _ _ Hft) as [Hint _].
          assert (Hnb : NoDup (map fst fb)) by (rewrite Hkeys; apply visible_names_nodup; exact Hint).
          destruct (pick_attrs_pyeq fa fb Hpy Hnb) as (picked & Hp & Hpp).
          rewrite Hattrs, <- Hkeys, Hp. cbn [bind]. rewrite Hts. eexists. split; [reflexivity|exact Hpp].
      - cbn [type_field] in Htb. contradiction. }
    destruct (Hgen (ti_class info) Hcls) as (v & Hv & Hp).
    exists v. split; [|exact Hp].
    unfold info_is_arr in Harr. revert Hv. destruct (ti_class info); try discriminate Harr; intros Hv; exact Hv.
  Qed.

  Lemma parse_reply_shown n d : (info_is_arr info = false -> n = 1) -> 1 <= n -> len d = s * n -> bytes_ok d = true ->
    forall f2 x, shown f2 p ty s n d = Some x ->
    exists v, parse_read_reply_t (tb ++ d) info n = Ok (v, type_string (ti_dtname info) n) /\ pyeq v x.
  Proof.
    intros Hsc Hn Hl Hokd f2 x Hx. destruct (info_is_arr info) eqn:Earr.
    - destruct (parse_reply_array n d Earr Hn Hl Hokd) as (v & Hv & Hpy). eauto.
    - rewrite (Hsc eq_refl), ?Z.mul_1_r in *. unfold shown in Hx.
      destruct (is_bits_ty ty) eqn:Eb; cbn [Z.eqb Pos.eqb andb negb] in Hx; [|apply (parse_reply_scalar d Earr Hl Hokd f2 x Hx)].
      (* one bit string: the list of its bits either way *)
      apply (parse_reply_scalar d Earr Hl Hokd 1%nat). unfold decode_array_with in Hx. rewrite Eb in Hx.
      destruct ty as [c| |]; try discriminate. cbn [decode_val]. rewrite (decode_atom_bits c s d Hsz Eb).
      replace (Expect.blen d =? s) with true by (unfold Expect.blen, len in *; lia). exact Hx.
  Qed.

  Theorem data_value img off avail cnt vref d user plc :
    text_eqb (ti_dtname info) txt_DWORD = false ->
    (info_is_arr info = false -> cnt = None \/ cnt = Some 1) ->
    (match cnt with Some k => 1 <= k <= avail | None => True end) ->
    get_bytes img off (s * cnt_n cnt) = Some d -> bytes_ok img = true ->
    read_place p img (PlData 0 off ty [] avail) None cnt = Some vref ->
    exists v', post_read (mkPreq user plc None (cnt_n cnt) None info) (reply_opt (tb ++ d) info (cnt_n cnt))
               = mkRTag plc (Some v') (Some (type_string (ti_dtname info) (cnt_n cnt))) false
               /\ pyeq v' (unwrap1 cnt vref).
  Proof.
    intros Hnd Hscalar Hcnt Hd Hoki Href.
    destruct (get_bytes_split _ _ _ _ Hd) as (_ & Hld & _).
    destruct (parse_reply_shown (cnt_n cnt) d) with (f2 := depth_fuel p) (x := unwrap1 cnt vref) as (v & Hv & Hpy).
    - intros Harr. destruct (Hscalar Harr) as [->| ->]; reflexivity.
    - destruct cnt; cbn [cnt_n]; lia.
    - exact Hld.
    - eapply bytes_ok_get; eassumption.
    - apply (read_place_shown p img off ty s avail cnt vref d Hsz Hd Href). destruct cnt; cbn [cnt_n] in *; lia.
    - unfold reply_opt. rewrite Hv. unfold post_read. cbn [pq_info pq_bit pq_plc]. rewrite Hnd. exists v. split; [reflexivity|exact Hpy].
  Qed.
End DataValue.

Lemma pyeq_int_inv v z : pyeq v (RInt z) -> v = RInt z.
Proof. intros H. inversion H; subst; reflexivity. Qed.

Theorem int_bit_value p c s info tb img off avail b vref d user plc :
  layout_ok p = true -> atom_size c = Some s -> atom_integer c = true ->
  (exists f1, elem_tc f1 p (BAtom c) = Some (info_elem info)) -> type_field p (BAtom c) tb ->
  text_eqb (ti_dtname info) txt_DWORD = false ->
  get_bytes img off s = Some d -> bytes_ok img = true ->
  read_place p img (PlData 0 off (BAtom c) [] avail) (Some b) None = Some vref ->
  post_read (mkPreq user plc (Some b) 1 None info) (reply_opt (tb ++ d) info 1)
  = mkRTag user (Some vref) (Some txt_BOOL) false.
Proof.
  intros Hlay Hsz Hint Helem Htb Hnd Hd Hoki Href.
  pose proof (atom_size_pos c s Hsz) as Hspos.
  destruct (value_atom_plain c) as [Hnb Hnbits]; [unfold value_atom; unfold atom_integer in Hint; rewrite Hint; reflexivity|].
  assert (Hokd : bytes_ok d = true) by (eapply bytes_ok_get; eassumption).
  destruct (get_bytes_split _ _ _ _ Hd) as (_ & Hld & _).
  unfold read_place in Href. cbn [base_size] in Href. rewrite Hsz in Href. cbn [int_ty] in Href. rewrite Hint in Href. cbn [andb] in Href.
  destruct ((0 <=? b) && (b <? 8 * s)) eqn:Eb; [|discriminate].
  rewrite Hd in Href. injection Href as <-.
  assert (Hval : exists z, decode_val (depth_fuel p) p (BAtom c) d = Some (RInt z) /\ Z.testbit z b = Z.testbit (le_dec d) b).
  { destruct (depth_fuel_S p) as [f Hf]. rewrite Hf. cbn [decode_val]. unfold decode_atom. rewrite Hsz.
    replace (Expect.blen d =? s) with true by (unfold Expect.blen, len in *; lia). cbn [negb].
    unfold atom_integer in Hint. rewrite Hnb. destruct (atom_signed c) eqn:Es.
    - eexists. split; [reflexivity|]. apply testbit_to_signed. lia.
    - cbn [orb] in Hint. rewrite Hint. eexists. split; reflexivity. }
  destruct Hval as (z & Hz & Hbit).
  destruct (parse_reply_shown p (BAtom c) s info tb Hlay Hsz Hspos Helem Htb I 1 d (fun _ => eq_refl)) with (f2 := depth_fuel p) (x := RInt z)
    as (v & Hr & Hpy); [lia|lia|exact Hokd| |].
  { unfold shown. cbn [is_bits_ty]. rewrite Hnbits. exact Hz. }
  apply pyeq_int_inv in Hpy. subst v. unfold reply_opt.
  rewrite Hr. unfold post_read. cbn [pq_info pq_bit pq_user]. rewrite Hnd. cbn [negb].
  unfold ok_tag. rewrite bit_extract by lia. rewrite Hbit. reflexivity.
Qed.

Theorem bool_value info x b bt user plc :
  ti_class info = KAtom 193 -> text_eqb (ti_dtname info) txt_DWORD = false ->
  0 < bt < 256 ->
  post_read (mkPreq user plc None 1 None info) (reply_opt (le_enc 2 193 ++ [if Z.testbit x b then bt else 0]) info 1)
  = mkRTag plc (Some (RBool (Z.testbit x b))) (Some (type_string (ti_dtname info) 1)) false.
Proof.
  intros Hc Hnd Hbt. unfold reply_opt, parse_read_reply_t. rewrite Hc.
  change (is_struct_reply (le_enc 2 193 ++ [if Z.testbit x b then bt else 0])) with false. cbv iota.
  change (skipn 2 (le_enc 2 193 ++ [if Z.testbit x b then bt else 0])) with [if Z.testbit x b then bt else 0].
  cbn [decode_tc]. change (atom_class 193) with (Some (txt_BOOL, 1, ABool)). cbv iota beta.
  unfold decode_kind. cbn [kind_size stream_read Z.to_nat Pos.to_nat Pos.iter_op Nat.add firstn skipn bind].
  change (len [if Z.testbit x b then bt else 0] =? 1) with true. cbn [negb wrap_decode bind andb].
  unfold post_read. cbn [pq_info pq_bit pq_plc]. rewrite Hnd. cbn [negb]. unfold ok_tag. do 3 f_equal.
  destruct (Z.testbit x b); [|reflexivity].
  destruct bt as [|pb|pb]; try lia. reflexivity.
Qed.

Lemma pyeq_bools_inv v l : pyeq v (RList (map RBool l)) -> v = RList (map RBool l).
Proof.
  intros H. inversion H as [|xs ys HF|]; subst; [reflexivity|]. f_equal. clear H.
  revert xs HF. induction l as [|b l IH]; intros xs HF; cbn [map] in HF.
  - inversion HF; subst. reflexivity.
  - inversion HF as [|x y xs' ys' Hxy Hrest]; subst. cbn [map]. f_equal; [|apply IH; exact Hrest].
    inversion Hxy; subst; reflexivity.
Qed.

Lemma firstn1_skipn_nth {A} (l : list A) k x : firstn 1 (skipn k l) = [x] -> nth_error l k = Some x.
Proof.
  intros H. rewrite <- (Nat.add_0_r k), <- nth_error_skipn.
  destruct (skipn k l); [discriminate|]. injection H as ->. reflexivity.
Qed.

Definition bool_type (cnt : option Z) : text :=
  match cnt with
  | Some k => if k =? 1 then txt_BOOL else txt_BOOL ++ [91] ++ print_int k ++ [93]
  | None => txt_BOOL
  end.
Definition bools_of_cnt (cnt : option Z) : option Z :=
  match cnt with Some k => if k =? 1 then None else Some k | None => None end.

Theorem bools_value p info img off nbits start cnt vref d user plc idx n e :
  layout_ok p = true ->
  (exists f1, elem_tc f1 p (BAtom C_DWORD) = Some (info_elem info)) ->
  text_eqb (ti_dtname info) txt_DWORD = true ->
  n = cnt_n cnt -> 1 <= e -> start + n <= 32 * e ->
  (info_is_arr info = false -> e = 1) ->
  0 <= start -> 0 <= off -> (idx = Some start \/ (idx = None /\ start = 0)) ->
  get_bytes img off (4 * e) = Some d -> bytes_ok img = true ->
  read_place p img (PlBools 0 off nbits start) None cnt = Some vref ->
  post_read (mkPreq user plc idx e (bools_of_cnt cnt) info) (reply_opt (le_enc 2 211 ++ d) info e)
  = mkRTag user (Some (unwrap1 cnt vref)) (Some (bool_type cnt)) false.
Proof.
  intros Hlay Helem Hdw Hn He1 Hcov Hscalar Hstart Hoff Hidx Hd Hoki Href.
  assert (Hokd : bytes_ok d = true) by (eapply bytes_ok_get; eassumption).
  destruct (get_bytes_split _ _ _ _ Hd) as (_ & Hld & _ & He0 & Hfit).
  unfold read_place in Href. change (match cnt with Some k => k | None => 1 end) with (cnt_n cnt) in Href. rewrite <- Hn in Href.
  destruct ((1 <=? n) && (start + n <=? nbits)) eqn:Ec; [|destruct cnt; discriminate].
  assert (Hn1 : 1 <= n) by lia.
  set (b0 := start / 8) in *. set (b1 := (start + n - 1) / 8) in *.
  destruct (get_bytes img (off + b0) (b1 - b0 + 1)) as [d'|] eqn:Hd'; [|destruct cnt; discriminate].
  assert (Htb : type_field p (BAtom 211) (le_enc 2 211)) by (split; [reflexivity|lia]).
  assert (Hsz : base_size p (BAtom 211) = Some 4) by reflexivity.
  destruct (parse_reply_shown p (BAtom 211) 4 info (le_enc 2 211) Hlay Hsz ltac:(lia) Helem Htb I e d Hscalar He1) with (f2 := 0%nat) (x := rbools d)
    as (v & Hv & Hpy); [unfold len in *; lia|exact Hokd|unfold shown; rewrite andb_false_r; reflexivity|].
  apply pyeq_bools_inv in Hpy. subst v. unfold reply_opt. rewrite Hv.
  assert (Hrange : firstn (Z.to_nat n) (skipn (Z.to_nat start) (bools_of_bytes d))
                   = firstn (Z.to_nat n) (skipn (Z.to_nat (start - 8 * b0)) (bools_of_bytes d'))).
  { assert (Ed : d = firstn (Z.to_nat (4 * e)) (skipn (Z.to_nat off) img)).
    { unfold get_bytes in Hd. destruct (_ && _) in Hd; [|discriminate]. congruence. }
    assert (Ed' : d' = firstn (Z.to_nat (b1 - b0 + 1)) (skipn (Z.to_nat (off + b0)) img)).
    { unfold get_bytes in Hd'. destruct (_ && _) in Hd'; [|discriminate]. congruence. }
    rewrite Ed, Ed'. apply bool_range; try lia. unfold len in Hfit. lia. }
  set (bl := firstn (Z.to_nat n) (skipn (Z.to_nat (start - 8 * b0)) (bools_of_bytes d'))) in *.
  assert (Hbl_len : length bl = Z.to_nat n).
  { rewrite <- Hrange. rewrite firstn_length, skipn_length, bools_of_bytes_length. unfold len in Hld. lia. }
  unfold post_read. cbn [pq_info pq_bit pq_bools pq_user]. rewrite Hdw. cbn [negb].
  assert (Hbit : (match idx with Some b => b | None => 0 end) = start) by (destruct Hidx as [->|[-> ->]]; reflexivity).
  rewrite Hbit. unfold rbools.
  assert (Hsingle : n = 1 -> exists xb, bl = [xb] /\ nth_error (map RBool (bools_of_bytes d)) (Z.to_nat start) = Some (RBool xb)).
  { intros ->. change (Z.to_nat 1) with 1%nat in *.
    destruct bl as [|xb [|y r]]; try discriminate. exists xb. split; [reflexivity|].
    apply map_nth_error. apply firstn1_skipn_nth. exact Hrange. }
  destruct cnt as [k|]; cbn [bools_of_cnt cnt_n unwrap1 bool_type] in *.
  - injection Href as <-. subst n.
    destruct (k =? 1) eqn:Ek.
    + assert (k = 1) by lia. subst k. destruct (Hsingle eq_refl) as (xb & -> & Hnth).
      rewrite Hnth. replace (0 <=? start) with true by lia. reflexivity.
    + unfold ok_tag. rewrite <- Hrange. rewrite skipn_map, firstn_map.
      destruct k as [|[kp|kp|]|]; try lia; reflexivity.
  - subst n. destruct (Hsingle eq_refl) as (xb & Hb & Hnth). rewrite Hb in Href. injection Href as <-.
    rewrite Hnth. replace (0 <=? start) with true by lia. reflexivity.
Qed.

Ltac Zify.zify_post_hook ::= Z.to_euclidean_division_equations.
