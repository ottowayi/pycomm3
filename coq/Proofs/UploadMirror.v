(* Proofs/UploadMirror.v — C05: the model client composed with the reference target.
   [get_data_type_mirrors]: for every well-formed template list (structures nested to any depth,
   arrays of structures, strings, hidden hosts), every template-fragment policy and every reply
   capacity >= 34, _get_data_type against the target returns a definition whose observation is the
   expected one ([Exp]), fetches exactly the structures reachable from the requested one, and keeps
   the caches consistent.  By strong induction on the position of the template in the project
   (a template only uses earlier ones), composing Proofs/UploadTemplate.template_fragment_independent,
   Proofs/UploadTarget (the target is a fragment peer), Proofs/UploadBlob.parse_template_blob and
   Proofs/UploadObsP.obs_of_built. *)
From Coq Require Import ZifyBool String.
From PV Require Import Base.Bytes Base.BytesLemmas Base.Proto Base.PyStr Base.Res.
From PV Require Import Spec.EncapParser Spec.MRParser Spec.TargetCore Spec.Project Spec.Expect Spec.TargetLogix Spec.UploadObs.
From PV Require Import Model.LogixUpload.
From PV Require Import Proofs.TargetLogixP Proofs.UploadDefs Proofs.UploadDict Proofs.UploadParse Proofs.UploadFilter Proofs.UploadTemplate Proofs.UploadBlob
  Proofs.UploadObsP Proofs.UploadTarget.
Open Scope string_scope.
Open Scope list_scope.
Open Scope Z_scope.

Lemma templates_ok_at : forall a acc x b, templates_ok acc (a ++ x :: b) = true -> template_ok (acc ++ a) x = true.
Proof.
  induction a as [|y a IH]; intros acc x b H; cbn [app templates_ok] in H; apply andb_prop in H; destruct H as [H1 H2].
  - rewrite app_nil_r. exact H1.
  - specialize (IH (acc ++ [y]) x b H2). rewrite <- app_assoc in IH. exact IH.
Qed.

Fixpoint rank_in (l : list template) (tid : Z) : nat :=
  match l with
  | [] => O
  | x :: r => if t_id x =? tid then O else S (rank_in r tid)
  end.

Lemma find_template_skip e t l tid :
  (forall x, In x e -> t_id x <> tid) -> t_id t = tid ->
  find_template (e ++ t :: l) tid = Some t /\ rank_in (e ++ t :: l) tid = length e.
Proof.
  intros He Ht. induction e as [|x e IH]; cbn [app find_template rank_in length].
  - rewrite Ht, Z.eqb_refl. auto.
  - destruct (t_id x =? tid) eqn:E; [exfalso; apply (He x (or_introl eq_refl)); lia|].
    destruct (IH (fun y Hy => He y (or_intror Hy))) as [-> ->]. auto.
Qed.

Lemma template_ok_fresh e t : template_ok e t = true -> forall x, In x e -> t_id x <> t_id t.
Proof.
  unfold template_ok. intros H x Hx. split_andb.
  match goal with H : negb (existsb _ e) = true |- _ => apply negb_true_iff in H; rename H into Hn end.
  intros E. assert (existsb (fun e0 => (t_id e0 =? t_id t) || name_eqb (t_name e0) (t_name t)) e = true); [|congruence].
  apply existsb_exists. exists x. split; [exact Hx|]. rewrite E, Z.eqb_refl. reflexivity.
Qed.

Lemma template_blob_length ab ab' t : length (template_blob ab t) = length (template_blob ab' t).
Proof.
  unfold template_blob. cbv zeta. rewrite !app_length, !zeros_length, !template_records_eq, !records_length. reflexivity.
Qed.

Lemma max_blob_ge p t ab : In t (p_templates p) -> (length (template_blob ab t) <= max_blob p)%nat.
Proof.
  unfold max_blob. intros Hin. rewrite (template_blob_length ab true).
  induction (p_templates p) as [|x l IH]; [destruct Hin|]. cbn [map fold_right].
  destruct Hin as [<- | Hin]; [lia | specialize (IH Hin); lia].
Qed.

(* the domain of a template: the structure size is a UDINT (attribute 5); the byte count of a
   Read Template request, definition_size * 4 - 21, is a UINT; names without NUL and ';'
   (Proofs/UploadBlob.names_ok); no LEN/DATA structure that only the code takes for a string
   (Proofs/UploadObsP.no_pseudo_string) *)
Definition tmpl_dom (t : template) : Prop :=
  0 <= t_size t < 4294967296 /\ template_defsize t * 4 - 21 <= 65535 /\ names_ok t /\ no_pseudo_string t.

Lemma member_struct_found e t m tid :
  member_ok (mkProject e []) t m = true -> m_ty m = BStruct tid -> exists t', find_template e tid = Some t'.
Proof.
  unfold member_ok. intros H Hty. apply andb_prop in H. destruct H as [_ H].
  unfold is_bool_member in H. rewrite Hty in H.
  apply andb_prop in H. destruct H as [_ H]. unfold member_size, base_size in H. rewrite Hty in H. cbn [p_templates] in H.
  destruct (find_template e tid); [eauto | discriminate].
Qed.

(* what well-formedness gives about one member *)
Lemma member_ok_facts e t m :
  member_ok (mkProject e []) t m = true -> t_size t < 4294967296 ->
  (forall x, In x e -> 0 < t_id x < 4096) ->
  m_name m <> [] /\ m_hidden m = host_name (t_id t) (m_name m) /\ member_fields_ok m /\ 0 <= m_arr m.
Proof.
  unfold member_ok, member_size, base_size, member_fields_ok, member_info_word, is_bool_member. cbn [p_templates].
  intros H Hsz Hids.
  apply andb_prop in H. destruct H as [H Hkind]. apply andb_prop in H. destruct H as [H Hhid].
  apply andb_prop in H. destruct H as [H Hname].
  split; [destruct (m_name m); discriminate|]. split; [exact (eqb_prop _ _ Hhid)|].
  destruct (m_ty m) as [c|tid|w].
  - destruct (Z.eqb_spec c C_BOOL) as [Ec | Hc].
    + repeat split; try lia. left. symmetry. exact Ec.
    + destruct (atom_size c) as [s0|] eqn:Es; [|lia].
      repeat split; try lia. exact (atom_size_in c s0 Es).
  - destruct (find_template e tid) as [t'|] eqn:Ef; [|lia].
    destruct (find_template_in e tid t' Ef) as [Hin <-]. specialize (Hids t' Hin).
    repeat split; lia.
  - lia.
Qed.

Section Mirror.
  Variable p : project.
  Variable pol : policy.
  Variable cap : Z.

  Let ts := p_templates p.
  Let st0 : lstate := target_state p pol.
  Let ab := po_array_bit pol.

  Hypothesis Hts : templates_ok [] ts = true.
  Hypothesis Hcap : 34 <= cap.
  Hypothesis Htd : Forall tmpl_dom ts.
  Hypothesis Hdisplay : NoDup (map (fun t => display_name (t_name t)) ts).

  Record tmpl_wf_at (e : list template) (t : template) : Prop := {
    tw_find : find_template ts (t_id t) = Some t;
    tw_rank : rank_in ts (t_id t) = length e;
    tw_in : In t ts;
    tw_id : 0 < t_id t < 4096;
    tw_handle : 0 <= t_handle t < 65536;
    tw_facts : tmpl_facts t;
    tw_dom : tmpl_dom t;
    tw_core : template_core_len t <= template_defsize t * 4 - 20;
    tw_count : 0 <= template_member_count t < 65536;
    tw_defsize : 0 <= template_defsize t < 4294967296;
    tw_want : 0 <= template_defsize t * 4 - 21;
    tw_nested : forall m tid, In m (t_members t) -> m_ty m = BStruct tid ->
                              exists e1 t' e2, e = e1 ++ t' :: e2 /\ t_id t' = tid
  }.

  Lemma tmpl_wf e t l : ts = e ++ t :: l -> tmpl_wf_at e t.
  Proof.
    intros Hsplit.
    assert (Hin : In t ts) by (rewrite Hsplit; apply in_elt).
    assert (Hok : template_ok e t = true) by (apply (templates_ok_at e [] t l); rewrite <- Hsplit; exact Hts).
    destruct (find_template_skip e t l (t_id t) (template_ok_fresh e t Hok) eq_refl) as [Hfind Hrank].
    rewrite <- Hsplit in Hfind, Hrank.
    pose proof (proj1 (Forall_forall _ _) Htd t Hin) as Hdom. pose proof Hdom as (Hsize & Hwant & _ & Hps).
    unfold template_ok in Hok.
    apply andb_prop in Hok as [[[[Hnum Hmem]%andb_prop _]%andb_prop Hdist]%andb_prop Hcore].
    assert (Hids : forall x, In x e -> 0 < t_id x < 4096).
    { intros x Hx. apply (templates_ok_ids ts [] x Hts). rewrite Hsplit. apply in_or_app. left. exact Hx. }
    pose proof (fun m Hm => member_ok_facts e t m (forallb_In _ _ _ Hmem Hm) (proj2 Hsize) Hids) as Hfacts.
    assert (Hnamelen : 2 <= Z.of_nat (length (template_names t))).
    { unfold template_names. rewrite !app_length. destruct (t_name t); [lia|]. cbn [length]. lia. }
    assert (Hcnt : 0 <= template_member_count t) by (unfold template_member_count; lia).
    unfold template_core_len in Hcore.
    constructor; unfold template_core_len; [exact Hfind | exact Hrank | exact Hin | lia | lia | | exact Hdom | lia | lia | lia | lia |].
    { constructor; [apply (distinct_by_NoDup _ _ name_eqb_refl); exact Hdist | | | | | exact Hps];
        apply Forall_forall; intros m Hm; apply (Hfacts m Hm). }
    intros m tid Hm Hty. destruct (member_struct_found e t m tid (forallb_In _ _ _ Hmem Hm) Hty) as (t' & Ef).
    apply find_template_in in Ef. destruct Ef as [Hin' Hid]. apply in_split in Hin'. destruct Hin' as (e1 & e2 & ->).
    eauto.
  Qed.

  Definition Good (tid : Z) (d : datatype) : Prop :=
    Exp ts tid (odef_of_dt d)
    /\ exists t, find_template ts tid = Some t /\ dt_name d = Some (display_name (t_name t)).
  Lemma Good_exp tid d : Good tid d -> Exp ts tid (odef_of_dt d).
  Proof. intros [H _]. exact H. Qed.

  Definition keys (u : ustate) : list Z := map fst (u_udts u).

  Section Roots.
    Variable R : Z -> Prop.        (* the template ids requested so far (the types of the user tags) *)

    Inductive Reach : Z -> Prop :=
    | Reach_root tid : R tid -> Reach tid
    | Reach_step tid t tid' :
        Reach tid -> find_template ts tid = Some t -> In tid' (struct_ids_of_members t) -> Reach tid'.

    Record Inv (u : ustate) : Prop := {
      inv_good : forall tid d, dict_get Z.eqb (u_udts u) tid = Some d -> Good tid d;
      inv_structs : forall tid a, dict_get Z.eqb (u_structs u) tid = Some a ->
                                  exists t, find_template ts tid = Some t /\ a = template_attrs_of t;
      inv_nodup : NoDup (keys u);
      inv_types : u_data_types u = map (fun kv => (dt_name (snd kv), snd kv)) (u_udts u);
      inv_closed : forall tid t tid', In tid (keys u) -> find_template ts tid = Some t ->
                                      In tid' (struct_ids_of_members t) -> In tid' (keys u);
      inv_reach : forall tid, In tid (keys u) -> Reach tid
    }.

    Definition Step (n : nat) (u u' : ustate) : Prop :=
      incl (keys u) (keys u')
      /\ (forall k, In k (keys u') -> In k (keys u) \/ (rank_in ts k < n)%nat)
      /\ u_programs u' = u_programs u /\ u_tasks u' = u_tasks u.
    Definition Post (tid : Z) (u : ustate) : Prop := In tid (keys u).

    Lemma Step_refl n u : Step n u u.
    Proof. unfold Step. repeat split; auto using incl_refl. Qed.
    Lemma Step_trans n a b c : Step n a b -> Step n b c -> Step n a c.
    Proof.
      intros (H1 & H2 & H3 & H4) (G1 & G2 & G3 & G4). unfold Step. repeat split; try congruence.
      - eapply incl_tran; eassumption.
      - intros k Hk. destruct (G2 k Hk) as [Hb | Hr]; [destruct (H2 k Hb); auto | auto].
    Qed.
    Lemma Step_mono n n' u u' : (n <= n')%nat -> Step n u u' -> Step n' u u'.
    Proof.
      intros Hle (H1 & H2 & H3 & H4). unfold Step. repeat split; auto.
      intros k Hk. destruct (H2 k Hk); [auto | right; lia].
    Qed.
    Lemma Post_step n tid u u' : Post tid u -> Step n u u' -> Post tid u'.
    Proof. intros H (H1 & _). apply H1. exact H. Qed.

    Lemma Inv_add u tid t d :
      Inv u -> find_template ts tid = Some t -> Good tid d -> ~ In tid (keys u) -> Reach tid ->
      (forall tid', In tid' (struct_ids_of_members t) -> In tid' (keys u)) ->
      exists u', u' = set_data_types (dict_set otext_eqb (u_data_types u) (dt_name d) d)
                                     (set_udts (dict_set Z.eqb (u_udts u) tid d) u)
                 /\ Inv u' /\ keys u' = keys u ++ [tid] /\ u_programs u' = u_programs u /\ u_tasks u' = u_tasks u.
    Proof.
      intros Hinv Hfind Hg Hnew Hreach Hsub. pose proof Hg as (_ & t0 & Hf0 & Hname).
      rewrite Hfind in Hf0. injection Hf0 as <-.
      assert (Hnames : forall k' v', In (k', v') (u_data_types u) -> otext_eqb k' (dt_name d) = false).
      { intros k' v' Hkv. rewrite (inv_types u Hinv) in Hkv. apply in_map_iff in Hkv.
        destruct Hkv as ([id' d'] & E & Hin'). cbn [snd] in E. injection E as <- <-.
        pose proof (dict_get_of_in _ Z.eqb_eq _ _ _ (inv_nodup u Hinv) Hin') as Hget.
        destruct (inv_good u Hinv _ _ Hget) as (_ & t' & Ef' & En').
        rewrite En', Hname. cbn [otext_eqb]. apply text_eqb_neq. intros Eq.
        apply find_template_in in Ef'. destruct Ef' as [Hin1 Hid1]. apply find_template_in in Hfind. destruct Hfind as [Hin2 Hid2].
        assert (t' = t) by (eapply (NoDup_map_inj (fun x => display_name (t_name x))); eassumption).
        subst t'. apply Hnew. rewrite <- Hid2, Hid1. eapply (dict_get_in _ Z.eqb_eq). exact Hget. }
      eexists. split; [reflexivity|].
      rewrite (dict_set_absent _ _ _ _ (proj2 (dict_get_none _ Z.eqb_eq _ _) Hnew)), (dict_set_fresh _ _ _ _ Hnames).
      unfold keys, set_data_types, set_udts. cbn [u_programs u_tasks u_structs u_udts u_data_types]. rewrite map_app. cbn [map fst].
      split; [|auto]. constructor; unfold keys; cbn [u_structs u_udts u_data_types]; rewrite ?map_app; cbn [map fst].
      - intros k d' Hget. rewrite dict_get_app in Hget. cbn [dict_get] in Hget.
        destruct (dict_get Z.eqb (u_udts u) k) as [d0|] eqn:E0.
        + injection Hget as <-. exact (inv_good u Hinv _ _ E0).
        + destruct (Z.eqb_spec tid k) as [<- | _]; [|discriminate]. injection Hget as <-. exact Hg.
      - exact (inv_structs u Hinv).
      - apply NoDup_snoc; [exact (inv_nodup u Hinv) | exact Hnew].
      - rewrite <- (inv_types u Hinv). reflexivity.
      - intros k t0 tid' Hk Hf0 Hm0. apply in_or_app. left. apply in_app_or in Hk. destruct Hk as [Hk | [E | []]].
        + exact (inv_closed u Hinv _ _ _ Hk Hf0 Hm0).
        + subst k. rewrite Hfind in Hf0. injection Hf0 as <-. exact (Hsub _ Hm0).
      - intros k Hk. apply in_app_or in Hk. destruct Hk as [Hk | [E | []]]; [exact (inv_reach u Hinv _ Hk) | subst k; exact Hreach].
    Qed.

    Lemma makeup_ok e t l u :
      ts = e ++ t :: l -> Inv u ->
      exists u1, get_structure_makeup lstate (target_call cap) u st0 (t_id t) = (st0, u1, Done (template_attrs_of t))
                 /\ u_udts u1 = u_udts u
                 /\ u_programs u1 = u_programs u /\ u_tasks u1 = u_tasks u /\ Inv u1.
    Proof.
      intros Hsplit Hinv.
      pose proof (tmpl_wf e t l Hsplit) as W. pose proof (tw_find _ _ W) as Hfind. pose proof (tw_id _ _ W) as Hid.
      destruct (tw_dom _ _ W) as (Hsize & _).
      unfold get_structure_makeup.
      destruct (dict_get Z.eqb (u_structs u) (t_id t)) as [a|] eqn:Es.
      - destruct (inv_structs u Hinv _ _ Es) as (t0 & Ef & ->). rewrite Hfind in Ef. injection Ef as <-.
        exists u. auto 10.
      - destruct table_constants as (_ & E3 & _). rewrite E3.
        destruct (template_request_resolves p 3 (t_id t) t template_attrs_data ltac:(lia) Hfind) as (path & Erq & Hres). rewrite Erq.
        destruct (target_call_attrs cap st0 t path Hcap Hres (tw_defsize _ _ W) Hsize (tw_count _ _ W) (tw_handle _ _ W))
          as (d & Ecall & Eparse).
        rewrite Ecall. cbn [p_valid negb p_data p_error_raises orb]. rewrite Eparse.
        eexists. split; [reflexivity|]. unfold set_structs. cbn [u_udts u_programs u_tasks].
        split; [reflexivity|]. split; [reflexivity|]. split; [reflexivity|].
        destruct Hinv as [G S N T C Rr]. constructor; unfold keys in *; cbn [u_udts u_structs u_data_types]; try assumption.
        intros tid a Hget. rewrite (dict_get_set _ Z.eqb_eq) in Hget.
        destruct (Z.eqb_spec (t_id t) tid) as [<- | _]; [injection Hget as <- |]; eauto.
    Qed.

    Lemma read_ok e t l fuel :
      ts = e ++ t :: l -> (max_blob p < fuel)%nat ->
      exists area,
        read_template lstate (target_call cap) fuel st0 (t_id t) (template_defsize t) 0 []
        = (st0, Done (template_records ab t ++ area))
        /\ names_area_ok t area.
    Proof.
      intros Hsplit Hfuel.
      pose proof (tmpl_wf e t l Hsplit) as W. pose proof (tw_find _ _ W) as Hfind. pose proof (tw_id _ _ W) as Hid.
      pose proof (tw_want _ _ W) as Hw0. destruct (tw_dom _ _ W) as (_ & Hwant & _).
      set (blob := template_blob ab t).
      assert (Hform : forall off, 0 <= off -> off <= template_defsize t * 4 - 21 ->
                exists path, template_read_request (t_id t) (template_defsize t) off
                             = Ok (mkReq 76 path (le_enc 4 off ++ le_enc 2 (template_defsize t * 4 - 21 - off)))
                             /\ resolve_path p false path = TgTemplate t).
      { intros off H0 H1. unfold template_read_request.
        rewrite enc_s_nonneg by lia. cbn [bind]. rewrite enc_u_ok by (rewrite pow256_2; lia). cbn [bind].
        destruct table_constants as (_ & _ & -> & _). apply template_request_resolves; [lia | exact Hfind]. }
      assert (Hpeer : fragment_peer lstate (target_call cap) (fun s => s = st0) (t_id t) (template_defsize t) blob).
      { intros st off rq -> Hoff Hw Hl Erq. destruct (Hform off Hoff Hw) as (path & Ef & Hres).
        rewrite Ef in Erq. injection Erq as <-.
        destruct (target_call_read cap st0 t path off (template_defsize t * 4 - 21 - off)
                                   ltac:(lia) Hres ltac:(lia) ltac:(lia) Hl)
          as (k & v & Ecall & Hk & Hk1).
        exists k, st0, v. split; [exact Ecall|]. split; [reflexivity|]. split; [exact Hk | exact Hk1]. }
      assert (Hreq : forall off, 0 <= off -> off <= template_defsize t * 4 - 21 -> off <= Z.of_nat (length blob) ->
                                 exists rq, template_read_request (t_id t) (template_defsize t) off = Ok rq).
      { intros off H0 H1 _. destruct (Hform off H0 H1) as (path & Ef & _). eauto. }
      destruct (template_fragment_independent lstate (target_call cap) (fun s => s = st0) (t_id t) (template_defsize t) blob
                                              Hpeer Hreq fuel st0 eq_refl Hw0) as (st' & Eread & ->).
      { pose proof (max_blob_ge p t ab (tw_in _ _ W)). fold blob in H. lia. }
      destruct (served_shape ab t (tw_core _ _ W)) as (area & Earea & Hok).
      exists area. split; [|exact Hok]. rewrite Eread. fold blob in Earea. rewrite Earea. reflexivity.
    Qed.

    Lemma in_struct_ids t m tid : In m (t_members t) -> m_ty m = BStruct tid -> In tid (struct_ids_of_members t).
    Proof. intros Hm Hty. unfold struct_ids_of_members. apply in_flat_map. exists m. split; [exact Hm|]. rewrite Hty. left; reflexivity. Qed.
    Lemma struct_ids_in t tid : In tid (struct_ids_of_members t) -> exists m, In m (t_members t) /\ m_ty m = BStruct tid.
    Proof.
      unfold struct_ids_of_members. intros H. apply in_flat_map in H. destruct H as (m & Hm & Hin).
      exists m. split; [exact Hm|]. destruct (m_ty m) as [c|x|w]; [destruct Hin | | destruct Hin]. destruct Hin as [-> | []]. reflexivity.
    Qed.

    Theorem get_data_type_mirrors : forall n e t l, ts = e ++ t :: l -> length e = n ->
      forall fuel u w, (n + max_blob p < fuel)%nat -> Z.land w 4095 = t_id t -> Inv u -> Reach (t_id t) ->
      exists u' d, get_data_type lstate (target_call cap) fuel u st0 (t_id t) w = (st0, u', Done d)
                   /\ Good (t_id t) d /\ Inv u' /\ Step (S n) u u' /\ Post (t_id t) u'.
    Proof.
      induction n as [n IHn] using lt_wf_ind. intros e t l Hsplit Hlen fuel u w Hfuel Hw Hinv Hreach.
      destruct (tmpl_wf e t l Hsplit) as [Hfind Hrank Hin Hid Hh Hfacts Hdom Hcore Hcnt Hdef Hw0 Hnested].
      destruct fuel as [|f]; [lia|]. cbn [get_data_type].
      destruct (dict_get Z.eqb (u_udts u) (t_id t)) as [d0|] eqn:Ehit.
      - exists u, d0. split; [reflexivity|]. split; [exact (inv_good u Hinv _ _ Ehit)|]. split; [exact Hinv|].
        split; [apply Step_refl|]. exact (dict_get_in _ Z.eqb_eq _ _ _ Ehit).
      - destruct (makeup_ok e t l u Hsplit Hinv) as (u1 & Emk & Eu1 & Ep1 & Et1 & Hinv1). rewrite Emk.
        destruct (read_ok e t l (S f) Hsplit ltac:(lia)) as (area & Eread & Harea).
        cbn [ta_defsize template_attrs_of]. rewrite Eread.
        destruct (parse_template_blob lstate (get_data_type lstate (target_call cap) f) (fun u s => s = st0 /\ Inv u)
                    Good (Step n) Post (Step_refl n) (Step_trans n) (Post_step n) ab t w u1 st0 area)
          as (s' & u3 & infos & Eparse & HF & (-> & Hinv3) & Hstep3 & Hpost3).
        + intros u' s' tid w' m (-> & Hinv') Hm Hty Hw'.
          destruct (Hnested m tid Hm Hty) as (e1 & t' & e2 & He & Hid').
          assert (Hsplit' : ts = e1 ++ t' :: (e2 ++ t :: l)) by (rewrite Hsplit, He, <- app_assoc; reflexivity).
          assert (Hlt : (length e1 < n)%nat) by (subst n; rewrite He, app_length; cbn [length]; lia).
          assert (Hr' : Reach (t_id t')).
          { rewrite Hid'. eapply Reach_step; [exact Hreach | exact Hfind | eapply in_struct_ids; eassumption]. }
          destruct (IHn (length e1) Hlt e1 t' _ Hsplit' eq_refl f u' w' ltac:(lia) ltac:(rewrite Hid'; exact Hw') Hinv' Hr')
            as (u'' & d & Eg & Hg & Hi & Hs & Hp).
          rewrite Hid' in *. exists st0, u'', d. split; [exact Eg|]. split; [exact Hg|]. split; [auto|].
          split; [eapply Step_mono; [|exact Hs]; lia | exact Hp].
        + exact (tf_fields t Hfacts).
        + destruct Hdom as (_ & _ & Hn & _). exact Hn.
        + exact Harea.
        + exact Hw.
        + auto.
        + rewrite Eparse.
          destruct (obs_of_built ts Good Good_exp t infos Hfind Hfacts HF) as (Hexp & Hname).
          set (d := exp_datatype infos t) in *.
          assert (Hg : Good (t_id t) d) by (split; [exact Hexp | eauto]).
          assert (Ek1 : keys u1 = keys u) by (unfold keys; rewrite Eu1; reflexivity).
          destruct Hstep3 as (S1 & S2 & S3 & S4).
          assert (Hnew : ~ In (t_id t) (keys u3)).
          { intros Hk. destruct (S2 _ Hk) as [Hold | Hr].
            - rewrite Ek1 in Hold. exact (proj1 (dict_get_none _ Z.eqb_eq _ _) Ehit Hold).
            - rewrite Hrank in Hr. lia. }
          destruct (Inv_add u3 (t_id t) t d Hinv3 Hfind Hg Hnew Hreach) as (u' & Eu' & Hinv' & Hkeys & Hp' & Ht').
          { intros tid' Hm0. destruct (struct_ids_in t tid' Hm0) as (m & Hm & Hty). exact (Hpost3 m tid' Hm Hty). }
          exists u', d. split; [rewrite Eu'; reflexivity|]. split; [exact Hg|]. split; [exact Hinv'|].
          unfold Step, Post. rewrite Hkeys.
          split; [split; [|split; [|split; congruence]]|].
          * intros k Hk. apply in_or_app. left. apply S1. rewrite Ek1. exact Hk.
          * intros k Hk. apply in_app_or in Hk. destruct Hk as [Hk | [<- | []]].
            -- destruct (S2 k Hk) as [Ho | Hr]; [left; rewrite <- Ek1; exact Ho | right; lia].
            -- right. rewrite Hrank. lia.
          * apply in_elt.
    Qed.
  End Roots.
End Mirror.
