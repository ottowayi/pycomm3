(* Proofs/SlcAddrP.v — parse_tag on the spellings of Spec/SlcTarget.v.

   [parse_raw]  : for pieces of the form of an address (digit runs of arbitrary digits within the
                  length limits), parse_tag (render_raw r) is decided by the range checks of the code.
   [parse_addr] : every well-formed address of the ADT, in every spelling, parses to its fields.
   [reject]     : pieces of the form of an address with a number outside the ranges of the property
                  (except an I/O file number up to 255) make parse_tag return None: a digit run
                  longer than the grammar allows fails to match, one within the limits fails the
                  range checks.
   [reject_letter] : an unsupported file letter makes parse_tag return None. *)
From Coq Require Import String.
From PV Require Import Base.Bytes Base.Proto Base.Res Base.PyStr Model.Regex Model.SlcVal Model.Slc.
From PV Require Import Gen.SlcTables Proofs.RegexP Proofs.SlcParseP Spec.SlcTarget.
From Coq Require Import ZifyBool.
Open Scope Z_scope.
Ltac Zify.zify_post_hook ::= Z.to_euclidean_division_equations.

Ltac bools :=
  repeat match goal with
  | H : _ && _ = true |- _ => apply andb_true_iff in H; destruct H
  | H : _ || _ = false |- _ => apply orb_false_iff in H; destruct H
  | H : negb _ = true |- _ => apply negb_true_iff in H
  end.

Lemma num_of_dval ds : num_of ds = dval ds.
Proof. reflexivity. Qed.

Lemma digit_run_anyrun ds : digit_run ds = true -> anyrun ds.
Proof.
  intros H. destruct ds as [|d ds]; [discriminate|]. split; [|congruence].
  apply Forall_forall. intros c Hc. exact (proj1 (forallb_forall _ _) H c Hc).
Qed.

Lemma digit_run_run n ds : digit_run ds = true -> (n <? length ds)%nat = false -> run n ds.
Proof. intros H L. destruct (digit_run_anyrun ds H) as [A B]. apply Nat.ltb_ge in L. repeat split; assumption. Qed.
Lemma odigit_optrun n o : odigit_run o = true -> longer n o = false -> optrun n o.
Proof. intros H L x ->. apply digit_run_run; assumption. Qed.
Lemma odigit_optany o : odigit_run o = true -> optany o.
Proof. intros H x ->. apply digit_run_anyrun. exact H. Qed.

Lemma dval_zeros k ds : dval (repeat 48 k ++ ds) = dval ds.
Proof.
  unfold dval. rewrite fold_left_app. f_equal.
  induction k as [|k IH]; [reflexivity|]. cbn [repeat fold_left]. exact IH.
Qed.

Lemma digits_min_ok n : 0 <= n < 10000 ->
  digit_run (digits_min n) = true /\ dval (digits_min n) = n /\ (1 <= length (digits_min n) <= 4)%nat
  /\ (n < 1000 -> (length (digits_min n) <= 3)%nat) /\ (n < 100 -> (length (digits_min n) <= 2)%nat).
Proof.
  intros H. unfold digits_min, dig.
  destruct (n <? 10) eqn:E1; [|destruct (n <? 100) eqn:E2; [|destruct (n <? 1000) eqn:E3]];
    unfold digit_run, forallb, is_digit, dval, fold_left; cbn [length]; repeat split; lia.
Qed.

Lemma render_num_ok w n lim : 0 <= n < 10000 -> (w <= lim)%nat -> (length (digits_min n) <= lim)%nat ->
  run lim (render_num w n) /\ dval (render_num w n) = n.
Proof.
  intros Hn Hw Hl. destruct (digits_min_ok n Hn) as (D & V & L & _).
  unfold render_num. split; [|rewrite dval_zeros; exact V].
  destruct (digit_run_anyrun _ D) as [A B]. repeat split.
  - apply Forall_app. split; [|exact A]. apply Forall_forall. intros c Hc. apply repeat_spec in Hc. subst c. reflexivity.
  - intros E. apply app_eq_nil in E. destruct E as [_ E]. congruence.
  - rewrite app_length, repeat_length. lia.
Qed.

Definition ft_letter_ok (ft : ftype) (lower : bool) : Z := if lower then lc (letter ft) else letter ft.

Lemma letter_facts ft lower :
  let L := ft_letter_ok ft lower in
  upper [L] = [letter ft] /\
  match ft with
  | FN => lcl L 110 | FB => lcl L 98 | FF => lcl L 102 | FL => lcl L 108 | FS => lcl L 115
  | FI => lcl L 105 | FO => lcl L 111 | FT => lcl L 116 | FC => lcl L 99
  end.
Proof. destruct ft; destruct lower; split; reflexivity. Qed.

Lemma text_mem_In t l : text_mem t l = true -> In t l.
Proof.
  induction l as [|x l IH]; cbn; [discriminate|]. intros H. apply orb_true_iff in H. destruct H as [H|H].
  - destruct (list_eq_dec Z.eq_dec x t); [left; assumption|discriminate].
  - right. apply IH. exact H.
Qed.

Lemma upper_lc c : upper_c (lc c) = upper_c c.
Proof.
  unfold upper_c, lc. destruct ((65 <=? c) && (c <=? 90)) eqn:E1; [|reflexivity].
  destruct ((97 <=? c + 32) && (c + 32 <=? 122)) eqn:E2; destruct ((97 <=? c) && (c <=? 122)) eqn:E3; lia.
Qed.

Lemma case_vars_upper : forall t v, In v (case_vars t) -> upper v = upper t.
Proof.
  induction t as [|c t IH]; cbn [case_vars]; intros v H; [destruct H as [<-|[]]; reflexivity|].
  apply in_flat_map in H. destruct H as (v' & Hv' & [<-|[<-|[]]]); cbn [upper map]; rewrite ?upper_lc;
    f_equal; apply IH; exact Hv'.
Qed.

Lemma apply_case_upper : forall t flags, upper (apply_case flags t) = upper t.
Proof.
  induction t as [|c t IH]; intros [|f flags]; try reflexivity.
  cbn [apply_case upper map]. destruct f; rewrite ?upper_lc; f_equal; apply IH.
Qed.

Lemma tc_spelling_code ft mn : In mn (tc_spellings ft) -> exists code, dict_get pccc_ct (upper mn) = Ok code.
Proof.
  intros H. apply in_flat_map in H. destruct H as (nm & Hnm & Hv). rewrite (case_vars_upper _ _ Hv).
  destruct ft; cbn [tc_names] in Hnm; try contradiction;
    repeat (destruct Hnm as [<-|Hnm]; [eexists; reflexivity|]); contradiction.
Qed.

(* what the code makes of the pieces *)
Definition code_ranges (r : raw) : bool :=
  match r_ft r with
  | FT | FC => in_range 1 255 (dval (opt_text (r_file r))) && in_range 0 255 (dval (r_elem r))
  | FS => in_range 0 255 (dval (r_elem r)) && optrange 0 15 (r_bit r)
  | FI => match r_file r with Some f => dval f =? 1 | None => true end
          && (in_range 0 255 (dval (r_elem r)) && optrange 0 15 (r_bit r))
  | FO => match r_file r with Some f => dval f =? 0 | None => true end
          && (in_range 0 255 (dval (r_elem r)) && optrange 0 15 (r_bit r))
  | _ => if r_flat r then in_range 1 255 (dval (opt_text (r_file r))) && in_range 0 4095 (dval (opt_text (r_bit r)))
         else in_range 1 255 (dval (opt_text (r_file r))) && in_range 0 255 (dval (r_elem r)) && optrange 0 15 (r_bit r)
  end.

Definition raw_tag (r : raw) (code : Z) (name : text) : tagd :=
  let ft := [letter (r_ft r)] in
  match r_ft r with
  | FT | FC => mk ft (dval (opt_text (r_file r))) (dval (r_elem r)) None (Some code) 3 1 name
  | FS => mk ft 2 (dval (r_elem r)) None (option_map dval (r_bit r)) (af_of (r_bit r)) (cntval (r_count r)) name
  | FI => mk ft 1 (dval (r_elem r)) (Some (optval (r_sub r))) (Some (optval (r_bit r))) (af_of (r_bit r)) (cntval (r_count r)) name
  | FO => mk ft 0 (dval (r_elem r)) (Some (optval (r_sub r))) (Some (optval (r_bit r))) (af_of (r_bit r)) (cntval (r_count r)) name
  | _ => if r_flat r
         then let n := dval (opt_text (r_bit r)) in
              mk ft (dval (opt_text (r_file r))) (n / 16) None (Some (n - n / 16 * 16)) 3 (cntval (r_count r)) name
         else mk ft (dval (opt_text (r_file r))) (dval (r_elem r)) None (option_map dval (r_bit r)) (af_of (r_bit r))
                 (cntval (r_count r)) name
  end.

(* the form of an address with every digit run within the limits of the grammar *)
Definition raw_shape (r : raw) : Prop := raw_form r = true /\ overlong r = false.

Lemma shape_pieces r : raw_shape r ->
  (r_flat r = false -> run 3 (r_elem r)) /\ optrun 3 (r_file r) /\ optrun 3 (r_sub r)
  /\ optrun (if r_flat r then 4 else 2) (r_bit r) /\ optany (r_count r)
  /\ match r_ft r with
     | FT | FC => is_some (r_file r) && negb (r_flat r) && text_mem (r_mn r) (tc_spellings (r_ft r))
                  && negb (is_some (r_sub r)) && negb (is_some (r_bit r)) && negb (is_some (r_count r))
     | FS => negb (is_some (r_file r)) && negb (r_flat r) && negb (is_some (r_sub r))
     | FI | FO => negb (r_flat r)
     | FB => is_some (r_file r) && negb (is_some (r_sub r)) && (negb (r_flat r) || is_some (r_bit r))
     | _ => is_some (r_file r) && negb (r_flat r) && negb (is_some (r_sub r))
     end = true.
Proof.
  intros [Hform Hlong]. unfold raw_form in Hform. unfold overlong, overlong_field in Hlong. bools.
  split; [intros E; rewrite E, orb_false_r in *; apply digit_run_run; assumption|].
  repeat (split; [apply odigit_optrun; assumption|]). split; [apply odigit_optany|]; assumption.
Qed.

Theorem parse_raw r : raw_shape r ->
  exists code name, parse_tag (render_raw r) = keep (code_ranges r) (raw_tag r code name).
Proof.
  intros Hs. destruct (shape_pieces r Hs) as (He & Hf & Hsub & Hb & Hc & Hx). clear Hs.
  destruct r as [ft lower file elem sub bit cnt flat mn].
  cbn [r_ft r_lower r_file r_elem r_sub r_bit r_count r_flat r_mn] in *.
  pose (L := ft_letter_ok ft lower). destruct (letter_facts ft lower) as [U HL]. cbv zeta in U, HL. fold L in U, HL.
  assert (Hlfbn : forall f, lfbn L -> file = Some f -> sub = None -> flat = false -> exists name,
            parse_tag (L :: f ++ 58 :: elem ++ [] ++ bitpart bit ++ cntpart cnt) =
            keep (in_range 1 255 (dval f) && in_range 0 255 (dval elem) && optrange 0 15 bit)
                 (mk (upper [L]) (dval f) (dval elem) None (option_map dval bit) (af_of bit) (cntval cnt) name)).
  { intros f HL' -> -> ->. eexists. exact (parse_lfbn L f elem bit cnt HL' (Hf f eq_refl) (He eq_refl) Hb Hc). }
  destruct ft.
  (* N, F, L *)
  1,3,4: (destruct file as [f|], sub, flat; try discriminate Hx; exists 0;
          destruct (Hlfbn f ltac:(unfold lfbn; tauto) eq_refl eq_refl eq_refl) as [name P]; exists name;
          rewrite U in P; exact P).
  (* T, C *)
  5,6: (destruct file as [f|], sub, bit, cnt, flat; cbn [is_some negb andb] in Hx;
        rewrite ?andb_false_r, ?andb_true_r in Hx; try discriminate Hx;
        destruct (tc_spelling_code _ mn (text_mem_In _ _ Hx)) as [code Hcode]; exists code; eexists;
        pose proof (parse_tc L f elem mn code ltac:(unfold tc; tauto) (Hf f eq_refl) (He eq_refl) Hcode) as P;
        cbv zeta in P; rewrite U in P; exact P).
  (* I, O *)
  3,4: (destruct flat; [discriminate Hx|]; exists 0; eexists;
        pose proof (parse_io L file elem sub bit cnt ltac:(unfold io; tauto) Hf (He eq_refl) Hsub Hb Hc) as P;
        cbv zeta in P; rewrite U in P; unfold io_file_ok, io_file in P; rewrite U in P; exact P).
  - (* B *) destruct file as [f|], sub; try discriminate Hx. exists 0. destruct flat.
    + destruct bit as [n|]; [|discriminate Hx]. eexists.
      pose proof (parse_flat L f n cnt HL (Hf f eq_refl) (Hb n eq_refl) Hc) as P. cbv zeta in P. rewrite U in P. exact P.
    + destruct (Hlfbn f ltac:(unfold lfbn; tauto) eq_refl eq_refl eq_refl) as [name P]. exists name.
      rewrite U in P. exact P.
  - (* S *) destruct file, sub, flat; try discriminate Hx. exists 0. eexists.
    pose proof (parse_s L elem bit cnt HL (He eq_refl) Hb Hc) as P. cbv zeta in P. rewrite U in P. exact P.
Qed.

Theorem reject_in_limits r :
  raw_shape r -> spec_in_range r = false -> parse_tag (render_raw r) = PNone.
Proof.
  intros Hs Hr. destruct (parse_raw r Hs) as (code & name & P). rewrite P.
  assert (E : code_ranges r = false); [|rewrite E; reflexivity].
  destruct Hs as [Hform _]. clear P.
  destruct r as [ft lower file elem sub bit cnt flat mn].
  unfold raw_form in Hform. unfold spec_in_range, zin in Hr. unfold code_ranges, in_range, optrange, in_range.
  cbn [r_ft r_lower r_file r_elem r_sub r_bit r_count r_flat r_mn] in *.
  destruct ft; destruct file as [f|]; destruct flat; destruct bit as [b|];
    cbn [is_io is_some negb andb orb opt_text] in *; unfold num_of, dval in *;
    try discriminate; try lia;
    rewrite ?andb_false_r, ?andb_true_r in *; try discriminate; try lia.
Qed.

Theorem reject_letter c rest :
  ~ In (lower_c c) supported_lower -> Forall body_char rest -> parse_tag (c :: rest) = PNone.
Proof. intros H _. apply parse_unsupported. exact H. Qed.

Lemma rn3 w n : 0 <= n < 1000 -> (w <= 3)%nat -> run 3 (render_num w n) /\ dval (render_num w n) = n.
Proof. intros H W. apply render_num_ok; [lia|exact W|]. apply (digits_min_ok n); lia. Qed.
Definition addr_tag (a : addr) (name : text) : tagd :=
  mk [letter (a_ft a)] (a_file a) (a_elem a)
     (if is_io (a_ft a) then Some (a_sub a) else None)
     (if is_tc (a_ft a) then Some (match a_bit a with Some b => b | None => a_sub a end)
      else if is_io (a_ft a) then Some (match a_bit a with Some b => b | None => 0 end)
      else a_bit a)
     (if is_tc (a_ft a) then 3 else match a_bit a with Some _ => 3 | None => 2 end)
     (a_count a) name.


Lemma none_run n : optrun n None. Proof. intros x H. discriminate. Qed.
Lemma none_any : optany None. Proof. intros x H. discriminate. Qed.
Lemma some_run n x : run n x -> optrun n (Some x). Proof. intros H y Hy. inversion Hy; subst. exact H. Qed.

Definition obit_of (sp : spelling) (bit : option Z) : option text :=
  match bit with Some b => Some (render_num (sp_pad_bit sp) b) | None => None end.
Definition ocnt_of (sp : spelling) (bit : option Z) (cnt : Z) : option text :=
  match bit with
  | Some _ => None
  | None => if negb (cnt =? 1) || sp_count1 sp then Some (render_num (sp_pad_count sp) cnt) else None
  end.

Lemma tail_pieces sp bit cnt :
  match bit with Some b => 0 <= b <= 15 /\ cnt = 1 | None => 1 <= cnt < 10000 end -> (sp_pad_bit sp <= 2)%nat ->
  optrun 2 (obit_of sp bit) /\ optany (ocnt_of sp bit cnt) /\ optrange 0 15 (obit_of sp bit) = true
  /\ option_map dval (obit_of sp bit) = bit /\ optval (obit_of sp bit) = match bit with Some b => b | None => 0 end
  /\ af_of (obit_of sp bit) = match bit with Some _ => 3 | None => 2 end /\ cntval (ocnt_of sp bit cnt) = cnt.
Proof.
  intros H W. destruct bit as [b|]; cbn [obit_of ocnt_of optrange option_map optval af_of].
  - destruct H as [Hb ->]. destruct (render_num_ok (sp_pad_bit sp) b 2) as [R V]; [lia|exact W|apply (digits_min_ok b); lia|]. rewrite V.
    split; [apply some_run; exact R|]. split; [apply none_any|]. split; [unfold in_range; lia|]. repeat split.
  - split; [apply none_run|]. destruct (negb (cnt =? 1) || sp_count1 sp) eqn:E.
    + destruct (render_num_ok (sp_pad_count sp) cnt (Nat.max (sp_pad_count sp) 4)) as [(A & B & _) V];
        [lia|lia|pose proof (digits_min_ok cnt); lia|].
      split; [intros y Hy; inversion Hy; subst; split; assumption|]. repeat split. exact V.
    + split; [apply none_any|]. repeat split. cbn. lia.
Qed.

Ltac spfacts Hsp :=
  unfold wf_spelling in Hsp; cbn [a_ft a_bit] in Hsp; bools;
  repeat match goal with H : (_ <=? _)%nat = true |- _ => apply Nat.leb_le in H end.
Ltac wfacts Hwf := unfold wf_addr in Hwf; cbn [a_ft a_file a_elem a_sub a_bit a_count] in Hwf; unfold zin in *; bools;
  repeat match goal with H : (_ =? _) = true |- _ => apply Z.eqb_eq in H end.
Ltac rend := unfold render, raw_of, render_raw;
  cbn [a_ft a_file a_elem a_sub a_bit a_count r_ft r_lower r_file r_elem r_sub r_bit r_count r_flat r_mn].

Lemma parse_addr_lfbn sp ft file elem bit cnt :
  (ft = FN \/ ft = FB \/ ft = FF \/ ft = FL) ->
  let a := {| a_ft := ft; a_file := file; a_elem := elem; a_sub := 0; a_bit := bit; a_count := cnt |} in
  (ft = FB -> bit <> None -> sp_flat_bit sp = false) ->
  wf_addr a = true -> wf_spelling sp a = true ->
  exists name, parse_tag (render sp a) = PTag (addr_tag a name).
Proof.
  intros Hft a Hflat Hwf Hsp. subst a.
  assert (HL : lfbn (ft_letter_ok ft (sp_lower sp)) /\ upper [ft_letter_ok ft (sp_lower sp)] = [letter ft]).
  { destruct Hft as [E|[E|[E|E]]]; subst ft; destruct (sp_lower sp); split; unfold lfbn, lcl; cbn; tauto. }
  destruct HL as [HL U].
  assert (Hfl : match ft, bit with FB, Some _ => sp_flat_bit sp | _, _ => false end = false).
  { destruct ft; try reflexivity. destruct bit; [apply Hflat; congruence|reflexivity]. }
  assert (Hr : 1 <= file <= 255 /\ 0 <= elem <= 255
               /\ match bit with Some b => 0 <= b <= 15 /\ cnt = 1 | None => 1 <= cnt < 10000 end).
  { destruct Hft as [E|[E|[E|E]]]; subst ft; destruct bit; wfacts Hwf; try discriminate; repeat split; lia. }
  destruct Hr as (Hfile & Helem & Hbc).
  spfacts Hsp.
  assert (Hpb : (sp_pad_bit sp <= 2)%nat)
    by (destruct ft, bit; try rewrite Hfl in *; first [assumption | apply Nat.leb_le; assumption]).
  destruct (rn3 (sp_pad_file sp) file) as [Rf Vf]; [lia|assumption|].
  destruct (rn3 (sp_pad_elem sp) elem) as [Re Ve]; [lia|assumption|].
  destruct (tail_pieces sp bit cnt Hbc Hpb) as (Rb & Oc & Ob & Vb & _ & Vaf & Vc).
  pose proof (parse_lfbn _ _ _ _ _ HL Rf Re Rb Oc) as P. cbv zeta in P.
  rewrite Ob, Vf, Ve, U, Vb, Vaf, Vc in P.
  replace (in_range 1 255 file && in_range 0 255 elem && true) with true in P by (unfold in_range; lia).
  eexists. rend. rewrite Hfl.
  destruct Hft as [E|[E|[E|E]]]; subst ft; destruct bit; cbn [is_io is_tc andb opt_text]; exact P.
Qed.

Lemma parse_addr_s sp elem bit cnt file sub :
  let a := {| a_ft := FS; a_file := file; a_elem := elem; a_sub := sub; a_bit := bit; a_count := cnt |} in
  wf_addr a = true -> wf_spelling sp a = true ->
  exists name, parse_tag (render sp a) = PTag (addr_tag a name).
Proof.
  intros a Hwf Hsp. subst a.
  destruct (letter_facts FS (sp_lower sp)) as [U HL]. cbv zeta in U, HL.
  spfacts Hsp.
  assert (Hr : file = 2 /\ 0 <= elem <= 255
               /\ match bit with Some b => 0 <= b <= 15 /\ cnt = 1 | None => 1 <= cnt < 10000 end)
    by (destruct bit; wfacts Hwf; repeat split; lia).
  destruct Hr as (-> & Helem & Hbc).
  assert (Hpb : (sp_pad_bit sp <= 2)%nat) by (destruct bit; first [assumption | apply Nat.leb_le; assumption]).
  destruct (rn3 (sp_pad_elem sp) elem) as [Re Ve]; [lia|assumption|].
  destruct (tail_pieces sp bit cnt Hbc Hpb) as (Rb & Oc & Ob & Vb & _ & Vaf & Vc).
  pose proof (parse_s _ _ _ _ HL Re Rb Oc) as P. cbv zeta in P.
  rewrite Ob, Ve, U, Vb, Vaf, Vc in P.
  replace (in_range 0 255 elem && true) with true in P by (unfold in_range; lia).
  rend. destruct bit; eexists; cbn [is_io is_tc andb opt_text]; exact P.
Qed.

Lemma parse_addr_io sp ft elem bit cnt file sub :
  (ft = FI \/ ft = FO) ->
  let a := {| a_ft := ft; a_file := file; a_elem := elem; a_sub := sub; a_bit := bit; a_count := cnt |} in
  wf_addr a = true -> wf_spelling sp a = true ->
  exists name, parse_tag (render sp a) = PTag (addr_tag a name).
Proof.
  intros Hft a Hwf Hsp. subst a.
  assert (HL : io (ft_letter_ok ft (sp_lower sp)) /\ upper [ft_letter_ok ft (sp_lower sp)] = [letter ft]
               /\ io_file (ft_letter_ok ft (sp_lower sp)) = match ft with FO => 0 | _ => 1 end).
  { destruct Hft as [E|E]; subst ft; destruct (sp_lower sp); repeat split; unfold io, lcl; cbn; tauto. }
  destruct HL as (HL & U & IOF).
  spfacts Hsp.
  assert (Hpb : (sp_pad_bit sp <= 2)%nat).
  { destruct Hft as [E|E]; subst ft; first [assumption | apply Nat.leb_le; assumption]. }
  assert (Hbase : file = match ft with FO => 0 | _ => 1 end /\ 0 <= elem <= 255 /\ 0 <= sub <= 254 /\ cnt = 1
                  /\ match bit with Some b => 0 <= b <= 15 | None => True end).
  { destruct Hft as [E|E]; subst ft; destruct bit; wfacts Hwf; repeat split; lia. }
  destruct Hbase as (Hfile & Helem & Hsub & Hcnt & Hbit). subst cnt.
  destruct (rn3 (sp_pad_elem sp) elem) as [Re Ve]; [lia|assumption|].
  destruct (rn3 (sp_pad_file sp) file) as [Rf Vf]; [destruct ft; lia|assumption|].
  destruct (rn3 (sp_pad_sub sp) sub) as [Rs Vs]; [lia|assumption|].
  set (ofile := if sp_io_file sp then Some (render_num (sp_pad_file sp) file) else None).
  set (osub := if negb (sub =? 0) || sp_io_word sp then Some (render_num (sp_pad_sub sp) sub) else None).
  assert (Of : optrun 3 ofile) by (subst ofile; destruct (sp_io_file sp); [apply some_run; exact Rf|apply none_run]).
  assert (Os : optrun 3 osub /\ optval osub = sub).
  { subst osub. destruct (negb (sub =? 0) || sp_io_word sp) eqn:E.
    - split; [apply some_run; exact Rs|exact Vs].
    - split; [apply none_run|]. cbn. apply orb_false_iff in E. destruct E as [E _]. apply negb_false_iff in E. lia. }
  destruct Os as [Os Vos].
  assert (Hfo : io_file_ok (ft_letter_ok ft (sp_lower sp)) ofile = true).
  { subst ofile. unfold io_file_ok. destruct (sp_io_file sp); [|reflexivity]. rewrite Vf, IOF. lia. }
  assert (Hbc : match bit with Some b => 0 <= b <= 15 /\ 1 = 1 | None => 1 <= 1 < 10000 end)
    by (destruct bit; [split; [exact Hbit|reflexivity]|lia]).
  destruct (tail_pieces sp bit 1 Hbc Hpb) as (Rb & Oc & Ob & _ & Vb & Vaf & Vc).
  pose proof (parse_io _ ofile _ osub _ _ HL Of Re Os Rb Oc) as P. cbv zeta in P.
  rewrite Hfo, Ob, Ve, U, IOF, Vos, Vb, Vaf, Vc in P. cbn [andb] in P.
  replace (in_range 0 255 elem && true) with true in P by (unfold in_range; lia).
  rend. subst ofile osub.
  destruct Hft as [E|E]; subst ft; cbn [is_io is_tc andb opt_text] in *; subst file;
    (destruct (sp_io_file sp); destruct (negb (sub =? 0) || sp_io_word sp); destruct bit; cbn [otext subpart] in P; eexists; exact P).
Qed.

Lemma parse_addr_flat sp file elem b cnt sub :
  sp_flat_bit sp = true ->
  let a := {| a_ft := FB; a_file := file; a_elem := elem; a_sub := sub; a_bit := Some b; a_count := cnt |} in
  wf_addr a = true -> wf_spelling sp a = true ->
  exists name, parse_tag (render sp a) = PTag (addr_tag a name).
Proof.
  intros Hflat a Hwf Hsp. subst a.
  destruct (letter_facts FB (sp_lower sp)) as [U HL]. cbv zeta in U, HL.
  spfacts Hsp. rewrite Hflat in *.
  assert (Hbase : 1 <= file <= 255 /\ 0 <= elem <= 255 /\ 0 <= b <= 15 /\ cnt = 1 /\ sub = 0) by (wfacts Hwf; lia).
  destruct Hbase as (Hfile & Helem & Hb & Hc & Hs). subst cnt sub.
  destruct (rn3 (sp_pad_file sp) file) as [Rf Vf]; [lia|assumption|].
  destruct (render_num_ok (sp_pad_bit sp) (16 * elem + b) 4) as [Rn Vn];
    [lia|first [assumption | apply Nat.leb_le; assumption]|apply (digits_min_ok (16 * elem + b)); lia|].
  pose proof (parse_flat _ _ _ None HL Rf Rn none_any) as P. cbv zeta in P.
  rewrite Vf, Vn, U in P. cbn [cntval] in P.
  replace (in_range 1 255 file && in_range 0 4095 (16 * elem + b)) with true in P by (unfold in_range; lia).
  replace ((16 * elem + b) / 16) with elem in P by lia.
  replace (16 * elem + b - elem * 16) with b in P by lia.
  eexists. rend. rewrite Hflat. cbn [is_io is_tc andb opt_text]. exact P.
Qed.

Lemma tc_cases ft sub bit flags :
  (ft = FT \/ ft = FC) ->
  match bit with Some b => sub = 0 /\ tc_bit_ok ft b = true | None => 1 <= sub <= 2 end ->
  exists base, tc_mnemonic ft sub bit = Some base
    /\ dict_get pccc_ct (upper (apply_case flags base)) = Ok (match bit with Some b => b | None => sub end).
Proof.
  intros Hft H.
  enough (E : exists base, tc_mnemonic ft sub bit = Some base
                /\ dict_get pccc_ct base = Ok (match bit with Some b => b | None => sub end) /\ upper base = base).
  { destruct E as (base & E1 & E2 & E3). exists base. rewrite apply_case_upper, E3. split; assumption. }
  destruct bit as [b|].
  - destruct H as [-> Hb].
    destruct Hft; subst ft; unfold tc_bit_ok, zin in Hb.
    + assert (Hc : b = 13 \/ b = 14 \/ b = 15) by lia.
      destruct Hc as [Hc|[Hc|Hc]]; subst b; eexists; repeat split; reflexivity.
    + assert (Hc : b = 10 \/ b = 11 \/ b = 12 \/ b = 13 \/ b = 14 \/ b = 15) by lia.
      destruct Hc as [Hc|[Hc|[Hc|[Hc|[Hc|Hc]]]]]; subst b; eexists; repeat split; reflexivity.
  - assert (Hc : sub = 1 \/ sub = 2) by lia.
    destruct Hc; subst sub; eexists; repeat split; reflexivity.
Qed.

Lemma parse_addr_tc sp ft file elem sub bit cnt :
  (ft = FT \/ ft = FC) ->
  let a := {| a_ft := ft; a_file := file; a_elem := elem; a_sub := sub; a_bit := bit; a_count := cnt |} in
  wf_addr a = true -> wf_spelling sp a = true ->
  exists name, parse_tag (render sp a) = PTag (addr_tag a name).
Proof.
  intros Hft a Hwf Hsp. subst a.
  assert (HL : tc (ft_letter_ok ft (sp_lower sp)) /\ upper [ft_letter_ok ft (sp_lower sp)] = [letter ft]).
  { destruct Hft as [E|E]; subst ft; destruct (sp_lower sp); split; unfold tc, lcl; cbn; tauto. }
  destruct HL as (HL & U).
  spfacts Hsp.
  assert (Hbase : 1 <= file <= 255 /\ 0 <= elem <= 255 /\ cnt = 1
                  /\ match bit with Some b => sub = 0 /\ tc_bit_ok ft b = true | None => 1 <= sub <= 2 end).
  { destruct Hft as [E|E]; subst ft; destruct bit; wfacts Hwf; repeat split; try assumption; lia. }
  destruct Hbase as (Hfile & Helem & Hcnt & Hbit). subst cnt.
  destruct (rn3 (sp_pad_file sp) file) as [Rf Vf]; [lia|assumption|].
  destruct (rn3 (sp_pad_elem sp) elem) as [Re Ve]; [lia|assumption|].
  destruct (tc_cases ft sub bit (sp_mn_lower sp) Hft Hbit) as (base & Hbase & Hcode).
  pose proof (parse_tc _ _ _ _ _ HL Rf Re Hcode) as P. cbv zeta in P.
  rewrite Vf, Ve, U in P.
  replace (in_range 1 255 file && in_range 0 255 elem) with true in P by (unfold in_range; lia).
  eexists. rend. rewrite Hbase.
  destruct Hft as [E|E]; subst ft; cbn [is_io is_tc andb opt_text]; exact P.
Qed.

Theorem parse_addr sp a : wf_addr a = true -> wf_spelling sp a = true ->
  exists name, parse_tag (render sp a) = PTag (addr_tag a name).
Proof.
  intros Hwf Hsp. destruct a as [ft file elem sub bit cnt].
  destruct ft.
  1-4: assert (sub = 0) by (wfacts Hwf; lia); subst sub.
  1,3,4: (apply parse_addr_lfbn; [tauto|discriminate|assumption|assumption]).
  - destruct bit as [b|]; [destruct (sp_flat_bit sp) eqn:E; [apply parse_addr_flat; assumption|]|];
      (apply parse_addr_lfbn; [tauto|congruence|assumption|assumption]).
  - apply parse_addr_s; assumption.
  - apply parse_addr_io; [tauto|assumption|assumption].
  - apply parse_addr_io; [tauto|assumption|assumption].
  - apply parse_addr_tc; [tauto|assumption|assumption].
  - apply parse_addr_tc; [tauto|assumption|assumption].
Qed.

Lemma longer_olen n o : longer n o = (n <? olen o)%nat.
Proof. destruct o; reflexivity. Qed.

Theorem reject_overlong r : raw_form r = true -> overlong r = true -> parse_tag (render_raw r) = PNone.
Proof.
  intros Hform Hlong. destruct r as [ft lower file elem sub bit cnt flat mn].
  unfold raw_form in Hform. unfold overlong, overlong_field in Hlong. rewrite !longer_olen in Hlong.
  cbn [r_ft r_lower r_file r_elem r_sub r_bit r_count r_flat r_mn] in *.
  apply andb_true_iff in Hform. destruct Hform as [Hform Hx].
  apply andb_true_iff in Hform. destruct Hform as [Hform _].
  apply andb_true_iff in Hform. destruct Hform as [Hform Db]. apply odigit_optany in Db.
  apply andb_true_iff in Hform. destruct Hform as [Hform Ds]. apply odigit_optany in Ds.
  apply andb_true_iff in Hform. destruct Hform as [De Df]. apply odigit_optany in Df.
  assert (Ae : flat = false -> anyrun elem) by (intros ->; rewrite orb_false_r in De; apply digit_run_anyrun; exact De).
  pose (L := ft_letter_ok ft lower). destruct (letter_facts ft lower) as [_ HL]. cbv zeta in HL. fold L in HL.
  unfold render_raw. cbn [r_ft r_lower r_file r_elem r_sub r_bit r_count r_flat r_mn]. fold (ft_letter_ok ft lower). fold L.
  assert (Hw : forall f, lfbn L -> file = Some f -> sub = None -> flat = false ->
            parse_tag (L :: f ++ 58 :: elem ++ [] ++ bitpart bit ++ cntpart cnt) = PNone).
  { intros f HL' -> -> ->. apply overlong_lfbn; [exact HL'|exact (Df f eq_refl)|exact (Ae eq_refl)|exact Db|].
    cbn [olen negb andb] in Hlong. lia. }
  destruct ft.
  (* N, F, L *)
  1,3,4: (destruct file as [f|], sub, flat; try discriminate Hx; apply (Hw f); unfold lfbn; tauto).
  (* T, C *)
  5,6: (destruct file as [f|], sub, bit, flat; cbn [is_some negb andb] in Hx; rewrite ?andb_false_r in Hx; try discriminate Hx;
        apply overlong_tc; [unfold tc; tauto|exact (Df f eq_refl)|exact (proj1 (Ae eq_refl))|cbn [olen negb andb opt_text] in *; lia]).
  (* I, O *)
  3,4: (destruct flat; [discriminate|];
        apply (overlong_io L file elem sub bit (cntpart cnt)); [unfold io; tauto|exact Df|exact (Ae eq_refl)|exact Ds|exact Db|];
        cbn [negb andb] in Hlong; lia).
  - (* B *) destruct file as [f|], sub; try discriminate Hx. destruct flat; [|apply (Hw f); unfold lfbn; tauto].
    destruct bit as [n|]; [|discriminate].
    apply (overlong_flat L f n (cntpart cnt)); [exact HL|exact (Df f eq_refl)|exact (Db n eq_refl)|cbn [olen negb andb] in Hlong; lia].
  - (* S *) destruct file, sub, flat; try discriminate Hx.
    apply (overlong_s L elem bit (cntpart cnt)); [exact HL|exact (Ae eq_refl)|exact Db|cbn [olen negb andb] in Hlong; lia].
Qed.

Theorem reject r : raw_form r = true -> spec_in_range r = false -> parse_tag (render_raw r) = PNone.
Proof.
  intros Hf Hr. destruct (overlong r) eqn:Eo; [apply reject_overlong; assumption|].
  apply reject_in_limits; [split; assumption|exact Hr].
Qed.
