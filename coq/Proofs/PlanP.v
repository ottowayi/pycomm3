(* Proofs/PlanP.v — the planners keep every request in exactly one packet, every multi-service
   packet fits the connection, write fragments tile the value, read fragments are asked for at the
   offset received so far, and the Forward Open that succeeds carries the connection size planned with.
   All sizes symbolic; OVH too: where its value matters (10 <= OVH) that is a hypothesis. *)
From PV Require Import Base.Bytes Base.ListLemmas Model.LogixPlan.
From Coq Require Import ZifyBool Permutation.
Open Scope Z_scope.

Definition sum_sz (g : list (Z * Z)) : Z := fold_right (fun p a => snd p + a) 0 g.

Lemma sum_sz_app a b : sum_sz (a ++ b) = sum_sz a + sum_sz b.
Proof. unfold sum_sz. induction a as [|x a IH]; cbn [app fold_right]; lia. Qed.

Lemma group_loop_concat conn sized : forall cur cs done,
  concat (group_loop conn sized cur cs done) = concat (rev done) ++ rev cur ++ sized.
Proof.
  induction sized as [|[i sz] rest IH]; intros cur cs done; cbn [group_loop].
  - cbn [rev]. rewrite concat_app. cbn [concat]. rewrite !app_nil_r. reflexivity.
  - destruct (cs + sz >? conn).
    + rewrite IH. cbn [rev]. rewrite concat_app. cbn [concat app]. rewrite app_nil_r, <- app_assoc. reflexivity.
    + rewrite IH. cbn [rev]. rewrite <- app_assoc. reflexivity.
Qed.

Theorem groups_sized_concat conn sized : concat (groups_sized conn sized) = sized.
Proof. unfold groups_sized. rewrite group_loop_concat. reflexivity. Qed.

Theorem groups_concat conn sized : concat (groups conn sized) = map fst sized.
Proof. unfold groups. rewrite <- concat_map, groups_sized_concat. reflexivity. Qed.

(* a property of every group the loop closes or leaves open, from an invariant of (open group in request order, its
   size, what is left) *)
Lemma group_loop_Forall conn (P : list (Z * Z) -> Prop) (Q : list (Z * Z) -> Z -> list (Z * Z) -> Prop) :
  (forall g cs, Q g cs [] -> P g) ->
  (forall g cs i sz rest, Q g cs ((i, sz) :: rest) ->
     if cs + sz >? conn then P g /\ Q [(i, sz)] (OVH + sz) rest else Q (g ++ [(i, sz)]) (cs + sz) rest) ->
  forall sized cur cs done, Forall P done -> Q (rev cur) cs sized -> Forall P (group_loop conn sized cur cs done).
Proof.
  intros Hend Hstep. induction sized as [|[i sz] rest IH]; intros cur cs done Hd HQ; cbn [group_loop].
  - apply Forall_rev. constructor; [eapply Hend, HQ | exact Hd].
  - specialize (Hstep _ _ _ _ _ HQ). destruct (cs + sz >? conn); [destruct Hstep as [HP HQ']|]; apply IH; auto.
Qed.

(* each single item fits: that is what the fragmenting test guarantees *)
Lemma groups_sized_ok conn sized :
  Forall (fun p => OVH + snd p <= conn) sized ->
  Forall (fun g => g <> [] /\ OVH + sum_sz g <= conn \/ g = [] /\ sized = []) (groups_sized conn sized).
Proof.
  intros H. unfold groups_sized.
  apply (group_loop_Forall conn _ (fun g cs rest => Forall (fun p => OVH + snd p <= conn) rest /\ cs = OVH + sum_sz g
                                     /\ (g <> [] /\ cs <= conn \/ g = [] /\ rest = sized))); [| |constructor|cbn [rev]; auto].
  - intros g cs (_ & -> & [Hc|[-> <-]]); [left; exact Hc|right; split; reflexivity].
  - intros g cs i sz rest (Hs & -> & Hc). pose proof (Forall_inv Hs) as Hp. apply Forall_inv_tail in Hs. cbn [snd] in Hp.
    assert (S1 : sum_sz [(i, sz)] = sz) by (unfold sum_sz; cbn; lia).
    destruct (_ >? conn) eqn:E.
    + split.
      * destruct Hc as [Hc|[-> _]]; [left; exact Hc|]. change (sum_sz []) with 0 in E. lia.
      * repeat split; [exact Hs|lia|]. left. split; [discriminate|lia].
    + repeat split; [exact Hs|rewrite sum_sz_app; lia|]. left. split; [|lia].
      intros K. symmetry in K. exact (app_cons_not_nil _ _ _ K).
Qed.

Theorem groups_sized_fit conn sized :
  Forall (fun p => OVH + snd p <= conn) sized ->
  Forall (fun g => OVH + sum_sz g <= conn \/ g = []) (groups_sized conn sized).
Proof.
  intros H. eapply Forall_impl; [|apply groups_sized_ok, H]. intros g [[_ Hc]|[Hg _]]; [left; exact Hc|right; exact Hg].
Qed.

Theorem groups_sized_nonempty conn sized :
  sized <> [] -> Forall (fun p => OVH + snd p <= conn) sized ->
  Forall (fun g => g <> []) (groups_sized conn sized).
Proof.
  intros Hne H. eapply Forall_impl; [|apply groups_sized_ok, H]. intros g [[Hg _]|[_ K]]; [exact Hg|contradiction].
Qed.

Lemma groups_sized_nil conn : groups_sized conn [] = [[]].
Proof. reflexivity. Qed.

Definition packet_ids (p : packet) : list Z :=
  match p with PMulti ids => ids | PSingle i => [i] | PFrag i => [i] | PRmw _ ids => ids end.
Definition plan_ids (ps : list packet) : list Z := flat_map packet_ids ps.

Lemma plan_ids_app a b : plan_ids (a ++ b) = plan_ids a ++ plan_ids b.
Proof. unfold plan_ids. apply flat_map_app. Qed.
Lemma plan_ids_multi gs : plan_ids (map PMulti gs) = concat gs.
Proof. induction gs as [|g gs IH]; [reflexivity|]. cbn [map plan_ids flat_map packet_ids concat] in *. unfold plan_ids in IH. rewrite IH. reflexivity. Qed.
Lemma plan_ids_frag {A} (f : A -> Z) l : plan_ids (map (fun r => PFrag (f r)) l) = map f l.
Proof. induction l as [|a l IH]; [reflexivity|]. cbn [map plan_ids flat_map packet_ids app] in *. unfold plan_ids in IH. rewrite IH. reflexivity. Qed.

Lemma filter_partition_perm {A} (f : A -> bool) (l : list A) :
  Permutation (filter (fun x => negb (f x)) l ++ filter f l) l.
Proof.
  induction l as [|a l IH]; [constructor|]. cbn [filter]. destruct (f a); cbn [negb].
  - apply Permutation_sym, Permutation_cons_app, Permutation_sym, IH.
  - cbn [app]. constructor. exact IH.
Qed.

Definition rvalid (reqs : list rreq) : list rreq := filter (fun r => negb (r_err r)) reqs.

Lemma grouped_fit conn (l : list rreq) :
  Forall (fun p => OVH + snd p <= conn) (map (fun r => (r_id r, r_est r)) (filter (fun r => negb (r_frag conn r)) l)).
Proof.
  apply Forall_map, Forall_forall. intros r [_ E]%filter_In. cbn [snd]. unfold r_frag in E. lia.
Qed.

(* the multi-service part of the read plan, as (id, estimate) groups *)
Definition read_groups (conn : Z) (reqs : list rreq) : list (list (Z * Z)) :=
  groups_sized conn (map (fun r => (r_id r, r_est r)) (filter (fun r => negb (r_frag conn r)) (rvalid reqs))).

Lemma read_build_multi_shape conn reqs :
  read_build_multi conn reqs =
  (if is_nil (filter (fun r => negb (r_frag conn r)) (rvalid reqs)) then [] else map PMulti (map (map fst) (read_groups conn reqs)))
  ++ map (fun r => PFrag (r_id r)) (filter (r_frag conn) (rvalid reqs)).
Proof.
  unfold read_build_multi, read_groups, groups. fold (rvalid reqs). f_equal.
  pose proof (grouped_fit conn (rvalid reqs)) as Hfit.
  destruct (filter _ (rvalid reqs)) as [|g0 G']; [reflexivity|]. cbn [is_nil].
  apply groups_sized_nonempty in Hfit; [|discriminate].
  destruct Hfit as [|[|x h] t Hh _]; [reflexivity|congruence|reflexivity].
Qed.

(* C03/C04: every valid request is in exactly one packet of the multi read plan *)
Theorem read_multi_partition conn reqs :
  Permutation (plan_ids (read_build_multi conn reqs)) (map r_id (rvalid reqs)).
Proof.
  rewrite read_build_multi_shape, plan_ids_app, plan_ids_frag. unfold read_groups.
  eapply Permutation_trans; [|apply Permutation_map, (filter_partition_perm (r_frag conn))].
  rewrite map_app. apply Permutation_app_tail.
  destruct (filter (fun r => negb (r_frag conn r)) (rvalid reqs)) as [|g0 G']; [constructor|]. cbn [is_nil].
  rewrite plan_ids_multi, <- concat_map, groups_sized_concat, map_map. apply Permutation_refl.
Qed.

(* C04: every multi-service read packet: planner overhead + the estimates of its requests <= conn *)
Theorem read_multi_groups_fit conn reqs :
  Forall (fun g => OVH + sum_sz g <= conn \/ g = []) (read_groups conn reqs).
Proof. unfold read_groups. apply groups_sized_fit, grouped_fit. Qed.

(* the estimate dominates the real sizes.  For a request with message length m (2-byte sequence
   count included) and data size d inside a multi-service packet:
     request bytes  = 2 (offset entry) + (m - 2)               <= est = d + m + 2   (d >= 0)
     reply bytes    = 2 (offset entry) + 4 (service, 0, status, ext size) + tlen + d, tlen in {2, 4}
                                                                <= est  when m >= 8
   and the packet adds 2 (sequence) + 6 (service + path to the message router) + 2 (count) = 10 = OVH
   to requests, 2 + 4 + 2 = 8 <= OVH to replies. *)
Definition act_req (m : Z) : Z := 2 + (m - 2).
Definition act_reply (tlen d : Z) : Z := 2 + 4 + tlen + d.

Theorem read_multi_actual_fits conn (g : list (Z * Z)) (real : list (Z * Z * Z)) (* (m, d, tlen) per request *) :
  OVH + sum_sz g <= conn -> 10 <= OVH ->
  map snd g = map (fun '(m, d, t) => d + m + 2) real ->
  Forall (fun '(m, d, t) => 8 <= m /\ 0 <= d /\ (t = 2 \/ t = 4)) real ->
  10 + fold_right (fun '(m, d, t) a => act_req m + a) 0 real <= conn
  /\ 8 + fold_right (fun '(m, d, t) a => act_reply t d + a) 0 real <= conn.
Proof.
  intros Hfit Hovh Hmap Hreal.
  assert (S : sum_sz g = fold_right Z.add 0 (map snd g)).
  { clear. unfold sum_sz. induction g as [|p g IH]; cbn [map fold_right]; congruence. }
  rewrite Hmap in S. clear Hmap.
  assert (G : fold_right (fun '(m, d, t) a => act_req m + a) 0 real <= sum_sz g
              /\ fold_right (fun '(m, d, t) a => act_reply t d + a) 0 real <= sum_sz g).
  { rewrite S. clear -Hreal. induction Hreal as [|[[m d] t] real (Hm & Hd & Ht) Hr IH]; cbn [map fold_right];
      unfold act_req, act_reply in *; lia. }
  lia.
Qed.

Theorem read_single_partition conn reqs :
  plan_ids (filter_map (read_build_single conn) reqs) = map r_id (rvalid reqs).
Proof.
  unfold rvalid. induction reqs as [|r reqs IH]; [reflexivity|]. cbn [filter_map filter].
  unfold read_build_single at 1.
  destruct (r_err r); cbn [negb]; [exact IH|].
  cbn [map]. rewrite <- IH.
  destruct (r_data r + r_msg r >? conn); reflexivity.
Qed.

Theorem read_plan_partition conn micro reqs :
  Permutation (plan_ids (read_build_requests conn micro reqs)) (map r_id (rvalid reqs)).
Proof.
  unfold read_build_requests. destruct (negb (length reqs =? 1)%nat && negb micro).
  - apply read_multi_partition.
  - rewrite read_single_partition. apply Permutation_refl.
Qed.

(* a single read that is NOT fragmented has a reply that fits: reply = 2 + 4 + tlen + d <= d + m when m >= 10 *)
Theorem read_single_fits conn r :
  read_build_single conn r = Some (PSingle (r_id r)) -> 10 <= r_msg r -> 0 <= r_data r ->
  forall tlen, tlen = 2 \/ tlen = 4 -> 2 + 4 + tlen + r_data r <= conn /\ r_msg r <= conn.
Proof.
  unfold read_build_single. destruct (r_err r); [discriminate|].
  destruct (r_data r + r_msg r >? conn) eqn:E; [discriminate|]. lia.
Qed.

Definition wvalid (reqs : list wreq) : list wreq :=
  filter (fun w => negb (w_err w) && (w_bit w || negb (w_enc_err w))) reqs.

Definition bw_ids (bw : list (list Z * (Z * list Z))) : list Z := flat_map (fun e => snd (snd e)) bw.

Notation cnt := (count_occ Z.eq_dec).

Lemma cnt_one a x : cnt [a] x = if Z.eq_dec a x then 1%nat else 0%nat.
Proof. reflexivity. Qed.

Lemma rmw_add_ids tag id n bw x : cnt (bw_ids (rmw_add tag id n bw)) x = (cnt (bw_ids bw) x + cnt [id] x)%nat.
Proof.
  unfold bw_ids. induction bw as [|[t [rid ids]] rest IH]; cbn [rmw_add].
  - cbn [flat_map snd app count_occ]. rewrite ?app_nil_r. cbn [count_occ]. destruct (Z.eq_dec id x); lia.
  - destruct (zs_eqb t tag); cbn [flat_map snd].
    + rewrite !count_occ_app. lia.
    + rewrite !count_occ_app, IH. lia.
Qed.

Definition scan_cnt x (s : list (list Z * (Z * list Z)) * list Z * list (Z * Z)) : nat :=
  let '(bw, frags, wr) := s in (cnt (bw_ids bw) x + cnt frags x + cnt (map fst wr) x)%nat.

Lemma write_scan_ids conn reqs x : forall bw frags wr,
  scan_cnt x (write_scan conn reqs bw frags wr) = (scan_cnt x (bw, frags, wr) + cnt (map w_id (wvalid reqs)) x)%nat.
Proof.
  induction reqs as [|w rest IH]; intros bw frags wr; cbn [write_scan].
  - cbn [scan_cnt wvalid filter map count_occ]. rewrite map_rev, !count_occ_rev. lia.
  - unfold wvalid in *. cbn [filter].
    destruct (w_err w); cbn [negb andb]; [apply IH|].
    destruct (w_bit w); cbn [orb].
    + rewrite IH. cbn [scan_cnt map]. rewrite rmw_add_ids. cbn [count_occ]. destruct (Z.eq_dec (w_id w) x); lia.
    + destruct (w_enc_err w); cbn [negb]; [apply IH|].
      destruct (w_fragm conn w); rewrite IH; cbn [scan_cnt map fst count_occ]; destruct (Z.eq_dec (w_id w) x); lia.
Qed.

Lemma concat_filter_nonnil {A} (ls : list (list A)) : concat (filter (fun g => negb (is_nil g)) ls) = concat ls.
Proof.
  induction ls as [|l ls IH]; [reflexivity|]. cbn [filter]. destruct l; cbn [is_nil negb concat]; [exact IH|].
  cbn [concat] in *. rewrite IH. reflexivity.
Qed.

Lemma plan_ids_rmw bw : plan_ids (map (fun e : list Z * (Z * list Z) => PRmw (fst (snd e)) (snd (snd e))) bw) = bw_ids bw.
Proof. exact (flat_map_map packet_ids _ bw). Qed.

(* C03/C04: every request that is valid (parsed, and encodable unless it is a bit write) is in exactly
   one packet of the multi write plan; merged bit writes appear once each inside their RMW packet *)
Theorem write_multi_partition conn reqs :
  Permutation (plan_ids (write_build_multi conn reqs)) (map w_id (wvalid reqs)).
Proof.
  apply (Permutation_count_occ Z.eq_dec). intros x.
  unfold write_build_multi. pose proof (write_scan_ids conn reqs x [] [] []) as H.
  destruct (write_scan conn reqs [] [] []) as [[bw frags] wr]. cbn [scan_cnt bw_ids flat_map map count_occ] in H.
  rewrite !plan_ids_app, plan_ids_multi, (plan_ids_frag (fun i => i)), map_id, plan_ids_rmw, concat_filter_nonnil, groups_concat.
  rewrite !count_occ_app. lia.
Qed.

Lemma write_scan_wr_fit conn reqs : forall bw frags wr,
  Forall (fun p => OVH + snd p <= conn) wr ->
  let '(_, _, wr') := write_scan conn reqs bw frags wr in Forall (fun p => OVH + snd p <= conn) wr'.
Proof.
  induction reqs as [|w rest IH]; intros bw frags wr Hwr; cbn [write_scan].
  - apply Forall_rev, Hwr.
  - destruct (w_err w); [apply IH, Hwr|]. destruct (w_bit w); [apply IH, Hwr|].
    destruct (w_enc_err w); [apply IH, Hwr|]. destruct (w_fragm conn w) eqn:E; [apply IH, Hwr|].
    apply IH. constructor; [|exact Hwr]. cbn [snd]. unfold w_fragm in E. lia.
Qed.

(* C04: every multi-service write packet fits: OVH + sum of len(message) of its requests <= conn,
   and that sum IS the size of the connected data item (10 = 2 sequence + 6 service/path + 2 count;
   each request contributes 2 (offset) + len(message) - 2 (its own sequence count is not sent)) *)
Theorem write_multi_groups_fit conn reqs :
  let '(_, _, wr) := write_scan conn reqs [] [] [] in
  Forall (fun g => OVH + sum_sz g <= conn \/ g = []) (groups_sized conn wr).
Proof.
  pose proof (write_scan_wr_fit conn reqs [] [] [] (Forall_nil _)) as H.
  destruct (write_scan conn reqs [] [] []) as [[bw frags] wr]. apply groups_sized_fit, H.
Qed.

Lemma chunks_concat n : (0 < n)%nat -> forall fuel value, (length value <= fuel)%nat -> concat (chunks fuel n value) = value.
Proof.
  intros Hn. induction fuel as [|f IH]; intros value Hl.
  - destruct value; [reflexivity|cbn in Hl; lia].
  - cbn [chunks]. destruct value as [|b v]; [reflexivity|]. cbn [concat].
    rewrite IH; [apply firstn_skipn|]. rewrite skipn_length. cbn [length] in *. lia.
Qed.

Lemma chunks_bound n : (0 < n)%nat -> forall fuel value,
  Forall (fun s => (0 < length s <= n)%nat) (chunks fuel n value).
Proof.
  intros Hn. induction fuel as [|f IH]; intros value; [constructor|].
  cbn [chunks]. destruct value as [|b v]; [constructor|]. constructor; [|apply IH].
  rewrite firstn_length. cbn [length]. lia.
Qed.

Lemma offsets_from_length o segs : length (offsets_from o segs) = length segs.
Proof. revert o. induction segs as [|s r IH]; intros o; [reflexivity|]. cbn [offsets_from length]. rewrite IH. reflexivity. Qed.

Lemma offsets_from_combine_snd segs : forall o, map snd (combine (offsets_from o segs) segs) = segs.
Proof. induction segs as [|s r IH]; intros o; [reflexivity|]. cbn [offsets_from combine map snd]. rewrite IH. reflexivity. Qed.

Lemma offsets_from_nth segs : forall o k, (k < length segs)%nat ->
  nth k (offsets_from o segs) 0 = o + Z.of_nat (length (concat (firstn k segs))).
Proof.
  induction segs as [|s r IH]; intros o k Hk; [cbn in Hk; lia|].
  destruct k as [|k]; cbn [offsets_from nth firstn concat length]; [lia|].
  rewrite IH by (cbn [length] in Hk; lia). rewrite app_length. lia.
Qed.

Lemma nth_concat_slice (segs : list bytes) : forall k, (k < length segs)%nat ->
  nth k segs [] = firstn (length (nth k segs [])) (skipn (length (concat (firstn k segs))) (concat segs)).
Proof.
  induction segs as [|s r IH]; intros k Hk; [cbn in Hk; lia|].
  destruct k as [|k].
  - cbn [nth firstn concat length skipn]. symmetry. apply firstn_app_length. reflexivity.
  - cbn [nth firstn concat]. rewrite app_length, skipn_app_add. apply IH. cbn [length] in Hk. lia.
Qed.

Lemma offsets_tile segs : let frs := combine (offsets_from 0 segs) segs in
  map snd frs = segs /\ length frs = length segs
  /\ forall k, (k < length segs)%nat -> nth k frs (0, []) = (Z.of_nat (length (concat (firstn k segs))), nth k segs []).
Proof.
  pose proof (offsets_from_length 0 segs) as Hlen. split; [apply offsets_from_combine_snd|]. split.
  - rewrite combine_length, Hlen. apply Nat.min_id.
  - intros k Hk. rewrite combine_nth by exact Hlen. rewrite offsets_from_nth by exact Hk. reflexivity.
Qed.

Theorem write_frag_tiles conn ovh value :
  0 < conn - ovh ->
  let frs := write_fragments conn ovh value in
  concat (map snd frs) = value
  /\ Forall (fun '(o, s) => s <> [] /\ ovh + Z.of_nat (length s) <= conn) frs
  /\ (forall k, (k < length frs)%nat ->
        fst (nth k frs (0, [])) = Z.of_nat (length (concat (firstn k (map snd frs)))))
  /\ (forall k, (k < length frs)%nat ->
        snd (nth k frs (0, [])) = firstn (length (snd (nth k frs (0, [])))) (skipn (Z.to_nat (fst (nth k frs (0, [])))) value)).
Proof.
  intros Hpos frs. unfold frs, write_fragments.
  set (n := Z.to_nat (conn - ovh)). set (segs := chunks (length value) n value).
  assert (Hn : (0 < n)%nat) by (unfold n; lia).
  assert (Hcc : concat segs = value) by (apply chunks_concat; [exact Hn|lia]).
  destruct (offsets_tile segs) as (Hsnd & Hlen & Hnth). rewrite Hsnd, Hlen. split; [exact Hcc|]. split; [|split].
  - pose proof (chunks_bound n Hn (length value) value) as B. fold segs in B.
    apply Forall_forall. intros [o s] Hin. apply in_combine_r in Hin.
    rewrite Forall_forall in B. specialize (B s Hin). split; [destruct s; [cbn in B; lia|discriminate]|]. unfold n in B. lia.
  - intros k Hk. rewrite Hnth by exact Hk. reflexivity.
  - intros k Hk. rewrite Hnth by exact Hk. cbn [fst snd]. rewrite Nat2Z.id. rewrite <- Hcc at 1. apply nth_concat_slice, Hk.
Qed.

(* fragmented read: every follow-up request asks for the number of bytes received so far *)
Lemma read_fragments_spec init : forall last off acc_off acc,
  read_fragments (map (fun f => (f, true)) init ++ [(last, false)]) off acc_off acc
  = Some (rev acc_off ++ offsets_from off (init ++ [last]), acc ++ concat init ++ last).
Proof.
  induction init as [|f init IH]; intros last off acc_off acc; cbn [map app read_fragments].
  - cbn [offsets_from rev concat app]. reflexivity.
  - rewrite IH. cbn [rev offsets_from concat app]. rewrite <- !app_assoc. reflexivity.
Qed.

Theorem read_frag_offsets init last :
  let r := read_fragments (map (fun f => (f, true)) init ++ [(last, false)]) 0 [] [] in
  r = Some (offsets_from 0 (init ++ [last]), concat init ++ last)
  /\ forall k, (k < length (init ++ [last]))%nat ->
       nth k (offsets_from 0 (init ++ [last])) 0 = Z.of_nat (length (concat (firstn k (init ++ [last])))).
Proof.
  split; [apply read_fragments_spec|]. intros k Hk. rewrite offsets_from_nth by exact Hk. lia.
Qed.

(* a peer that keeps answering "more" never lets the loop finish: the model waits (None), it does
   not invent data *)
Lemma read_fragments_all_more frs : forall off ao acc,
  read_fragments (map (fun f => (f, true)) frs) off ao acc = None.
Proof. induction frs as [|f r IH]; intros; cbn [map read_fragments]; [reflexivity|apply IH]. Qed.

Lemma fo_size_field_id st : 0 <= fo_csize st <= (if fo_ext st then 65535 else 511) -> fo_size_field st = fo_csize st.
Proof.
  assert (L : forall a n, 0 <= n -> 0 <= a < 2 ^ n -> Z.land a (Z.ones n) = a).
  { intros a n Hn Ha. rewrite Z.land_ones by exact Hn. apply Z.mod_small, Ha. }
  unfold fo_size_field. destruct (fo_ext st); intros H; [apply (L _ 16) | apply (L _ 9)]; lia.
Qed.

(* negotiation: the size the target was asked for (and granted) is the size the planners use *)
Theorem negotiate_size_agrees st al astd :
  0 <= fo_csize st <= (if fo_ext st then 65535 else 511) ->
  let '(attempts, st', opened) := negotiate st al astd in
  opened = true ->
  (* the last attempt is the one that succeeded: its size field is the driver's connection size *)
  snd (last attempts (false, 0)) = fo_csize st' /\ fst (last attempts (false, 0)) = fo_ext st'
  (* a standard Forward Open after a refused Large one asks for 500 *)
  /\ (fo_ext st = true -> al = false -> attempts = [(true, fo_csize st); (false, 500)] /\ fo_csize st' = 500).
Proof.
  intros Hr. unfold negotiate. rewrite (fo_size_field_id st Hr). destruct (fo_ext st) eqn:E.
  - destruct al; intros _; cbn [last snd fst fo_ext fo_csize].
    + rewrite E. repeat split; congruence.
    + repeat split; reflexivity.
  - intros _. cbn [last snd fst]. rewrite E. repeat split; congruence.
Qed.
