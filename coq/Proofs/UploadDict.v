(* Proofs/UploadDict.v — the association lists of the upload model (Model/LogixUpload.dict_get,
   dict_set: an existing key keeps its position, a new key goes to the end), for any key type;
   from [dict_get_set] on, for a key type whose boolean equality decides equality. *)
From Coq Require Import List ZArith.
From PV Require Export Base.PyStrLemmas.
From PV Require Import Base.PyStr Model.LogixUpload.
Import ListNotations.

Lemma otext_eqb_eq a b : otext_eqb a b = true <-> a = b.
Proof.
  destruct a, b; cbn; try (split; discriminate); [rewrite text_eqb_eq; split; congruence | tauto].
Qed.

Section Dict.
  Context {K V : Type} (eqb : K -> K -> bool).
  Implicit Types (d : list (K * V)) (k : K) (v : V).

  Lemma dict_get_app (a b : list (K * V)) k :
    dict_get eqb (a ++ b) k = match dict_get eqb a k with Some v => Some v | None => dict_get eqb b k end.
  Proof.
    induction a as [|[k' v'] a IH]; [reflexivity|]. cbn [app dict_get]. destruct (eqb k' k); [reflexivity | exact IH].
  Qed.

  Lemma dict_set_app (a b : list (K * V)) k v : dict_get eqb a k = None -> dict_set eqb (a ++ b) k v = a ++ dict_set eqb b k v.
  Proof.
    induction a as [|[k' v'] a IH]; [reflexivity|]. cbn [app dict_get dict_set].
    destruct (eqb k' k); [discriminate|]. intros H. rewrite IH by exact H. reflexivity.
  Qed.

  Lemma dict_set_absent d k v : dict_get eqb d k = None -> dict_set eqb d k v = d ++ [(k, v)].
  Proof. intros H. rewrite <- (app_nil_r d) at 1. apply dict_set_app, H. Qed.

  Lemma dict_set_fresh d k v : (forall k' v', In (k', v') d -> eqb k' k = false) -> dict_set eqb d k v = d ++ [(k, v)].
  Proof.
    induction d as [|[a b] d IH]; intros H; [reflexivity|]. cbn [dict_set].
    rewrite (H a b (or_introl eq_refl)), IH; [reflexivity|]. intros k' v' Hin. apply (H k' v'). right. exact Hin.
  Qed.

  Lemma dict_get_app_other d k k' v : eqb k' k = false -> dict_get eqb (d ++ [(k', v)]) k = dict_get eqb d k.
  Proof. intros Hk. rewrite dict_get_app. cbn [dict_get]. rewrite Hk. destruct (dict_get eqb d k); reflexivity. Qed.

  Lemma dict_set_keys d k v : map fst (dict_set eqb d k v) = map fst d \/ map fst (dict_set eqb d k v) = map fst d ++ [k].
  Proof.
    induction d as [|[a b] d IH]; [right; reflexivity|]. cbn [dict_set].
    destruct (eqb a k); [left; reflexivity|].
    cbn [map fst]. destruct IH as [-> | ->]; [left | right]; reflexivity.
  Qed.

  Hypothesis eqb_eq : forall a b, eqb a b = true <-> a = b.

  Lemma dict_get_set d n v k : dict_get eqb (dict_set eqb d n v) k = if eqb n k then Some v else dict_get eqb d k.
  Proof.
    induction d as [|[a b] d IH]; cbn [dict_set dict_get]; [reflexivity|].
    destruct (eqb a n) eqn:E; cbn [dict_get].
    - apply eqb_eq in E. subst a. destruct (eqb n k); reflexivity.
    - rewrite IH. destruct (eqb a k) eqn:Ea, (eqb n k) eqn:En; try reflexivity.
      apply eqb_eq in Ea, En. subst a n. rewrite (proj2 (eqb_eq k k) eq_refl) in E. discriminate.
  Qed.

  Lemma dict_get_in d k v : dict_get eqb d k = Some v -> In k (map fst d).
  Proof.
    induction d as [|[a b] d IH]; [discriminate|]. cbn [dict_get map fst].
    destruct (eqb a k) eqn:E; [intros _; left; apply eqb_eq; exact E | intros H; right; apply IH; exact H].
  Qed.

  Lemma dict_get_none d k : dict_get eqb d k = None <-> ~ In k (map fst d).
  Proof.
    induction d as [|[a b] d IH]; [cbn; tauto|]. cbn [dict_get map fst In].
    destruct (eqb a k) eqn:E.
    - apply eqb_eq in E. split; [discriminate | tauto].
    - rewrite IH. split; [intros H [Ha | Hin]; [rewrite Ha, (proj2 (eqb_eq k k) eq_refl) in E; discriminate | tauto] | tauto].
  Qed.

  Lemma dict_get_fresh d k (l : list K) : NoDup (map fst d ++ k :: l) -> dict_get eqb d k = None.
  Proof. intros Hnd. apply dict_get_none. intros Hin. exact (NoDup_remove_2 _ _ _ Hnd (in_or_app _ _ _ (or_introl Hin))). Qed.

  Lemma dict_get_of_in d k v : NoDup (map fst d) -> In (k, v) d -> dict_get eqb d k = Some v.
  Proof.
    induction d as [|[a b] d IH]; intros Hnd Hin; [destruct Hin|].
    cbn [map fst] in Hnd. inversion Hnd as [|? ? Hn Hnd']; subst. cbn [dict_get].
    destruct Hin as [E | Hin]; [injection E as -> ->; rewrite (proj2 (eqb_eq k k) eq_refl); reflexivity|].
    destruct (eqb a k) eqn:E; [|apply IH; assumption].
    exfalso. apply Hn. apply eqb_eq in E. subst a. apply (in_map fst) in Hin. exact Hin.
  Qed.
End Dict.
