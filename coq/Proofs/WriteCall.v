(* Proofs/WriteCall.v — the whole call (C02): what LogixDriver.write sends, executed by the
   reference target through its message router.

     multi_message_layout   MultiServiceRequestPacket.build_message: sequence count, service 0x0A, the
                            message-router path, count, offset table, the embedded requests
     multi_unwrap           the target's parse_multi recovers exactly the embedded requests from it
     dispatch_multi         (the lemma over TargetCore.dispatch) a Multiple Service Packet is executed as
                            its embedded requests, in order, each handed to the application handler;
                            the application state and the executed-write log are those of running the
                            embedded requests one after the other
     logix_write_cap_indep  the Logix write services do not depend on the reply capacity
     multi_packet_executes  what MultiServiceRequestPacket.build_message emits, parsed, unwrapped and executed
                            by the target (multi_message_layout + multi_unwrap + dispatch_multi)
     frag_transfer_correct  a fragmented transfer end to end: the fragments _send_write_fragmented
                            emits, executed in order by Write Tag Fragmented, leave the image one store
                            of the whole value leaves; one EvApp 1 per fragment, at the running offset *)
From Coq Require Import ZifyBool String.
From PV Require Import Base.Bytes Base.BytesLemmas Base.Res Base.Proto Base.PyStr Gen.PathTables Model.Path Model.LogixPlan Model.LogixWrite.
From PV Require Import Spec.EncapParser Spec.MRParser Spec.TargetIface Spec.TargetCore Spec.Project Spec.Expect Spec.TargetLogix.
From PV Require Import Proofs.TargetCoreP Proofs.TargetLogixP Proofs.PlanP Proofs.WriteMsg Proofs.WriteEnc Proofs.WriteCorrect.
Open Scope Z_scope.
Ltac Zify.zify_post_hook ::= Z.to_euclidean_division_equations.

Lemma msg_router_path : request_path (LBytes class_message_router) (LInt 1) None = Ok [2; 32; 2; 36; 1].
Proof. vm_compute. reflexivity. Qed.

(* offsets the builder computes: cur, cur + |m1|, ... *)
Fixpoint offset_vals (cur : Z) (msgs : list bytes) : list Z :=
  match msgs with
  | [] => []
  | m :: r => cur :: offset_vals (cur + LogixWrite.zlen m) r
  end.

Lemma multi_offsets_vals msgs : forall cur offs, multi_offsets cur msgs = Ok offs ->
  offs = map (le_enc 2) (offset_vals cur msgs) /\ Forall (fun o => 0 <= o < 65536) (offset_vals cur msgs).
Proof.
  induction msgs as [|m r IH]; intros cur offs H; cbn [multi_offsets offset_vals] in *.
  - injection H as <-. split; [reflexivity|constructor].
  - unfold UINT_encode, uint_encode in H. destruct (in_urange 2 cur) eqn:E; [|discriminate].
    destruct (multi_offsets (cur + LogixWrite.zlen m) r) as [os|] eqn:E2; [|discriminate]. injection H as <-.
    destruct (IH _ _ E2) as [-> F]. split; [reflexivity|]. constructor; [|exact F].
    unfold in_urange in E. change (pow256 2) with 65536 in E. lia.
Qed.

Theorem multi_message_layout seq members m :
  multi_message seq members = Ok m ->
  exists msgs, map_res tag_only_message members = Ok msgs
    /\ 0 <= LogixWrite.zlen members < 65536
    /\ Forall (fun o => 0 <= o < 65536) (offset_vals (2 + 2 * LogixWrite.zlen members) msgs)
    /\ m = le_enc 2 seq ++ [10] ++ [2; 32; 2; 36; 1]
           ++ (le_enc 2 (LogixWrite.zlen members) ++ concat (map (le_enc 2) (offset_vals (2 + 2 * LogixWrite.zlen members) msgs)) ++ concat msgs).
Proof.
  unfold multi_message. rewrite msg_router_path. destruct svc_codes as (_ & _ & _ & ->).
  unfold UINT_encode at 1 2, uint_encode.
  destruct (in_urange 2 seq) eqn:E1; [|discriminate].
  destruct (in_urange 2 (LogixWrite.zlen members)) eqn:E2; [|discriminate].
  destruct (map_res tag_only_message members) as [msgs|] eqn:E3; [|discriminate].
  destruct (multi_offsets (2 + 2 * LogixWrite.zlen members) msgs) as [offs|] eqn:E4; [|discriminate].
  intros H; injection H as <-. destruct (multi_offsets_vals _ _ _ E4) as [-> F].
  exists msgs. split; [reflexivity|]. split; [unfold in_urange in E2; change (pow256 2) with 65536 in E2; lia|]. split; [exact F|].
  reflexivity.
Qed.

Lemma rd_offsets_enc vals : forall rest, Forall (fun o => 0 <= o < 65536) vals ->
  rd_offsets (length vals) (concat (map (le_enc 2) vals) ++ rest) = Some vals.
Proof.
  induction vals as [|v r IH]; intros rest F; [reflexivity|].
  inversion F as [|? ? Hv Hr]; subst. cbn [length map concat].
  change (le_enc 2 v) with [v mod 256; (v / 256) mod 256]. cbn [app rd_offsets]. rewrite (IH rest Hr). rewrite u16_enc by exact Hv. reflexivity.
Qed.

Lemma cut_slices_msgs msgs : forall cur, msgs <> [] -> Forall (fun m => m <> []) msgs ->
  cut_slices cur (tl (offset_vals cur msgs)) (concat msgs) = Some msgs.
Proof.
  induction msgs as [|m r IH]; intros cur Hne F; [congruence|].
  inversion F as [|? ? Hm Hr]; subst.
  destruct r as [|m2 r2].
  - cbn [offset_vals tl cut_slices concat]. rewrite app_nil_r. destruct m; [congruence|reflexivity].
  - cbn [offset_vals tl]. cbn [cut_slices concat].
    assert (Hl : 0 < LogixWrite.zlen m) by (unfold LogixWrite.zlen; destruct m; [congruence|cbn [length]; lia]).
    replace (cur + LogixWrite.zlen m <=? cur) with false by lia.
    replace (cur + LogixWrite.zlen m - cur) with (EncapParser.blen m) by (unfold EncapParser.blen, LogixWrite.zlen; lia).
    rewrite takez_app.
    specialize (IH (cur + LogixWrite.zlen m) ltac:(discriminate) Hr). cbn [offset_vals tl] in IH. cbn [concat] in IH.
    rewrite IH. reflexivity.
Qed.

Lemma offset_vals_length cur msgs : length (offset_vals cur msgs) = length msgs.
Proof. revert cur. induction msgs as [|m r IH]; intros cur; [reflexivity|]. cbn [offset_vals length]. rewrite IH. reflexivity. Qed.

Theorem multi_unwrap msgs :
  msgs <> [] -> Forall (fun m => m <> []) msgs -> LogixWrite.zlen msgs < 65536 ->
  Forall (fun o => 0 <= o < 65536) (offset_vals (2 + 2 * LogixWrite.zlen msgs) msgs) ->
  parse_multi (le_enc 2 (LogixWrite.zlen msgs) ++ concat (map (le_enc 2) (offset_vals (2 + 2 * LogixWrite.zlen msgs) msgs)) ++ concat msgs)
  = RcOk msgs.
Proof.
  intros Hne Fne Hn Fo. set (n := LogixWrite.zlen msgs) in *.
  assert (Hn0 : 0 < n) by (unfold n, LogixWrite.zlen; destruct msgs; [congruence|cbn [length]; lia]).
  unfold parse_multi. change (le_enc 2 n) with [n mod 256; (n / 256) mod 256]. cbn [app]. rewrite (u16_enc n) by lia.
  replace (n =? 0) with false by lia.
  assert (Hlen : Z.to_nat n = length (offset_vals (2 + 2 * n) msgs)) by (rewrite offset_vals_length; unfold n, LogixWrite.zlen; apply Nat2Z.id).
  rewrite Hlen, (rd_offsets_enc _ (concat msgs) Fo).
  destruct msgs as [|m0 r0] eqn:EM; [congruence|]. rewrite <- EM in *.
  assert (Ho : offset_vals (2 + 2 * n) msgs = (2 + 2 * n) :: tl (offset_vals (2 + 2 * n) msgs)) by (rewrite EM; reflexivity).
  rewrite Ho at 1. rewrite Z.eqb_refl. cbn [negb].
  rewrite skipn_app_length.
  2:{ assert (G : forall l : list Z, length (concat (map (le_enc 2) l)) = (2 * length l)%nat).
      { induction l as [|x l IH]; [reflexivity|]. cbn [map concat length]. rewrite app_length, le_enc_length, IH. lia. }
      rewrite G. cbn [length]. rewrite ?offset_vals_length. rewrite offset_vals_length in Hlen. lia. }
  rewrite (cut_slices_msgs msgs (2 + 2 * n) Hne Fne). reflexivity.
Qed.

Section Dispatch.
  Context {S : Type} (h : handler S) (tr : transport) (seq : option Z).

  (* a request the core hands to the application handler (not the Identity / Message Router objects) *)
  Definition to_handler (r : mr_request) : bool :=
    negb (is_multi_request r)
    && match path_cia (mr_path r) with Some (1, _, _) => false | Some (2, _, _) => false | _ => true end.

  (* the embedded requests run one after the other on the application state: state and handler events *)
  Fixpoint run_items (a : S) (items : list (mr_request * Z)) : S * list tevent :=
    match items with
    | [] => (a, [])
    | (r, cap) :: rest =>
        match h_request h a tr cap r with
        | Some (a', _, evs) => let '(a2, e2) := run_items a' rest in (a2, evs ++ e2)
        | None => run_items a rest
        end
    end.

  Definition is_write_ev (e : tevent) : bool := match e with EvApp 1 _ _ => true | _ => false end.
  (* executed writes in the log, newest first *)
  Definition writes_logged (st : tstate S) : list tevent := filter is_write_ev (t_log st).

  Lemma filter_rev_append {A} (f : A -> bool) a : forall b, filter f (rev_append a b) = rev (filter f a) ++ filter f b.
  Proof.
    induction a as [|x a IH]; intros b; [reflexivity|]. cbn [rev_append filter]. rewrite IH. cbn [filter].
    destruct (f x); cbn [rev]; [rewrite <- app_assoc; reflexivity|reflexivity].
  Qed.

  Lemma writes_logs evs st : writes_logged (logs evs st) = rev (filter is_write_ev evs) ++ writes_logged st.
  Proof. unfold writes_logged, logs. cbn [t_log]. apply filter_rev_append. Qed.

  Lemma with_injection_none (st : tstate S) svc k : t_inject st = [] -> with_injection st svc k = k (set_inject [] st).
  Proof. intros H. unfold with_injection. rewrite H. reflexivity. Qed.

  (* [st'] is [st] after the handler has served [r]: nothing pending, same configuration, the
     handler's state, its executed writes logged *)
  Definition served (cap : Z) (st : tstate S) (r : mr_request) (st' : tstate S) : Prop :=
    t_inject st' = [] /\ t_cfg st' = t_cfg st
    /\ match h_request h (t_app st) tr cap r with
       | Some (a', _, evs) => t_app st' = a' /\ writes_logged st' = rev (filter is_write_ev evs) ++ writes_logged st
       | None => t_app st' = t_app st /\ writes_logged st' = writes_logged st
       end.

  Lemma dispatch_one_handler cap st r : t_inject st = [] -> to_handler r = true ->
    served cap st r (fst (dispatch_one h tr cap seq st r)).
  Proof.
    intros Hi Ht. unfold dispatch_one. rewrite with_injection_none by exact Hi.
    unfold to_handler in Ht. apply andb_true_iff in Ht as [_ Ht].
    set (st2 := set_inject [] (logs [EvRequest tr seq r] st)).
    assert (G : served cap st r (fst (match h_request h (t_app st2) tr cap r with
                                      | Some (app', rp, evs) => (logs evs (set_app app' st2), rp)
                                      | None => (st2, mr_error 5 [])
                                      end))).
    { unfold served. change (t_app st2) with (t_app st).
      destruct (h_request h (t_app st) tr cap r) as [[[a' rp] evs]|]; cbn [fst]; [|repeat split].
      split; [reflexivity|]. split; [reflexivity|]. split; [reflexivity|]. rewrite writes_logs. reflexivity. }
    (* dispatch_one tests the class against the literals 1 and 2: walk its binary digits until that is decided *)
    destruct (path_cia (mr_path r)) as [[[c i] oa]|]; [|exact G].
    destruct c as [|c|c]; try exact G. destruct c as [c|c|]; try exact G; try discriminate.
    destruct c as [c|c|]; try exact G; discriminate.
  Qed.

  Lemma multi_one_handler cap st it r : t_inject st = [] -> parse_mr it = RcOk r -> to_handler r = true ->
    served cap st r (fst (multi_one h tr cap seq st it)).
  Proof.
    intros Hi Hp Ht. unfold multi_one. rewrite Hp.
    pose proof Ht as Ht2. unfold to_handler in Ht2. apply andb_true_iff in Ht2 as [Hm _].
    destruct (is_multi_request r); [discriminate|].
    pose proof (dispatch_one_handler cap st r Hi Ht) as D. unfold served in *.
    destruct (dispatch_one h tr cap seq st r) as [st1 rp]. cbn [fst] in D.
    destruct (fit cap (mr_service r) (mr_bytes (mr_service r) rp)) as [bs evs] eqn:EF. cbn [fst].
    assert (Hev : filter is_write_ev evs = []).
    { unfold fit in EF. destruct (EncapParser.blen (mr_bytes (mr_service r) rp) <=? cap); injection EF as _ <-; reflexivity. }
    destruct D as (D1 & D2 & D3). split; [exact D1|]. split; [exact D2|].
    destruct (h_request h (t_app st) tr cap r) as [[[a' rp'] evs']|]; destruct D3 as [D3 D4]; (split; [exact D3|]);
      rewrite writes_logs, Hev; exact D4.
  Qed.

  (* multi_run = the embedded requests, in order, at SOME capacities *)
  Lemma multi_run_items items : forall left later st acc reqs,
    t_inject st = [] ->
    Forall2 (fun it r => parse_mr it = RcOk r /\ to_handler r = true) items reqs ->
    exists caps, length caps = length reqs
      /\ let st' := fst (multi_run h tr seq left later items st acc) in
         t_inject st' = [] /\ t_cfg st' = t_cfg st
         /\ t_app st' = fst (run_items (t_app st) (combine reqs caps))
         /\ writes_logged st' = rev (filter is_write_ev (snd (run_items (t_app st) (combine reqs caps)))) ++ writes_logged st.
  Proof.
    induction items as [|it rest IH]; intros left later st acc reqs Hi F.
    - inversion F; subst. exists []. cbn. auto.
    - inversion F as [|? r ? reqs' [Hp Ht] Fr]; subst.
      cbn [multi_run].
      pose proof (multi_one_handler (left - 4 * (later - 1)) st it r Hi Hp Ht) as M. unfold served in M.
      destruct (multi_one h tr (left - 4 * (later - 1)) seq st it) as [st1 bs]. cbn [fst] in M.
      destruct M as (M1 & M2 & M3).
      destruct (IH (left - EncapParser.blen bs) (later - 1) st1 (bs :: acc) reqs' M1 Fr) as (caps & Hl & I).
      exists ((left - 4 * (later - 1)) :: caps). split; [cbn [length]; lia|].
      cbn zeta in *. destruct I as (I1 & I2 & I3 & I4). split; [exact I1|]. split; [congruence|].
      cbn [combine run_items].
      destruct (h_request h (t_app st) tr (left - 4 * (later - 1)) r) as [[[a' rp'] evs']|]; destruct M3 as [M3 M4].
      + rewrite M3 in I3, I4. destruct (run_items a' (combine reqs' caps)) as [a2 e2]. cbn [fst snd] in *.
        split; [exact I3|]. rewrite I4, M4, filter_app, rev_app_distr, <- app_assoc. reflexivity.
      + rewrite M3 in I3, I4. split; [exact I3|]. rewrite I4, M4. reflexivity.
  Qed.

  (* the lemma over dispatch: a Multiple Service Packet addressed to the message router, whose data
     parse_multi splits into [items], each a message-router request for the application handler, is
     executed as those requests one after the other (no injection pending, multi-service enabled) *)
  Theorem dispatch_multi cap st rq items reqs :
    t_inject st = [] -> cf_multi_service (t_cfg st) = true ->
    is_multi_request rq = true -> parse_multi (mr_data rq) = RcOk items ->
    Forall2 (fun it r => parse_mr it = RcOk r /\ to_handler r = true) items reqs ->
    exists caps, length caps = length reqs
      /\ let st' := fst (dispatch h tr cap seq st rq) in
         t_app st' = fst (run_items (t_app st) (combine reqs caps))
         /\ writes_logged st' = rev (filter is_write_ev (snd (run_items (t_app st) (combine reqs caps)))) ++ writes_logged st.
  Proof.
    intros Hi Hc Hm Hp F. unfold dispatch. rewrite Hm. unfold multi_service.
    rewrite with_injection_none by exact Hi.
    set (st2 := set_inject [] (logs [EvRequest tr seq rq] st)).
    assert (Hc2 : cf_multi_service (t_cfg st2) = true) by exact Hc. rewrite Hc2. cbn [negb]. rewrite Hp.
    destruct (multi_run_items items (cap - 6 - 2 * TargetCore.zlen items) (TargetCore.zlen items) st2 [] reqs eq_refl F) as (caps & Hl & I).
    exists caps. split; [exact Hl|]. cbn zeta in *.
    destruct (multi_run h tr seq (cap - 6 - 2 * TargetCore.zlen items) (TargetCore.zlen items) items st2 []) as [st3 reps]. cbn [fst] in I.
    destruct I as (_ & _ & I3 & I4).
    unfold finish_reply.
    match goal with |- context [fit ?c ?s ?b] => destruct (fit c s b) as [bs evs] eqn:EF end. cbn [fst].
    assert (Hev : filter is_write_ev (evs ++ [EvReply (reply_status bs) (length bs)]) = []).
    { unfold fit in EF. match type of EF with context [if ?c then _ else _] => destruct c end; injection EF as _ <-; reflexivity. }
    split; [exact I3|]. rewrite writes_logs, Hev. cbn [rev app]. rewrite I4.
    unfold st2, writes_logged. cbn [t_log set_inject logs rev_append filter is_write_ev]. reflexivity.
  Qed.
End Dispatch.

Theorem logix_write_cap_indep st tr c1 c2 rq l :
  resolve_path (ls_proj st) (mr_service rq =? 85) (mr_path rq) = TgTag l ->
  mr_service rq = 77 \/ mr_service rq = 78 \/ mr_service rq = 83 ->
  logix_request st tr c1 rq = logix_request st tr c2 rq.
Proof.
  intros Hr Hs. rewrite !(logix_request_tag _ _ _ _ _ Hr). apply (f_equal Some).
  destruct rq as [svc pth data]. cbn [mr_service] in Hs.
  destruct (mem_get (ls_mem st) (w_inst l)) as [img|] eqn:Hm.
  - destruct Hs as [-> | [-> | ->]];
      [rewrite !(tag_service_write _ _ _ _ _ _ Hm)|rewrite !(tag_service_rmw _ _ _ _ _ _ Hm)|rewrite !(tag_service_frag _ _ _ _ _ _ Hm)];
      reflexivity.
  - unfold TargetLogix.tag_service. rewrite Hm. reflexivity.
Qed.

Lemma mem_set_set m i a b : mem_set (mem_set m i a) i b = mem_set m i b.
Proof.
  induction m as [|[k w] r IH]; cbn [mem_set].
  - rewrite Z.eqb_refl. reflexivity.
  - destruct (k =? i) eqn:E; cbn [mem_set]; rewrite E; [reflexivity|]. rewrite IH. reflexivity.
Qed.

(* Write Tag Fragmented executed for each (offset, segment), in order, on the memory *)
Fixpoint run_frags (p : project) (l : wloc) (pt : bytes) (n : Z) (m : mem) (frs : list (Z * bytes))
  : option (mem * list tevent) :=
  match frs with
  | [] => Some (m, [])
  | (o, sg) :: rest =>
      match mem_get m (w_inst l) with
      | None => None
      | Some img =>
          let '(m', rp, evs) := svc_write_frag p m img l (frag_data pt n o sg) in
          if rp_status rp =? 0 then
            match run_frags p l pt n m' rest with
            | Some (m2, e2) => Some (m2, evs ++ e2)
            | None => None
            end
          else None
      end
  end.

Definition is_store_ev (e : tevent) : bool := match e with EvApp 1 _ _ => true | _ => false end.

Lemma mem_set_same m i v : mem_get m i = Some v -> mem_set m i v = m.
Proof.
  induction m as [|[k w] r IH]; cbn [mem_get mem_set]; [discriminate|].
  destruct (k =? i) eqn:E; [intros H; injection H as ->; reflexivity|]. intros H. rewrite (IH H). reflexivity.
Qed.

Lemma filter_store_extra extra : Forall (fun e => match e with EvApp 3 _ _ => True | _ => False end) extra -> filter is_store_ev extra = [].
Proof.
  induction 1 as [|e r He Hr IH]; [reflexivity|]. cbn [filter]. rewrite IH.
  destruct e as [| | | | | | |tag args data]; try contradiction. destruct tag as [|q|q]; try contradiction.
  destruct q as [q|q|]; try contradiction. destruct q as [q|q|]; try contradiction. reflexivity.
Qed.

Lemma run_frags_from p l pt ty n s segs : forall m img o,
  (forall r, parse_wtype (pt ++ r) = Some (ty, r)) -> type_matches p l ty = true -> loc_esize p l = Some s ->
  w_bit l = None -> 1 <= n <= w_avail l -> n < 65536 -> n * s < 4294967296 ->
  mem_get m (w_inst l) = Some img -> 0 <= o ->
  Forall (fun sg => sg <> []) segs -> o + Expect.blen (concat segs) <= n * s ->
  forall img', store_frags img (w_off l) (combine (offsets_from o segs) segs) = Some img' ->
  exists evs, run_frags p l pt n m (combine (offsets_from o segs) segs) = Some (mem_set m (w_inst l) img', evs)
    /\ filter is_store_ev evs
       = map (fun os => EvApp 1 [w_inst l; w_off l + fst os; 83] (snd os)) (combine (offsets_from o segs) segs).
Proof.
  induction segs as [|sg r IH]; intros m img o Hpt Htm Hs Hb Hn Hn2 Hns Hmem Ho Fne Htot img' Hst.
  - cbn [offsets_from combine store_frags run_frags map] in *. injection Hst as <-.
    exists []. rewrite (mem_set_same _ _ _ Hmem). split; reflexivity.
  - inversion Fne as [|? ? Hsg Hr]; subst.
    cbn [offsets_from combine store_frags run_frags map fst snd] in *.
    destruct (put_bytes img (w_off l + o) sg) as [i1|] eqn:Hp; [|discriminate].
    rewrite Hmem.
    assert (Hlen : 1 <= Expect.blen sg) by (unfold Expect.blen; destruct sg; [congruence|cbn [length]; lia]).
    cbn [concat] in Htot. rewrite blen_app in Htot. pose proof (blen_nonneg (concat r)) as Hcr.
    destruct (svc_write_frag_accepts p m img l (frag_data pt n o sg) ty n o sg s
                (Hpt _) Htm Hs Hn Hn2 ltac:(lia) Hlen ltac:(lia) ltac:(lia)) as (A1 & extra & A2 & A3).
    rewrite (do_store_plain 83 m img l o sg i1 Hb Hp) in A1, A2. cbn [fst snd] in A1, A2.
    destruct (svc_write_frag p m img l (frag_data pt n o sg)) as [[m' rp] evs]. cbn [fst snd] in A1, A2.
    injection A1 as -> ->. subst evs. cbn [rp_status mr_ok]. rewrite Z.eqb_refl.
    destruct (IH (mem_set m (w_inst l) i1) i1 (o + Z.of_nat (length sg)) Hpt Htm Hs Hb Hn Hn2 Hns
                 (mem_get_set_same _ _ _) ltac:(lia) Hr ltac:(unfold Expect.blen in *; lia) img' Hst) as (e2 & R & F).
    rewrite R. eexists. split; [rewrite mem_set_set; reflexivity|].
    rewrite !filter_app, (filter_store_extra extra A3), F. reflexivity.
Qed.

(* The fragments _send_write_fragmented emits for a value (segments of conn - overhead bytes at
   offsets 0, |s1|, |s1|+|s2|, ...), each executed by the target's Write Tag Fragmented in order:
   every one is accepted, the memory afterwards is the memory ONE store of the whole value at the
   addressed place leaves, and the log holds exactly one executed write per fragment, at its offset. *)
Theorem frag_transfer_correct p m l img pt ty n s conn ovh value img' :
  (forall r, parse_wtype (pt ++ r) = Some (ty, r)) -> type_matches p l ty = true -> loc_esize p l = Some s ->
  w_bit l = None -> 1 <= n <= w_avail l -> n < 65536 -> Expect.blen value = n * s -> n * s < 4294967296 ->
  mem_get m (w_inst l) = Some img -> 0 < conn - ovh -> value <> [] ->
  put_bytes img (w_off l) value = Some img' ->
  let frs := write_fragments conn ovh value in
  exists evs, run_frags p l pt n m frs = Some (mem_set m (w_inst l) img', evs)
    /\ filter is_store_ev evs = map (fun os => EvApp 1 [w_inst l; w_off l + fst os; 83] (snd os)) frs.
Proof.
  intros Hpt Htm Hs Hb Hn Hn2 Hv Hns Hmem Hpos Hne Hput frs.
  pose proof (frag_stores_compose img (w_off l) conn ovh value Hpos Hne) as C. rewrite Hput in C.
  unfold frs, write_fragments in *.
  set (segs := LogixPlan.chunks (length value) (Z.to_nat (conn - ovh)) value) in *.
  assert (Hc : concat segs = value) by (apply chunks_concat; lia).
  assert (Fne : Forall (fun sg => sg <> []) segs).
  { pose proof (chunks_bound (Z.to_nat (conn - ovh)) ltac:(lia) (length value) value) as B. fold segs in B.
    eapply Forall_impl; [|exact B]. cbn. intros sg H E. rewrite E in H. cbn in H. lia. }
  apply (run_frags_from p l pt ty n s segs m img 0 Hpt Htm Hs Hb Hn Hn2 Hns Hmem ltac:(lia) Fne); [rewrite Hc; lia|exact C].
Qed.

(* What MultiServiceRequestPacket.build_message puts on the connection (after the sequence count) is
   a message-router request the target parses as service 0x0A to the message router, unwraps into
   exactly the embedded tag_only_message()s, and executes one after the other: the application state
   and the executed-write log are those of the embedded requests run in order. *)
Theorem multi_packet_executes {S : Type} (h : handler S) tr cap sq (st : tstate S) seq members m reqs :
  multi_message seq members = Ok m -> members <> [] ->
  t_inject st = [] -> cf_multi_service (t_cfg st) = true ->
  (forall msgs, map_res tag_only_message members = Ok msgs ->
     Forall2 (fun it r => parse_mr it = RcOk r /\ to_handler r = true) msgs reqs) ->
  exists rq caps, parse_mr (skipn 2 m) = RcOk rq /\ length caps = length reqs
    /\ let st' := fst (dispatch h tr cap sq st rq) in
       t_app st' = fst (run_items h tr (t_app st) (combine reqs caps))
       /\ writes_logged st' = rev (filter is_write_ev (snd (run_items h tr (t_app st) (combine reqs caps)))) ++ writes_logged st.
Proof.
  intros Hm Hne Hi Hc Hreqs.
  destruct (multi_message_layout seq members m Hm) as (msgs & Hmsgs & Hn & Fo & ->).
  specialize (Hreqs msgs Hmsgs).
  pose proof (map_res_length _ _ _ Hmsgs) as Hl.
  assert (Hz : LogixWrite.zlen msgs = LogixWrite.zlen members) by (unfold LogixWrite.zlen; rewrite Hl; reflexivity).
  assert (Hmne : msgs <> []) by (intros E; rewrite E in Hl; destruct members; [congruence|discriminate]).
  assert (Fne : Forall (fun m0 => m0 <> []) msgs).
  { clear -Hreqs. induction Hreqs as [|it r a b [Hp _] _ IH]; constructor; [|exact IH]. intros E. rewrite E in Hp. discriminate. }
  set (data := le_enc 2 (LogixWrite.zlen members) ++ concat (map (le_enc 2) (offset_vals (2 + 2 * LogixWrite.zlen members) msgs)) ++ concat msgs).
  assert (Hp : parse_mr (skipn 2 (le_enc 2 seq ++ [10] ++ [2; 32; 2; 36; 1] ++ data))
               = RcOk {| mr_service := 10; mr_path := [32; 2; 36; 1]; mr_data := data |}).
  { replace (skipn 2 (le_enc 2 seq ++ [10] ++ [2; 32; 2; 36; 1] ++ data)) with ([10] ++ [2; 32; 2; 36; 1] ++ data) by reflexivity.
    apply parse_mr_message; [lia|]. exists 2. split; reflexivity. }
  assert (Hpm : parse_multi data = RcOk msgs).
  { assert (Hlt : LogixWrite.zlen msgs < 65536) by (rewrite Hz; exact (proj2 Hn)).
    assert (Fo' : Forall (fun o : Z => 0 <= o < 65536) (offset_vals (2 + 2 * LogixWrite.zlen msgs) msgs)) by (rewrite Hz; exact Fo).
    unfold data. rewrite <- Hz. exact (multi_unwrap msgs Hmne Fne Hlt Fo'). }
  destruct (dispatch_multi h tr sq cap st {| mr_service := 10; mr_path := [32; 2; 36; 1]; mr_data := data |} msgs reqs
              Hi Hc eq_refl Hpm Hreqs) as (caps & Hlc & D).
  eexists _, caps. split; [exact Hp|]. split; [exact Hlc|exact D].
Qed.
