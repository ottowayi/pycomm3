(* Proofs/CodecWireCodes.v — C07: the CIP type-code table of the library (regenerated rows
   Gen/Types.v: class name, code, size, struct format, length type, encoding, host type) against the
   hand-written reference table [spec_codes] (Spec/Wire.v). *)
From Coq Require Import String.
From PV Require Import Base.Bytes Base.Proto Gen.Types Model.Codec Spec.Wire.
Open Scope Z_scope.

Definition tenc_eqb (a b : tenc) : bool :=
  match a, b with Latin1, Latin1 | Utf8, Utf8 | Utf16, Utf16 | Utf32, Utf32 => true | _, _ => false end.
(* equality of elementary type terms (composite terms never appear in the table) *)
Definition elem_ty_eqb (a b : ty) : bool :=
  match a, b with
  | TBool, TBool | TDateTime, TDateTime | TStringN, TStringN => true
  | TInt s w, TInt s' w' => Bool.eqb s s' && (w =? w')%nat
  | TReal d, TReal d' => Bool.eqb d d'
  | TStr s w e, TStr s' w' e' => Bool.eqb s s' && (w =? w')%nat && tenc_eqb e e'
  | TBits w, TBits w' => (w =? w')%nat
  | _, _ => false
  end.
Definition width_eqb (a : option nat) (b : option nat) : bool :=
  match a, b with Some x, Some y => (x =? y)%nat | None, None => true | _, _ => false end.

Fixpoint first_with_code (rows : list row) (c : Z) : option row :=
  match rows with [] => None | r :: rs => if row_code r =? c then Some r else first_with_code rs c end.

(* a row of the reference table against the library's rows: the class of that name carries the
   code; the first class carrying the code is that class (not looked up for code 0 = no CIP code);
   its declared size is the documented width; the type the model reads off the row is the reference
   type, of that width *)
Definition code_ok (r : code_row) : bool :=
  let '(code, name, width, sty) := r in
  match find_row type_rows (zs_of_string name) with
  | Some row =>
      (row_code row =? code)
      && ((code =? 0) || match first_with_code type_rows code with Some r1 => text_eqb (row_name r1) (zs_of_string name) | None => false end)
      && match width with Some w => row_size row =? Z.of_nat w | None => true end
      && match sty with
         | Some t => match ty_of_name (zs_of_string name) with
                     | Some t' => elem_ty_eqb t t' && wire_ty t
                     | None => false
                     end
                     && match width with Some _ => width_eqb (sfixed t) width | None => true end
         | None => true
         end
  | None => false
  end.

Definition all_codes : list code_row := spec_codes ++ spec_uncoded.

Lemma type_codes_all : forallb code_ok all_codes = true.
Proof. vm_compute. reflexivity. Qed.

