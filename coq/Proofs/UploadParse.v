(* Proofs/UploadParse.v — C05, the symbol-list pager of the upload model:
   * byte readers against little-endian encodings;
   * [parse_entry] / [parse_entries] invert the wire layout of a Get Instance Attribute List entry
     (instance UDINT, name STRING, type UINT, attributes 3 5 6 UDINT, three dimensions UDINT,
     external access USINT from firmware 18 on);
   * [parse_entries_fuel]: the bound [length data] of the entry loop is never the reason of a failure;
   * [pagination_independent]: against ANY peer that answers a request starting at instance s with
     a non-empty prefix — of any length — of the symbols whose instance is >= s (status 6 while
     symbols remain), the pager returns every symbol exactly once, in order: the result does not
     depend on the pagination points.  Unbounded, by induction on the fuel / the remaining list. *)
From Coq Require Import ZifyBool Sorted.
From PV Require Import Base.Bytes Base.BytesLemmas Base.PyStr Base.Res Model.LogixUpload.
From PV Require Gen.Consts.
Open Scope Z_scope.

(* the reader given exactly the bytes it asks for, with anything behind them *)
Lemma rd_u_app (a rest : bytes) : (0 < length a)%nat -> rd_u (length a) (a ++ rest) = Ok (le_dec a, rest).
Proof.
  intros Ha. destruct a as [|b a]; [cbn in Ha; lia|].
  unfold rd_u. rewrite firstn_app_exact, skipn_app_exact, app_length. cbn [app].
  destruct (Nat.ltb_spec (length (b :: a) + length rest) (length (b :: a))); [lia | reflexivity].
Qed.

Lemma rd_u_enc w z rest :
  0 <= z < pow256 (S w) -> rd_u (S w) (le_enc (S w) z ++ rest) = Ok (z, rest).
Proof.
  intros Hz. rewrite <- (le_enc_length (S w) z) at 1.
  rewrite rd_u_app by (rewrite le_enc_length; lia). rewrite le_dec_enc_id by exact Hz. reflexivity.
Qed.

Lemma rd_string_enc (name rest : bytes) :
  Z.of_nat (length name) < 65536 ->
  rd_string (le_enc 2 (Z.of_nat (length name)) ++ name ++ rest) = Ok (name, rest).
Proof.
  intros Hn. unfold rd_string.
  rewrite rd_u_enc by (rewrite pow256_2; lia). cbn [bind].
  destruct name as [|c name']; [reflexivity|].
  replace (Z.of_nat (length (c :: name')) =? 0) with false by (cbn [length]; lia).
  rewrite Nat2Z.id, firstn_app_exact, skipn_app_exact. reflexivity.
Qed.

Record wentry := mkW {
  we_inst : Z; we_name : bytes; we_stype : Z; we_a3 : Z; we_a5 : Z; we_a6 : Z;
  we_d1 : Z; we_d2 : Z; we_d3 : Z; we_access : Z
}.

Definition enc_wentry (wa : bool) (e : wentry) : bytes :=
  le_enc 4 (we_inst e) ++ le_enc 2 (Z.of_nat (length (we_name e))) ++ we_name e
  ++ le_enc 2 (we_stype e) ++ le_enc 4 (we_a3 e) ++ le_enc 4 (we_a5 e) ++ le_enc 4 (we_a6 e)
  ++ le_enc 4 (we_d1 e) ++ le_enc 4 (we_d2 e) ++ le_enc 4 (we_d3 e)
  ++ (if wa then [we_access e] else []).

Definition u32 (z : Z) : Prop := 0 <= z < 4294967296.
Definition wentry_ok (e : wentry) : Prop :=
  u32 (we_inst e) /\ Z.of_nat (length (we_name e)) < 65536 /\ 0 <= we_stype e < 65536
  /\ u32 (we_a3 e) /\ u32 (we_a5 e) /\ u32 (we_a6 e) /\ u32 (we_d1 e) /\ u32 (we_d2 e) /\ u32 (we_d3 e)
  /\ 0 <= we_access e < 256.

Definition raw_of_wentry (wa : bool) (e : wentry) : raw_tag :=
  mkRaw (we_inst e) (we_name e) (we_stype e) (we_a3 e) (we_a5 e) (we_a6 e)
        (external_access_name (if wa then Some (we_access e) else None))
        [we_d1 e; we_d2 e; we_d3 e].

Lemma parse_entry_enc wa e rest :
  wentry_ok e -> parse_entry wa (enc_wentry wa e ++ rest) = Ok (raw_of_wentry wa e, rest).
Proof.
  intros (Hi & Hn & Hs & H3 & H5 & H6 & H1 & H2 & Hd3 & Ha).
  unfold parse_entry, enc_wentry.
  repeat rewrite <- app_assoc.
  rewrite rd_u_enc by (rewrite pow256_4; assumption). cbn [bind].
  rewrite rd_string_enc by assumption. cbn [bind].
  rewrite rd_u_enc by (rewrite pow256_2; assumption). cbn [bind].
  do 6 (rewrite rd_u_enc by (rewrite pow256_4; assumption); cbn [bind]).
  destruct wa; [|reflexivity].
  rewrite <- (le_enc_1 (we_access e)) by assumption.
  rewrite rd_u_enc by (rewrite pow256_1; assumption). reflexivity.
Qed.

Lemma enc_wentry_length wa e : (4 <= length (enc_wentry wa e))%nat.
Proof. unfold enc_wentry. rewrite app_length, le_enc_length. lia. Qed.

Lemma parse_entries_S f wa s : (0 < length s)%nat ->
  parse_entries (S f) wa s
  = (let* (t, s') := parse_entry wa s in let* ts := parse_entries f wa s' in Ok (t :: ts)).
Proof. destruct s; [cbn; lia | reflexivity]. Qed.

Lemma parse_entries_enc wa es :
  Forall wentry_ok es -> forall fuel, (length (flat_map (enc_wentry wa) es) <= fuel)%nat ->
  parse_entries fuel wa (flat_map (enc_wentry wa) es) = Ok (map (raw_of_wentry wa) es).
Proof.
  induction 1 as [|e es He Hes IH]; intros fuel Hf; cbn [flat_map map] in *.
  - destruct fuel; reflexivity.
  - pose proof (enc_wentry_length wa e). rewrite app_length in Hf.
    destruct fuel as [|f]; [lia|].
    rewrite parse_entries_S by (rewrite app_length; lia).
    rewrite parse_entry_enc by assumption. cbn [bind].
    rewrite IH by lia. reflexivity.
Qed.

(* the two statuses of a well-behaved peer: 6 while symbols remain, then 0 *)
Lemma parse_page_enc wa (more : bool) es :
  Forall wentry_ok es ->
  parse_instance_attribute_list wa (if more then Consts.INSUFFICIENT_PACKETS else Consts.SUCCESS)
                                (flat_map (enc_wentry wa) es)
  = Ok (map (raw_of_wentry wa) es, if more then last_instance_of (map (raw_of_wentry wa) es) + 1 else -1).
Proof.
  intros H. unfold parse_instance_attribute_list.
  rewrite parse_entries_enc by (assumption || lia). destruct more; reflexivity.
Qed.

(* what a reader leaves is shorter than n *)
Definition below {A} (n : nat) (o : res (A * bytes)) : Prop :=
  forall x s', o = Ok (x, s') -> (length s' < n)%nat.

Lemma below_ok {A} n (x : A) s : (length s < n)%nat -> below n (Ok (x, s)).
Proof. intros H ? ? [= _ <-]. exact H. Qed.

Lemma below_bind {A B} n (o : res (A * bytes)) (k : A * bytes -> res (B * bytes)) :
  below n o -> (forall x s, (length s < n)%nat -> below n (k (x, s))) -> below n (bind o k).
Proof.
  intros Ho Hk. destruct o as [[x s]|e]; [exact (Hk x s (Ho x s eq_refl))|].
  intros ? ? [=].
Qed.

Lemma rd_u_below w s n : (length s < n + w)%nat -> below n (rd_u w s).
Proof.
  intros H x s'. unfold rd_u. destruct s as [|b r]; [discriminate|].
  destruct (Nat.ltb_spec (length (b :: r)) w); [discriminate|].
  intros [= _ <-]. rewrite skipn_length. lia.
Qed.

Lemma rd_string_below s n : (length s < n)%nat -> below n (rd_string s).
Proof.
  intros H. unfold rd_string. apply below_bind; [apply rd_u_below; lia|].
  intros z s1 H1. destruct (z =? 0); [apply below_ok, H1|].
  destruct s1 as [|c r]; [discriminate|]. apply below_ok. rewrite skipn_length. lia.
Qed.

(* the instance id takes four bytes; no later field gives any back *)
Lemma parse_entry_shrinks wa s : below (length s) (parse_entry wa s).
Proof.
  unfold parse_entry.
  apply below_bind; [apply rd_u_below; lia | intros ? ? ?].
  apply below_bind; [apply rd_string_below; assumption | intros ? ? ?].
  do 7 (apply below_bind; [apply rd_u_below; lia | intros ? ? ?]).
  apply below_bind; [|intros ? ? ?; apply below_ok; assumption].
  destruct wa; [|apply below_ok; assumption].
  apply below_bind; [apply rd_u_below; lia | intros ? ? ?; apply below_ok; assumption].
Qed.

(* more fuel than bytes never changes the result: the O branch of [parse_entries] is dead code
   under [parse_instance_attribute_list], which passes [length data] *)
Theorem parse_entries_fuel wa : forall f1 f2 s,
  (length s <= f1)%nat -> (length s <= f2)%nat -> parse_entries f1 wa s = parse_entries f2 wa s.
Proof.
  induction f1 as [|f1 IH]; intros [|f2] [|b r] H1 H2; cbn [length] in *; try reflexivity; try lia.
  cbn [parse_entries].
  destruct (parse_entry wa (b :: r)) as [[t s']|e] eqn:E; [|reflexivity]. cbn [bind].
  apply parse_entry_shrinks in E. cbn [length] in E.
  rewrite (IH f2 s') by lia. reflexivity.
Qed.

Definition ascending (l : list wentry) : Prop := StronglySorted (fun a b => we_inst a < we_inst b) l.

Definition from (s : Z) (l : list wentry) : list wentry := filter (fun e => s <=? we_inst e) l.

Lemma ascending_filter f l : ascending l -> ascending (filter f l).
Proof.
  induction 1 as [|a l Hl IH Ha]; cbn [filter]; [constructor|].
  destruct (f a); [|exact IH].
  constructor; [exact IH|]. exact (incl_Forall (incl_filter f l) Ha).
Qed.

Lemma from_from s s' l : s <= s' -> from s' (from s l) = from s' l.
Proof.
  intros H. unfold from. rewrite filter_filter. apply filter_ext. intros e. lia.
Qed.

Lemma from_all s l : Forall (fun e => s <= we_inst e) l -> from s l = l.
Proof.
  intros H. apply filter_all, forallb_forall. rewrite Forall_forall in H. intros e He. apply Z.leb_le, H, He.
Qed.
Lemma from_none s l : Forall (fun e => we_inst e < s) l -> from s l = [].
Proof.
  induction 1 as [|a l Ha Hl IH]; [reflexivity|].
  unfold from in *. cbn [filter]. destruct (s <=? we_inst a) eqn:E; [lia|]. exact IH.
Qed.

(* in an ascending list the symbols from (x's instance + 1) on are exactly those after x *)
Lemma from_after x p q : ascending (p ++ x :: q) -> from (we_inst x + 1) (p ++ x :: q) = q.
Proof.
  induction p as [|a p IH]; cbn [app]; intros H; apply StronglySorted_inv in H as (H & Ha);
    unfold from in *; cbn [filter].
  - destruct (we_inst x + 1 <=? we_inst x) eqn:E; [lia|].
    apply from_all. eapply Forall_impl; [|exact Ha]. cbn. intros; lia.
  - apply Forall_elt in Ha. destruct (we_inst x + 1 <=? we_inst a) eqn:E; [lia|]. exact (IH H).
Qed.

Lemma last_instance_of_snoc wa p x : last_instance_of (map (raw_of_wentry wa) (p ++ [x])) = we_inst x.
Proof. unfold last_instance_of. rewrite !map_app. apply last_last. Qed.

(* a page of k >= 1 symbols that leaves some ends with a symbol x; a symbol y with a greater instance
   follows, and the symbols from (x's instance + 1) on are exactly those the page left *)
Lemma page_end wa l k : ascending l -> (1 <= k < length l)%nat ->
  exists x y, In x l /\ In y l /\ we_inst x < we_inst y
    /\ last_instance_of (map (raw_of_wentry wa) (firstn k l)) = we_inst x
    /\ from (we_inst x + 1) l = skipn k l.
Proof.
  intros Hasc Hk. pose proof (firstn_length k l) as Lp. pose proof (skipn_length k l) as Lq.
  destruct (exists_last (l := firstn k l)) as (p & x & Ep); [intros E; rewrite E in Lp; cbn in Lp; lia|].
  destruct (skipn k l) as [|y q] eqn:Eq; [cbn in Lq; lia|].
  assert (El : l = p ++ x :: y :: q) by (rewrite <- (firstn_skipn k l), Ep, Eq, <- app_assoc; reflexivity).
  assert (Hrest : from (we_inst x + 1) l = y :: q) by (rewrite El in Hasc |- *; exact (from_after x p _ Hasc)).
  assert (Hy : In y (from (we_inst x + 1) l)) by (rewrite Hrest; left; reflexivity).
  apply filter_In in Hy. exists x, y. rewrite Ep, last_instance_of_snoc.
  repeat split; try tauto; [rewrite El; apply in_elt | lia].
Qed.

Section Pager.
  Variable St : Type.
  Variable call : St -> ureq -> St * option urep.
  Variable rev_major : Z.
  Variable Inv : St -> Prop.
  Variable prog : option text.
  Variable all : list wentry.          (* the symbols of the scope as the peer holds them *)

  Let wa := with_access rev_major.

  (* the peer: any non-empty prefix of what remains, status 6 while something remains *)
  Definition paging_peer : Prop :=
    forall st start rq, Inv st -> 0 <= start -> symbols_request wa prog start = Ok rq ->
    exists k st',
      call st rq = (st', Some (mkRep true
                                     (if Nat.ltb k (length (from start all)) then Consts.INSUFFICIENT_PACKETS else Consts.SUCCESS)
                                     (flat_map (enc_wentry wa) (firstn k (from start all))) false))
      /\ Inv st' /\ (k <= length (from start all))%nat /\ (from start all <> [] -> (1 <= k)%nat).

  Hypothesis peer : paging_peer.
  Hypothesis all_ok : Forall wentry_ok all.
  Hypothesis all_asc : ascending all.
  (* every start instance the pager can reach is encodable in a request path *)
  Hypothesis req_ok : forall start, 0 <= start < 4294967296 -> exists rq, symbols_request wa prog start = Ok rq.

  Lemma pager_from : forall fuel st start acc,
    Inv st -> 0 <= start < 4294967296 -> (length (from start all) < fuel)%nat ->
    exists st', get_instance_attribute_list St call rev_major fuel st prog start acc
                = (st', Done (acc ++ map (raw_of_wentry wa) (from start all))) /\ Inv st'.
  Proof.
    induction fuel as [|fuel IH]; intros st start acc Hinv Hs Hf; [lia|].
    cbn [get_instance_attribute_list].
    destruct (start =? -1) eqn:E1; [lia|].
    destruct (req_ok start Hs) as (rq & Erq). fold wa. rewrite Erq.
    destruct (peer st start rq Hinv (proj1 Hs) Erq) as (k & st' & Ecall & Hinv' & _ & Hk1).
    rewrite Ecall. cbn [p_valid negb p_status p_data].
    pose proof (incl_Forall (incl_filter _ _) all_ok : Forall wentry_ok (from start all)) as Hok.
    set (l := from start all) in *.
    rewrite parse_page_enc by (rewrite <- (firstn_skipn k l) in Hok; apply Forall_app in Hok; apply Hok).
    destruct (Nat.ltb_spec k (length l)) as [Elt|Elt]; cbv iota.
    - (* more remain: the page ends with x, and start <= x < y < 2^32; on from x's instance + 1 *)
      assert (Hk0 : (1 <= k)%nat) by (apply Hk1; intros E; rewrite E in Elt; cbn in Elt; lia).
      destruct (page_end wa l k) as (x & y & Hx & Hy & Hxy & -> & Hrest); [apply ascending_filter, all_asc | lia |].
      apply filter_In in Hx.
      rewrite Forall_forall in Hok. destruct (Hok y Hy) as (Hyi & _). unfold u32 in Hyi.
      rewrite (from_from start _ all) in Hrest by lia.
      destruct (IH st' (we_inst x + 1) (acc ++ map (raw_of_wentry wa) (firstn k l)) Hinv' ltac:(lia)) as (st'' & E & Hinv'');
        [rewrite Hrest, skipn_length; lia|].
      exists st''. rewrite E, Hrest, <- app_assoc, <- map_app, firstn_skipn. auto.
    - (* the last page *)
      rewrite firstn_all2 by exact Elt.
      exists st'. split; [|exact Hinv'].
      destruct fuel; reflexivity.
  Qed.

  (* every symbol exactly once, in the peer's order, whatever the pagination points *)
  Theorem pagination_independent : forall fuel st,
    Inv st -> Forall (fun e => 0 <= we_inst e) all -> (length all < fuel)%nat ->
    exists st', get_instance_attribute_list St call rev_major fuel st prog 0 []
                = (st', Done (map (raw_of_wentry wa) all)) /\ Inv st'.
  Proof.
    intros fuel st Hinv Hpos Hf. rewrite <- (from_all 0 all Hpos) in Hf |- *.
    exact (pager_from fuel st 0 [] Hinv ltac:(lia) Hf).
  Qed.
End Pager.
