(* Proofs/UploadDefs.v — definitions the C05 statements are written with (no proofs here):
   * [obs_of_result]: what the dictionaries produced by the model of the upload SAY, in the
     observation terms of Spec/UploadObs.v (the projection forgets only what the statement does
     not talk about: the hidden host members, the type classes);
   * [target_call]: the reference target's handler (Spec/TargetLogix.logix_request) as the peer
     of the model client, with what the driver's response object exposes of a message-router reply;
   * [upload_target]: model client o target; [fuel_bound]: fuel enough for all its loops. *)
From Coq Require Import String.
From PV Require Import Base.Bytes Base.Proto Base.PyStr Base.Res.
From PV Require Import Spec.EncapParser Spec.TargetIface Spec.TargetCore Spec.Project Spec.Expect Spec.TargetLogix Spec.UploadObs.
From PV Require Import Model.LogixUpload.
From PV Require Gen.Consts Gen.ReplyTables.
Open Scope Z_scope.

Definition ATOM_CODES : list Z :=
  [C_BOOL; C_SINT; C_INT; C_DINT; C_LINT; C_USINT; C_UINT; C_UDINT; C_ULINT; C_REAL; C_LREAL;
   C_BYTE; C_WORD; C_DWORD; C_LWORD].
(* the elementary type a name denotes (-1: none) *)
Definition atom_code_of_name (n : text) : Z :=
  match filter (fun c => match atom_name c with Some x => PyStr.text_eqb x n | None => false end) ATOM_CODES with
  | c :: _ => c
  | [] => -1
  end.

Definition in_attrs (attrs : list text) (n : text) : bool := existsb (PyStr.text_eqb n) attrs.

Fixpoint odef_of_dt (d : datatype) : odef :=
  match d with
  | MkDT name internal attributes template str sm tc =>
      MkODef name (ta_handle template) (ta_size template) (ta_defsize template) (ta_count template)
             attributes
             (flat_map (fun nm =>
                          let '(n, m) := nm in
                          if in_attrs attributes n then
                            [(n,
                              match mm_dtype m with
                              | DNone => inl (-1)
                              | DName x => if mm_struct m then inl (-2) else inl (atom_code_of_name x)
                              | DDef d' => if mm_struct m then inr (odef_of_dt d') else inl (-2)
                              end,
                              match mm_array m with Some a => a | None => 0 end,
                              mm_offset m, mm_bit m)]
                          else []) internal)
             (match str, tc with
              | Some cap, TcString size capacity => Some (cap, size, capacity)
              | Some cap, _ => Some (cap, -1, -1)
              | None, TcString size capacity => Some (-1, size, capacity)
              | None, _ => None
              end)
  end.

(* inl (-1): no data type recorded; inl (-2): the struct flag and the kind of data_type disagree *)
Definition oty_of_dtype (is_struct : bool) (t : dtype) : oty :=
  match t with
  | DNone => inl (-1)
  | DName x => if is_struct then inl (-2) else inl (atom_code_of_name x)
  | DDef d => if is_struct then inr (odef_of_dt d) else inl (-2)
  end.

Definition otag_of_mtag (with_access : bool) (t : mtag) : otag :=
  mkOTag (tg_name t) (tg_inst t) (oty_of_dtype (tg_struct t) (tg_dtype t)) (tg_dtname t) (tg_tid t) (tg_bitpos t)
         (firstn (Z.to_nat (tg_dim t)) (tg_dims t))
         (if with_access then Some (tg_access t) else None)
         (tg_alias t) (tg_addr t) (tg_oaddr t) (tg_swc t).

(* drv.tags (a dict keyed by tag_name), drv.data_types, drv.info['programs'|'tasks'] *)
Definition obs_of_result (with_access : bool) (r : uresult) : oview :=
  mkOView (map (fun nt => otag_of_mtag with_access (snd nt)) (tags_dict (res_tags r)))
          (map (fun nd => odef_of_dt (snd nd)) (u_data_types (res_state r)))
          (map (fun p => (fst p, fst (snd p), snd (snd p))) (u_programs (res_state r)))
          (u_tasks (res_state r)).

Definition multi_packet_service (svc : Z) : bool :=
  existsb (fun nv => match snd nv with [b] => b =? svc | _ => false end) ReplyTables.multi_packet_services.

(* what SendUnitDataResponsePacket exposes of the reply [rp] to a request with service [svc]:
   bool(response) = status 0, or status 6 for a multi-packet service; data = raw[50:], i.e. the
   extended status words (when there are any) followed by the reply data *)
Definition urep_of (svc : Z) (rp : mr_reply) : urep :=
  mkRep ((rp_status rp =? Consts.SUCCESS)
         || ((rp_status rp =? Consts.INSUFFICIENT_PACKETS) && multi_packet_service svc))
        (rp_status rp)
        (flat_map (le_enc 2) (rp_ext rp) ++ rp_data rp)
        false.   (* a well-formed reply frame: response.error does not raise (C13) *)

(* one connected request answered by the Logix handler with reply capacity [cap]; an object the
   handler does not implement is answered 0x05 by the core *)
Definition target_call (cap : Z) (st : lstate) (rq : ureq) : lstate * option urep :=
  match logix_request st (TConnected 0) cap
                      {| mr_service := q_service rq; mr_path := q_path rq; mr_data := q_data rq |} with
  | Some (st', rp, _) => (st', Some (urep_of (q_service rq) rp))
  | None => (st, Some (urep_of (q_service rq) (mr_error 5 [])))
  end.

Definition target_state (p : project) (pol : policy) : lstate := mkLState p [] pol init_basic.

(* LogixDriver.get_tag_list(program) of a fresh driver against the target *)
Definition upload_target (cap rev : Z) (fuel : nat) (p : project) (pol : policy) (arg : scope_arg)
  : outcome uresult :=
  snd (get_tag_list lstate (target_call cap) rev fuel init_ustate (target_state p pol) arg).

(* enough fuel for every loop of the upload of [p]: pages <= symbols + 1, fragments of one
   template <= its length + 1, nesting depth <= templates + 1 *)
Definition max_blob (p : project) : nat :=
  fold_right Nat.max O (map (fun t => length (template_blob true t)) (p_templates p)).
Definition fuel_bound (p : project) : nat :=
  S (S (length (p_tags p) + length (p_templates p) + max_blob p)).
