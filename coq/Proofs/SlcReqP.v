(* Proofs/SlcReqP.v — the model of SLCDriver.read / write (Model/Slc.v) composed with the reference
   target (Spec/SlcTarget.v), against the reference interpretation of the address:
     [read_request_bytes] / [write_request_bytes] : the bytes the model emits ([pccc_req]);
         [parse_req] : the command the target's own parser reads in them ([req_cmd]: file, type,
         element, sub-element, size);
     [read_effect]  : the Tag the model builds from the target's reply carries ref_read
         ([read_region]: the words the request fetches; [reply_value]: what the model decodes from them);
     [write_effect] : the target's table after the model's write request is ref_write
         ([ref_write_masked]: the reference write as the masked write of the target). *)
From Coq Require Import String.
From PV Require Import Base.Bytes Base.BytesLemmas Base.Proto Base.Res Base.PyStr Model.Regex Model.SlcVal Model.Slc.
From PV Require Import Gen.SlcTables Gen.Status Spec.SlcTarget.
From PV Require Import Proofs.RegexP Proofs.SlcParseP Proofs.SlcAddrP Proofs.SlcTargetP.
From Coq Require Import ZifyBool.
Open Scope Z_scope.
Ltac Zify.zify_post_hook ::= Z.to_euclidean_division_equations.

Definition cfg_ok (c : cfg) : Prop :=
  exists v0 v1 s0 s1 s2 s3, c_vid c = [v0; v1] /\ c_vsn c = [s0; s1; s2; s3].

Definition rid_of (c : cfg) : bytes := 7 :: c_vid c ++ c_vsn c.
Definition mr_head : bytes := [75; 2; 32; 103; 36; 1].

Lemma msg_start_eq c : msg_start c = mr_head ++ rid_of c.
Proof. reflexivity. Qed.

Lemma USINT_ok z : 0 <= z < 256 -> USINT_encode z = Ok [z].
Proof. intros H. unfold USINT_encode, in_urange. change (pow256 1) with 256. destruct ((0 <=? z) && (z <? 256)) eqn:E; [reflexivity|lia]. Qed.
Lemma UINT_ok z : 0 <= z < 65536 -> UINT_encode z = Ok [z mod 256; z / 256].
Proof.
  intros H. unfold UINT_encode, in_urange. change (pow256 2) with 65536.
  destruct ((0 <=? z) && (z <? 65536)) eqn:E; [|lia]. cbn [le_enc]. f_equal. f_equal. f_equal. lia.
Qed.

(* an address field as the driver emits it and as the target reads it *)
Definition afield (n : Z) : bytes := if n <? 255 then [n] else [255; n mod 256; n / 256].

Lemma address_field_ok n : 0 <= n < 65536 -> address_field n = Ok (afield n).
Proof.
  intros H. unfold address_field, afield. destruct (n <? 255) eqn:E.
  - apply USINT_ok. lia.
  - rewrite UINT_ok by exact H. reflexivity.
Qed.

Lemma parse_afield n rest : 0 <= n < 65536 -> parse_field (afield n ++ rest) = Some (n, rest).
Proof.
  intros H. unfold afield. destruct (n <? 255) eqn:E; cbn [app parse_field].
  - destruct (n =? 255) eqn:E2; [lia|reflexivity].
  - change (255 =? 255) with true. cbv iota. f_equal. f_equal. lia.
Qed.

(* the facts of the regenerated PCCC tables the composition needs, per file type *)
Definition mcode (ft : ftype) : Z :=
  match dict_get pccc_data_type [letter ft] with Ok [c] => c | _ => -1 end.
Definition mcodec (ft : ftype) : codec :=
  match ft with FF => CReal | FL => CSInt 4 | _ => CSInt 2 end.

Lemma table_facts ft :
  dict_get pccc_data_size [letter ft] = Ok (esize ft)
  /\ dict_get pccc_data_type [letter ft] = Ok [mcode ft]
  /\ ftype_of_code (mcode ft) = Some ft /\ 0 <= mcode ft < 255
  /\ codec_of [letter ft] = Ok (mcodec ft)
  /\ is_ct [letter ft] = is_tc ft.
Proof. destruct ft; vm_compute; repeat split; congruence. Qed.

Definition subreq (a : addr) : Z := if is_io (a_ft a) then a_sub a else 0.

Lemma wf_bounds a : wf_addr a = true ->
  0 <= a_elem a <= 255 /\ 0 <= a_file a <= 255 /\ 0 <= subreq a <= 254
  /\ 1 <= a_count a /\ 0 <= esize (a_ft a) * a_count a < 256.
Proof.
  intros H. destruct a as [ft file elem sub bit cnt]. unfold subreq. cbn [a_ft a_sub a_elem a_file a_count].
  destruct ft; destruct bit; wfacts H; cbn [is_io esize]; repeat split; try discriminate; lia.
Qed.

Lemma wf_bit a b : wf_addr a = true -> a_bit a = Some b ->
  0 <= b <= 15 /\ a_count a = 1 /\ a_ft a <> FF /\ a_ft a <> FL.
Proof.
  intros H E. destruct a as [ft file elem sub bit cnt]. cbn [a_ft a_bit a_count] in *. subst bit.
  destruct ft; wfacts H; unfold tc_bit_ok, zin in *; repeat split; try discriminate; lia.
Qed.

(* the PCCC part of a request for an address, and what the target's parser makes of it *)
Definition pccc_req (c : cfg) (a : addr) (fnc tns : Z) (rest : bytes) : bytes :=
  rid_of c ++ [15; 0; tns mod 256; tns / 256; fnc; esize (a_ft a) * a_count a]
    ++ afield (a_file a) ++ mcode (a_ft a) :: afield (a_elem a) ++ afield (subreq a) ++ rest.
Definition req_cmd (c : cfg) (a : addr) (fnc tns : Z) (rest : bytes) : pccc_cmd :=
  {| pc_rid := rid_of c; pc_cmd := 15; pc_sts := 0; pc_tns := [tns mod 256; tns / 256]; pc_fnc := fnc;
     pc_size := esize (a_ft a) * a_count a; pc_file := a_file a; pc_type := mcode (a_ft a);
     pc_elem := a_elem a; pc_sub := subreq a; pc_rest := rest |}.

Lemma request_fields a name : wf_addr a = true ->
  let t := addr_tag a name in
  dict_get pccc_data_size (t_file_type t) = Ok (esize (a_ft a))
  /\ USINT_encode (esize (a_ft a) * t_element_count t) = Ok [esize (a_ft a) * a_count a]
  /\ address_field (t_file_number t) = Ok (afield (a_file a))
  /\ dict_get pccc_data_type (t_file_type t) = Ok [mcode (a_ft a)]
  /\ address_field (t_element_number t) = Ok (afield (a_elem a))
  /\ address_field (pos_or_0 t) = Ok (afield (subreq a)).
Proof.
  intros Hwf. destruct (wf_bounds a Hwf) as (He & Hf & Hs & Hc & Hz).
  destruct (table_facts (a_ft a)) as (T1 & T2 & _).
  unfold pos_or_0, addr_tag, mk. cbn [t_file_type t_file_number t_element_number t_pos_number t_element_count].
  replace (match (if is_io (a_ft a) then Some (a_sub a) else None) with Some z => z | None => 0 end) with (subreq a)
    by (unfold subreq; destruct (is_io (a_ft a)); reflexivity).
  rewrite USINT_ok, !address_field_ok by lia. auto 6.
Qed.

Theorem read_request_bytes c tns a name :
  wf_addr a = true -> 0 <= tns < 65536 ->
  read_request c tns (addr_tag a name) = Ok (mr_head ++ pccc_req c a 162 tns []).
Proof.
  intros Hwf Htns. destruct (request_fields a name Hwf) as (F1 & F2 & F3 & F4 & F5 & F6).
  unfold read_request. rewrite (UINT_ok tns Htns), F1, F3, F4, F5, F6. cbn [bind]. rewrite F2. cbn [bind].
  rewrite msg_start_eq. unfold pccc_req, SLC_CMD_CODE, SLC_FNC_READ.
  repeat (rewrite <- app_assoc; cbn [app]). rewrite app_nil_r. reflexivity.
Qed.

Lemma exec_mr_head tbl c body : cfg_ok c ->
  exec_mr tbl (mr_head ++ rid_of c ++ body) =
    match exec_pccc tbl (rid_of c ++ body) with
    | Some (t', rep) => (t', [203; 0; 0; 0] ++ rep)
    | None => (tbl, [203; 0; 19; 0])
    end.
Proof.
  intros (v0 & v1 & s0 & s1 & s2 & s3 & Ev & Es). unfold rid_of. rewrite Ev, Es.
  unfold exec_mr, mr_head. cbn [app]. change (Z.to_nat (2 * 2)) with 4%nat. cbn [firstn skipn length].
  match goal with |- context [Z.of_nat ?n <? 2 * 2] => destruct (Z.of_nat n <? 2 * 2) eqn:E; [lia|] end.
  cbn [negb andb bytes_eqb PCCC_OBJECT_PATH]. reflexivity.
Qed.

Lemma parse_cmd_shape c cmd sts t0 t1 fnc size file ty elem sub rest :
  cfg_ok c -> 0 <= file < 65536 -> 0 <= elem < 65536 -> 0 <= sub < 65536 ->
  parse_cmd (rid_of c ++ [cmd; sts; t0; t1; fnc; size] ++ afield file ++ ty :: afield elem ++ afield sub ++ rest) =
    CmdOk {| pc_rid := rid_of c; pc_cmd := cmd; pc_sts := sts; pc_tns := [t0; t1]; pc_fnc := fnc;
             pc_size := size; pc_file := file; pc_type := ty; pc_elem := elem; pc_sub := sub; pc_rest := rest |}.
Proof.
  intros (v0 & v1 & s0 & s1 & s2 & s3 & Ev & Es) Hf He Hs. unfold rid_of. rewrite Ev, Es.
  unfold parse_cmd. cbn [app length]. change (Z.to_nat 7) with 7%nat. cbn [firstn skipn].
  match goal with |- context [(7 <? 1) || (Z.of_nat ?n <? 7 + 4)] =>
    destruct ((7 <? 1) || (Z.of_nat n <? 7 + 4)) eqn:E; [lia|] end.
  rewrite parse_afield by exact Hf. rewrite parse_afield by exact He. rewrite parse_afield by exact Hs.
  reflexivity.
Qed.

Lemma parse_req c a fnc tns rest : cfg_ok c -> wf_addr a = true ->
  parse_cmd (pccc_req c a fnc tns rest) = CmdOk (req_cmd c a fnc tns rest).
Proof.
  intros Hc Hwf. destruct (wf_bounds a Hwf) as (He & Hf & Hs & _). apply parse_cmd_shape; first [assumption | lia].
Qed.

Lemma exec_req c tbl a fnc tns rest : cfg_ok c -> wf_addr a = true ->
  exec_mr tbl (mr_head ++ pccc_req c a fnc tns rest) =
    let (tbl', rep) := exec_cmd tbl (req_cmd c a fnc tns rest) in (tbl', [203; 0; 0; 0] ++ rep).
Proof.
  intros Hc Hwf. unfold pccc_req at 1. rewrite exec_mr_head by exact Hc. fold (pccc_req c a fnc tns rest).
  unfold exec_pccc. rewrite parse_req by assumption. reflexivity.
Qed.

Lemma le_dec_le16 w : 0 <= w < 65536 -> le_dec (le16 w) = w.
Proof. intros H. unfold le16. cbn [le_dec]. lia. Qed.

Lemma s16_signed w : to_signed 2 w = s16 w.
Proof. reflexivity. Qed.

Lemma unpack_s16 w rest : word_ok w = true -> unpack (CSInt 2) (le16 w ++ rest) = Ok (VInt (s16 w)).
Proof.
  intros H. unfold word_ok in H.
  change (unpack (CSInt 2) (le16 w ++ rest)) with (Ok (VInt (to_signed 2 (le_dec (le16 w))))).
  rewrite le_dec_le16 by lia. reflexivity.
Qed.

Lemma ct_codes : ct_code "PRE" = Ok 1 /\ ct_code "ACC" = Ok 2.
Proof. split; reflexivity. Qed.

(* the signed view of a word has the word's low bits *)
Lemma testbit_s16 w b : 0 <= w < 65536 -> 0 <= b <= 15 -> Z.testbit (s16 w) b = Z.testbit w b.
Proof.
  intros Hw Hb. unfold s16. destruct (w <? 32768); [reflexivity|].
  rewrite <- (Z.mod_pow2_bits_low (w - 65536) 16 b) by lia.
  rewrite <- (Z.mod_pow2_bits_low w 16 b) by lia. f_equal.
  change (2 ^ 16) with 65536. rewrite <- (Z.mod_add (w - 65536) 1 65536) by lia. f_equal. lia.
Qed.

Lemma word_bit w rest b : word_ok w = true -> 0 <= b <= 15 ->
  (let* tv := unpack (CSInt 2) (le16 w ++ rest) in get_bit tv b) = Ok (VBool (Z.testbit w b)).
Proof.
  intros Hw Hb. rewrite unpack_s16 by exact Hw. cbn [bind get_bit]. destruct (b <? 0) eqn:E; [lia|].
  unfold word_ok in Hw. rewrite testbit_s16 by lia. reflexivity.
Qed.

(* what the value of a read is, in terms of the words the request fetches *)
Definition decoded (a : addr) (ws : list Z) (v : sval) : Prop :=
  if is_tc (a_ft a) then
    exists w0 w1 w2, ws = [w0; w1; w2] /\
      match a_bit a with
      | Some b => v = VBool (Z.testbit w0 b)
      | None => (a_sub a = 1 /\ v = VInt (s16 w1)) \/ (a_sub a = 2 /\ v = VInt (s16 w2))
      end
  else
    match a_bit a with
    | Some b => exists w, ws = [w] /\ v = VBool (Z.testbit w b)
    | None => Z.of_nat (length ws) = vwords (a_ft a) * a_count a
              /\ v = match values_of (a_ft a) ws with [x] => x | vs => VList vs end
    end.

Definition req_words (a : addr) : Z := esize (a_ft a) * a_count a / 2.

Lemma region_whole_element f elem sub w i :
  dfile_ok f = true -> df_ew f = 3 -> region f elem sub 1 = Some (i, [w]) ->
  exists j w0 w1 w2, region f elem 0 3 = Some (j, [w0; w1; w2]) /\ nth (Z.to_nat sub) [w0; w1; w2] 0 = w /\ 0 <= sub <= 2.
Proof.
  intros Hf Hew Hr. destruct (region_some _ _ _ _ _ _ Hr) as (Hi & Hws & He & Hs & _ & Hlen & _).
  unfold dfile_ok in Hf. apply andb_true_iff in Hf. destruct Hf as [Hf _]. apply andb_true_iff in Hf. destruct Hf as [_ Hm].
  rewrite Hew in *. unfold word_index in Hi. rewrite Hew in Hi.
  assert (Hlen3 : elem * 3 + 3 <= Z.of_nat (length (df_words f))).
  { change (Z.to_nat 1) with 1%nat in Hlen. lia. }
  unfold region, word_index. rewrite Hew.
  destruct ((0 <=? elem) && (0 <=? 0) && (0 <? 3) && (0 <? 3) && (elem * 3 + 0 + 3 <=? Z.of_nat (length (df_words f)))) eqn:E; [|lia].
  set (j := Z.to_nat (elem * 3 + 0)).
  assert (Hj : (j + 3 <= length (df_words f))%nat) by lia.
  destruct (skipn j (df_words f)) as [|w0 [|w1 [|w2 r]]] eqn:Es;
    try (assert (L : length (skipn j (df_words f)) = (length (df_words f) - j)%nat) by apply skipn_length; rewrite Es in L; cbn [length] in L; lia).
  exists j, w0, w1, w2. change (Z.to_nat 3) with 3%nat. cbn [firstn]. split; [reflexivity|]. split; [|lia].
  change (Z.to_nat 1) with 1%nat in Hws.
  assert (Hi' : i = (j + Z.to_nat sub)%nat) by lia.
  assert (Hsk : skipn i (df_words f) = skipn (Z.to_nat sub) (skipn j (df_words f))).
  { rewrite Hi'. rewrite skipn_skipn. reflexivity. }
  rewrite Hsk, Es in Hws.
  assert (Hc : sub = 0 \/ sub = 1 \/ sub = 2) by lia.
  destruct Hc as [E0|[E0|E0]]; subst sub; cbn in Hws; inversion Hws; reflexivity.
Qed.

Lemma ftype_eqb_eq x y : ftype_eqb x y = true -> x = y.
Proof. destruct x; destruct y; cbn; congruence. Qed.

Lemma nontc_region a : wf_addr a = true -> is_tc (a_ft a) = false ->
  subreq a = a_sub a /\ req_words a = match a_bit a with Some _ => 1 | None => vwords (a_ft a) * a_count a end.
Proof.
  intros Hwf Htc. destruct a as [ft file elem sub bit cnt]. unfold subreq, req_words. cbn [a_ft a_sub a_bit a_count] in *.
  destruct ft; try discriminate; destruct bit; cbn [is_io esize vwords]; wfacts Hwf; try discriminate; split; lia.
Qed.

Lemma wf_tc a : wf_addr a = true -> is_tc (a_ft a) = true ->
  a_count a = 1 /\ vwords (a_ft a) = 1 /\ esize (a_ft a) = 6 /\ fixed_ewords (a_ft a) = Some 3 /\ is_io (a_ft a) = false
  /\ match a_bit a with Some _ => a_sub a = 0 | None => a_sub a = 1 \/ a_sub a = 2 end.
Proof.
  intros H E. destruct a as [ft file elem sub bit cnt]. cbn [a_ft a_bit a_sub a_count] in *.
  destruct ft; try discriminate; destruct bit; wfacts H; repeat split; lia.
Qed.

Lemma read_region tbl a v : table_ok tbl = true -> wf_addr a = true -> ref_read tbl a = Some v ->
  exists f i ws, file_for tbl a = Some f /\ region f (a_elem a) (subreq a) (req_words a) = Some (i, ws)
                 /\ forallb word_ok ws = true /\ decoded a ws v.
Proof.
  intros Ht Hwf Hr. unfold ref_read in Hr.
  destruct (file_for tbl a) as [f|] eqn:Ef; [|discriminate].
  destruct (file_for_find _ _ _ Ef) as (Hfind & Hty & _). apply ftype_eqb_eq in Hty.
  pose proof (find_file_ok _ _ _ Ht Hfind) as Hok.
  exists f. unfold decoded. destruct (is_tc (a_ft a)) eqn:Etc.
  - (* T/C: the reference reads one word; the request fetches the element it lies in *)
    destruct (wf_tc a Hwf Etc) as (Hc & Hv & Hes & Hfw & Hio & Hsb).
    assert (Hew : df_ew f = 3) by (unfold dfile_ok in Hok; rewrite Hty, Hfw in Hok; bools; lia).
    assert (W : exists i w, region f (a_elem a) (a_sub a) 1 = Some (i, [w])
                  /\ v = match a_bit a with Some b => VBool (Z.testbit w b) | None => VInt (s16 w) end).
    { rewrite Hv, Hc in Hr. change (1 * 1) with 1 in Hr.
      destruct (region f (a_elem a) (a_sub a) 1) as [[i ws]|] eqn:Er; [|destruct (a_bit a); discriminate].
      destruct (region_some _ _ _ _ _ _ Er) as (_ & _ & _ & _ & _ & _ & Hl). change (Z.to_nat 1) with 1%nat in Hl.
      destruct ws as [|w [|? ?]]; try discriminate Hl. exists i, w. split; [reflexivity|].
      destruct (a_bit a); [congruence|]. destruct (a_ft a); try discriminate Etc; cbn [values_of] in Hr; congruence. }
    destruct W as (i & w & Er & ->).
    destruct (region_whole_element _ _ _ _ _ Hok Hew Er) as (j & w0 & w1 & w2 & Hj & Hn & _).
    exists j, [w0; w1; w2]. split; [reflexivity|]. unfold subreq, req_words. rewrite Hio, Hes, Hc.
    split; [exact Hj|]. split; [eapply region_words_ok; eassumption|]. exists w0, w1, w2. split; [reflexivity|].
    destruct (a_bit a); [rewrite Hsb in Hn; cbn in Hn; subst w; reflexivity|].
    destruct Hsb as [Hs|Hs]; rewrite Hs in Hn |- *; cbn in Hn; subst w; [left|right]; split; reflexivity.
  - (* the other files: request and reference address the same words *)
    destruct (nontc_region a Hwf Etc) as [-> ->].
    destruct (a_bit a) as [b|].
    + destruct (region f (a_elem a) (a_sub a) 1) as [[i ws]|] eqn:Er; [|discriminate].
      destruct ws as [|w [|? ?]]; try discriminate. exists i, [w]. split; [reflexivity|]. split; [reflexivity|].
      split; [eapply region_words_ok; eassumption|]. exists w. split; congruence.
    + destruct (region f (a_elem a) (a_sub a) (vwords (a_ft a) * a_count a)) as [[i ws]|] eqn:Er; [|discriminate].
      exists i, ws. split; [reflexivity|]. split; [reflexivity|]. split; [eapply region_words_ok; eassumption|].
      destruct (region_some _ _ _ _ _ _ Er) as (_ & _ & _ & _ & Hpos & _ & Hl). split; [lia|].
      destruct (values_of (a_ft a) ws) as [|? [|? ?]]; congruence.
Qed.

Lemma decode_values ft : is_tc ft = false -> forall n ws fuel,
  forallb word_ok ws = true -> Z.of_nat (length ws) = vwords ft * Z.of_nat n -> (n <= fuel)%nat ->
  map_res (unpack (mcodec ft)) (chunks fuel (Z.to_nat (esize ft)) (words_to_bytes ws)) = Ok (values_of ft ws).
Proof.
  intros Htc. induction n as [|n IH]; intros ws fuel H L F.
  { destruct ws; [|cbn [length] in L; lia]. destruct fuel; destruct ft; reflexivity. }
  destruct fuel as [|fuel]; [lia|].
  assert (C : ft = FF \/ ft = FL \/ (vwords ft = 1 /\ esize ft = 2 /\ mcodec ft = CSInt 2
                                      /\ forall w r, values_of ft (w :: r) = VInt (s16 w) :: values_of ft r))
    by (destruct ft; try discriminate; auto 6).
  destruct C as [->|[->|(Hv & He & Hm & Hvs)]].
  1,2: (destruct ws as [|w0 [|w1 ws]]; try (cbn [length vwords] in L; lia);
        cbn [forallb] in H; apply andb_true_iff in H; destruct H as [H0 H]; apply andb_true_iff in H; destruct H as [H1 H];
        unfold word_ok in H0, H1; cbn [words_to_bytes le16 app esize]; change (Z.to_nat 4) with 4%nat;
        cbn [chunks firstn skipn map_res mcodec unpack length Nat.ltb Nat.leb le_dec];
        rewrite IH by (try assumption; cbn [length vwords] in *; lia); cbn [bind values_of];
        do 3 f_equal; unfold to_signed, s32; change (pow256 4) with 4294967296; cbv zeta;
        repeat match goal with |- context [if ?c then _ else _] => destruct c eqn:? end; lia).
  destruct ws as [|w ws]; [cbn [length] in L; lia|]. rewrite Hvs. rewrite He, Hm in *. change (Z.to_nat 2) with 2%nat in *.
  cbn [forallb] in H. apply andb_true_iff in H. destruct H as [Hw H].
  cbn [words_to_bytes le16 app chunks firstn skipn map_res]. change [w mod 256; w / 256] with (le16 w ++ []).
  rewrite unpack_s16 by exact Hw. cbn [bind]. rewrite IH by (try assumption; cbn [length] in L; lia).
  reflexivity.
Qed.

Lemma reply_value a name ws v : wf_addr a = true -> forallb word_ok ws = true -> decoded a ws v ->
  parse_read_reply (addr_tag a name) (words_to_bytes ws) = Ok v.
Proof.
  intros Hwf Hws Hd.
  destruct (table_facts (a_ft a)) as (T1 & _ & _ & _ & T5 & T6).
  destruct ct_codes as [C1 C2].
  unfold parse_read_reply, addr_tag, mk, sub_or_0.
  cbn [t_file_type t_file_number t_element_number t_pos_number t_sub_element t_address_field t_element_count].
  rewrite T1, T5, T6, C1, C2. cbn [bind].
  destruct a as [ft file elem sub bit cnt]. unfold decoded in Hd. cbn [a_ft a_file a_elem a_sub a_bit a_count] in *.
  destruct (is_tc ft) eqn:Etc.
  - (* T, C: one word of the three of the element *)
    assert (Hm : mcodec ft = CSInt 2 /\ esize ft = 6) by (destruct ft; try discriminate Etc; split; reflexivity).
    destruct Hm as [-> ->]. destruct Hd as (w0 & w1 & w2 & -> & Hv). cbn [forallb] in Hws. bools.
    change (3 =? 3) with true. cbn [andb]. destruct bit as [b|].
    + assert (Hb : 10 <= b <= 15) by (destruct ft; try discriminate Etc; wfacts Hwf; unfold tc_bit_ok, zin in *; lia).
      subst v. destruct (b =? 1) eqn:E1; [lia|]. destruct (b =? 2) eqn:E2; [lia|].
      change (slice 0 (Z.to_nat 6) (words_to_bytes [w0; w1; w2])) with (le16 w0 ++ le16 w1 ++ le16 w2 ++ []).
      rewrite word_bit by (assumption || lia). reflexivity.
    + destruct Hv as [[Es Ev]|[Es Ev]]; subst sub v.
      * change (1 =? 1) with true.
        change (slice 2 (2 + Z.to_nat 6) (words_to_bytes [w0; w1; w2])) with (le16 w1 ++ le16 w2 ++ []).
        rewrite unpack_s16 by assumption. reflexivity.
      * change (2 =? 1) with false. change (2 =? 2) with true.
        change (slice 4 (4 + Z.to_nat 6) (words_to_bytes [w0; w1; w2])) with (le16 w2 ++ []).
        rewrite unpack_s16 by assumption. reflexivity.
  - destruct bit as [b|].
    + (* a bit of a 16-bit word *)
      destruct Hd as (w & -> & ->). cbn [forallb] in Hws. apply andb_true_iff in Hws. destruct Hws as [Hw _].
      destruct (wf_bit _ b Hwf eq_refl) as (Hb & _ & NF & NL). cbn [a_ft] in NF, NL.
      replace (if is_io ft then Some b else Some b) with (Some b) by (destruct (is_io ft); reflexivity).
      change (3 =? 3) with true. cbn [andb].
      replace (slice 0 (Z.to_nat (esize ft)) (words_to_bytes [w])) with (le16 w ++ []) by (destruct ft; reflexivity).
      replace (mcodec ft) with (CSInt 2) by (destruct ft; first [reflexivity|congruence]).
      rewrite word_bit by assumption. reflexivity.
    + (* count values *)
      destruct Hd as [Hl ->].
      replace (match (if is_io ft then Some 0 else None) with Some _ => 2 | None => 2 end) with 2
        by (destruct (is_io ft); reflexivity).
      change (2 =? 3) with false. cbv iota.
      replace (Z.to_nat (esize ft) =? 0)%nat with false by (destruct ft; reflexivity).
      destruct (wf_bounds _ Hwf) as (_ & _ & _ & Hc & _). cbn [a_count] in Hc.
      pose proof (words_to_bytes_length ws) as Hlenb.
      rewrite (decode_values ft Etc (Z.to_nat cnt));
        [|assumption|rewrite Z2Nat.id by lia; exact Hl|assert (1 <= vwords ft) by (destruct ft; cbn; lia); nia].
      cbn [bind].
      destruct (values_of ft ws) as [|x [|y l]] eqn:Ev; try reflexivity.
      destruct ws as [|w0 [|w1 r]]; destruct ft; try discriminate; cbn [length vwords] in Hl; lia.
Qed.

Definition ok_tag (r : tagres) (v : sval) : Prop := tr_value r = Some v /\ tr_error r = None.

Lemma esize_even ft cnt : (esize ft * cnt) mod 2 = 0.
Proof. destruct ft; cbn [esize]; lia. Qed.

Lemma cmd_region_req tbl c a fnc tns rest f i ws :
  file_for tbl a = Some f -> region f (a_elem a) (subreq a) (req_words a) = Some (i, ws) ->
  cmd_region tbl (req_cmd c a fnc tns rest) = Some (f, i, ws).
Proof.
  intros Ef Er. destruct (file_for_find _ _ _ Ef) as (Hfind & Hty & _).
  destruct (table_facts (a_ft a)) as (_ & _ & T3 & _).
  unfold cmd_region, req_cmd. cbn [pc_file pc_type pc_size pc_elem pc_sub].
  rewrite Hfind, T3, Hty, esize_even. change (0 =? 0) with true. cbn [andb].
  change (esize (a_ft a) * a_count a / 2) with (req_words a). rewrite Er. reflexivity.
Qed.

Lemma reply_layout c pre t0 t1 sts data :
  cfg_ok c -> length pre = 46%nat ->
  let rep := [203; 0; 0; 0] ++ pccc_reply (rid_of c) 15 sts [t0; t1] data in
  nth_error (pre ++ rep) 58 = Some sts /\ skipn 61 (pre ++ rep) = data.
Proof.
  intros (v0 & v1 & s0 & s1 & s2 & s3 & Ev & Es) L rep. subst rep. unfold pccc_reply, rid_of. rewrite Ev, Es.
  split.
  - rewrite nth_error_app2 by lia. rewrite L. reflexivity.
  - rewrite skipn_app. rewrite L. rewrite skipn_all2 by lia. reflexivity.
Qed.

Theorem read_effect c tbl a name v tns pre :
  cfg_ok c -> table_ok tbl = true -> wf_addr a = true ->
  0 <= tns < 65536 -> length pre = 46%nat -> ref_read tbl a = Some v ->
  exists req rep, read_request c tns (addr_tag a name) = Ok req
    /\ exec_mr tbl req = (tbl, rep)
    /\ ok_tag (read_tag_finish (addr_tag a name) (pre ++ rep)) v.
Proof.
  intros Hc Ht Hwf Htns Hpre Hr.
  destruct (read_region tbl a v Ht Hwf Hr) as (f & i & ws & Ef & Er & Hok & Hd).
  eexists. eexists. split; [apply read_request_bytes; assumption|].
  rewrite exec_req by assumption. unfold exec_cmd. rewrite (cmd_region_req tbl c a 162 tns [] f i ws Ef Er).
  cbn [req_cmd pc_rid pc_cmd pc_tns pc_fnc pc_rest].
  change (negb (15 =? 15)) with false. change (162 =? 162) with true. cbv iota.
  split; [reflexivity|].
  destruct (reply_layout c pre (tns mod 256) (tns / 256) 0 (words_to_bytes ws) Hc Hpre) as [L1 L2]. cbv zeta in L1, L2.
  unfold ok_tag, read_tag_finish, request_status. rewrite L1. change (0 =? SUCCESS) with true. cbv iota.
  change (Z.to_nat SLC_REPLY_START) with 61%nat. rewrite L2.
  rewrite (reply_value a name ws v Hwf Hok Hd). split; reflexivity.
Qed.

(* the words a value of the file's type is made of: the spec's words_of, as the model packs them *)
Lemma pack_words ft v ws : words_of ft v = Some ws -> pack (mcodec ft) v = Ok (words_to_bytes ws).
Proof.
  (* words_of and mcodec only tell F, L and the 16-bit files apart *)
  assert (C : ft = FF \/ ft = FL \/ (words_of ft v = words_of FN v /\ mcodec ft = CSInt 2))
    by (destruct ft; auto).
  destruct C as [->|[->|[-> ->]]]; unfold words_of; destruct v; try discriminate;
    match goal with |- (if ?c then _ else _) = _ -> _ => destruct c eqn:E; [|discriminate] end;
    intros H; inversion H; subst; cbn [mcodec pack];
    unfold in_srange, in_urange, of_signed;
    change (pow256 2) with 65536; change (pow256 4) with 4294967296;
    change (65536 / 2) with 32768; change (4294967296 / 2) with 2147483648;
    match goal with |- (if ?c then _ else _) = _ => destruct c eqn:?; [|lia] end;
    cbn [le_enc words_to_bytes le16 app];
    f_equal; repeat (apply (f_equal2 (@cons Z)); [lia|]); reflexivity.
Qed.

Lemma pack_words_list ft : forall vs ws, words_of_list ft vs = Some ws ->
  fold_right (fun x acc => let* a := acc in let* b := pack (mcodec ft) x in Ok (b ++ a)) (Ok []) vs
  = Ok (words_to_bytes ws).
Proof.
  induction vs as [|x vs IH]; intros ws H; cbn [words_of_list] in H.
  - inversion H; subst. reflexivity.
  - destruct (words_of ft x) as [a|] eqn:Ea; [|discriminate].
    destruct (words_of_list ft vs) as [b|] eqn:Eb; [|discriminate]. inversion H; subst.
    cbn [fold_right]. rewrite (IH b eq_refl). cbn [bind]. rewrite (pack_words _ _ _ Ea). cbn [bind].
    rewrite words_to_bytes_app. reflexivity.
Qed.

(* mask and data words of a write, as the reference interpretation has them *)
Definition wmask (a : addr) : Z := match a_bit a with Some b => 2 ^ b | None => 65535 end.
Definition wwords (a : addr) (v : sval) : option (list Z) :=
  match a_bit a with
  | Some b => Some [if truthy v then 2 ^ b else 0]
  | None => if a_count a =? 1 then words_of (a_ft a) v
            else match v with
                 | VList vs => if Z.of_nat (length vs) =? a_count a then words_of_list (a_ft a) vs else None
                 | _ => None
                 end
  end.

Lemma pow2_word b : 0 <= b <= 15 -> 0 <= 2 ^ b < 65536.
Proof. intros H. split; [apply Z.pow_nonneg; lia|]. change 65536 with (2 ^ 16). apply Z.pow_lt_mono_r; lia. Qed.

Lemma writeable_value_bytes a name v dws :
  wf_addr a = true -> is_tc (a_ft a) = false -> wwords a v = Some dws ->
  writeable_value (addr_tag a name) v = Ok (le16 (wmask a) ++ words_to_bytes dws).
Proof.
  intros Hwf Htc Hw.
  destruct (table_facts (a_ft a)) as (_ & _ & _ & _ & T5 & T6).
  destruct ct_codes as [C1 C2].
  destruct (wf_bounds a Hwf) as (_ & _ & _ & Hcnt & _).
  unfold writeable_value, addr_tag, mk, sub_or_0.
  cbn [t_file_type t_file_number t_element_number t_pos_number t_sub_element t_address_field t_element_count].
  rewrite Htc. unfold wmask, wwords in *.
  destruct (a_count a =? 0) eqn:E0; [lia|].
  destruct (a_bit a) as [b|] eqn:Eb.
  - destruct (wf_bit a b Hwf Eb) as (Hb & Hc1 & _). rewrite Hc1. inversion Hw; subst dws.
    replace (if is_io (a_ft a) then Some b else Some b) with (Some b) by (destruct (is_io (a_ft a)); reflexivity).
    change (3 =? 3) with true. cbv iota. destruct (b <? 0) eqn:E; [lia|].
    pose proof (pow2_word b Hb) as Hp.
    rewrite UINT_ok by exact Hp. cbn [bind]. change (1 <? 1) with false. cbv iota. cbn [bind].
    rewrite T5, C1, C2, T6, Htc. cbn [bind wrap_all andb fst snd].
    destruct (truthy v); reflexivity.
  - replace (match (if is_io (a_ft a) then Some 0 else None) with Some z => z | None => 0 end) with 0
      by (destruct (is_io (a_ft a)); reflexivity).
    change (2 =? 3) with false. cbv iota. cbn [bind].
    destruct (a_count a =? 1) eqn:E1.
    + assert (a_count a = 1) by lia. destruct (1 <? a_count a) eqn:E2; [lia|]. cbn [bind].
      rewrite T5. cbn [bind]. rewrite (pack_words _ _ _ Hw). reflexivity.
    + destruct (1 <? a_count a) eqn:E2; [|lia].
      destruct v as [| | |vs]; try discriminate.
      destruct (Z.of_nat (length vs) =? a_count a) eqn:El; [|discriminate].
      destruct (Z.of_nat (length vs) <? a_count a) eqn:El2; [lia|]. cbn [bind].
      replace (firstn (Z.to_nat (a_count a)) vs) with vs by (symmetry; apply firstn_all2; lia).
      rewrite T5. cbn [bind]. rewrite (pack_words_list _ _ _ Hw). reflexivity.
Qed.

Theorem write_request_bytes c tns a name v dws :
  wf_addr a = true -> is_tc (a_ft a) = false -> 0 <= tns < 65536 -> wwords a v = Some dws ->
  write_request c tns (addr_tag a name) v = Ok (mr_head ++ pccc_req c a 171 tns (le16 (wmask a) ++ words_to_bytes dws)).
Proof.
  intros Hwf Htc Htns Hw. destruct (request_fields a name Hwf) as (F1 & F2 & F3 & F4 & F5 & F6).
  unfold write_request. rewrite (writeable_value_bytes a name v dws Hwf Htc Hw), (UINT_ok tns Htns), F1, F3, F4, F5, F6.
  cbn [bind]. rewrite F2. cbn [bind].
  rewrite msg_start_eq. unfold pccc_req, SLC_CMD_CODE, SLC_FNC_WRITE.
  repeat (rewrite <- app_assoc; cbn [app]). reflexivity.
Qed.

Definition masked (mask : Z) (old dws : list Z) : list Z :=
  map (fun od => mask_word mask (fst od) (snd od)) (combine old dws).

Lemma masked_all : forall old dws, forallb word_ok old = true -> forallb word_ok dws = true ->
  length old = length dws -> masked 65535 old dws = dws.
Proof.
  induction old as [|o old IH]; intros dws Ho Hd L; destruct dws as [|d dws]; try (cbn in L; lia); [reflexivity|].
  cbn [forallb] in *. apply andb_true_iff in Ho. destruct Ho as [Ho1 Ho]. apply andb_true_iff in Hd. destruct Hd as [Hd1 Hd].
  unfold masked. cbn [combine map fst snd]. unfold word_ok in Ho1, Hd1. rewrite mask_all by lia. f_equal.
  apply IH; try assumption. cbn in L. lia.
Qed.

(* the reference write, in the terms of the masked write of the target *)
Lemma ref_write_masked tbl a v tbl' : table_ok tbl = true -> wf_addr a = true -> is_tc (a_ft a) = false ->
  ref_write tbl a v = Some tbl' ->
  exists f i old dws, file_for tbl a = Some f /\ region f (a_elem a) (subreq a) (req_words a) = Some (i, old)
    /\ wwords a v = Some dws /\ length dws = length old /\ forallb word_ok dws = true
    /\ tbl' = put_file tbl (set_words f (upd_words (df_words f) i (masked (wmask a) old dws))).
Proof.
  intros Ht Hwf Htc Hr. destruct (nontc_region a Hwf Htc) as [Es En]. rewrite Es, En.
  destruct (ref_write_inv _ _ _ _ Hr) as (f & i & old & new & Ef & Er & Hnew & Hlen & _ & ->).
  destruct (file_for_find _ _ _ Ef) as (Hfind & _ & _).
  pose proof (region_words_ok _ _ _ _ _ _ (find_file_ok _ _ _ Ht Hfind) Er) as Hold.
  unfold wwords, wmask. destruct (a_bit a) as [b|] eqn:Eb.
  - destruct Hnew as (w & -> & ->). destruct (wf_bit a b Hwf Eb) as (Hb & _).
    pose proof (pow2_word b Hb) as Hp.
    exists f, i, [w], [if truthy v then 2 ^ b else 0]. repeat split; try reflexivity; try assumption.
    + unfold forallb, word_ok. set (p := 2 ^ b) in *. clearbody p. destruct (truthy v); lia.
    + unfold masked. cbn [combine map fst snd]. rewrite mask_bit by lia. reflexivity.
  - destruct (new_words_ok _ _ _ Hnew) as (_ & Hdok & _).
    exists f, i, old, new. repeat split; try reflexivity; try assumption. rewrite masked_all by auto. reflexivity.
Qed.

Theorem write_effect c tbl a name v tns pre tbl' :
  cfg_ok c -> table_ok tbl = true -> wf_addr a = true -> is_tc (a_ft a) = false ->
  0 <= tns < 65536 -> length pre = 46%nat ->
  ref_write tbl a v = Some tbl' ->
  exists req rep, write_request c tns (addr_tag a name) v = Ok req
    /\ exec_mr tbl req = (tbl', rep)
    /\ ok_tag (write_tag_finish (addr_tag a name) v (pre ++ rep)) v.
Proof.
  intros Hc Ht Hwf Htc Htns Hpre Hr.
  destruct (ref_write_masked tbl a v tbl' Ht Hwf Htc Hr) as (f & i & old & dws & Ef & Er & Hw & Hl & Hdok & Et).
  eexists. eexists. split; [apply write_request_bytes; eassumption|].
  rewrite exec_req by assumption. unfold exec_cmd. rewrite (cmd_region_req tbl c a 171 tns _ f i old Ef Er).
  cbn [req_cmd pc_rid pc_cmd pc_tns pc_fnc pc_size pc_rest le16 app].
  change (negb (15 =? 15)) with false. change (171 =? 162) with false. change (171 =? 171) with true. cbv iota.
  assert (Hlen : Z.of_nat (length (words_to_bytes dws)) = esize (a_ft a) * a_count a).
  { rewrite words_to_bytes_length, Hl. destruct (region_some _ _ _ _ _ _ Er) as (_ & _ & _ & _ & Hp & _ & Hlo). rewrite Hlo.
    unfold req_words in *. pose proof (esize_even (a_ft a) (a_count a)). lia. }
  rewrite Hlen, Z.eqb_refl.
  assert (Hm : wmask a mod 256 + 256 * (wmask a / 256) = wmask a) by lia. rewrite Hm.
  rewrite bytes_words by exact Hdok.
  split; [rewrite Et; reflexivity|].
  destruct (reply_layout c pre (tns mod 256) (tns / 256) 0 [] Hc Hpre) as [L1 _]. cbv zeta in L1. cbn [app] in L1.
  unfold ok_tag, write_tag_finish, request_status. rewrite L1. change (0 =? SUCCESS) with true. cbv iota. split; reflexivity.
Qed.

Definition cmd_names (cmd : pccc_cmd) (c : cfg) (a : addr) (fnc tns : Z) : Prop :=
  pc_fnc cmd = fnc /\ pc_cmd cmd = 15 /\ pc_file cmd = a_file a /\ ftype_of_code (pc_type cmd) = Some (a_ft a)
  /\ pc_elem cmd = a_elem a /\ pc_sub cmd = subreq a /\ pc_size cmd = esize (a_ft a) * a_count a
  /\ pc_rid cmd = rid_of c /\ pc_tns cmd = [tns mod 256; tns / 256].

Lemma request_names c a fnc tns rest : cfg_ok c -> wf_addr a = true ->
  target_view (mr_head ++ pccc_req c a fnc tns rest) = Some (req_cmd c a fnc tns rest)
  /\ cmd_names (req_cmd c a fnc tns rest) c a fnc tns.
Proof.
  intros Hc Hwf. split.
  - change (target_view (mr_head ++ ?body)) with (match parse_cmd body with CmdOk x => Some x | _ => None end).
    rewrite parse_req by assumption. reflexivity.
  - unfold cmd_names, req_cmd. cbn [pc_rid pc_cmd pc_tns pc_fnc pc_size pc_file pc_type pc_elem pc_sub].
    repeat split. apply table_facts.
Qed.

Theorem request_names_read c sp a tns :
  cfg_ok c -> wf_addr a = true -> wf_spelling sp a = true -> 0 <= tns < 65536 ->
  exists t req cmd, read_tag_request c tns (render sp a) = RqOk (t, req)
    /\ target_view req = Some cmd /\ cmd_names cmd c a 162 tns /\ pc_rest cmd = [].
Proof.
  intros Hc Hwf Hsp Htns.
  destruct (parse_addr sp a Hwf Hsp) as [name P].
  destruct (request_names c a 162 tns [] Hc Hwf) as [V N].
  unfold read_tag_request, with_tag. rewrite P, read_request_bytes by assumption.
  eexists. eexists. eexists. split; [reflexivity|]. split; [exact V|]. split; [exact N|reflexivity].
Qed.

Theorem request_names_write c sp a tns v dws :
  cfg_ok c -> wf_addr a = true -> wf_spelling sp a = true -> is_tc (a_ft a) = false ->
  0 <= tns < 65536 -> wwords a v = Some dws ->
  exists t req cmd, write_tag_request c tns (render sp a) v = RqOk (t, req)
    /\ target_view req = Some cmd /\ cmd_names cmd c a 171 tns
    /\ pc_rest cmd = le16 (wmask a) ++ words_to_bytes dws.
Proof.
  intros Hc Hwf Hsp Htc Htns Hw.
  destruct (parse_addr sp a Hwf Hsp) as [name P].
  destruct (request_names c a 171 tns (le16 (wmask a) ++ words_to_bytes dws) Hc Hwf) as [V N].
  unfold write_tag_request, with_tag. rewrite P, (write_request_bytes c tns a name v dws) by assumption.
  eexists. eexists. eexists. split; [reflexivity|]. split; [exact V|]. split; [exact N|reflexivity].
Qed.

Theorem read_correct c tbl sp a v tns pre :
  cfg_ok c -> table_ok tbl = true -> wf_addr a = true -> wf_spelling sp a = true ->
  0 <= tns < 65536 -> length pre = 46%nat ->
  ref_read tbl a = Some v ->
  exists t req rep, read_tag_request c tns (render sp a) = RqOk (t, req)
    /\ exec_mr tbl req = (tbl, rep) /\ ok_tag (read_tag_finish t (pre ++ rep)) v.
Proof.
  intros Hc Ht Hwf Hsp Htns Hpre Hr.
  destruct (parse_addr sp a Hwf Hsp) as [name P].
  destruct (read_effect c tbl a name v tns pre Hc Ht Hwf Htns Hpre Hr) as (req & rep & R1 & R2 & R3).
  exists (addr_tag a name), req, rep. unfold read_tag_request, with_tag. rewrite P, R1. auto.
Qed.

Theorem write_then_read c tbl sp a v tns tns' pre pre' tbl' :
  cfg_ok c -> table_ok tbl = true -> wf_addr a = true -> wf_spelling sp a = true -> is_tc (a_ft a) = false ->
  0 <= tns < 65536 -> 0 <= tns' < 65536 ->
  length pre = 46%nat -> length pre' = 46%nat ->
  ref_write tbl a v = Some tbl' ->
  exists t wreq wrep rreq rrep,
    write_tag_request c tns (render sp a) v = RqOk (t, wreq)
    /\ exec_mr tbl wreq = (tbl', wrep) /\ ok_tag (write_tag_finish t v (pre ++ wrep)) v
    /\ read_tag_request c tns' (render sp a) = RqOk (t, rreq)
    /\ exec_mr tbl' rreq = (tbl', rrep) /\ ok_tag (read_tag_finish t (pre' ++ rrep)) (norm a v).
Proof.
  intros Hc Ht Hwf Hsp Htc Htns Htns' Hpre Hpre' Hw.
  destruct (parse_addr sp a Hwf Hsp) as [name P].
  destruct (write_effect c tbl a name v tns pre tbl' Hc Ht Hwf Htc Htns Hpre Hw) as (wreq & wrep & W1 & W2 & W3).
  assert (Hbit : match a_bit a with Some b => 0 <= b <= 15 | None => True end).
  { destruct (a_bit a) as [b|] eqn:Eb; [exact (proj1 (wf_bit a b Hwf Eb))|exact I]. }
  assert (Ht' : table_ok tbl' = true) by (eapply ref_write_ok; eassumption).
  assert (Hrr : ref_read tbl' a = Some (norm a v)).
  { eapply ref_write_read; [eassumption|]. destruct (a_bit a); [lia|exact I]. }
  destruct (read_effect c tbl' a name (norm a v) tns' pre' Hc Ht' Hwf Htns' Hpre' Hrr) as (rreq & rrep & R1 & R2 & R3).
  exists (addr_tag a name), wreq, wrep, rreq, rrep.
  unfold write_tag_request, read_tag_request, with_tag. rewrite P, W1, R1. auto 10.
Qed.

Theorem none_is_request_error c tns s v :
  parse_tag s = PNone ->
  read_tag_request c tns s = RqErr RequestError /\ write_tag_request c tns s v = RqErr RequestError.
Proof. intros H. unfold read_tag_request, write_tag_request, with_tag. rewrite H. split; reflexivity. Qed.
