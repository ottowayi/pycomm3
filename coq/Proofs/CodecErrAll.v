(* Proofs/CodecErrAll.v — C08: the headline statements over the fuel-free [decode] / [encode],
   assembled from CodecErrDec / CodecErrStrict / CodecErrEnc / CodecErrArr, and the witnesses on
   which the faithful model (of /repo after the codec fix wave) still falsifies a full-strength
   statement. *)
From Coq Require Import String.
From PV Require Import Base.Bytes Base.ListLemmas Base.Res Base.Proto.
From PV Require Import Model.Codec.
From PV Require Import Proofs.CodecErrDefs Proofs.CodecErrBase Proofs.CodecErrDec Proofs.CodecErrStrict
  Proofs.CodecErrEnc Proofs.CodecErrArr.
From Coq Require Import ZifyBool.
Open Scope Z_scope.
Ltac Zify.zify_post_hook ::= Z.to_euclidean_division_equations.

(* a decode outcome of the library's own kind: a value, DataError, or BufferEmptyError *)
Definition lib_dec (r : res (val * bytes)) : Prop :=
  match r with Ok _ => True | Err e => e = DataError \/ e = BufferEmpty end.

Theorem decode_errors t bs :
  hprogress t = true -> (has_prefix t = true -> Z.of_nat (length bs) < count_limit) -> lib_dec (decode t bs).
Proof.
  intros Hh Hc. unfold decode.
  pose proof (decode_terminates t Hh (S (length bs)) bs (Nat.lt_succ_diag_r _) Hc) as Hf.
  destruct (decode_fuel (S (length bs)) t bs) eqn:E; cbn; auto.
  - left. exact (decode_lib _ _ _ _ E).
  - contradiction.
Qed.

(* whatever the type: the only foreign outcome of [decode] is the marker of non-termination *)
Theorem decode_foreign_is_hang t bs e :
  decode t bs = Err (Foreign e) -> decode_fuel (S (length bs)) t bs = DOutOfFuel.
Proof.
  unfold decode. destruct (decode_fuel (S (length bs)) t bs) eqn:E; cbn; intros H; try discriminate; [|reflexivity].
  injection H as ->. apply decode_lib in E. discriminate.
Qed.

Lemma hang_not_lib t bs : decode_fuel (S (length bs)) t bs = DOutOfFuel -> ~ lib_dec (decode t bs).
Proof. intros E H. unfold decode in H. rewrite E in H. destruct H; discriminate. Qed.

(* types without a length-prefixed array: every decode terminates, whatever the element types *)
Lemma no_prefix_hprogress : forall t, has_prefix t = false -> hprogress t = true.
Proof.
  induction t as [t Hl| | | | |] using ty_ind_nested; [destruct t; try discriminate Hl; reflexivity|..];
    cbn [has_prefix hprogress]; intros Hp; auto; try discriminate Hp;
    apply forallb_forall; intros m Hin; rewrite Forall_forall in H; exact (H m Hin (existsb_false_In _ _ _ Hp Hin)).
Qed.

Theorem decode_all_terminates t fuel bs :
  has_prefix t = false -> (length bs < fuel)%nat -> decode_fuel fuel t bs <> DOutOfFuel.
Proof.
  intros Hp Hl. apply decode_terminates; [now apply no_prefix_hprogress|exact Hl|]. intros H. congruence.
Qed.

Lemma be_ok_width_strict : forall t w, be_ok t = true -> width_of t = Some w -> strict t = true.
Proof.
  induction t as [t Hl| | | | |] using ty_ind_nested; [destruct t; try discriminate Hl|..];
    intros w0 Hb; cbn [be_ok] in Hb; cbn [width_of strict]; intros Hw; try reflexivity; try discriminate Hw.
  - destruct (0 <=? n); [reflexivity|discriminate].
  - destruct (width_of t) as [w'|] eqn:E; [|discriminate]. exact (IHt w' Hb eq_refl).
  - revert w0 Hw. induction H as [|m ms Hm _ IH]; intros w0 Hw; [reflexivity|]. cbn [forallb map sum_widths] in *.
    apply andb_prop in Hb as [Hb1 Hb2]. destruct (width_of (snd m)) as [a|] eqn:Ea; [|discriminate].
    destruct (sum_widths _) as [b|] eqn:Eb; [|discriminate]. rewrite (Hm a Hb1 eq_refl). exact (IH Hb2 b eq_refl).
  - exact Hb.
Qed.

Theorem no_short_read t bs v rest k :
  be_ok t = true -> decode t bs = Ok (v, rest) -> announced t bs = Some k -> k <= zlen bs.
Proof.
  intros Hb Hd Ha. apply decode_ok_iff in Hd. destruct (width_of t) as [w|] eqn:Ew.
  - pose proof (be_ok_width_strict t w Hb Ew) as Hs. rewrite (strict_announced t bs Hs) in Ha. injection Ha as <-.
    pose proof (strict_decode t Hs (S (length bs)) bs) as H. rewrite Hd in H. cbn in H. unfold zlen. lia.
  - destruct t; try (unfold announced in Ha; rewrite Ew in Ha; discriminate Ha).
    + exact (str_no_short _ _ _ _ _ _ _ _ Hd Ha).
    + exact (stringn_no_short _ _ _ _ _ Hd Ha).
Qed.

Theorem strict_consumes_width t bs v rest :
  strict t = true -> decode t bs = Ok (v, rest) -> length bs = (swidth t + length rest)%nat.
Proof.
  intros Hs Hd. apply decode_ok_iff in Hd. pose proof (strict_decode t Hs (S (length bs)) bs) as H. now rewrite Hd in H.
Qed.

(* the fixed-width clause of the guarded statement (Props/C08.v), over the spec-side width *)
Theorem no_short_fixed_width t w bs v rest :
  be_ok t = true -> width_of t = Some w -> decode t bs = Ok (v, rest) -> (w <= length bs)%nat.
Proof.
  intros Hb Hw Hd. pose proof (be_ok_width_strict t w Hb Hw) as Hs. rewrite (strict_width_of t Hs) in Hw. injection Hw as <-.
  pose proof (strict_consumes_width t bs v rest Hs Hd). lia.
Qed.

Theorem decode_all_exact_items e (items : list (bytes * val)) :
  is_bits e = false ->
  (forall b v, In (b, v) items -> b <> [] /\ forall fuel tail, decode_fuel fuel e (b ++ tail) = DOk v tail) ->
  (forall fuel, decode_fuel fuel e [] = DEmpty []) ->
  decode (TArrAll e) (concat (map fst items)) = Ok (VList (map snd items), []).
Proof.
  intros Hb Hit Hnil. unfold decode. cbn [decode_fuel]. unfold array_decode_all.
  rewrite (decode_all_exact _ items); [now rewrite Hb| |apply Hnil|lia].
  intros b v Hin. destruct (Hit b v Hin) as [H1 H2]. split; [exact H1|]. intros tail. apply H2.
Qed.

Theorem decode_all_exact_fixed t k bs :
  total_leaf t = true -> length bs = (k * swidth t)%nat ->
  exists vs, length vs = k /\ decode (TArrAll t) bs = Ok (VList vs, []).
Proof.
  intros Ht Hl. destruct (unbounded_array_exact_fixed t k bs Ht Hl) as (vs & Hn & Hd).
  exists vs. split; [exact Hn|]. unfold decode. rewrite Hd; [reflexivity|lia].
Qed.

Definition ty_named (s : string) : ty := match ty_of_name (zs_of_string s) with Some t => t | None => TBool end.
Definition UINT_ty := ty_named "UINT".
Definition UDINT_ty := ty_named "UDINT".
Definition STRING_ty := ty_named "STRING".
Definition STRINGN_ty := ty_named "STRINGN".
Definition BYTE_ty := ty_named "BYTE".

(* BYTE[2].encode([True] * 8) == b"\xff" : one element instead of two, no error *)
Lemma w_bits_array : bad (TArrFixed 2 BYTE_ty) (VList (repeat (VBool true) 8)) = true
                     /\ encode (TArrFixed 2 BYTE_ty) (VList (repeat (VBool true) 8)) = Ok [255].
Proof. split; reflexivity. Qed.
(* Array(UDINT, Struct()).decode(b"\xff\xff\xff\xff"): 4294967295 rounds over an exhausted buffer *)
Lemma w_prefix_zero_width : forall fuel,
  decode_fuel fuel (TArrPrefix false UDINT_ty (TStruct SPlain [])) [255; 255; 255; 255] = DOutOfFuel.
Proof.
  intros fuel. change UDINT_ty with (TInt false 4). cbn [decode_fuel map]. unfold array_decode_prefix.
  assert (Hi : int_decode false 4 [255; 255; 255; 255] = DOk (VInt 4294967295) []) by reflexivity.
  rewrite Hi. cbn [dbind].
  destruct (decode_n_zero_width (struct_decode SPlain []) (VDict []) (fun bs => eq_refl) (Z.to_nat (Z.min 4294967295 count_limit)) [])
    as [vs Hvs].
  rewrite Hvs. reflexivity.
Qed.
