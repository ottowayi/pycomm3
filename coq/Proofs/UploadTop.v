(* Proofs/UploadTop.v — C05: LogixDriver.get_tag_list(None) and get_tag_list("*") of a fresh
   driver against the reference target, whole:
   * the bookkeeping of programs, routines and tasks over a scope ([book_cons], [book_ctrl], [book_prog]);
   * the controller scope ([ctrl_ok]), then every program scope in the order of the programs
     dictionary ([progs_ok]): the uploaded tags are the visible tags of those scopes, each with the
     expected observation; the structures of the visible tags are in data_types, and everything
     there is reachable from them ([upload_none], [upload_star]). *)
From PV Require Import Base.Bytes Base.BytesLemmas Base.PyStr.
From PV Require Import Spec.Project Spec.Expect Spec.TargetLogix Spec.UploadObs.
From PV Require Import Model.LogixUpload.
From PV Require Import Proofs.UploadDefs Proofs.UploadDict Proofs.UploadParse Proofs.UploadFilter Proofs.UploadTemplate Proofs.UploadBlob
  Proofs.UploadObsP Proofs.UploadTarget Proofs.UploadMirror Proofs.UploadScope.
Open Scope list_scope.
Open Scope Z_scope.

Lemma tdict_get_app_none {V} (d : list (text * V)) k k' v :
  PyStr.text_eqb k' k = false -> dict_get PyStr.text_eqb (d ++ [(k', v)]) k = dict_get PyStr.text_eqb d k.
Proof. apply dict_get_app_other. Qed.

Lemma tdict_set_present {V} (d : list (text * V)) k v :
  map fst (dict_set PyStr.text_eqb d k v) = map fst d \/ map fst (dict_set PyStr.text_eqb d k v) = map fst d ++ [k].
Proof. apply dict_set_keys. Qed.

Definition is_prog (g : tagdef) : bool := starts_with txt_Program (g_name g).
Definition is_routine (g : tagdef) : bool := starts_with txt_Routine (g_name g).
Definition is_task (g : tagdef) : bool := starts_with txt_Task (g_name g).

(* what follows "Program:" / "Routine:" (8 characters; "Task:" has 5) *)
Definition nm8 (g : tagdef) : text := skipn 8 (g_name g).
Definition prog_entry (g : tagdef) : text * (Z * list text) := (nm8 g, (g_inst g, [])).
Definition task_entry (g : tagdef) : text * Z := (skipn 5 (g_name g), g_inst g).
Definition routines_in (gs : list tagdef) : list text := map nm8 (filter is_routine gs).

Lemma task_not_prog g : is_task g = true -> is_prog g = false.
Proof.
  unfold is_task, is_prog, txt_Task, txt_Program. intros H. eapply starts_with_first_char; [exact H | lia].
Qed.
Lemma routine_not_prog g : is_routine g = true -> is_prog g = false.
Proof.
  unfold is_routine, is_prog, txt_Routine, txt_Program. intros H. eapply starts_with_first_char; [exact H | lia].
Qed.

Section Book.
  Variable p : project.
  Variable cap : Z.
  Hypothesis Htagdom : Forall (tag_dom cap) (p_tags p).

  (* the part of [tag_dom] that the bookkeeping rests on *)
  Lemma tag_kind g : In g (p_tags p) ->
    (is_prog g = true -> g_scope g = ScCtrl /\ contains_str txt_Program (nm8 g) = false)
    /\ (is_routine g = true -> contains_str txt_Routine (nm8 g) = false)
    /\ (is_task g = true -> g_scope g = ScCtrl /\ contains_str txt_Task (skipn 5 (g_name g)) = false).
  Proof.
    intros Hin. destruct (proj1 (Forall_forall _ _) Htagdom g Hin) as (_ & _ & _ & _ & HP & HRT).
    split; [|exact HRT]. intros E. split; apply (HP E).
  Qed.

  (* one symbol of the project, by its kind *)
  Lemma book_cons prog P T g gs : In g (p_tags p) ->
    book prog (P, T) (g :: gs)
    = book prog (if is_task g then (P, dict_set PyStr.text_eqb T (skipn 5 (g_name g)) (g_inst g))
                 else if is_prog g then (dict_set PyStr.text_eqb P (nm8 g) (g_inst g, []), T)
                 else if is_routine g then
                   (match prog with
                    | Some pn => match dict_get PyStr.text_eqb P pn with
                                 | Some (i, rs) => dict_set PyStr.text_eqb P pn (i, rs ++ [nm8 g])
                                 | None => P
                                 end
                    | None => P
                    end, T)
                 else (P, T)) gs.
  Proof.
    intros Hin. destruct (tag_kind g Hin) as (HP & HR & HT).
    change (book prog (P, T) (g :: gs)) with (book prog (book_step prog (P, T) g) gs). f_equal.
    unfold book_step, is_task, is_prog, is_routine, nm8. set (n := g_name g). set (w := sym_type_word g).
    destruct (starts_with txt_Task n) eqn:ET; [rewrite (classify_task n w ET (proj2 (HT ET))); reflexivity|].
    destruct (starts_with txt_Program n) eqn:EP; [rewrite (classify_program n w EP (proj2 (HP EP))); reflexivity|].
    destruct (starts_with txt_Routine n) eqn:ER; [rewrite (classify_routine n w ER (HR ER)); reflexivity|].
    (* any other symbol is skipped or kept as a tag *)
    unfold classify. rewrite txt_Program_eq, EP, txt_Routine_eq, ER, txt_Task_eq, ET.
    destruct (_ || _); [reflexivity|]. destruct (_ || _); [reflexivity|]. destruct (negb _); reflexivity.
  Qed.

  (* the controller scope: programs and tasks are recorded, in order *)
  Lemma book_ctrl : forall gs (P : list (text * (Z * list text))) (T : list (text * Z)),
    (forall g, In g gs -> In g (p_tags p)) ->
    NoDup (map fst P ++ map nm8 (filter is_prog gs)) ->
    NoDup (map fst T ++ map (fun g => skipn 5 (g_name g)) (filter is_task gs)) ->
    book None (P, T) gs = (P ++ map prog_entry (filter is_prog gs), T ++ map task_entry (filter is_task gs)).
  Proof.
    induction gs as [|g gs IH]; intros P T Hin HP HT.
    - cbn. rewrite !app_nil_r. reflexivity.
    - rewrite (book_cons None P T g gs (Hin g (or_introl eq_refl))).
      specialize (fun P T => IH P T (fun g0 H0 => Hin g0 (or_intror H0))).
      cbn [filter] in *. destruct (is_task g) eqn:ET.
      + rewrite (task_not_prog g ET) in *. cbn [map] in HT.
        rewrite (dict_set_absent _ _ _ _ (dict_get_fresh _ text_eqb_eq _ _ _ HT)), IH; [rewrite <- app_assoc; reflexivity | exact HP |].
        rewrite map_app, <- app_assoc. exact HT.
      + destruct (is_prog g).
        * cbn [map] in HP.
          rewrite (dict_set_absent _ _ _ _ (dict_get_fresh _ text_eqb_eq _ _ _ HP)), IH; [rewrite <- app_assoc; reflexivity | | exact HT].
          rewrite map_app, <- app_assoc. exact HP.
        * destruct (is_routine g); apply IH; assumption.
  Qed.

  (* program and task symbols live in the controller scope *)
  Lemma scoped_kind g pn : In g (p_tags p) -> g_scope g = ScProg pn -> is_prog g = false /\ is_task g = false.
  Proof.
    intros Hin Hsc. destruct (tag_kind g Hin) as (HP & _ & HT). split.
    - destruct (is_prog g); [|reflexivity]. destruct (HP eq_refl) as (Hc & _). congruence.
    - destruct (is_task g); [|reflexivity]. destruct (HT eq_refl) as (Hc & _). congruence.
  Qed.

  (* a program scope: its routines are appended to the program's entry, which stays in place *)
  Lemma book_prog pn : forall gs a b T i rs,
    (forall g, In g gs -> In g (p_tags p) /\ g_scope g = ScProg pn) ->
    dict_get PyStr.text_eqb a pn = None ->
    book (Some pn) (a ++ (pn, (i, rs)) :: b, T) gs = (a ++ (pn, (i, rs ++ routines_in gs)) :: b, T).
  Proof.
    induction gs as [|g gs IH]; intros a b T i rs Hgs Ha.
    - cbn. rewrite app_nil_r. reflexivity.
    - destruct (Hgs g (or_introl eq_refl)) as (Hin & Hsc). destruct (scoped_kind g pn Hin Hsc) as [EP ET].
      specialize (fun a b T i rs => IH a b T i rs (fun g0 H0 => Hgs g0 (or_intror H0))).
      rewrite (book_cons _ _ _ g gs Hin), ET, EP. unfold routines_in. cbn [filter].
      destruct (is_routine g); [|apply IH; exact Ha].
      rewrite dict_get_app, Ha. cbn [dict_get]. rewrite text_eqb_refl.
      rewrite (dict_set_app _ _ _ _ _ Ha). cbn [dict_set]. rewrite text_eqb_refl.
      rewrite (IH _ _ _ _ _ Ha). cbn [map]. rewrite <- app_assoc. reflexivity.
  Qed.
End Book.

(* what C05 asks of a project beyond Spec/Project.wf_project: a capacity that lets the attribute
   reply of a template (34 bytes) through and is a UINT; symbols listed in ascending instance order
   (the pager continues from the last instance + 1); the domains of the symbols and of the templates
   (Proofs/UploadScope.tag_dom, Proofs/UploadMirror.tmpl_dom); distinct display names of the types
   (data_types is keyed by them); a program-scoped tag names a program that has a symbol; program
   and task names distinct (info['programs'|'tasks'] are keyed by them) *)
Record upload_dom (p : project) (cap : Z) : Prop := {
  d_cap : 34 <= cap <= 65535;
  d_sorted : sorted_by_inst (p_tags p) = true;
  d_tags : Forall (tag_dom cap) (p_tags p);
  d_templates : Forall tmpl_dom (p_templates p);
  d_display : NoDup (map (fun t => display_name (t_name t)) (p_templates p));
  (* a tag's scope names its program exactly as the program symbol does *)
  d_scope_exact : forall g pn, In g (p_tags p) -> In pn (program_names p) ->
                               scope_eqb (g_scope g) (ScProg pn) = true -> g_scope g = ScProg pn;
  d_scope_known : forall g pn, In g (p_tags p) -> g_scope g = ScProg pn -> In pn (program_names p);
  d_prog_names : NoDup (program_names p);
  d_task_names : NoDup (map (fun g => skipn 5 (g_name g)) (filter is_task (scope_tags p ScCtrl)))
}.

Lemma contains_false_starts p s : contains_str p s = false -> starts_with p s = false.
Proof.
  unfold contains_str, find. destruct s as [|c s]; cbn [find_from]; destruct (starts_with p _); try reflexivity; discriminate.
Qed.

Section Top.
  Variable p : project.
  Variable pol : policy.
  Variable cap rev_major : Z.

  Let ts := p_templates p.
  Let st0 : lstate := target_state p pol.
  Let wa := with_access rev_major.

  Hypothesis Hwf : wf_project p = true.
  Hypothesis Hdom : upload_dom p cap.

  Lemma wf_templates : templates_ok [] ts = true.
  Proof. unfold wf_project in Hwf. split_andb. assumption. Qed.
  Lemma wf_tags : forallb (tag_ok p) (p_tags p) = true.
  Proof. unfold wf_project in Hwf. split_andb. assumption. Qed.

  Definition vis (gs : list tagdef) : list tagdef := filter (fun g => negb (hidden_symbol g)) gs.
  Lemma vis_flat_map {A} (f : A -> list tagdef) l : vis (flat_map f l) = flat_map (fun x => vis (f x)) l.
  Proof. induction l as [|x l IH]; [reflexivity|]. cbn [flat_map]. rewrite <- IH. apply filter_app. Qed.
  Definition tagrel (g : tagdef) (mt : mtag) : Prop :=
    tag_obs_ok p rev_major g (otag_of_mtag wa mt) /\ tg_name mt = full_name g.

  Definition ctrl : list tagdef := scope_tags p ScCtrl.
  Definition PS : list tagdef := filter is_prog ctrl.

  Lemma ctrl_scope g : In g ctrl -> In g (p_tags p) /\ g_scope g = ScCtrl.
  Proof.
    unfold ctrl, scope_tags. intros H. apply filter_In in H. destruct H as [H1 H2]. split; [exact H1|].
    destruct (g_scope g); [reflexivity | discriminate].
  Qed.

  Lemma PS_names : map nm8 PS = program_names p.
  Proof.
    unfold program_names, PS, ctrl, scope_tags. induction (p_tags p) as [|g l IH]; [reflexivity|].
    cbn [flat_map filter]. unfold is_program_symbol at 1. destruct (g_scope g); cbn [scope_eqb filter].
    - unfold is_prog at 1. destruct (starts_with txt_Program (g_name g)); cbn [app map]; rewrite IH; reflexivity.
    - exact IH.
  Qed.

  Lemma prog_scope_arg pn : In pn (program_names p) -> scope_arg_ok p (Some pn) (ScProg pn).
  Proof.
    intros Hin. pose proof Hin as Hin0. rewrite <- PS_names in Hin. apply in_map_iff in Hin. destruct Hin as (g & <- & Hg).
    apply filter_In in Hg. destruct Hg as [Hg Hp]. destruct (ctrl_scope g Hg) as [Hin _].
    destruct (proj1 (Forall_forall _ _) (d_tags p cap Hdom) g Hin) as (_ & _ & _ & _ & HP & _).
    destruct (HP Hp) as (_ & Hne & Hc & Hl).
    exact (conj eq_refl (conj Hne (conj (contains_false_starts _ _ Hc) (conj Hl Hin0)))).
  Qed.

  Lemma prog_scope_tags pn : In pn (program_names p) -> forall g, In g (scope_tags p (ScProg pn)) ->
    In g (p_tags p) /\ g_scope g = ScProg pn.
  Proof.
    intros Hpn g Hg. apply filter_In in Hg. destruct Hg as [Hin Hsc].
    split; [exact Hin | exact (d_scope_exact p cap Hdom g pn Hin Hpn Hsc)].
  Qed.

  Section WithRoots.
    Variable R : Z -> Prop.

    (* the tags [gs] of some scopes have been uploaded, from state [u] to [u'], giving the records [new] *)
    Definition uploaded (gs : list tagdef) (u u' : ustate) (new : list mtag) : Prop :=
      Forall2 tagrel (vis gs) new /\ Inv p R u' /\ incl (keys u) (keys u')
      /\ (forall g tid, In g (vis gs) -> g_ty g = BStruct tid -> In tid (keys u')).

    Lemma uploaded_app gs1 gs2 u u1 u2 n1 n2 :
      uploaded gs1 u u1 n1 -> uploaded gs2 u1 u2 n2 -> uploaded (gs1 ++ gs2) u u2 (n1 ++ n2).
    Proof.
      intros (F1 & _ & K1 & P1) (F2 & I2 & K2 & P2). unfold uploaded, vis. rewrite filter_app.
      split; [apply Forall2_app; assumption|]. split; [exact I2|]. split; [eapply incl_tran; eassumption|].
      intros g tid Hg Ht. apply in_app_iff in Hg. destruct Hg as [Hg | Hg]; [apply K2|]; eauto.
    Qed.

    (* one scope: pager, filter, tag records, structures *)
    Lemma scope_ok prog sc fuel u :
      scope_arg_ok p prog sc -> (fuel_bound p <= fuel)%nat -> Inv p R u ->
      (forall g tid, In g (scope_tags p sc) -> hidden_symbol g = false -> g_ty g = BStruct tid -> R tid) ->
      exists u' new,
        get_tag_list_scope lstate (target_call cap) rev_major fuel u st0 prog = (st0, u', Done new)
        /\ uploaded (scope_tags p sc) u u' new
        /\ (u_programs u', u_tasks u') = book prog (u_programs u, u_tasks u) (scope_tags p sc).
    Proof.
      intros Harg Hfuel Hinv HR. unfold get_tag_list_scope.
      assert (Hgs : forall g, In g (scope_tags p sc) ->
                In g (p_tags p) /\ match prog with None => g_scope g = ScCtrl | Some pn => g_scope g = ScProg pn end).
      { intros g Hg. destruct prog as [pn|].
        - destruct Harg as (-> & _ & _ & _ & Hpn). exact (prog_scope_tags pn Hpn g Hg).
        - cbn [scope_arg_ok] in Harg. subst sc. exact (ctrl_scope g Hg). }
      pose proof (d_cap p cap Hdom) as Hcap.
      pose proof (scope_symbols p pol cap rev_major wf_templates Hcap wf_tags (d_sorted p cap Hdom) (d_tags p cap Hdom) prog sc fuel Harg
                                ltac:(unfold fuel_bound in Hfuel; lia)) as Esym.
      fold st0 in Esym. rewrite Esym.
      destruct (isolate_ok p pol cap rev_major wf_templates Hcap wf_tags (d_tags p cap Hdom) R (d_templates p cap Hdom)
                           (d_display p cap Hdom) prog (scope_tags p sc) Hgs HR fuel u [])
        as (u' & new & E & HF & Hi & Hk & Hp & Hb).
      { unfold fuel_bound in Hfuel. lia. }
      { exact Hinv. }
      exists u', new. fold st0 in E. unfold raw_of_tag in E. fold wa in E |- *. rewrite E. cbn [app].
      split; [reflexivity|]. split; [|exact Hb]. exact (conj HF (conj Hi (conj Hk Hp))).
    Qed.

    (* the controller scope, from the empty state *)
    Lemma ctrl_ok fuel : (fuel_bound p <= fuel)%nat ->
      (forall g tid, In g ctrl -> hidden_symbol g = false -> g_ty g = BStruct tid -> R tid) ->
      exists u new,
        get_tag_list_scope lstate (target_call cap) rev_major fuel init_ustate st0 None = (st0, u, Done new)
        /\ uploaded ctrl init_ustate u new
        /\ u_programs u = map prog_entry PS /\ u_tasks u = map task_entry (filter is_task ctrl).
    Proof.
      intros Hfuel HR.
      assert (Hinit : Inv p R init_ustate).
      { constructor; unfold keys; cbn [init_ustate u_udts u_structs u_data_types map dict_get];
          [discriminate | discriminate | constructor | reflexivity | intros ? ? ? [] | intros ? []]. }
      destruct (scope_ok None ScCtrl fuel init_ustate eq_refl Hfuel Hinit HR) as (u & new & E & G & Hb).
      fold ctrl in Hb. cbn [init_ustate u_programs u_tasks] in Hb.
      rewrite (book_ctrl p cap (d_tags p cap Hdom) ctrl [] []) in Hb.
      - injection Hb as Hb1 Hb2. exists u, new. auto.
      - intros g Hg. apply (ctrl_scope g Hg).
      - fold PS. cbn [map app]. rewrite PS_names. exact (d_prog_names p cap Hdom).
      - exact (d_task_names p cap Hdom).
    Qed.

    Definition with_routines (kv : text * (Z * list text)) : text * (Z * list text) :=
      (fst kv, (fst (snd kv), snd (snd kv) ++ routines_in (scope_tags p (ScProg (fst kv))))).

    (* every program scope, in the order of the programs dictionary: the entries before the one
       at hand have their routines, those from it on do not yet *)
    Lemma progs_ok fuel : (fuel_bound p <= fuel)%nat ->
      (forall pn g tid, In pn (program_names p) -> In g (scope_tags p (ScProg pn)) -> hidden_symbol g = false ->
                        g_ty g = BStruct tid -> R tid) ->
      forall todo done u acc,
      u_programs u = done ++ todo -> NoDup (map fst done ++ map fst todo) ->
      incl (map fst todo) (program_names p) -> Inv p R u ->
      exists u' new,
        program_tag_lists lstate (target_call cap) rev_major fuel u st0 (map fst todo) acc = (st0, u', Done (acc ++ new))
        /\ uploaded (flat_map (fun pn => scope_tags p (ScProg pn)) (map fst todo)) u u' new
        /\ u_programs u' = done ++ map with_routines todo /\ u_tasks u' = u_tasks u.
    Proof.
      intros Hfuel HR. induction todo as [|[pn [i rs]] todo IH]; intros done u acc Hu Hnd Hnames Hinv.
      - exists u, []. cbn [program_tag_lists flat_map map]. rewrite app_nil_r.
        split; [reflexivity|]. split; [|auto].
        split; [constructor|]. split; [exact Hinv|]. split; [apply incl_refl | intros ? ? []].
      - cbn [map fst] in *. destruct (incl_cons_inv Hnames) as [Hpn Hnames'].
        destruct (scope_ok (Some pn) (ScProg pn) fuel u (prog_scope_arg pn Hpn) Hfuel Hinv) as (u1 & new1 & E1 & G1 & Hb1).
        { intros g tid Hg. apply (HR pn g tid Hpn Hg). }
        rewrite Hu, (book_prog p cap (d_tags p cap Hdom) pn) in Hb1;
          [|exact (prog_scope_tags pn Hpn) | exact (dict_get_fresh _ text_eqb_eq _ _ _ Hnd)].
        injection Hb1 as Hprogs1 Htasks1.
        cbn [program_tag_lists]. rewrite E1, Hprogs1, Hu, !app_length. cbn [length]. rewrite Nat.eqb_refl. cbn [negb].
        destruct (IH (done ++ [with_routines (pn, (i, rs))]) u1 (acc ++ new1)) as (u' & new & E & G & Hpp & Htt).
        { rewrite <- app_assoc. exact Hprogs1. }
        { rewrite map_app, <- app_assoc. exact Hnd. }
        { exact Hnames'. }
        { apply G1. }
        exists u', (new1 ++ new). rewrite E, <- app_assoc. split; [reflexivity|].
        split; [exact (uploaded_app _ _ _ _ _ _ _ G1 G)|].
        split; [rewrite Hpp, <- app_assoc; reflexivity | congruence].
    Qed.
  End WithRoots.

  Definition R_ctrl (tid : Z) : Prop :=
    exists g, In g ctrl /\ hidden_symbol g = false /\ g_ty g = BStruct tid.
  Definition R_star (tid : Z) : Prop :=
    exists g, In g (p_tags p) /\ hidden_symbol g = false /\ g_ty g = BStruct tid.

  Theorem upload_none fuel : (fuel_bound p <= fuel)%nat ->
    exists r, upload_target cap rev_major fuel p pol ArgNone = Done r
      /\ Forall2 tagrel (vis ctrl) (res_tags r)
      /\ Inv p R_ctrl (res_state r)
      /\ (forall g tid, In g (vis ctrl) -> g_ty g = BStruct tid -> In tid (keys (res_state r)))
      /\ u_programs (res_state r) = map prog_entry PS
      /\ u_tasks (res_state r) = map task_entry (filter is_task ctrl).
  Proof.
    intros Hfuel. unfold upload_target, get_tag_list.
    change (set_data_types [] (set_tasks [] (set_programs [] (set_udts [] (set_structs [] init_ustate))))) with init_ustate.
    destruct (ctrl_ok R_ctrl fuel Hfuel) as (u & new & E & (HF & Hi & _ & Hp) & Hb).
    { intros g tid Hg Hv Ht. exists g. auto. }
    fold st0. rewrite E. eexists. split; [reflexivity | exact (conj HF (conj Hi (conj Hp Hb)))].
  Qed.

  Definition star_tags : list tagdef := vis ctrl ++ flat_map (fun pn => vis (scope_tags p (ScProg pn))) (program_names p).
  Definition star_programs : list (text * (Z * list text)) :=
    map (fun g => (nm8 g, (g_inst g, routines_in (scope_tags p (ScProg (nm8 g)))))) PS.

  Theorem upload_star fuel : (fuel_bound p <= fuel)%nat ->
    exists r, upload_target cap rev_major fuel p pol ArgStar = Done r
      /\ Forall2 tagrel star_tags (res_tags r)
      /\ Inv p R_star (res_state r)
      /\ (forall g tid, In g star_tags -> g_ty g = BStruct tid -> In tid (keys (res_state r)))
      /\ u_programs (res_state r) = star_programs
      /\ u_tasks (res_state r) = map task_entry (filter is_task ctrl).
  Proof.
    intros Hfuel. unfold upload_target, get_tag_list.
    change (set_data_types [] (set_tasks [] (set_programs [] (set_udts [] (set_structs [] init_ustate))))) with init_ustate.
    destruct (ctrl_ok R_star fuel Hfuel) as (u1 & new1 & E1 & G1 & Hb1 & Hb2).
    { intros g tid Hg Hv Ht. exists g. split; [apply (ctrl_scope g Hg) | auto]. }
    fold st0. rewrite E1, Hb1.
    assert (Hk : map fst (map prog_entry PS) = program_names p) by (rewrite map_map; exact PS_names).
    destruct (progs_ok R_star fuel Hfuel) with (todo := map prog_entry PS) (done := @nil (text * (Z * list text))) (u := u1) (acc := new1)
      as (u' & new & E & G & Hpp & Htt); [|exact Hb1| | |apply G1|].
    { intros pn g tid Hpn Hg Hv Ht. exists g. destruct (prog_scope_tags pn Hpn g Hg) as (H1 & _). auto. }
    { rewrite Hk. exact (d_prog_names p cap Hdom). }
    { rewrite Hk. apply incl_refl. }
    rewrite Hk in *. rewrite E. eexists. split; [reflexivity|]. cbn [res_tags res_state].
    destruct (uploaded_app _ _ _ _ _ _ _ _ G1 G) as (HF & Hi & _ & Hp).
    assert (Hvis : vis (ctrl ++ flat_map (fun pn => scope_tags p (ScProg pn)) (program_names p)) = star_tags).
    { unfold star_tags. rewrite <- vis_flat_map. apply filter_app. }
    rewrite Hvis in HF, Hp. split; [exact HF|]. split; [exact Hi|]. split; [exact Hp|].
    split; [|congruence]. rewrite Hpp, map_map. reflexivity.
  Qed.
End Top.
