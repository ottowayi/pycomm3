(* Proofs/ReadTarget.v — what the reference target answers to the client's read messages.
     quiet                    the part of the target state a read call depends on and leaves unchanged
     peer_tag                 target_peer on a single-service message whose path resolves to a tag location:
                              the reply is the service's reply as message-router bytes (mr_bytes); peer_read /
                              peer_frag are Read Tag / Read Tag Fragmented
     svc_read_full            Read Tag returns type field ++ the whole addressed data when it fits
     svc_read_frag_step       Read Tag Fragmented from an aligned offset returns the next k >= 1 bytes,
                              status 6 while more remains
     loc_bytes_slice          every fragment is a slice of the whole addressed data *)
From Coq Require Import ZifyBool.
From PV Require Import Base.Bytes Base.BytesLemmas Base.Res Base.PyStr.
From PV Require Import Spec.EncapParser Spec.MRParser Spec.TargetIface Spec.TargetCore Spec.Project Spec.Expect Spec.TargetLogix.
From PV Require Import Proofs.PathStr Proofs.TargetCoreP Proofs.TargetLogixP Proofs.ReadBits.
From PV Require Import Model.Path Model.LogixRead.
Open Scope Z_scope.
(* The imported files add the division equations to lia's preprocessing (zify_post_hook; an Ltac redefinition is global
   and reaches every importer), which is slow on every call. Off in this file, where the few goals about / and mod call
   Z.to_euclidean_division_equations themselves; the last line sets it again for the files that import this one. *)
Ltac Zify.zify_post_hook ::= idtac.

Definition quiet (app : lstate) (ms : bool) (st : tstate lstate) : Prop :=
  t_inject st = [] /\ t_app st = app /\ cf_multi_service (t_cfg st) = ms.

Lemma quiet_logs app ms evs st : quiet app ms st -> quiet app ms (logs evs st).
Proof. intros (A & B & C). repeat split; assumption. Qed.
Lemma quiet_set_inject app ms st : quiet app ms st -> quiet app ms (set_inject [] st).
Proof. intros (A & B & C). repeat split; assumption. Qed.
Lemma quiet_set_app app ms st : quiet app ms st -> quiet app ms (set_app app st).
Proof. intros (A & B & C). repeat split; assumption. Qed.

(* a tag path never addresses the identity object or the message router *)
Definition tag_cia (path : bytes) : Prop :=
  path_cia path = None \/ exists i a, path_cia path = Some (107, i, a).

Lemma dispatch_one_tag app ms st tr cap seq rq l rp evs :
  quiet app ms st -> tag_cia (mr_path rq) ->
  resolve_path (ls_proj app) (mr_service rq =? 85) (mr_path rq) = TgTag l ->
  tag_service app l cap rq = (app, rp, evs) ->
  exists st', dispatch_one logix_handler tr cap seq st rq = (st', rp) /\ quiet app ms st'.
Proof.
  intros Hq Hcia Hres Hsvc.
  unfold dispatch_one, with_injection.
  assert (Hq1 : quiet app ms (logs [EvRequest tr seq rq] st)) by (apply quiet_logs; exact Hq).
  destruct Hq1 as (Hi & Ha & Hm). rewrite Hi. cbn [take_injection].
  set (st2 := set_inject [] (logs [EvRequest tr seq rq] st)).
  assert (Hq2 : quiet app ms st2) by (apply quiet_set_inject; repeat split; assumption).
  assert (Hreq : h_request logix_handler (t_app st2) tr cap rq = Some (app, rp, evs)).
  { destruct Hq2 as (_ & Ha2 & _). rewrite Ha2. cbn [h_request logix_handler]. unfold logix_request.
    rewrite Hres, Hsvc. reflexivity. }
  destruct Hcia as [Hn|(i & a & Hs)].
  - rewrite Hn, Hreq. eexists. split; [reflexivity|]. apply quiet_logs, quiet_set_app. exact Hq2.
  - rewrite Hs. cbv iota beta. rewrite Hreq. eexists. split; [reflexivity|]. apply quiet_logs, quiet_set_app. exact Hq2.
Qed.

(* a request path as the client encodes it: length byte (16-bit words) then the padded EPATH *)
Definition path_wf (path pb : bytes) : Prop :=
  path = (EncapParser.blen pb / 2) :: pb /\ Z.even (EncapParser.blen pb) = true /\ EncapParser.blen pb < 512.

Lemma parse_mr_msg svc path pb data :
  path_wf path pb -> 0 <= svc < 128 ->
  parse_mr (svc :: path ++ data) = RcOk {| mr_service := svc; mr_path := pb; mr_data := data |}.
Proof.
  intros (-> & Hev & Hlt) Hsvc. cbn [app parse_mr].
  replace (128 <=? svc) with false by lia.
  replace (2 * (EncapParser.blen pb / 2)) with (EncapParser.blen pb).
  - rewrite takez_app. reflexivity.
  - apply Z.even_spec in Hev. destruct Hev as [k Hk]. rewrite Hk. rewrite (Z.mul_comm 2 k), Z.div_mul by lia. lia.
Qed.

Lemma u16_le_enc n : 0 <= n < 65536 -> le_enc 2 n = [n mod 256; (n / 256) mod 256] /\ u16 (n mod 256) ((n / 256) mod 256) = n.
Proof. intros H. split; [reflexivity|]. apply u16_enc. exact H. Qed.

Theorem svc_read_full p pol img l cap n s tb d :
  0 <= n < 65536 -> loc_esize p l = Some s -> type_bytes p l = Some tb -> 1 <= s ->
  1 <= n <= w_avail l -> n * s <= cap - 4 - Expect.blen tb ->
  loc_bytes pol img l 0 (n * s) = Some d ->
  svc_read p pol img l cap (le_enc 2 n) = (reply6 false (tb ++ d), []).
Proof.
  intros Hn Hs Htb Hs1 Hav Hfit Hd.
  destruct (u16_le_enc n Hn) as [He Hu]. rewrite He. unfold svc_read. rewrite Hu, Hs, Htb.
  replace (s <? 1) with false by lia.
  replace ((n <? 1) || (w_avail l <? n)) with false by lia.
  replace (n * s <=? cap - 4 - Expect.blen tb) with true by lia.
  replace (n * s <? 1) with false by nia.
  rewrite Hd. replace (n * s <? n * s) with false by lia. reflexivity.
Qed.

Definition frag_lim (pol : policy) (l : wloc) (s room off : Z) : Z :=
  let want := pol_entry (po_frag pol) off in
  let lim0 := if want <=? 0 then room else Z.min want room in
  if loc_is_struct l then Z.max 1 lim0 else Z.max s (lim0 - lim0 mod s).

Lemma frag_lim_bounds pol l s room off : 1 <= s -> s <= room ->
  1 <= frag_lim pol l s room off <= room /\ (loc_is_struct l = false -> frag_lim pol l s room off mod s = 0).
Proof.
  intros Hs Hr. unfold frag_lim.
  set (want := pol_entry (po_frag pol) off).
  set (lim0 := if want <=? 0 then room else Z.min want room).
  assert (H0 : lim0 <= room) by (subst lim0; destruct (want <=? 0); lia).
  destruct (loc_is_struct l).
  - split; [lia|discriminate].
  - split.
    + assert (lim0 - lim0 mod s <= room \/ lim0 < 0) by (destruct (Z.le_gt_cases 0 lim0); [left; (Z.to_euclidean_division_equations; nia)|right; lia]). Z.to_euclidean_division_equations; nia.
    + intros _. assert (Hm : (lim0 - lim0 mod s) mod s = 0).
      { rewrite Zminus_mod, Z.mod_mod, Z.sub_diag by lia. apply Z.mod_0_l. lia. }
      destruct (Z.max_spec s (lim0 - lim0 mod s)) as [[_ ->]|[_ ->]]; [exact Hm|apply Z.mod_same; lia].
Qed.

Lemma u32_le_enc n : 0 <= n < 4294967296 ->
  exists a b c d, le_enc 4 n = [a; b; c; d] /\ u32 a b c d = n.
Proof.
  intros H. exists (n mod 256), ((n / 256) mod 256), ((n / 256 / 256) mod 256), ((n / 256 / 256 / 256) mod 256).
  split; [reflexivity|]. unfold u32. Z.to_euclidean_division_equations; lia.
Qed.

Theorem svc_read_frag_step p pol img l cap n s tb off :
  0 <= n < 65536 -> 0 <= off < 4294967296 ->
  loc_esize p l = Some s -> type_bytes p l = Some tb -> 1 <= s ->
  1 <= n <= w_avail l -> off < n * s -> (loc_is_struct l = false -> off mod s = 0) ->
  s <= cap - 4 - Expect.blen tb ->
  let k := Z.min (n * s - off) (frag_lim pol l s (cap - 4 - Expect.blen tb) off) in
  forall d, loc_bytes pol img l off k = Some d ->
  svc_read_frag p pol img l cap (le_enc 2 n ++ le_enc 4 off) = (reply6 (k <? n * s - off) (tb ++ d), []).
Proof.
  intros Hn Ho Hs Htb Hs1 Hav Hoff Hal Hroom k d Hd.
  destruct (u16_le_enc n Hn) as [He Hu]. destruct (u32_le_enc off Ho) as (a & b & c & e & Ho4 & Hu4).
  rewrite He, Ho4. cbn [app]. unfold svc_read_frag. rewrite Hu, Hu4, Hs, Htb.
  replace (s <? 1) with false by lia.
  replace ((n <? 1) || (w_avail l <? n)) with false by lia.
  replace (n * s <=? off) with false by lia.
  destruct (frag_lim_bounds pol l s (cap - 4 - Expect.blen tb) off Hs1 Hroom) as [Hb _].
  fold (frag_lim pol l s (cap - 4 - Expect.blen tb) off).
  assert (Hal' : negb (loc_is_struct l) && negb (off mod s =? 0) = false).
  { destruct (loc_is_struct l); [reflexivity|]. rewrite (Hal eq_refl). reflexivity. }
  rewrite Hal'.
  unfold frag_lim in *.
  match goal with |- context [if ?c <? ?x then _ else _] =>
    replace (c <? x) with false by lia end.
  fold k. subst k. unfold frag_lim in Hd. rewrite Hd. reflexivity.
Qed.

Lemma loc_bytes_data pol img l from k d : w_bit l = None -> loc_bytes pol img l from k = Some d ->
  get_bytes img (w_off l + from) k = Some d.
Proof. unfold loc_bytes. intros ->. auto. Qed.

Lemma get_bytes_slice img o n full a k : get_bytes img o n = Some full -> 0 <= a -> 0 <= k -> a + k <= n ->
  get_bytes img (o + a) k = Some (firstn (Z.to_nat k) (skipn (Z.to_nat a) full)).
Proof.
  unfold get_bytes. destruct ((0 <=? o) && (0 <=? n) && (o + n <=? Expect.blen img)) eqn:E; [|discriminate].
  intros [= <-] Ha Hk Hfit.
  replace ((0 <=? o + a) && (0 <=? k) && (o + a + k <=? Expect.blen img)) with true by lia.
  rewrite skipn_firstn_comm, firstn_firstn, skipn_skipn. repeat f_equal; lia.
Qed.

Lemma loc_bytes_slice pol img l total full off k :
  loc_bytes pol img l 0 total = Some full -> (w_bit l <> None -> total = 1) ->
  0 <= off -> 1 <= k <= total - off ->
  let d := firstn (Z.to_nat k) (skipn (Z.to_nat off) full) in
  loc_bytes pol img l off k = Some d /\ Path.len d = k.
Proof.
  intros Hfull Hbit Ho Hk d. unfold loc_bytes in *. destruct (w_bit l) as [b|].
  - assert (total = 1) by (apply Hbit; discriminate). subst d. replace off with 0 by lia. replace k with 1 by lia.
    destruct (get_bytes img (w_off l) 1) as [[|x [|y t]]|]; try discriminate. injection Hfull as <-. split; reflexivity.
  - rewrite Z.add_0_r in Hfull. assert (Hd : get_bytes img (w_off l + off) k = Some d) by (apply (get_bytes_slice _ _ _ _ _ _ Hfull); lia).
    split; [exact Hd|exact (get_bytes_len _ _ _ _ Hd)].
Qed.

Lemma read_message_ok path n : 0 <= n < 65536 -> read_message path n = Ok (76 :: path ++ le_enc 2 n).
Proof. intros H. unfold read_message. rewrite UINT_ok by exact H. reflexivity. Qed.

Lemma frag_message_ok path n off : 0 <= n < 65536 -> 0 <= off < 4294967296 ->
  frag_message path n off = Ok (82 :: path ++ le_enc 2 n ++ le_enc 4 off).
Proof.
  intros Hn Ho. unfold frag_message. rewrite UINT_ok, UDINT_ok by assumption. reflexivity.
Qed.

Lemma send_some {St} (peer : St -> bytes -> St * option bytes) st msg st' r :
  peer st msg = (st', Some r) -> send peer st msg = (st', Done (unit_prefix ++ r)).
Proof. intros H. unfold send. rewrite H. reflexivity. Qed.

Lemma eblen_app (a b : bytes) : Expect.blen (a ++ b) = Expect.blen a + Expect.blen b.
Proof. unfold Expect.blen. rewrite app_length. lia. Qed.

Lemma reply_bytes svc more tb d :
  mr_bytes svc (reply6 more (tb ++ d)) = reply_service svc :: 0 :: (if more then 6 else 0) :: 0 :: tb ++ d.
Proof. unfold mr_bytes, reply6. cbn. destruct more; reflexivity. Qed.

Lemma peer_tag app ms st conn svc path pb data l rp evs :
  quiet app ms st -> path_wf path pb -> tag_cia pb -> 0 <= svc < 128 -> (svc =? 10) = false ->
  resolve_path (ls_proj app) (svc =? 85) pb = TgTag l ->
  tag_service app l (conn - 2) {| mr_service := svc; mr_path := pb; mr_data := data |} = (app, rp, evs) ->
  2 + (1 + EncapParser.blen path + EncapParser.blen data) <= conn -> EncapParser.blen (mr_bytes svc rp) <= conn - 2 ->
  exists st', target_peer conn st (svc :: path ++ data) = (st', Some (mr_bytes svc rp)) /\ quiet app ms st'.
Proof.
  intros Hq Hpw Hcia Hsvc H10 Hres Htag Hmsg Hfit. unfold target_peer.
  rewrite blen_cons, TargetCoreP.blen_app. destruct (conn <? _) eqn:E; [lia|].
  rewrite (parse_mr_msg svc path pb data Hpw Hsvc).
  unfold dispatch, is_multi_request. cbn [mr_service]. rewrite H10. cbn [andb].
  destruct (dispatch_one_tag app ms st (TConnected 0) (conn - 2) (Some 0) {| mr_service := svc; mr_path := pb; mr_data := data |}
              l rp evs Hq Hcia Hres Htag) as (st1 & Hd & Hq1).
  rewrite Hd. unfold finish_reply, fit. destruct (_ <=? conn - 2) eqn:E2; [|lia].
  eexists. split; [reflexivity|]. apply quiet_logs. exact Hq1.
Qed.

Lemma tag_service_read app l cap pb n img s tb d :
  mem_get (ls_mem app) (w_inst l) = Some img -> 0 <= n < 65536 ->
  loc_esize (ls_proj app) l = Some s -> type_bytes (ls_proj app) l = Some tb -> 1 <= s -> 1 <= n <= w_avail l ->
  n * s <= cap - 4 - Expect.blen tb -> loc_bytes (ls_pol app) img l 0 (n * s) = Some d ->
  tag_service app l cap {| mr_service := 76; mr_path := pb; mr_data := le_enc 2 n |} = (app, reply6 false (tb ++ d), []).
Proof.
  intros Hmem Hn Hs Htb Hs1 Hav Hfit Hd. unfold tag_service. rewrite Hmem. cbn [mr_service Z.eqb Pos.eqb mr_data].
  rewrite (svc_read_full _ _ img l cap n s tb d Hn Hs Htb Hs1 Hav Hfit Hd). reflexivity.
Qed.

Theorem peer_read app ms st conn path pb n l img s tb d :
  quiet app ms st -> path_wf path pb -> tag_cia pb ->
  resolve_path (ls_proj app) false pb = TgTag l -> mem_get (ls_mem app) (w_inst l) = Some img ->
  0 <= n < 65536 -> loc_esize (ls_proj app) l = Some s -> type_bytes (ls_proj app) l = Some tb -> 1 <= s ->
  1 <= n <= w_avail l -> n * s <= conn - 2 - 4 - Expect.blen tb ->
  loc_bytes (ls_pol app) img l 0 (n * s) = Some d ->
  2 + (1 + EncapParser.blen path + 2) <= conn ->
  exists st', target_peer conn st (76 :: path ++ le_enc 2 n) = (st', Some (204 :: 0 :: 0 :: 0 :: tb ++ d))
              /\ quiet app ms st'.
Proof.
  intros Hq Hpw Hcia Hres Hmem Hn Hs Htb Hs1 Hav Hfit Hd Hmsg.
  rewrite <- (reply_bytes 76 false). apply (peer_tag app ms st conn 76 path pb _ l _ [] Hq Hpw Hcia); try reflexivity; try lia.
  - exact Hres.
  - apply (tag_service_read app l (conn - 2) pb n img s tb d); assumption.
  - rewrite blen_le_enc. exact Hmsg.
  - rewrite reply_bytes, !blen_cons, TargetCoreP.blen_app. pose proof (loc_bytes_len _ _ _ _ _ _ Hd).
    unfold EncapParser.blen, Expect.blen in *. nia.
Qed.

Theorem peer_frag app ms st conn path pb n l img s tb off d :
  quiet app ms st -> path_wf path pb -> tag_cia pb ->
  resolve_path (ls_proj app) false pb = TgTag l -> mem_get (ls_mem app) (w_inst l) = Some img ->
  0 <= n < 65536 -> 0 <= off < 4294967296 ->
  loc_esize (ls_proj app) l = Some s -> type_bytes (ls_proj app) l = Some tb -> 1 <= s ->
  1 <= n <= w_avail l -> off < n * s -> (loc_is_struct l = false -> off mod s = 0) ->
  s <= conn - 2 - 4 - Expect.blen tb ->
  let k := Z.min (n * s - off) (frag_lim (ls_pol app) l s (conn - 2 - 4 - Expect.blen tb) off) in
  loc_bytes (ls_pol app) img l off k = Some d ->
  2 + (1 + EncapParser.blen path + 6) <= conn ->
  exists st', target_peer conn st (82 :: path ++ le_enc 2 n ++ le_enc 4 off)
              = (st', Some (210 :: 0 :: (if k <? n * s - off then 6 else 0) :: 0 :: tb ++ d))
              /\ quiet app ms st'.
Proof.
  intros Hq Hpw Hcia Hres Hmem Hn Ho Hs Htb Hs1 Hav Hoff Hal Hroom k Hd Hmsg.
  destruct (frag_lim_bounds (ls_pol app) l s (conn - 2 - 4 - Expect.blen tb) off Hs1 Hroom) as [Hb _].
  rewrite <- (reply_bytes 82). apply (peer_tag app ms st conn 82 path pb _ l _ [] Hq Hpw Hcia); try reflexivity; try lia.
  - exact Hres.
  - unfold tag_service. rewrite Hmem. cbn [mr_service Z.eqb Pos.eqb mr_data].
    rewrite (svc_read_frag_step _ _ img l (conn - 2) n s tb off Hn Ho Hs Htb Hs1 Hav Hoff Hal ltac:(lia) d); [reflexivity|exact Hd].
  - rewrite TargetCoreP.blen_app, !blen_le_enc. exact Hmsg.
  - rewrite reply_bytes, !blen_cons, TargetCoreP.blen_app. assert (1 <= k) by (subst k; lia).
    pose proof (loc_bytes_len _ _ _ _ _ _ Hd H). unfold EncapParser.blen, Expect.blen in *. subst k. lia.
Qed.

Ltac Zify.zify_post_hook ::= Z.to_euclidean_division_equations.
