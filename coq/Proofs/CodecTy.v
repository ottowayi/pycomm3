(* Proofs/CodecTy.v — what the codec proofs (C06 round trip, C08 error algebra) share.  Induction on
   type terms, nested through the member lists of structures, with the elementary classes as one
   case.  Equality of texts as the model tests it.  A value from the fuel-free [decode] is a value
   from [decode_fuel] at its fuel.  The rows of the generated tables (Gen/Types.v, Gen/CodecFacts.v)
   that the proofs name, each proved by looking the row up: the unsigned integer classes used as
   length prefixes (and the integer codec each stands for) and the text encodings of the string
   classes. *)
From PV Require Import Base.Bytes Base.Res Model.Codec.

Definition leaf (t : ty) : bool :=
  match t with
  | TArrFixed _ _ | TArrPrefix _ _ _ | TArrAll _ | TStruct _ _ | TStructTag _ _ _ _ => false
  | _ => true
  end.

Section TyInd.
  Variable P : ty -> Prop.
  Hypothesis HLeaf : forall t, leaf t = true -> P t.
  Hypothesis HArrFixed : forall n e, P e -> P (TArrFixed n e).
  Hypothesis HArrPrefix : forall inst lt e, P lt -> P e -> P (TArrPrefix inst lt e).
  Hypothesis HArrAll : forall e, P e -> P (TArrAll e).
  Hypothesis HStruct : forall k ms, Forall (fun m => P (snd m)) ms -> P (TStruct k ms).
  Hypothesis HStructTag : forall ms bits priv size, Forall (fun m => P (snd m)) ms -> P (TStructTag ms bits priv size).

  Fixpoint ty_ind_nested (t : ty) : P t :=
    match t with
    | TArrFixed n e => HArrFixed n e (ty_ind_nested e)
    | TArrPrefix i lt e => HArrPrefix i lt e (ty_ind_nested lt) (ty_ind_nested e)
    | TArrAll e => HArrAll e (ty_ind_nested e)
    | TStruct k ms =>
        HStruct k ms ((fix go (l : list (key * ty)) : Forall (fun m => P (snd m)) l :=
                         match l with
                         | [] => Forall_nil _
                         | m :: r => Forall_cons m (ty_ind_nested (snd m)) (go r)
                         end) ms)
    | TStructTag ms bits priv size =>
        HStructTag ms bits priv size
          ((fix go (l : list ((key * nat) * ty)) : Forall (fun m => P (snd m)) l :=
              match l with
              | [] => Forall_nil _
              | m :: r => Forall_cons m (ty_ind_nested (snd m)) (go r)
              end) ms)
    | (TBool | TInt _ _ | TReal _ | TDateTime | TStr _ _ _ | TStringN | TStringI | TNBytes _ | TBits _
       | TFixedStr _ _ _ _ | TIPAddr | TPcccAscii | TPcccString) as t' => HLeaf t' eq_refl
    end.
End TyInd.

Lemma text_eqb_eq a b : text_eqb a b = true <-> a = b.
Proof.
  revert b. induction a as [|x a IH]; intros [|y b]; cbn [text_eqb]; split; intros H; try discriminate; try reflexivity.
  - apply andb_prop in H as [H1 H2]. apply IH in H2. f_equal; [now apply Z.eqb_eq|exact H2].
  - injection H as -> ->. rewrite Z.eqb_refl. cbn. now apply IH.
Qed.

Lemma text_eqb_refl s : text_eqb s s = true.
Proof. now apply text_eqb_eq. Qed.

Lemma decode_ok_iff t bs v rest : decode t bs = Ok (v, rest) <-> decode_fuel (S (length bs)) t bs = DOk v rest.
Proof.
  unfold decode. destruct (decode_fuel _ t bs); cbn; split; intros H; try discriminate H; now injection H as <- <-.
Qed.

Lemma int_row_UINT : int_row n_UINT = Some (false, 2%nat).
Proof. reflexivity. Qed.

Lemma int_row_UDINT : int_row n_UDINT = Some (false, 4%nat).
Proof. reflexivity. Qed.

Lemma int_row_USINT : int_row n_USINT = Some (false, 1%nat).
Proof. reflexivity. Qed.

Lemma named_UINT_decode : named_int_decode n_UINT = int_decode false 2.
Proof. unfold named_int_decode. now rewrite int_row_UINT. Qed.
Lemma named_UDINT_decode : named_int_decode n_UDINT = int_decode false 4.
Proof. unfold named_int_decode. now rewrite int_row_UDINT. Qed.
Lemma named_USINT_decode : named_int_decode n_USINT = int_decode false 1.
Proof. unfold named_int_decode. now rewrite int_row_USINT. Qed.
Lemma named_UINT_encode : named_int_encode n_UINT = int_encode false 2.
Proof. unfold named_int_encode. now rewrite int_row_UINT. Qed.
Lemma named_UDINT_encode : named_int_encode n_UDINT = int_encode false 4.
Proof. unfold named_int_encode. now rewrite int_row_UDINT. Qed.

Lemma fss_enc_latin1 : fss_enc = Some Latin1.
Proof. reflexivity. Qed.

Lemma pccc_ascii_enc_latin1 : pccc_ascii_enc = Some Latin1.
Proof. reflexivity. Qed.

Lemma pccc_string_enc_latin1 : pccc_string_enc = Some Latin1.
Proof. reflexivity. Qed.

Lemma stringn_enc_1 : stringn_enc 1 = Some Latin1.
Proof. reflexivity. Qed.
