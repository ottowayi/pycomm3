(* Proofs/CodecWireFloat.v — C07: the model's integer REAL arithmetic (Model/CodecFloat.v: round32,
   widen32) agrees with the reference (Spec/WireFloat.v: Flocq's binary_normalize) on every bit
   pattern.  Route: Flocq's rounding is itself an executable function on (mantissa, exponent)
   ([binary_round]: align, shift right with round/sticky bits, round to nearest even, shift again on
   carry, overflow test); each step is characterised arithmetically (div / mod / testbit) and compared
   with the model's [rne_shift]-based code.  No real-number reasoning is needed here; Flocq's own
   theorems ([binary_normalize_correct]) say that this function IS IEEE-754 rounding. *)
From Coq Require Import Floats.SpecFloat.
From Flocq Require Import Core.Zaux Core.Digits IEEE754.BinarySingleNaN IEEE754.Binary IEEE754.Bits.
From PV Require Import Base.Bytes Model.CodecFloat Spec.WireFloat.
From Coq Require Import ZifyBool.
Open Scope Z_scope.
Ltac Zify.zify_post_hook ::= Z.to_euclidean_division_equations.

Lemma digits2_pos_size p : digits2_pos p = Pos.size p.
Proof. induction p; cbn [digits2_pos Pos.size]; congruence. Qed.

Lemma nbits_pos p : nbits (Zpos p) = Zpos (digits2_pos p).
Proof.
  unfold nbits. cbn [Z.leb Z.compare]. rewrite digits2_pos_size.
  destruct p; cbn [Z.log2 Pos.size]; try reflexivity; rewrite Pos2Z.inj_succ; lia.
Qed.

Lemma nbits_bounds m : 0 < m -> 2 ^ (nbits m - 1) <= m < 2 ^ nbits m.
Proof.
  intros H. unfold nbits. destruct (m <=? 0) eqn:E; [lia|].
  replace (Z.log2 m + 1 - 1) with (Z.log2 m) by lia. pose proof (Z.log2_spec m H) as L.
  replace (Z.log2 m + 1) with (Z.succ (Z.log2 m)) by lia. exact L.
Qed.

Lemma nbits_unique m n : 0 <= n -> 2 ^ n <= m < 2 ^ (n + 1) -> nbits m = n + 1.
Proof.
  intros Hn H. unfold nbits. assert (0 < m) by (pose proof (Z.pow_pos_nonneg 2 n); lia).
  destruct (m <=? 0) eqn:E; [lia|]. f_equal. apply Z.log2_unique; [exact Hn|]. replace (Z.succ n) with (n + 1) by lia. exact H.
Qed.

Lemma nbits_nonneg m : 0 <= nbits m.
Proof. unfold nbits. destruct (m <=? 0); [lia|]. pose proof (Z.log2_nonneg m). lia. Qed.

Lemma nbits_ge_1 m : 0 < m -> 1 <= nbits m.
Proof. intros H. unfold nbits. destruct (m <=? 0) eqn:E; [lia|]. pose proof (Z.log2_nonneg m). lia. Qed.

Lemma nbits_le m k : 0 <= k -> m < 2 ^ k -> nbits m <= k.
Proof.
  intros Hk H. destruct (Z.leb_spec m 0) as [H0|H0]; [unfold nbits; rewrite (proj2 (Z.leb_le _ _) H0); exact Hk|].
  pose proof (nbits_bounds m H0) as [B _].
  assert (nbits m - 1 < k) by (apply (Z.pow_lt_mono_r_iff 2); lia). lia.
Qed.

Lemma mod_pow2_succ m k : 0 <= k -> m mod 2 ^ (k + 1) = Z.b2z (Z.testbit m k) * 2 ^ k + m mod 2 ^ k.
Proof.
  intros Hk. rewrite Z.testbit_spec' by exact Hk. rewrite Z.pow_add_r, Z.pow_1_r by lia.
  rewrite Z.rem_mul_r by (try apply Z.pow_nonzero; lia). ring.
Qed.

Definition rec_of (m : Z) (r s : bool) : shr_record := {| shr_m := m; shr_r := r; shr_s := s |}.

Lemma shr_1_arith m r s : 0 <= m -> shr_1 (rec_of m r s) = rec_of (m / 2) (Z.odd m) (r || s).
Proof.
  intros Hm. unfold shr_1, rec_of. destruct m as [|p|p]; [reflexivity| |lia].
  destruct p as [p|p|].
  - rewrite Pos2Z.inj_xI. replace ((2 * Z.pos p + 1) / 2) with (Z.pos p) by lia. replace (2 * Z.pos p + 1) with (1 + 2 * Z.pos p) by lia. now rewrite Z.odd_add_mul_2.
  - rewrite Pos2Z.inj_xO. replace (2 * Z.pos p / 2) with (Z.pos p) by lia. replace (Z.odd (2 * Z.pos p)) with false; [reflexivity|].
    symmetry. rewrite <- Z.negb_even. now rewrite Z.even_mul.
  - reflexivity.
Qed.

Lemma iter_shr_arith k : forall m, 0 <= m ->
  Zaux.iter_nat shr_1 (S k) (rec_of m false false)
  = rec_of (m / 2 ^ Z.of_nat (S k)) (Z.testbit m (Z.of_nat k)) (negb (m mod 2 ^ Z.of_nat k =? 0)).
Proof.
  induction k as [|k IH]; intros m Hm.
  - cbn [Zaux.iter_nat]. rewrite shr_1_arith by exact Hm. cbn [orb]. change (2 ^ Z.of_nat 1) with 2. change (Z.of_nat 0) with 0.
    rewrite Z.bit0_odd. rewrite Z.pow_0_r, Z.mod_1_r. reflexivity.
  - rewrite iter_nat_S. rewrite IH by exact Hm. rewrite shr_1_arith by (apply Z.div_pos; [lia|apply Z.pow_pos_nonneg; lia]).
    apply (f_equal3 rec_of).
    + rewrite Z.div_div by (try apply Z.pow_pos_nonneg; lia). rewrite (Nat2Z.inj_succ (S k)), Z.pow_succ_r by lia.
      rewrite (Z.mul_comm 2). reflexivity.
    + rewrite (Nat2Z.inj_succ k). rewrite <- Z.bit0_odd, Z.div_pow2_bits by lia. f_equal; lia.
    + (* sticky: bit k of m, or a lower bit *)
      rewrite (Nat2Z.inj_succ k), <- Z.add_1_r, mod_pow2_succ by lia.
      set (P := 2 ^ Z.of_nat k). assert (HP : 0 < P) by (apply Z.pow_pos_nonneg; lia).
      assert (0 <= m mod P < P) by (apply Z.mod_pos_bound; lia).
      destruct (Z.testbit m (Z.of_nat k)); cbn [Z.b2z orb]; [|now rewrite Z.mul_0_l].
      destruct (m mod P =? 0) eqn:E2; cbn [negb]; lia.
Qed.

Lemma shr_arith m e n :
  0 <= m ->
  shr (rec_of m false false) e n
  = if 0 <? n then (rec_of (m / 2 ^ n) (Z.testbit m (n - 1)) (negb (m mod 2 ^ (n - 1) =? 0)), e + n)
    else (rec_of m false false, e).
Proof.
  intros Hm. unfold shr. destruct n as [|p|p]; try reflexivity.
  cbn [Z.ltb Z.compare]. rewrite iter_pos_nat. destruct (Pos2Nat.is_succ p) as [k Hk]. rewrite Hk.
  rewrite iter_shr_arith by exact Hm. assert (Hp : Z.pos p = Z.of_nat (S k)) by lia.
  rewrite Hp. replace (Z.of_nat (S k) - 1) with (Z.of_nat k) by lia. reflexivity.
Qed.

(* Flocq's [shr_fexp] (on an exact location), [choice_mode mode_NE] and [binary_round_aux], written
   with div / mod / testbit *)
Section Round.
  Variables prec emax : Z.
  Definition fx (e : Z) : Z := Z.max (e - prec) (3 - emax - prec).

  Lemma fx_fexp e : SpecFloat.fexp prec emax e = fx e.
  Proof. reflexivity. Qed.

  Definition rnd_shift (M E : Z) : shr_record * Z :=
    let n := fx (nbits M + E) - E in
    if 0 <? n then (rec_of (M / 2 ^ n) (Z.testbit M (n - 1)) (negb (M mod 2 ^ (n - 1) =? 0)), E + n)
    else (rec_of M false false, E).
  Definition rnd_incr (mrs : shr_record) : Z :=
    let m := shr_m mrs in if shr_r mrs && (shr_s mrs || Z.odd m) then m + 1 else m.
  Definition rnd_aux (s : bool) (M E : Z) : spec_float :=
    let '(mrs1, e1) := rnd_shift M E in
    let q := rnd_incr mrs1 in
    let '(mrs2, e2) := rnd_shift q e1 in
    match shr_m mrs2 with
    | Z0 => S754_zero s
    | Zpos m => if e2 <=? emax - prec then S754_finite s m e2 else S754_infinity s
    | Zneg _ => S754_nan
    end.

  Lemma Zdigits2_nbits M : 0 <= M -> Zdigits2 M = nbits M.
  Proof. intros H. destruct M as [|p|p]; [reflexivity| |lia]. cbn [Zdigits2]. now rewrite nbits_pos. Qed.

  Lemma shr_fexp_arith M E : 0 <= M -> shr_fexp prec emax M E loc_Exact = rnd_shift M E.
  Proof.
    intros H. unfold shr_fexp, rnd_shift. cbn [shr_record_of_loc]. rewrite fx_fexp, Zdigits2_nbits by exact H.
    apply (shr_arith M E _ H).
  Qed.

  Lemma choice_NE s mrs : choice_mode mode_NE s (shr_m mrs) (loc_of_shr_record mrs) = rnd_incr mrs.
  Proof.
    destruct mrs as [m r st]. unfold rnd_incr, choice_mode. cbn [shr_m shr_r shr_s loc_of_shr_record].
    rewrite Z.negb_even. destruct r, st; cbn [Round.round_N Round.cond_incr andb orb]; try reflexivity.
  Qed.

  Lemma rnd_shift_nonneg M E : 0 <= M -> 0 <= shr_m (fst (rnd_shift M E)).
  Proof.
    intros H. unfold rnd_shift. destruct (0 <? fx (nbits M + E) - E) eqn:En; cbn [fst shr_m rec_of]; [|exact H].
    apply Z.div_pos; [exact H|]. apply Z.pow_pos_nonneg; lia.
  Qed.

  Lemma rnd_incr_nonneg mrs : 0 <= shr_m mrs -> 0 <= rnd_incr mrs.
  Proof. intros H. unfold rnd_incr. destruct (shr_r mrs && (shr_s mrs || Z.odd (shr_m mrs))); lia. Qed.

  Lemma rnd_shift_none M E : fx (nbits M + E) <= E -> rnd_shift M E = (rec_of M false false, E).
  Proof. intros H. unfold rnd_shift. destruct (0 <? fx (nbits M + E) - E) eqn:En; [lia|reflexivity]. Qed.

  Lemma binary_round_aux_arith s m E :
    BinarySingleNaN.binary_round_aux prec emax mode_NE s (Zpos m) E loc_Exact = rnd_aux s (Zpos m) E.
  Proof.
    unfold BinarySingleNaN.binary_round_aux, rnd_aux. rewrite shr_fexp_arith by lia.
    pose proof (rnd_shift_nonneg (Zpos m) E ltac:(lia)) as H1.
    destruct (rnd_shift (Zpos m) E) as [mrs1 e1]. cbn [fst] in H1. rewrite choice_NE.
    rewrite shr_fexp_arith by now apply rnd_incr_nonneg.
    destruct (rnd_shift (rnd_incr mrs1) e1) as [mrs2 e2].
    destruct (shr_m mrs2); try reflexivity.
  Qed.

  Lemma shl_align_none m E :
    E <= fx (nbits (Zpos m) + E) -> BinarySingleNaN.shl_align_fexp prec emax m E = (m, E).
  Proof.
    intros H. unfold BinarySingleNaN.shl_align_fexp, shl_align. rewrite fx_fexp, <- nbits_pos.
    destruct (fx (nbits (Z.pos m) + E) - E) eqn:D; try reflexivity. lia.
  Qed.

  Lemma shl_align_some m E :
    fx (nbits (Zpos m) + E) < E ->
    exists m', BinarySingleNaN.shl_align_fexp prec emax m E = (m', fx (nbits (Zpos m) + E))
               /\ Zpos m' = Zpos m * 2 ^ (E - fx (nbits (Zpos m) + E)).
  Proof.
    intros H. unfold BinarySingleNaN.shl_align_fexp, shl_align. rewrite fx_fexp, <- nbits_pos.
    destruct (fx (nbits (Z.pos m) + E) - E) eqn:D; try lia.
    eexists. split; [reflexivity|]. rewrite shift_pos_correct.
    replace (E - fx (nbits (Z.pos m) + E)) with (Z.pos p) by lia. change (2 ^ Z.pos p) with (Z.pow_pos 2 p). ring.
  Qed.
End Round.

Definition jbits (mw ew : Z) (s : bool) (m e : Z) : Z := ((if s then 2 ^ ew else 0) + e) * 2 ^ mw + m.

Lemma join_bits_arith mw ew s m e : 0 <= mw -> join_bits mw ew s m e = jbits mw ew s m e.
Proof. intros H. unfold join_bits, jbits. now rewrite Z.shiftl_mul_pow2 by exact H. Qed.

(* the bits of a non-NaN float, from its spec_float view *)
Definition sf_bits (mw ew : Z) (x : spec_float) : Z :=
  let emin := 3 - 2 ^ (ew - 1) - (mw + 1) in
  match x with
  | S754_zero s => jbits mw ew s 0 0
  | S754_infinity s => jbits mw ew s 0 (2 ^ ew - 1)
  | S754_nan => 0
  | S754_finite s m e =>
      let mm := Zpos m - 2 ^ mw in
      if 0 <=? mm then jbits mw ew s mm (e - emin + 1) else jbits mw ew s (Zpos m) 0
  end.

Lemma bits_of_binary_float_sf mw ew (x : BinarySingleNaN.binary_float (mw + 1) (2 ^ (ew - 1)))
      (H : BinarySingleNaN.is_nan x = false) :
  0 <= mw ->
  bits_of_binary_float mw ew (BSN2B' _ _ x H) = sf_bits mw ew (BinarySingleNaN.B2SF x).
Proof.
  intros Hmw. unfold bits_of_binary_float.
  destruct x as [s|s| |s m e Hb]; cbn [BSN2B' BinarySingleNaN.B2SF]; try discriminate H;
    unfold sf_bits; rewrite <- ?join_bits_arith by exact Hmw; reflexivity.
Qed.

(* the spec_float denoted by a bit pattern *)
Definition sf_of_bits (mw ew : Z) (b : Z) : spec_float :=
  let emin := 3 - 2 ^ (ew - 1) - (mw + 1) in
  let s := 2 ^ mw * 2 ^ ew <=? b in
  let m := b mod 2 ^ mw in
  let e := (b / 2 ^ mw) mod 2 ^ ew in
  if e =? 0 then match m with Z0 => S754_zero s | Zpos p => S754_finite s p emin | Zneg _ => S754_nan end
  else if e =? 2 ^ ew - 1 then match m with Z0 => S754_infinity s | _ => S754_nan end
  else match m + 2 ^ mw with Zpos p => S754_finite s p (e + emin - 1) | _ => S754_nan end.

Lemma Zeq_bool_eqb x y : Zeq_bool x y = (x =? y).
Proof.
  destruct (Z.eqb_spec x y) as [->|H]; unfold Zeq_bool.
  - now rewrite Z.compare_refl.
  - destruct (x ?= y) eqn:E; try reflexivity. apply Z.compare_eq in E. contradiction.
Qed.

Lemma FF2SF_of_bits mw ew b :
  FF2SF (binary_float_of_bits_aux mw ew b) = sf_of_bits mw ew b.
Proof.
  unfold binary_float_of_bits_aux, split_bits, sf_of_bits. rewrite !Zeq_bool_eqb.
  change (Zpower 2 mw) with (2 ^ mw). change (Zpower 2 ew) with (2 ^ ew).
  change (Zle_bool (2 ^ mw * 2 ^ ew) b) with (2 ^ mw * 2 ^ ew <=? b).
  destruct ((b / 2 ^ mw) mod 2 ^ ew =? 0).
  - destruct (b mod 2 ^ mw); reflexivity.
  - destruct ((b / 2 ^ mw) mod 2 ^ ew =? 2 ^ ew - 1).
    + destruct (b mod 2 ^ mw); reflexivity.
    + destruct (b mod 2 ^ mw + 2 ^ mw); reflexivity.
Qed.

Lemma b64_sf b : Binary.B2SF 53 1024 (b64_of_bits b) = sf_of_bits 52 11 b.
Proof. unfold b64_of_bits, binary_float_of_bits. rewrite B2SF_FF2B. apply FF2SF_of_bits. Qed.
Lemma b32_sf b : Binary.B2SF 24 128 (b32_of_bits b) = sf_of_bits 23 8 b.
Proof. unfold b32_of_bits, binary_float_of_bits. rewrite B2SF_FF2B. apply FF2SF_of_bits. Qed.

(* Flocq's binary_normalize on a signed mantissa is binary_round on sign and magnitude *)
Lemma normalize_sf prec emax (Hp : FLX.Prec_gt_0 prec) (Hm : Prec_lt_emax prec emax) s m e :
  BinarySingleNaN.B2SF (BinarySingleNaN.binary_normalize prec emax Hp Hm mode_NE (cond_Zopp s (Zpos m)) e s)
  = BinarySingleNaN.binary_round prec emax mode_NE s m e.
Proof.
  unfold BinarySingleNaN.binary_normalize. destruct s; cbn [cond_Zopp Z.opp]; apply BinarySingleNaN.B2SF_SF2B.
Qed.

Lemma spec_real32_sf b :
  spec_real32_of_64 b =
  match sf_of_bits 52 11 b with
  | S754_nan => Some sp_nan32
  | S754_infinity s => Some (sf_bits 23 8 (S754_infinity s))
  | S754_zero s => Some (sf_bits 23 8 (S754_zero s))
  | S754_finite s m e =>
      let r := BinarySingleNaN.binary_round 24 128 mode_NE s m e in
      if is_finite_SF r then Some (sf_bits 23 8 r) else None
  end.
Proof.
  rewrite <- b64_sf. unfold spec_real32_of_64. destruct (b64_of_bits b) as [s|s|s pl Hpl|s m e Hb]; cbn [Binary.B2SF].
  - unfold bits_of_b32, bits_of_binary_float. now rewrite join_bits_arith by lia.
  - unfold bits_of_b32, bits_of_binary_float. now rewrite join_bits_arith by lia.
  - reflexivity.
  - cbv zeta. unfold Binary.binary_normalize. rewrite is_finite_BSN2B'. unfold bits_of_b32. rewrite (bits_of_binary_float_sf 23 8) by lia.
    rewrite <- BinarySingleNaN.is_finite_SF_B2SF. rewrite !normalize_sf. reflexivity.
Qed.

Lemma spec_real64_sf b :
  spec_real64_of_32 b =
  match sf_of_bits 23 8 b with
  | S754_nan => sp_nan64
  | S754_infinity s => sf_bits 52 11 (S754_infinity s)
  | S754_zero s => sf_bits 52 11 (S754_zero s)
  | S754_finite s m e => sf_bits 52 11 (BinarySingleNaN.binary_round 53 1024 mode_NE s m e)
  end.
Proof.
  rewrite <- b32_sf. unfold spec_real64_of_32. destruct (b32_of_bits b) as [s|s|s pl Hpl|s m e Hb]; cbn [Binary.B2SF].
  - unfold bits_of_b64, bits_of_binary_float. now rewrite join_bits_arith by lia.
  - unfold bits_of_b64, bits_of_binary_float. now rewrite join_bits_arith by lia.
  - reflexivity.
  - unfold Binary.binary_normalize, bits_of_b64. rewrite (bits_of_binary_float_sf 52 11) by lia. rewrite normalize_sf. reflexivity.
Qed.

Lemma rne_incr M n :
  0 < n ->
  rne_shift M n = rnd_incr (rec_of (M / 2 ^ n) (Z.testbit M (n - 1)) (negb (M mod 2 ^ (n - 1) =? 0))).
Proof.
  intros Hn. unfold rne_shift, rnd_incr. cbn [shr_m shr_r shr_s rec_of].
  destruct (n <=? 0) eqn:E0; [lia|]. cbv zeta. rewrite <- Z.negb_even.
  replace (M mod 2 ^ n) with (M mod 2 ^ (n - 1 + 1)) by (do 2 f_equal; lia). rewrite mod_pow2_succ by lia.
  set (h := 2 ^ (n - 1)). assert (Hh : 0 < h) by (apply Z.pow_pos_nonneg; lia).
  assert (Hl : 0 <= M mod h < h) by (apply Z.mod_pos_bound; lia).
  destruct (Z.testbit M (n - 1)); cbn [Z.b2z andb].
  - destruct (M mod h =? 0) eqn:E2; cbn [negb orb].
    + replace (1 * h + M mod h) with h by lia. rewrite !Z.ltb_irrefl. now destruct (Z.even (M / 2 ^ n)).
    + replace (1 * h + M mod h <? h) with false by lia. now replace (h <? 1 * h + M mod h) with true by lia.
  - now replace (0 * h + M mod h <? h) with true by lia.
Qed.

(* the two halves of the finite case of [round32]: -149 = 3 - 128 - 24 is the exponent of binary32's
   last place in the subnormal range, E' + 150 the biased exponent of an integer significand of 24 bits *)
Definition round32_qe (M E : Z) : Z * Z :=
  let E' := Z.max (E + nbits M - 24) (-149) in
  let q := rne_shift M (E' - E) in
  if q =? 2 ^ 24 then (2 ^ 23, E' + 1) else (q, E').
Definition pack32 (s : Z) (qe : Z * Z) : option Z :=
  let '(q, E') := qe in
  if q <? 2 ^ 23 then Some (s * 2 ^ 31 + q)
  else let be := E' + 150 in
       if 255 <=? be then None else Some (s * 2 ^ 31 + be * 2 ^ 23 + (q - 2 ^ 23)).

(* plain [reflexivity] also proves this, but has the kernel compare the two let-towers for seconds *)
Lemma round32_unfold b :
  round32 b =
  if is_nan64 b then Some nan32
  else if is_inf64 b then Some (sign64 b * 2 ^ 31 + inf32)
  else
    let e := exp64 b in
    let M := if e =? 0 then man64 b else man64 b + 2 ^ 52 in
    let E := (if e =? 0 then 1 else e) - 1075 in
    if M =? 0 then Some (sign64 b * 2 ^ 31) else pack32 (sign64 b) (round32_qe M E).
Proof. unfold round32, pack32, round32_qe. reflexivity. Qed.

Definition sf_fin (s : bool) (q e : Z) : spec_float :=
  match q with
  | Z0 => S754_zero s
  | Zpos m => if e <=? 128 - 24 then S754_finite s m e else S754_infinity s
  | Zneg _ => S754_nan
  end.

(* Flocq's two shifts are the model's rounding and renormalisation *)
Lemma rnd_aux_qe s M E :
  0 < M -> E < fx 24 128 (nbits M + E) ->
  let '(q, E') := round32_qe M E in
  rnd_aux 24 128 s M E = sf_fin s q E' /\ 0 <= q < 2 ^ 24 /\ -149 <= E' /\ (q < 2 ^ 23 -> E' = -149).
Proof.
  intros HM Hn. unfold round32_qe, rnd_aux.
  assert (Hfx : forall x, fx 24 128 x = Z.max (x - 24) (-149)) by reflexivity.
  rewrite Hfx in Hn. replace (nbits M + E - 24) with (E + nbits M - 24) in Hn by lia.
  set (E1 := Z.max (E + nbits M - 24) (-149)) in *. set (n := E1 - E).
  assert (Hs1 : rnd_shift 24 128 M E
                = (rec_of (M / 2 ^ n) (Z.testbit M (n - 1)) (negb (M mod 2 ^ (n - 1) =? 0)), E1)).
  { unfold rnd_shift. rewrite Hfx. replace (nbits M + E - 24) with (E + nbits M - 24) by lia. fold E1 n.
    replace (0 <? n) with true by lia. f_equal. lia. }
  rewrite Hs1, <- (rne_incr M n) by lia. set (q := rne_shift M n).
  (* q is M / 2^n or one more; M / 2^n has at most 24 bits, and exactly 24 above the subnormal range *)
  pose proof (nbits_bounds M HM) as HB. pose proof (nbits_ge_1 M HM) as Hd.
  assert (Hpn : 0 < 2 ^ n) by (apply Z.pow_pos_nonneg; lia).
  assert (Hm1 : 0 <= M / 2 ^ n < 2 ^ 24).
  { split; [apply Z.div_pos; lia|]. apply Z.div_lt_upper_bound; [lia|]. rewrite <- Z.pow_add_r by lia.
    assert (2 ^ nbits M <= 2 ^ (n + 24)) by (apply Z.pow_le_mono_r; lia). lia. }
  assert (Hq : M / 2 ^ n <= q <= M / 2 ^ n + 1).
  { unfold q. rewrite rne_incr by lia. unfold rnd_incr. cbn [shr_m shr_r shr_s rec_of].
    destruct (_ && _); lia. }
  assert (Hbig : -149 < E1 -> 2 ^ 23 <= M / 2 ^ n).
  { intros HE. apply Z.div_le_lower_bound; [lia|]. rewrite <- Z.pow_add_r by lia.
    replace (n + 23) with (nbits M - 1) by lia. lia. }
  assert (HE1 : -149 <= E1) by (unfold E1; lia).
  clearbody q E1. clear Hs1 HB Hpn Hn HM. destruct (q =? 2 ^ 24) eqn:Eq24.
  - replace q with (2 ^ 24) by lia.
    assert (Hs2 : rnd_shift 24 128 (2 ^ 24) E1 = (rec_of (2 ^ 23) false false, E1 + 1)).
    { unfold rnd_shift. change (nbits (2 ^ 24)) with 25. rewrite Hfx.
      replace (Z.max (25 + E1 - 24) (-149) - E1) with 1 by lia. reflexivity. }
    rewrite Hs2. repeat split; lia.
  - rewrite rnd_shift_none by (rewrite Hfx; pose proof (nbits_le q 24); lia).
    repeat split; lia.
Qed.

Lemma pack32_sf (s : bool) q E' :
  0 <= q < 2 ^ 24 -> -149 <= E' -> (q < 2 ^ 23 -> E' = -149) ->
  (if is_finite_SF (sf_fin s q E') then Some (sf_bits 23 8 (sf_fin s q E')) else None)
  = pack32 (if s then 1 else 0) (q, E').
Proof.
  intros Hq HE Hsub. unfold pack32, sf_fin. destruct q as [|p|p]; [| |lia].
  - cbn. destruct s; reflexivity.
  - destruct (Z.pos p <? 2 ^ 23) eqn:Esub.
    + replace (E' <=? 128 - 24) with true by lia. cbn [is_finite_SF]. unfold sf_bits. cbv zeta.
      replace (0 <=? Z.pos p - 2 ^ 23) with false by lia. f_equal. unfold jbits. destruct s; lia.
    + destruct (E' <=? 128 - 24) eqn:Ee; cbn [is_finite_SF].
      * unfold sf_bits. cbv zeta. replace (0 <=? Z.pos p - 2 ^ 23) with true by lia.
        replace (255 <=? E' + 150) with false by lia. f_equal. unfold jbits.
        change (3 - 2 ^ (8 - 1) - (23 + 1)) with (-149). destruct s; lia.
      * now replace (255 <=? E' + 150) with true by lia.
Qed.

Lemma round_core (s : bool) m E :
  E < fx 24 128 (nbits (Zpos m) + E) ->
  (let r := BinarySingleNaN.binary_round 24 128 mode_NE s m E in if is_finite_SF r then Some (sf_bits 23 8 r) else None)
  = pack32 (if s then 1 else 0) (round32_qe (Zpos m) E).
Proof.
  intros Hn. unfold BinarySingleNaN.binary_round. rewrite (shl_align_none 24 128 m E) by lia. rewrite binary_round_aux_arith.
  pose proof (rnd_aux_qe s (Zpos m) E ltac:(lia) Hn) as H. destruct (round32_qe (Zpos m) E) as [q E'].
  destruct H as (-> & Hq & HE & Hsub). now apply pack32_sf.
Qed.

Lemma top_bit k b : 0 <= k -> 0 <= b < 2 * 2 ^ k -> b / 2 ^ k = if 2 ^ k <=? b then 1 else 0.
Proof.
  intros Hk H. assert (0 < 2 ^ k) by (apply Z.pow_pos_nonneg; lia). destruct (2 ^ k <=? b) eqn:E.
  - symmetry. apply Z.div_unique with (r := b - 2 ^ k); lia.
  - apply Z.div_small. lia.
Qed.

Lemma sf_of_bits_finite mw ew b :
  let e := (b / 2 ^ mw) mod 2 ^ ew in
  0 <= mw -> (e =? 2 ^ ew - 1) = false ->
  sf_of_bits mw ew b
  = match (if e =? 0 then b mod 2 ^ mw else b mod 2 ^ mw + 2 ^ mw) with
    | Z0 => S754_zero (2 ^ mw * 2 ^ ew <=? b)
    | Zpos p => S754_finite (2 ^ mw * 2 ^ ew <=? b) p ((if e =? 0 then 1 else e) + (3 - 2 ^ (ew - 1) - (mw + 1)) - 1)
    | Zneg _ => S754_nan
    end.
Proof.
  intros e Hmw He. unfold sf_of_bits. fold e. rewrite He. destruct (e =? 0).
  - destruct (b mod 2 ^ mw); try reflexivity. f_equal. lia.
  - assert (Hp : 0 < 2 ^ mw) by (apply Z.pow_pos_nonneg; lia). pose proof (Z.mod_pos_bound b _ Hp).
    destruct (b mod 2 ^ mw + 2 ^ mw) eqn:Em; [lia|reflexivity|reflexivity].
Qed.

Theorem round32_is_flocq b : sp_f64_ok b = true -> round32 b = spec_real32_of_64 b.
Proof.
  intros Hok. unfold sp_f64_ok in Hok. apply andb_prop in Hok as [Hok _]. apply andb_prop in Hok as [H0 H1].
  assert (Hb : 0 <= b < 2 * 2 ^ 63) by lia. clear H0 H1.
  rewrite spec_real32_sf, round32_unfold. unfold is_nan64, is_inf64, exp64, man64, sign64.
  rewrite (top_bit 63 b ltac:(lia) Hb). change (2 ^ 63) with (2 ^ 52 * 2 ^ 11).
  set (sb := 2 ^ 52 * 2 ^ 11 <=? b). set (m := b mod 2 ^ 52). set (e := (b / 2 ^ 52) mod 2 ^ 11).
  assert (Hm : 0 <= m < 2 ^ 52) by (apply Z.mod_pos_bound; reflexivity).
  assert (He : 0 <= e < 2 ^ 11) by (apply Z.mod_pos_bound; reflexivity).
  destruct (e =? 2047) eqn:E2047; cbn [andb].
  - (* NaN / infinity *)
    unfold sf_of_bits. fold e m sb. change (2 ^ 11 - 1) with 2047. rewrite E2047.
    replace (e =? 0) with false by lia.
    destruct m as [|p|p]; [|reflexivity|lia]. cbn [Z.eqb negb sf_bits]. f_equal. unfold jbits, inf32. destruct sb; lia.
  - (* zero / finite: Flocq has nothing to shift left, since a double's significand is longer than a single's *)
    rewrite (sf_of_bits_finite 52 11 b ltac:(lia) E2047). fold e m sb. cbv zeta.
    change (3 - 2 ^ (11 - 1) - (52 + 1)) with (-1074).
    set (M := if e =? 0 then m else m + 2 ^ 52).
    replace ((if e =? 0 then 1 else e) + -1074 - 1) with ((if e =? 0 then 1 else e) - 1075) by lia.
    set (E := (if e =? 0 then 1 else e) - 1075).
    assert (HE : E < fx 24 128 (nbits M + E)).
    { unfold fx, M, E. destruct (e =? 0) eqn:E0; [lia|].
      rewrite (nbits_unique (m + 2 ^ 52) 52) by (change (2 ^ (52 + 1)) with (2 * 2 ^ 52); lia). lia. }
    assert (HM : 0 <= M) by (unfold M; destruct (e =? 0); lia).
    destruct M as [|p|p] eqn:EM; [|clear EM|lia].
    + cbn [Z.eqb sf_bits]. f_equal. unfold jbits. destruct sb; lia.
    + cbn [Z.eqb]. rewrite <- (round_core sb p E HE). now destruct sb.
Qed.

Lemma rnd_aux_exact64 s m' ez :
  nbits (Zpos m') = 53 -> -1074 <= ez <= 971 -> rnd_aux 53 1024 s (Zpos m') ez = S754_finite s m' ez.
Proof.
  intros Hd He. unfold rnd_aux.
  assert (Hs : rnd_shift 53 1024 (Zpos m') ez = (rec_of (Zpos m') false false, ez))
    by (apply rnd_shift_none; rewrite Hd; unfold fx; lia).
  rewrite Hs. unfold rnd_incr. cbn [shr_m shr_r shr_s rec_of andb]. rewrite Hs. cbn [shr_m rec_of].
  now replace (ez <=? 1024 - 53) with true by lia.
Qed.

(* a single's significand of k bits is shifted left to 53 bits; nothing is rounded *)
Lemma widen_finite s m E k :
  nbits (Zpos m) = k -> 1 <= k <= 24 -> -149 <= E <= 104 ->
  sf_bits 52 11 (BinarySingleNaN.binary_round 53 1024 mode_NE s m E)
  = jbits 52 11 s (Zpos m * 2 ^ (53 - k) - 2 ^ 52) (E + k + 1022).
Proof.
  intros Hk Hkr HE.
  assert (Hfx : fx 53 1024 (nbits (Zpos m) + E) = E - (53 - k)) by (rewrite Hk; unfold fx; lia).
  destruct (shl_align_some 53 1024 m E ltac:(lia)) as (m' & Hsh & Hm').
  rewrite Hfx in Hsh, Hm'. replace (E - (E - (53 - k))) with (53 - k) in Hm' by lia.
  pose proof (nbits_bounds (Zpos m) ltac:(lia)) as B. rewrite Hk in B.
  assert (H1 : 2 ^ (k - 1) * 2 ^ (53 - k) = 2 ^ 52) by (rewrite <- Z.pow_add_r by lia; f_equal; lia).
  assert (H2 : 2 ^ k * 2 ^ (53 - k) = 2 ^ (52 + 1)) by (rewrite <- Z.pow_add_r by lia; f_equal; lia).
  assert (Hp : 0 < 2 ^ (53 - k)) by (apply Z.pow_pos_nonneg; lia).
  assert (Hm52 : 2 ^ 52 <= Zpos m' < 2 ^ (52 + 1)) by nia.
  unfold BinarySingleNaN.binary_round.
  rewrite Hsh, binary_round_aux_arith, rnd_aux_exact64 by (try apply (nbits_unique _ 52); lia).
  unfold sf_bits. cbv zeta. replace (0 <=? Z.pos m' - 2 ^ 52) with true by lia.
  change (3 - 2 ^ (11 - 1) - (52 + 1)) with (-1074). rewrite Hm'. f_equal. lia.
Qed.

Theorem widen32_is_flocq u : 0 <= u < 2 ^ 32 -> widen32 u = spec_real64_of_32 u.
Proof.
  intros Hu. rewrite spec_real64_sf. unfold widen32.
  rewrite (top_bit 31 u ltac:(lia) Hu). change (2 ^ 31) with (2 ^ 23 * 2 ^ 8).
  set (sb := 2 ^ 23 * 2 ^ 8 <=? u). set (f := u mod 2 ^ 23). set (be := (u / 2 ^ 23) mod 2 ^ 8).
  assert (Hf : 0 <= f < 2 ^ 23) by (apply Z.mod_pos_bound; reflexivity).
  assert (Hbe : 0 <= be < 2 ^ 8) by (apply Z.mod_pos_bound; reflexivity).
  destruct (be =? 255) eqn:E255.
  - unfold sf_of_bits. fold be f sb. change (2 ^ 8 - 1) with 255. rewrite E255. replace (be =? 0) with false by lia.
    destruct f as [|p|p]; [|reflexivity|lia]. cbn [Z.eqb sf_bits]. unfold jbits, inf64. destruct sb; lia.
  - rewrite (sf_of_bits_finite 23 8 u ltac:(lia) E255). fold be f sb. change (3 - 2 ^ (8 - 1) - (23 + 1)) with (-149).
    destruct (be =? 0) eqn:E0.
    + destruct f as [|p|p]; [| |lia].
      * cbn [Z.eqb sf_bits]. unfold jbits. destruct sb; lia.
      * cbn [Z.eqb]. cbv zeta.
        rewrite (widen_finite sb p _ _ eq_refl) by (pose proof (nbits_ge_1 (Z.pos p)); pose proof (nbits_le (Z.pos p) 23); lia).
        unfold jbits. destruct sb; lia.
    + cbv zeta. assert (HM : 2 ^ 23 <= f + 2 ^ 23 < 2 ^ (23 + 1)) by (change (2 ^ (23 + 1)) with (2 * 2 ^ 23); lia).
      pose proof (nbits_unique (f + 2 ^ 23) 23 ltac:(lia) HM) as Hd.
      destruct (f + 2 ^ 23) as [|p|p] eqn:EM; [lia| |lia].
      rewrite (widen_finite sb p _ 24 Hd) by lia. change (2 ^ (53 - 24)) with 536870912. change (2 ^ 29) with 536870912.
      unfold jbits. rewrite <- EM. destruct sb; lia.
Qed.
