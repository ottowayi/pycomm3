(* Proofs/SlcDirP.v — round trip of the data-file directory: the model of _parse_file0 applied to
   the spec-side image of a directory returns exactly that directory.  Induction over the rows
   (any number of files); the type-byte residues (15 types, 256 byte values) are vm_compute sweeps. *)
From PV Require Import Base.Bytes Base.BytesLemmas Base.Proto Base.Res Base.PyStr Base.PyStrLemmas Gen.SlcTables.
From PV Require Import Model.Slc Model.SlcDir Spec.SlcDirSpec.
From PV Require Import Proofs.ConnPathStr.
From Coq Require Import ZifyBool.
Ltac Zify.zify_post_hook ::= Z.to_euclidean_division_equations.
Open Scope Z_scope.

Lemma type_of_code_known t : type_of_code [type_code t] = Some (type_letters t).
Proof. destruct t; vm_compute; reflexivity. Qed.

Lemma size_of_type_known t : size_of_type (type_letters t) = elem_size t.
Proof. destruct t; vm_compute; reflexivity. Qed.

Lemma elem_size_pos t : 0 < elem_size t.
Proof. destruct t; cbn; lia. Qed.

Definition foreign_ok (c : Z) : bool :=
  if is_known_code c then true else match type_of_code [c] with None => true | Some _ => false end.
Lemma foreign_sweep : forallb foreign_ok (zrange 256) = true.
Proof. vm_compute. reflexivity. Qed.
Lemma type_of_code_foreign c : 0 <= c < 256 -> is_known_code c = false -> type_of_code [c] = None.
Proof.
  intros Hc Hk. pose proof (forallb_zrange foreign_ok 256 foreign_sweep c Hc) as H.
  unfold foreign_ok in H. rewrite Hk in H. destruct (type_of_code [c]); [discriminate|reflexivity].
Qed.
Lemma type_of_code_reserved : type_of_code [RESERVED_CODE] = None.
Proof. vm_compute. reflexivity. Qed.

Definition nodigit (s : text) : bool := forallb (fun c => negb (is_ascii_digit c)) s.
Lemma letters_nodigit t : nodigit (type_letters t) = true.
Proof. destruct t; vm_compute; reflexivity. Qed.

(* what is left of a text after its leading non-digits *)
Fixpoint drop_nodigits (s : text) : text :=
  match s with c :: r => if is_ascii_digit c then s else drop_nodigits r | [] => [] end.

Lemma drop_nodigits_app l d : nodigit l = true -> forallb is_ascii_digit d = true -> drop_nodigits (l ++ d) = d.
Proof.
  intros Hl Hd. induction l as [|c l IH]; cbn [app].
  - destruct d as [|x d]; [reflexivity|]. cbn [forallb] in Hd. apply andb_prop in Hd. cbn. now rewrite (proj1 Hd).
  - cbn [nodigit forallb] in Hl. apply andb_prop in Hl. destruct Hl as [Hc Hl].
    cbn [drop_nodigits]. destruct (is_ascii_digit c); [discriminate|]. apply IH. exact Hl.
Qed.

Lemma py_str_int_nonneg n : 0 <= n -> py_str_int n = print_nat_z n.
Proof. intros H. unfold py_str_int, print_int. destruct (n <? 0) eqn:E; [lia|reflexivity]. Qed.

Lemma name_inj t1 t2 m n : 0 <= m -> 0 <= n ->
  type_letters t1 ++ py_str_int m = type_letters t2 ++ py_str_int n -> m = n.
Proof.
  intros Hm Hn E. rewrite !py_str_int_nonneg in E by assumption.
  apply (f_equal drop_nodigits) in E.
  rewrite !drop_nodigits_app in E by first [apply letters_nodigit | apply print_nat_z_digits].
  pose proof (print_nat_z_val m Hm) as Vm. pose proof (print_nat_z_val n Hn) as Vn.
  rewrite E in Vm. congruence.
Qed.

Definition conv (e : dir_entry) : text * fentry :=
  (fst e, {| fe_elements := fst (snd e); fe_length := snd (snd e) |}).

(* every key so far is the name of a file with a smaller number *)
Definition keys_below (n : Z) (acc : fdict) : Prop :=
  Forall (fun kv => exists t m, fst kv = type_letters t ++ py_str_int m /\ 0 <= m < n) acc.

Lemma keys_below_mono n n' acc : n <= n' -> keys_below n acc -> keys_below n' acc.
Proof.
  intros Hle H. unfold keys_below in *. eapply Forall_impl; [|exact H].
  intros kv [t [m [E Hm]]]. exists t, m. split; [exact E|lia].
Qed.

Lemma dict_set_fresh acc t n v : 0 <= n -> keys_below n acc ->
  dict_set acc (type_letters t ++ py_str_int n) v = acc ++ [(type_letters t ++ py_str_int n, v)].
Proof.
  intros Hn H. induction H as [|[k v'] acc [t' [m [E Hm]]] _ IH]; [reflexivity|].
  cbn [dict_set app]. cbn [fst] in E.
  destruct (text_eqb k (type_letters t ++ py_str_int n)) eqn:Ek.
  - exfalso. apply text_eqb_eq in Ek. rewrite E in Ek. apply name_inj in Ek; lia.
  - now rewrite IH.
Qed.

Lemma keys_below_snoc n acc t v : 0 <= n -> keys_below n acc ->
  keys_below (n + 1) (acc ++ [(type_letters t ++ py_str_int n, v)]).
Proof.
  intros Hn H. unfold keys_below. apply Forall_app. split.
  - apply (keys_below_mono n); [lia|exact H].
  - constructor; [|constructor]. exists t, n. split; [reflexivity|lia].
Qed.

Lemma parse_rows_number : forall rows rs fuel n acc rest_fuel,
  Forall (wf_row rs) rows -> fuel = (length rows + S rest_fuel)%nat -> 0 <= n -> keys_below n acc ->
  parse_rows fuel rs (flat_map row_bytes rows) n acc = DOk (acc ++ map conv (number_rows n rows)).
Proof.
  induction rows as [|r rows IH]; intros rs fuel n acc rf Hwf Hf Hn Hk.
  - subst fuel. cbn. now rewrite app_nil_r.
  - inversion Hwf as [|? ? Hr0 Hwf']; subst. destruct Hr0 as [Hlen Hr].
    cbn [flat_map length Nat.add].
    pose proof (skipn_app_exact (row_bytes r) (flat_map row_bytes rows)) as Hskip. rewrite Hlen in Hskip.
    destruct r as [t e fill|fill|c fill].
    + destruct Hr as [He Hlt].
      cbn [row_bytes app] in *. cbn [parse_rows].
      rewrite type_of_code_known. cbn [UINT_decode app].
      rewrite size_of_type_known.
      pose proof (elem_size_pos t) as Hs.
      replace ((e * elem_size t) mod 256 + 256 * (e * elem_size t / 256)) with (e * elem_size t) by lia.
      rewrite Z.div_mul by lia.
      rewrite Hskip. rewrite dict_set_fresh by assumption.
      rewrite (IH rs _ (n + 1) _ rf Hwf' eq_refl); [|lia|apply keys_below_snoc; assumption].
      cbn [number_rows map]. rewrite <- app_assoc. reflexivity.
    + cbn [row_bytes app] in *. cbn [parse_rows].
      rewrite type_of_code_reserved. rewrite Hskip.
      replace (RESERVED_CODE =? 129) with true by reflexivity.
      rewrite (IH rs _ (n + 1) _ rf Hwf' eq_refl); [|lia|apply (keys_below_mono n); [lia|assumption]].
      reflexivity.
    + destruct Hr as [Hc [Hk' Hne]].
      cbn [row_bytes app] in *. cbn [parse_rows].
      rewrite type_of_code_foreign by assumption. rewrite Hskip.
      unfold RESERVED_CODE in Hne. destruct (c =? 129) eqn:Ec; [lia|].
      rewrite (IH rs _ n _ rf Hwf' eq_refl); [|lia|assumption].
      reflexivity.
Qed.

Lemma rows_le_bytes rows : (length rows <= length (flat_map row_bytes rows))%nat.
Proof.
  induction rows as [|r rows IH]; [cbn; lia|].
  cbn [flat_map length]. rewrite app_length. destruct r; cbn [row_bytes length]; lia.
Qed.

(* round trip, row level: any header of the directory's position (at least 53 bytes) *)
Theorem parse_file0_rows pos rs hdr rows :
  length hdr = pos -> (53 <= pos)%nat -> Forall (wf_row rs) rows ->
  parse_file0_at pos rs (encode_rows hdr rows) = DOk (map conv (number_rows 0 rows)).
Proof.
  intros Hh Hp Hwf. unfold parse_file0_at, encode_rows.
  rewrite app_length. destruct (length hdr + length (flat_map row_bytes rows) <=? 52)%nat eqn:E; [lia|].
  rewrite <- Hh. rewrite skipn_app, skipn_all, Nat.sub_diag. cbn [skipn app].
  pose proof (rows_le_bytes rows) as Hle.
  rewrite (parse_rows_number rows rs _ 0 []
             (length hdr + length (flat_map row_bytes rows) - length rows)%nat Hwf);
    [reflexivity|lia|lia|constructor].
Qed.

Lemma number_reserved k fill n rest :
  number_rows n (repeat (RReserved fill) k ++ rest) = number_rows (n + Z.of_nat k) rest.
Proof.
  revert n. induction k as [|k IH]; intros n.
  - cbn. f_equal. lia.
  - cbn [repeat app number_rows]. rewrite IH. f_equal. lia.
Qed.

Lemma number_rows_of_files rs : forall fs next, wf_files next fs ->
  number_rows next (rows_of_files rs next fs) = dir_view fs.
Proof.
  induction fs as [|f fs IH]; intros next Hwf; [reflexivity|].
  cbn [wf_files] in Hwf. destruct Hwf as [Hn [He [Hl Hwf]]].
  cbn [rows_of_files dir_view map]. rewrite number_reserved. cbn [number_rows].
  replace (next + Z.of_nat (Z.to_nat (d_num f - next))) with (d_num f) by lia.
  f_equal. apply IH. exact Hwf.
Qed.

Lemma wf_rows_of_files rs : (3 <= rs)%nat -> forall fs next, wf_files next fs ->
  Forall (wf_row rs) (rows_of_files rs next fs).
Proof.
  intros Hrs. induction fs as [|f fs IH]; intros next Hwf; [constructor|].
  cbn [wf_files] in Hwf. destruct Hwf as [Hn [He [Hl Hwf]]].
  cbn [rows_of_files]. apply Forall_app. split.
  - apply Forall_forall. intros r Hr. apply repeat_spec in Hr. subst r.
    split; [|exact I]. cbn [row_bytes length]. rewrite zeros_length. lia.
  - constructor; [|apply IH; exact Hwf].
    split; [|split; assumption]. cbn [row_bytes length]. rewrite zeros_length. lia.
Qed.

(* _get_sys0_info places the directory where the family has it *)
Lemma sys0_of_family cat :
  Z.to_nat (s_file_position (get_sys0_info cat)) = fam_position (family_of_catalog cat)
  /\ Z.to_nat (s_row_size (get_sys0_info cat)) = fam_row (family_of_catalog cat).
Proof.
  unfold get_sys0_info, family_of_catalog, cat_1761, cat_1100s, cat_1766, t1761, t1762, t1763, t1764, t1766.
  cbn [existsb].
  destruct (text_eqb (firstn 4 cat) [49; 55; 54; 49]); [split; reflexivity|].
  destruct (text_eqb (firstn 4 cat) [49; 55; 54; 51]);
    destruct (text_eqb (firstn 4 cat) [49; 55; 54; 50]);
    destruct (text_eqb (firstn 4 cat) [49; 55; 54; 52]); cbn [orb]; try (split; reflexivity).
  destruct (text_eqb (firstn 4 cat) [49; 55; 54; 54]); split; reflexivity.
Qed.

(* round trip, directory level: for every family, every catalog string of the family, every
   header of the family's length and every well-formed list of files *)
Theorem dir_roundtrip cat hdr fs :
  length hdr = fam_position (family_of_catalog cat) -> wf_files 0 fs ->
  parse_file0 (get_sys0_info cat) (encode_dir (family_of_catalog cat) hdr fs) = DOk (map conv (dir_view fs)).
Proof.
  intros Hh Hwf. unfold parse_file0, encode_dir.
  destruct (sys0_of_family cat) as [Hp Hr]. rewrite Hp, Hr.
  rewrite (parse_file0_rows _ _ hdr _ Hh).
  - rewrite number_rows_of_files by exact Hwf. reflexivity.
  - destruct (family_of_catalog cat); cbn; lia.
  - apply wf_rows_of_files; [destruct (family_of_catalog cat); cbn; lia|exact Hwf].
Qed.
