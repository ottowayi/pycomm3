(* Proofs/UploadFinal.v — C05, the headline: the upload of the model client against the reference
   target SHOWS the abstract view of the project (Spec/Expect.abstract_view rendered by
   Spec/UploadObs.obs_of_view), for every page policy, template-fragment policy, capacity and
   firmware major: [upload_mirrors_star] (get_tag_list("*") / open()) and [upload_mirrors_none]
   (get_tag_list(None), init_program_tags=False: the view of the controller scope).
   Both instantiate [view_mirrored]: a result related tag by tag to a permutation of the visible
   tags, whose driver state satisfies the invariant of Proofs/UploadMirror.v, shows any view with
   the tags and types of the abstract view.
   [no_dup_no_invent]: the uploaded names are distinct and are exactly the visible tags. *)
From Coq Require Import ZifyBool String Permutation.
From PV Require Import Base.Bytes Base.ListLemmas Base.PyStr.
From PV Require Import Spec.Project Spec.Expect Spec.TargetLogix Spec.UploadObs.
From PV Require Import Model.LogixUpload.
From PV Require Import Proofs.TargetLogixP Proofs.UploadDefs Proofs.UploadDict Proofs.UploadFilter
  Proofs.UploadObsP Proofs.UploadTarget Proofs.UploadMirror Proofs.UploadScope Proofs.UploadTop Proofs.UploadReach
  Proofs.UploadHistory.
Open Scope string_scope.
Open Scope list_scope.
Open Scope Z_scope.

(* two observations are the same up to the order of the (name-keyed) tag and type dictionaries *)
Definition oview_equiv (a b : oview) : Prop :=
  Permutation (ov_tags a) (ov_tags b) /\ Permutation (ov_types a) (ov_types b)
  /\ ov_programs a = ov_programs b /\ ov_tasks a = ov_tasks b.

Lemma all_some_perm {A B} (f : A -> option B) : forall l1 l2,
  Permutation l1 l2 -> forall r1, all_some (map f l1) = Some r1 ->
  exists r2, all_some (map f l2) = Some r2 /\ Permutation r1 r2.
Proof.
  induction 1 as [|x l l' _ IH|x y l|l l' l'' _ IH1 _ IH2]; intros r1 H.
  - injection H as <-. exists []. auto.
  - cbn [map all_some] in *. destruct (f x); [|discriminate]. destruct (all_some (map f l)) as [r|]; [|discriminate].
    injection H as <-. destruct (IH r eq_refl) as (r2 & -> & Hp). eauto.
  - cbn [map all_some] in *. destruct (f y); [|discriminate]. destruct (f x); [|discriminate].
    destruct (all_some (map f l)); [|discriminate]. injection H as <-. eexists. split; [reflexivity | apply perm_swap].
  - destruct (IH1 r1 H) as (r2 & H2 & P2). destruct (IH2 r2 H2) as (r3 & H3 & P3). exists r3. split; [exact H3|].
    eapply perm_trans; eassumption.
Qed.

Lemma tags_dict_nodup : forall l acc,
  NoDup (map fst acc ++ map tg_name l) ->
  fold_left (fun d t => dict_set PyStr.text_eqb d (tg_name t) t) l acc = acc ++ map (fun t => (tg_name t, t)) l.
Proof.
  induction l as [|t l IH]; intros acc Hnd; [cbn; rewrite app_nil_r; reflexivity|].
  cbn [fold_left map]. cbn [map] in Hnd.
  rewrite dict_set_absent.
  - rewrite IH; [rewrite <- app_assoc; reflexivity|]. rewrite map_app. cbn [map fst]. rewrite <- app_assoc. exact Hnd.
  - exact (dict_get_fresh _ text_eqb_eq _ _ _ Hnd).
Qed.

Lemma Forall2_diag {A} (R : A -> A -> Prop) : forall l, (forall a, In a l -> R a a) -> Forall2 R l l.
Proof.
  induction l as [|a l IH]; intros H; constructor; [apply H; left; reflexivity|].
  apply IH. intros b Hb. apply H. right. exact Hb.
Qed.

Lemma flat_map_if {A B} (c : A -> bool) (f : A -> B) l : flat_map (fun x => if c x then [f x] else []) l = map f (filter c l).
Proof. induction l as [|x l IH]; [reflexivity|]. cbn [flat_map filter]. destruct (c x); cbn [map app]; rewrite IH; reflexivity. Qed.

Lemma filter_comm {A} (f g : A -> bool) l : filter f (filter g l) = filter g (filter f l).
Proof. rewrite !filter_filter. apply filter_ext. intros x. apply andb_comm. Qed.

(* two filters that exclude each other *)
Lemma filter_or_perm {A} (a b : A -> bool) l :
  (forall x, In x l -> b x = true -> a x = false) ->
  Permutation (filter a l ++ filter b l) (filter (fun x => a x || b x) l).
Proof.
  induction l as [|x l IH]; intros H; [constructor|].
  specialize (IH (fun y Hy => H y (or_intror Hy))). pose proof (H x (or_introl eq_refl)) as Hx. cbn [filter].
  destruct (b x); [rewrite (Hx eq_refl); cbn [orb app]|destruct (a x); cbn [orb app]; [constructor|]; exact IH].
  symmetry. apply Permutation_cons_app. symmetry. exact IH.
Qed.

(* one filter for each key, no element passing two of them *)
Lemma flat_filter_perm {A K} (s : K -> A -> bool) (l : list A) : forall keys,
  NoDup keys -> (forall x k k', In x l -> In k keys -> In k' keys -> s k x = true -> s k' x = true -> k = k') ->
  Permutation (flat_map (fun k => filter (s k) l) keys) (filter (fun x => existsb (fun k => s k x) keys) l).
Proof.
  induction keys as [|k ks IH]; intros Hnd Hd; cbn [flat_map existsb].
  - clear Hd. induction l as [|x l' IHl]; [apply perm_nil | exact IHl].
  - inversion Hnd as [|? ? Hk Hnd']; subst.
    apply perm_trans with (filter (s k) l ++ filter (fun x => existsb (fun k' => s k' x) ks) l);
      [apply Permutation_app_head, IH; [exact Hnd'|] | apply filter_or_perm].
    + intros x k1 k2 Hx H1 H2. apply Hd; [exact Hx | right; exact H1 | right; exact H2].
    + intros x Hx Hex. apply existsb_exists in Hex. destruct Hex as (k' & Hk' & Hs').
      destruct (s k x) eqn:Hs; [|reflexivity]. exfalso. apply Hk.
      rewrite (Hd x k k' Hx (or_introl eq_refl) (or_intror Hk') Hs Hs'). exact Hk'.
Qed.

Lemma distinct_by_sub {A B} (eqb : B -> B -> bool) (h : A -> B) (f : A -> bool) : forall l,
  distinct_by eqb (map h l) = true -> distinct_by eqb (map h (filter f l)) = true.
Proof.
  induction l as [|x l IH]; intros H; [reflexivity|]. cbn [map distinct_by] in H. apply andb_prop in H. destruct H as [H1 H2].
  cbn [filter]. destruct (f x); [|apply IH; exact H2]. cbn [map distinct_by]. rewrite (IH H2), andb_true_r.
  apply negb_true_iff in H1. apply negb_true_iff.
  destruct (existsb (eqb (h x)) (map h (filter f l))) eqn:E; [|reflexivity].
  apply existsb_exists in E. destruct E as (y & Hy & Ey). apply in_map_iff in Hy. destruct Hy as (z & <- & Hz). apply filter_In in Hz.
  assert (existsb (eqb (h x)) (map h l) = true); [|congruence].
  apply existsb_exists. exists (h z). split; [apply in_map; apply Hz | exact Ey].
Qed.

Lemma Reach_transfer p q (R R' : Z -> Prop) :
  p_templates q = p_templates p -> (forall x, R x -> R' x) -> forall x, Reach p R x -> Reach q R' x.
Proof.
  intros E H x Hx. induction Hx as [tid Ht | tid t tid' _ IH Hf Hm]; [apply Reach_root; auto|].
  eapply Reach_step; [exact IH | rewrite E; exact Hf | exact Hm].
Qed.

Section Final.
  Variable p : project.
  Variable pol : policy.
  Variable cap rev_major : Z.

  Let ts := p_templates p.
  Let wa := with_access rev_major.

  Hypothesis Hwf : wf_project p = true.
  Hypothesis Hdom : upload_dom p cap.

  Let Hts : templates_ok [] ts = true := wf_templates p Hwf.

  (* the program scopes exclude each other, and the controller scope *)
  Lemma star_perm : Permutation (star_tags p) (visible_tags p).
  Proof.
    unfold star_tags, vis, ctrl, scope_tags. rewrite filter_comm.
    rewrite (flat_map_ext _ (fun pn => filter (fun g => scope_eqb (g_scope g) (ScProg pn)) (visible_tags p)))
      by (intros pn; apply filter_comm).
    eapply perm_trans; [eapply perm_trans; [apply Permutation_app_head, flat_filter_perm | apply filter_or_perm]|].
    - exact (d_prog_names p cap Hdom).
    - intros g k k' Hg Hk Hk' Hs Hs'. apply filter_In in Hg. destruct Hg as [Hg _].
      pose proof (d_scope_exact p cap Hdom g k Hg Hk Hs) as E.
      rewrite (d_scope_exact p cap Hdom g k' Hg Hk' Hs') in E. injection E as ->. reflexivity.
    - intros g _ Hex. apply existsb_exists in Hex. destruct Hex as (pn & _ & Hs).
      destruct (g_scope g); [discriminate | reflexivity].
    - (* every tag is in the controller scope or in the scope of a program *)
      unfold visible_tags. rewrite filter_filter. erewrite filter_ext_in; [apply Permutation_refl|]. intros g Hg. cbv beta.
      replace (_ || _) with true; [apply andb_true_r|]. destruct (g_scope g) as [|pn] eqn:Esc; [reflexivity|].
      symmetry. apply existsb_exists. exists pn. split; [exact (d_scope_known p cap Hdom g pn Hg Esc) | apply name_eqb_refl].
  Qed.

  Lemma tagrel_names l ms : Forall2 (tagrel p rev_major) l ms -> map tg_name ms = map full_name l.
  Proof. induction 1 as [|g mt l ms [_ H] _ IH]; [reflexivity|]. cbn [map]. rewrite H, IH. reflexivity. Qed.

  Lemma otag_eq types g mt :
    tagrel p rev_major g mt ->
    (forall tid od, g_ty g = BStruct tid -> Exp ts tid od -> odef_of (S (length types)) types tid = Some od) ->
    otag_of wa types (view_tag g) = Some (otag_of_mtag wa mt).
  Proof.
    intros [Hobs _] Hod. unfold tag_obs_ok in Hobs. fold ts wa in Hobs.
    destruct Hobs as (H1 & H2 & H3 & H4 & H5 & H6 & H7 & H8 & Hty).
    unfold otag_of, view_tag. cbn [vt_ty vt_name vt_inst vt_bitpos vt_dims vt_access vt_alias vt_attr3 vt_attr5 vt_attr6].
    destruct (otag_of_mtag wa mt) as [n i ty tn tid bp dims ac al x3 x5 x6].
    cbn [ot_name ot_inst ot_ty ot_tyname ot_tid ot_bitpos ot_dims ot_access ot_alias ot_a3 ot_a5 ot_a6] in *.
    destruct (g_ty g) as [c|t0|w] eqn:Ety; [| |contradiction].
    - destruct Hty as (T1 & T2 & T3 & T4). subst. reflexivity.
    - destruct Hty as (od & Hexp & T1 & T2 & T3 & T4). rewrite (Hod t0 od eq_refl Hexp). subst.
      destruct od. reflexivity.
  Qed.

  Definition roots : list Z :=
    nodup Z.eq_dec (flat_map (fun g => match g_ty g with BStruct tid => [tid] | _ => [] end) (visible_tags p)).
  Definition ids : list Z := reach (S (length ts)) ts roots.
  Definition keepf (t : template) : bool := zmem (t_id t) ids.
  Definition vtypes : list vtype := map view_type (filter keepf ts).

  Lemma view_shape :
    v_tags (abstract_view p) = map view_tag (visible_tags p) /\ v_types (abstract_view p) = vtypes.
  Proof. split; reflexivity. Qed.

  Lemma roots_spec tid : In tid roots <-> R_star p tid.
  Proof.
    unfold roots, R_star. rewrite nodup_In, in_flat_map. split.
    - intros (g & Hg & Hx). unfold visible_tags in Hg. apply filter_In in Hg. destruct Hg as [Hin Hv].
      exists g. split; [exact Hin|]. split; [destruct (hidden_symbol g); [discriminate | reflexivity]|].
      destruct (g_ty g) as [c|x|w]; [destruct Hx | | destruct Hx]. destruct Hx as [-> | []]. reflexivity.
    - intros (g & Hin & Hv & Hty). exists g. split; [unfold visible_tags; apply filter_In; rewrite Hv; auto|].
      rewrite Hty. left; reflexivity.
  Qed.

  Lemma roots_known : incl roots (tids p).
  Proof.
    intros tid H. apply roots_spec in H. destruct H as (g & Hin & _ & Hty).
    pose proof (wf_tags p Hwf) as Htags. rewrite forallb_forall in Htags. pose proof (Htags g Hin) as Hok.
    unfold tag_ok in Hok. apply andb_prop in Hok. destruct Hok as [_ Hok]. rewrite Hty in Hok. split_andb.
    destruct (find_template (p_templates p) tid) as [t|] eqn:Ef; [|discriminate].
    apply find_template_in in Ef. destruct Ef as [Ht <-]. unfold tids. apply in_map. exact Ht.
  Qed.

  (* the types of the view are those reachable from the structure types of the visible tags *)
  Lemma ids_spec : closed p ids /\ incl ids (tids p) /\ (forall x, In x ids <-> Reach p (R_star p) x).
  Proof. exact (reach_closure p Hts (R_star p) roots (NoDup_nodup _ _) roots_known roots_spec). Qed.

  Lemma reach_mono (R R' : Z -> Prop) : (forall x, R x -> R' x) -> forall x, Reach p R x -> Reach p R' x.
  Proof. exact (Reach_transfer p p R R' eq_refl). Qed.

  Lemma odef_ids tid od : In tid ids -> Exp ts tid od -> odef_of (S (length vtypes)) vtypes tid = Some od.
  Proof. exact (odef_of_closed p Hts ids (proj1 ids_spec) tid od). Qed.

  Lemma programs_eq :
    map (fun vp => (vp_name vp, vp_inst vp, vp_routines vp)) (v_programs (abstract_view p))
    = map (fun x : text * (Z * list text) => (fst x, fst (snd x), snd (snd x))) (star_programs p).
  Proof.
    transitivity (map (fun vp => (vp_name vp, vp_inst vp, vp_routines vp))
                      (map (fun g => mkVProgram (nm8 g) (g_inst g) (routines_of p (nm8 g))) (PS p))).
    - f_equal. unfold PS, ctrl, scope_tags. rewrite filter_filter, <- flat_map_if. apply flat_map_ext.
      intros g. unfold is_program_symbol, is_prog. destruct (g_scope g); [destruct (starts_with _ _)|]; reflexivity.
    - unfold star_programs, routines_in, scope_tags, routines_of. rewrite !map_map. apply map_ext. intros g.
      rewrite filter_filter, <- flat_map_if. reflexivity.
  Qed.

  Lemma tasks_eq : v_tasks (abstract_view p) = map task_entry (filter is_task (ctrl p)).
  Proof.
    unfold ctrl, scope_tags. rewrite filter_filter, <- flat_map_if. apply flat_map_ext.
    intros g. destruct (g_scope g); reflexivity.
  Qed.

  Section Assembly.
    Variable tags_in : list tagdef.          (* the visible tags uploaded *)
    Variable r : uresult.
    Hypothesis HF : Forall2 (tagrel p rev_major) tags_in (res_tags r).
    Hypothesis Hinv : Inv p (R_star p) (res_state r).
    Hypothesis Hroots_in : forall g tid, In g tags_in -> g_ty g = BStruct tid -> In tid (keys (res_state r)).
    Hypothesis Hperm : Permutation tags_in (visible_tags p).
    Hypothesis Hfull : NoDup (map full_name (visible_tags p)).

    (* the driver holds the definitions of exactly the types of the view *)
    Lemma keys_ids k : In k (keys (res_state r)) <-> In k ids.
    Proof.
      rewrite (proj2 (proj2 ids_spec)). split; [exact (inv_reach p _ _ Hinv k)|].
      apply (Reach_in_closed p); [exact (inv_closed p _ _ Hinv)|].
      intros tid (g & Hin & Hv & Hty). apply (Hroots_in g tid); [|exact Hty].
      eapply Permutation_in; [symmetry; exact Hperm|]. apply filter_In. rewrite Hv. auto.
    Qed.

    Lemma keys_perm : Permutation (keys (res_state r)) (map t_id (filter keepf ts)).
    Proof.
      unfold keepf. rewrite <- (filter_map_comm (fun x => zmem x ids) t_id). apply NoDup_Permutation.
      - exact (inv_nodup p _ _ Hinv).
      - apply NoDup_filter. exact (tids_nodup ts [] Hts).
      - intros k. rewrite keys_ids, filter_In, zmem_In. pose proof (proj1 (proj2 ids_spec) k). tauto.
    Qed.

    Lemma tags_obs :
      all_some (map (fun g => otag_of wa vtypes (view_tag g)) tags_in) = Some (map (otag_of_mtag wa) (res_tags r)).
    Proof.
      apply (all_some_map _ _ _ _ _ HF). intros g mt Hg Hrel. apply (otag_eq vtypes g mt Hrel). intros tid od Hty.
      apply odef_ids, keys_ids. exact (Hroots_in g tid Hg Hty).
    Qed.

    Lemma types_obs :
      all_some (map (odef_of (S (length vtypes)) vtypes) (keys (res_state r)))
      = Some (map (fun kv => odef_of_dt (snd kv)) (u_udts (res_state r))).
    Proof.
      unfold keys. rewrite map_map. apply (all_some_map eq); [apply Forall2_diag; reflexivity|]. intros kv ? Hkv <-.
      destruct kv as [k d]. pose proof (dict_get_of_in _ Z.eqb_eq _ _ _ (inv_nodup p _ _ Hinv) Hkv) as Eget.
      apply odef_ids; [apply keys_ids, in_map, Hkv | exact (Good_exp p _ _ (inv_good p _ _ Hinv _ _ Eget))].
    Qed.

    (* any view with the tags and types of the abstract view and the programs and tasks the driver holds *)
    Theorem view_mirrored v :
      v_tags v = map view_tag (visible_tags p) -> v_types v = vtypes ->
      map (fun vp => (vp_name vp, vp_inst vp, vp_routines vp)) (v_programs v)
      = map (fun x : text * (Z * list text) => (fst x, fst (snd x), snd (snd x))) (u_programs (res_state r)) ->
      v_tasks v = u_tasks (res_state r) ->
      exists ov, obs_of_view wa v = Some ov /\ oview_equiv (obs_of_result wa r) ov.
    Proof.
      intros Etags Etypes Eprogs Etasks. unfold obs_of_view. rewrite Etags, Etypes, Eprogs, Etasks, map_map.
      destruct (all_some_perm _ _ _ Hperm _ tags_obs) as (ots & -> & Hpt).
      set (od := odef_of (S (length vtypes)) vtypes).
      replace (map (fun y => od (vy_id y)) vtypes) with (map od (map t_id (filter keepf ts)))
        by (unfold vtypes; rewrite !map_map; reflexivity).
      destruct (all_some_perm od _ _ keys_perm _ types_obs) as (ods & -> & Hpd).
      eexists. split; [reflexivity|].
      unfold oview_equiv, obs_of_result. cbn [ov_tags ov_types ov_programs ov_tasks].
      split; [|split; [|split; reflexivity]].
      - (* the dictionary keyed by name holds every record *)
        unfold tags_dict. rewrite (tags_dict_nodup (res_tags r) []); cbn [map app]; [rewrite map_map; exact Hpt|].
        rewrite (tagrel_names _ _ HF). eapply Permutation_NoDup; [|exact Hfull]. apply Permutation_map. symmetry. exact Hperm.
      - rewrite (inv_types p _ _ Hinv), map_map. exact Hpd.
    Qed.

    Theorem assembly progs tasks :
      map (fun x : text * (Z * list text) => (fst x, fst (snd x), snd (snd x))) (u_programs (res_state r)) = progs ->
      u_tasks (res_state r) = tasks ->
      exists ov,
        obs_of_view wa (mkView (map view_tag (visible_tags p)) vtypes
                               (map (fun x : text * Z * list text => mkVProgram (fst (fst x)) (snd (fst x)) (snd x)) progs) tasks)
        = Some ov
        /\ oview_equiv (obs_of_result wa r) ov.
    Proof.
      intros Hprogs Htasks. apply view_mirrored; cbn [v_tags v_types v_programs v_tasks]; [reflexivity | reflexivity | | symmetry; exact Htasks].
      rewrite Hprogs, map_map. cbn [vp_name vp_inst vp_routines]. rewrite <- (map_id progs) at 2. apply map_ext. intros [[a b] c]. reflexivity.
    Qed.
  End Assembly.

  Theorem upload_mirrors_star fuel :
    NoDup (map full_name (visible_tags p)) -> (fuel_bound p <= fuel)%nat ->
    exists r ov, upload_target cap rev_major fuel p pol ArgStar = Done r
                 /\ obs_of_view wa (abstract_view p) = Some ov
                 /\ oview_equiv (obs_of_result wa r) ov.
  Proof.
    intros Hfull Hfuel.
    destruct (upload_star p pol cap rev_major Hwf Hdom fuel Hfuel) as (r & Er & HF & Hinv & Hroots & Hprogs & Htasks).
    destruct (view_mirrored (star_tags p) r HF Hinv Hroots star_perm Hfull (abstract_view p) (proj1 view_shape) (proj2 view_shape))
      as (ov & Eov & Heq); [rewrite Hprogs; exact programs_eq | rewrite Htasks; exact tasks_eq | eauto].
  Qed.

  Theorem no_dup_no_invent fuel :
    NoDup (map full_name (visible_tags p)) -> (fuel_bound p <= fuel)%nat ->
    exists r, upload_target cap rev_major fuel p pol ArgStar = Done r
              /\ NoDup (map tg_name (res_tags r))
              /\ Permutation (map tg_name (res_tags r)) (map full_name (visible_tags p)).
  Proof.
    intros Hfull Hfuel.
    destruct (upload_star p pol cap rev_major Hwf Hdom fuel Hfuel) as (r & Er & HF & _).
    exists r. split; [exact Er|]. rewrite (tagrel_names _ _ HF).
    assert (Hp : Permutation (map full_name (star_tags p)) (map full_name (visible_tags p))) by (apply Permutation_map; exact star_perm).
    split; [eapply Permutation_NoDup; [symmetry; exact Hp | exact Hfull] | exact Hp].
  Qed.
End Final.

Section NoneSec.
  Variable p : project.
  Variable pol : policy.
  Variable cap rev_major : Z.
  Hypothesis Hwf : wf_project p = true.
  Hypothesis Hdom : upload_dom p cap.

  (* its tags are [ctrl p], by computation *)
  Let p' := controller_scope p.
  Let wa := with_access rev_major.

  Lemma wf_controller_scope : wf_project p' = true.
  Proof.
    unfold wf_project in *. split_andb. rewrite !andb_true_iff. repeat split.
    - assumption.
    - apply forallb_forall. intros g Hg. destruct (ctrl_scope p g Hg) as [Hin Hsc].
      match goal with H : forallb (tag_ok p) _ = true |- _ => rewrite forallb_forall in H; pose proof (H g Hin) as Hok end.
      unfold tag_ok in *. rewrite Hsc in *. exact Hok.
    - apply distinct_by_sub. assumption.
    - rewrite <- (map_id (p_tags p')). apply distinct_by_sub. rewrite map_id. assumption.
  Qed.

  Lemma Inv_transfer (R R' : Z -> Prop) u : (forall x, R x -> R' x) -> Inv p R u -> Inv p' R' u.
  Proof.
    intros H [G S N T C Rr]. constructor; [exact G | exact S | exact N | exact T | exact C|].
    intros tid Hk. exact (Reach_transfer p p' R R' eq_refl H tid (Rr tid Hk)).
  Qed.

  Lemma ctrl_idem : ctrl p' = ctrl p.
  Proof.
    unfold ctrl at 1, scope_tags at 1. change (p_tags p') with (ctrl p). unfold ctrl, scope_tags.
    rewrite filter_filter. apply filter_ext. intros g. destruct (g_scope g); reflexivity.
  Qed.

  Lemma no_routines n : routines_in (scope_tags p' (ScProg n)) = [].
  Proof.
    unfold scope_tags. change (p_tags p') with (ctrl p).
    destruct (filter _ (ctrl p)) as [|g l] eqn:E; [reflexivity|].
    assert (Hg : In g (filter (fun g => scope_eqb (g_scope g) (ScProg n)) (ctrl p))) by (rewrite E; left; reflexivity).
    apply filter_In in Hg. destruct Hg as [Hg Hs]. rewrite (proj2 (ctrl_scope p g Hg)) in Hs. discriminate.
  Qed.

  Theorem upload_mirrors_none fuel :
    NoDup (map full_name (visible_tags p)) -> (fuel_bound p <= fuel)%nat ->
    exists r ov, upload_target cap rev_major fuel p pol ArgNone = Done r
                 /\ obs_of_view wa (abstract_view (controller_scope p)) = Some ov
                 /\ oview_equiv (obs_of_result wa r) ov.
  Proof.
    intros Hfull Hfuel.
    destruct (upload_none p pol cap rev_major Hwf Hdom fuel Hfuel) as (r & Er & HF & Hinv & Hroots & Hprogs & Htasks).
    destruct (view_mirrored p' rev_major wf_controller_scope (vis (ctrl p)) r HF) with (v := abstract_view p')
      as (ov & Eov & Heq); [|exact Hroots| | |reflexivity|reflexivity| | |eauto].
    - (* [R_star p'] is [R_ctrl p] *)
      exact (Inv_transfer (R_ctrl p) (R_star p') _ (fun x H => H) Hinv).
    - apply Permutation_refl.
    - change (visible_tags p') with (vis (ctrl p)). unfold vis, ctrl, scope_tags. rewrite filter_comm.
      apply NoDup_map_filter. exact Hfull.
    - rewrite Hprogs, (programs_eq p'). f_equal. unfold star_programs, PS. rewrite ctrl_idem.
      apply map_ext. intros g. rewrite no_routines. reflexivity.
    - rewrite Htasks, (tasks_eq p'), ctrl_idem. reflexivity.
  Qed.
End NoneSec.

(* get_tag_list("*") / get_tag_list(None) on a driver in ANY state u0 (whatever it uploaded before, from
   whatever project) IS the upload of a fresh driver: it mirrors the CURRENT project, data_types
   included — nothing of an earlier upload survives (/repo 0c7d79e resets _data_types too) *)
Theorem upload_history p pol cap rev_major fuel u0 arg :
  match arg with ArgProgram _ => False | _ => True end ->
  snd (get_tag_list lstate (target_call cap) rev_major fuel u0 (target_state p pol) arg)
  = upload_target cap rev_major fuel p pol arg.
Proof.
  intros H. unfold upload_target. rewrite (get_tag_list_forgets lstate (target_call cap) rev_major fuel u0 _ arg H). reflexivity.
Qed.
