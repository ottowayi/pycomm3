(* Proofs/CodecErrBase.v — C08: the elementary facts about the stream primitives and the decode
   combinators the error-algebra proofs use. *)
From PV Require Import Base.Bytes Base.Res.
From PV Require Import Model.Codec Proofs.CodecErrDefs.
From PV Require Export Proofs.CodecTy.
From Coq Require Import ZifyBool.
Open Scope Z_scope.
Ltac Zify.zify_post_hook ::= Z.to_euclidean_division_equations.

Lemma stringn_enc_0_is : stringn_enc 0 = None. Proof. reflexivity. Qed.
Lemma named_SHORT_STRING_decode : named_decode n_SHORT_STRING = str_decode false 1 Latin1. Proof. reflexivity. Qed.

Lemma named_USINT_encode : named_int_encode n_USINT = int_encode false 1.
Proof. unfold named_int_encode. now rewrite int_row_USINT. Qed.

Lemma zlen_nonneg' {A} (l : list A) : 0 <= zlen l.
Proof. unfold zlen. lia. Qed.

Lemma ztake_length {A} n (l : list A) : 0 <= n -> length (ztake n l) = Z.to_nat (Z.min n (zlen l)).
Proof. intros Hn. unfold ztake. rewrite firstn_length. unfold zlen. lia. Qed.
Lemma ztake_zdrop {A} n (l : list A) : ztake n l ++ zdrop n l = l.
Proof. apply firstn_skipn. Qed.

Lemma stream_take_split n bs d r : stream_take n bs = (d, r) -> bs = d ++ r.
Proof.
  unfold stream_take. destruct (n <? 0); intros H; injection H as <- <-.
  - now rewrite app_nil_r.
  - now rewrite ztake_zdrop.
Qed.

Lemma stream_take_data_len n bs d r :
  0 <= n -> stream_take n bs = (d, r) -> length d = Z.to_nat (Z.min n (zlen bs)).
Proof.
  intros Hn. unfold stream_take. destruct (n <? 0) eqn:E; [lia|]. intros H. injection H as <- <-.
  now apply ztake_length.
Qed.

Lemma stream_take_nil n bs r : stream_take n bs = ([], r) -> r = bs /\ (bs = [] \/ n = 0).
Proof.
  intros H. pose proof (stream_take_split _ _ _ _ H) as ->. cbn [app] in *. split; [reflexivity|].
  destruct (Z_lt_le_dec n 0) as [Hn|Hn]; [unfold stream_take in H; replace (n <? 0) with true in H by lia; injection H; auto|].
  apply stream_take_data_len in H; [|exact Hn]. destruct r; [now left|right]. unfold zlen in H. cbn [length] in H. lia.
Qed.

Lemma stream_read_spec n bs k :
  (bs = [] /\ n <> 0 /\ stream_read n bs k = DEmpty [])
  \/ (bs <> [] /\ zlen bs < n /\ stream_read n bs k = DErr DataError)
  \/ exists d x, bs = d ++ x /\ stream_read n bs k = k d x /\ (d = [] -> n = 0) /\ (0 <= n -> zlen d = n).
Proof.
  unfold stream_read, stream_take, ztake, zdrop, zlen. destruct (n <? 0) eqn:En.
  - destruct bs as [|b bs]; [left; split; [|split]; auto; [lia|]; now replace (n =? 0) with false by lia|].
    right; right. exists (b :: bs), []. rewrite app_nil_r. replace (_ <? n) with false by lia.
    repeat split; [discriminate|lia].
  - destruct (Z_lt_le_dec (Z.of_nat (length bs)) n) as [Hlt|Hle].
    + rewrite Z.min_r, Nat2Z.id, firstn_all, skipn_all by lia.
      destruct bs as [|b bs]; [left|right; left]; (split; [|split]); try easy; try lia.
      * now replace (n =? 0) with false by (cbn [length] in Hlt; lia).
      * now replace (_ <? n) with true by lia.
    + right; right. rewrite Z.min_l by lia. exists (firstn (Z.to_nat n) bs), (skipn (Z.to_nat n) bs).
      assert (Hl : length (firstn (Z.to_nat n) bs) = Z.to_nat n) by (rewrite firstn_length; lia).
      rewrite firstn_skipn. destruct (firstn (Z.to_nat n) bs) as [|b d] eqn:Ed; cbn [length] in Hl.
      * replace (n =? 0) with true by lia. repeat split; intros; cbn [length]; lia.
      * replace (_ <? n) with false by (cbn [length]; lia). repeat split; [discriminate|cbn [length]; lia].
Qed.

Lemma dwrap_ok r v x : dwrap r = DOk v x -> r = DOk v x.
Proof. destruct r; cbn; intros H; try discriminate; auto. Qed.
Lemma dwrap_empty r x : dwrap r = DEmpty x -> r = DEmpty x.
Proof. destruct r; cbn; intros H; try discriminate; auto. Qed.
Lemma dwrap_fuel r : dwrap r = DOutOfFuel -> r = DOutOfFuel.
Proof. destruct r; cbn; intros H; try discriminate; auto. Qed.
Lemma dwrap_err r e : dwrap r = DErr e -> e = DataError.
Proof. destruct r; cbn; intros H; try discriminate. now injection H. Qed.

Definition lib_dres (r : dres) : Prop := match r with DErr e => e = DataError | _ => True end.
Lemma dwrap_lib r : lib_dres (dwrap r).
Proof. destruct r; cbn; auto. Qed.

Lemma dbind_ok_inv r f v x : dbind r f = DOk v x -> exists v1 r1, r = DOk v1 r1 /\ f v1 r1 = DOk v x.
Proof. destruct r; cbn; intros H; try discriminate. eauto. Qed.
Lemma dbind_empty_inv r f x :
  dbind r f = DEmpty x -> r = DEmpty x \/ exists v1 r1, r = DOk v1 r1 /\ f v1 r1 = DEmpty x.
Proof. destruct r; cbn; intros H; try discriminate; eauto. Qed.
Lemma dbind_fuel_inv r f :
  dbind r f = DOutOfFuel -> r = DOutOfFuel \/ exists v1 r1, r = DOk v1 r1 /\ f v1 r1 = DOutOfFuel.
Proof. destruct r; cbn; intros H; try discriminate; eauto. Qed.

Lemma unpack_int_ok sg w d v : unpack_int sg w d = Ok v -> length d = w.
Proof. unfold unpack_int. destruct (length d =? w)%nat eqn:E; [|discriminate]. intros _. now apply Nat.eqb_eq. Qed.
Lemma unpack_real_ok dbl d v : unpack_real dbl d = Ok v -> length d = if dbl then 8%nat else 4%nat.
Proof.
  unfold unpack_real. destruct dbl.
  - destruct (length d =? 8)%nat eqn:E; [|discriminate]. intros _. now apply Nat.eqb_eq.
  - destruct (length d =? 4)%nat eqn:E; [|discriminate]. intros _. now apply Nat.eqb_eq.
Qed.

Lemma enc_char_size_width e : enc_char_size e = char_width e.
Proof. destruct e; reflexivity. Qed.

(* StructTag members decode from the private sub-stream after a seek: on an empty one a member
   that cannot be decoded from nothing stops the whole *)
Lemma stag_members_nil (D : ty -> bytes -> dres) (ms : list ((key * nat) * ty)) :
  Exists (fun m => forall v r, D (snd m) [] <> DOk v r) ms ->
  forall acc v r, stag_decode_members (map (fun m => (fst m, D (snd m))) ms) acc [] <> DOk v r.
Proof.
  induction 1 as [[[k off] t] ms Hm|[[k off] t] ms _ IH]; intros acc v r E;
    cbn [map stag_decode_members fst snd] in E; rewrite skipn_nil in E; apply dbind_ok_inv in E as (v1 & r1 & E1 & E).
  - exact (Hm _ _ E1).
  - exact (IH _ _ _ E).
Qed.

Lemma stag_bits_nil bits acc : bits <> [] -> exists e, stag_decode_bits bits [] acc = Err e.
Proof. destruct bits as [|[name [off bit]] r]; [contradiction|]. intros _. cbn [stag_decode_bits]. destruct off; cbn [nth_error]; eauto. Qed.
