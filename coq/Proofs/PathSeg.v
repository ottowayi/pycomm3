(* Proofs/PathSeg.v — every segment the encoders of Model/Path.v emit is read back by the strict
   parser of Spec/EPathParser.v as what the caller asked for ([denote]); paths are concatenations.
   The parser is taken with an explicit code [f32] for the 32-bit logical format (2 is CIP) and the
   lemmas ask that the regenerated table of the code ([table_f32]) agrees with it or that no
   4-byte value occurs: values below 2^16 never look at the code.  (Before /repo 7bdd341 the table
   said 3, the reserved code; Proofs/C09P.v [table_f32_cip] is where a regression breaks.) *)
From Coq Require Import String.
From PV Require Import Base.Bytes Base.BytesLemmas Base.Res Base.PyStr Gen.PathTables Model.Path
     Spec.EPathParser Proofs.PathStr.
From Coq Require Import ZifyBool.
Open Scope Z_scope.
Ltac Zify.zify_post_hook ::= Z.to_euclidean_division_equations.

(* the format code the regenerated table gives to 4-byte values *)
Definition table_f32 : Z := match assoc_z 4 logical_format with Some f => f | None => -1 end.

(* [enc] is one complete segment reading as [s], whatever follows it *)
Definition seg_parses (f32 : Z) (enc : list Z) (s : sseg) : Prop :=
  exists b body, enc = b :: body /\ forall tail, parse_seg f32 b (body ++ tail) = Some (s, tail).

Lemma take_app (a b : list Z) : take (length a) (a ++ b) = Some (a, b).
Proof.
  unfold take. rewrite app_length.
  replace (Nat.leb (length a) (length a + length b)) with true by (symmetry; apply Nat.leb_le; lia).
  now rewrite firstn_app_exact, skipn_app_exact.
Qed.

Lemma padded_even (l : list Z) : Nat.even (length (l ++ (if Nat.odd (length l) then [0] else []))) = true.
Proof.
  rewrite app_length. destruct (Nat.odd (length l)) eqn:E; cbn [length].
  - now rewrite Nat.add_1_r, Nat.even_succ.
  - now rewrite Nat.add_0_r, <- Nat.negb_odd, E.
Qed.

Definition ltype_rows : list (Z * Z) := [(0, 0); (4, 1); (8, 2); (12, 3); (16, 4)].   (* type bits, type number *)

Lemma logical_byte ty lt f : In (ty, lt) ltype_rows -> 0 <= f <= 3 ->
  let b := Z.lor (Z.lor 32 ty) f in
  b / 32 = 1 /\ b / 4 mod 8 = lt /\ b mod 4 = f /\ lt <= 4 /\ byte_ok b = true.
Proof.
  intros H Hf. assert (E : In f [0; 1; 2; 3]) by (cbn [In]; lia). cbn [In ltype_rows] in H, E.
  repeat (destruct H as [H|H]; [injection H as <- <-;
    repeat (destruct E as [<-|E]; [repeat split; discriminate|]); destruct E|]). destruct H.
Qed.

Definition width_fmt (f32 : Z) (vb : list Z) : option Z :=
  match vb with [_] => Some 0 | [_; _] => Some 1 | [_; _; _; _] => Some f32 | _ => None end.

Lemma parse_logical_value f32 b lt vb f r :
  b / 32 = 1 -> b / 4 mod 8 = lt -> lt <= 4 -> b mod 4 = f -> f32 = 2 \/ f32 = 3 -> width_fmt f32 vb = Some f ->
  parse_seg f32 b ((if Nat.odd (1 + length vb) then [0] else []) ++ vb ++ r) = Some (SLogical lt (le_dec vb), r).
Proof.
  intros H1 H2 H3 H4 Hf Hw. unfold parse_seg, parse_logical. cbv zeta. rewrite H1, H2, H4.
  apply Z.leb_le in H3. rewrite H3. cbn [Z.eqb Pos.eqb orb].
  destruct vb as [|v0 [|v1 [|v2 [|v3 [|v4 vb]]]]]; try discriminate; injection Hw as <-.
  - cbn [Z.eqb Nat.add length Nat.odd Nat.even negb app le_dec]. do 3 f_equal. lia.
  - cbn [Z.eqb Pos.eqb Nat.add length Nat.odd Nat.even negb app le_dec]. do 3 f_equal. lia.
  - destruct Hf as [-> | ->]; reflexivity.
Qed.

(* a 32-bit value written with the reserved code 3 is rejected by the CIP parser *)
Lemma parse_logical_reserved ty lt r : In (ty, lt) ltype_rows ->
  parse_seg FORMAT_32BIT (Z.lor (Z.lor 32 ty) 3) r = None.
Proof.
  intros H. destruct (logical_byte ty lt 3 H) as (H1 & _ & H3 & _); [lia|].
  unfold parse_seg, parse_logical. cbv zeta. now rewrite H1, H3.
Qed.

Lemma logical_types_agree t lt : assoc_text t spec_ltypes = Some lt ->
  exists ty, assoc_text t logical_types = Some ty /\ In (ty, lt) ltype_rows.
Proof.
  intros H.
  apply (assoc_text_forallb (fun t lt => match assoc_text t logical_types with
                                          | Some ty => existsb (fun r => (fst r =? ty) && (snd r =? lt)) ltype_rows
                                          | None => false
                                          end)) in H; [|reflexivity].
  destruct (assoc_text t logical_types) as [ty|]; [|discriminate]. exists ty. split; [reflexivity|].
  apply existsb_exists in H as ([ty' lt'] & Hin & E). cbn [fst snd] in E.
  now replace ty with ty' by lia; replace lt with lt' by lia.
Qed.

Lemma port_names_agree name n : assoc_text name spec_port_names = Some n ->
  assoc_text name port_segments = Some n /\ 1 <= n <= 14.
Proof.
  intros H.
  apply (assoc_text_forallb (fun k v => match assoc_text k port_segments with
                                        | Some m => (m =? v) && (1 <=? v) && (v <=? 14)
                                        | None => false
                                        end)) in H; [|reflexivity].
  destruct (assoc_text name port_segments) as [m|]; [|discriminate]. split; [f_equal|]; lia.
Qed.

(* the bytes of a logical segment whose value bytes are [vb] (1, 2 or 4 of them) *)
Lemma encode_logical_bytes t ty v vb f :
  assoc_text t logical_types = Some ty -> logical_value_bytes v = Ok vb ->
  assoc_z (len vb) logical_format = Some f -> byte_ok (Z.lor (Z.lor 32 ty) f) = true ->
  encode_seg true (Logical t v)
  = Ok (Z.lor (Z.lor 32 ty) f :: (if Nat.odd (1 + length vb) then [0] else []) ++ vb).
Proof.
  intros Ht Hv Hf Hb. unfold encode_seg, encode_logical, encode_logical_with.
  rewrite Ht, Hv. cbn [bind]. rewrite Hf. change logical_segment_type with 32. rewrite Hb.
  reflexivity.
Qed.

Lemma logical_value_int z : 0 <= z < 4294967296 ->
  let w := if z <=? 255 then 1%nat else if z <=? 65535 then 2%nat else 4%nat in
  logical_value_bytes (LInt z) = Ok (le_enc w z) /\ 0 <= z < pow256 w.
Proof.
  intros H. cbn [logical_value_bytes].
  destruct (z <=? 255) eqn:E1; [|destruct (z <=? 65535) eqn:E2; [|replace (z <=? 4294967295) with true by lia]];
    (split; [apply uint_encode_in|]).
  all: try change (pow256 1) with 256; try change (pow256 2) with 65536; try change (pow256 4) with 4294967296; lia.
Qed.

Lemma denote_logical_int t lt z : assoc_text t spec_ltypes = Some lt -> 0 <= z < LOGICAL_LIMIT ->
  denote (Logical t (LInt z)) = Some (SLogical lt z).
Proof. intros Ht Hz. cbn [denote]. rewrite Ht. now replace ((0 <=? z) && (z <? LOGICAL_LIMIT)) with true by lia. Qed.

Section WithF32.
Variable f32 : Z.
Hypothesis f32_cases : f32 = 2 \/ f32 = 3.

(* [is32 s]: the segment carries a 4-byte logical value *)
Definition is32 (s : seg) : bool :=
  match s with
  | Logical _ (LInt z) => 65536 <=? z
  | Logical _ (LBytes b) => len b =? 4
  | _ => false
  end.
Definition seg_result (s : seg) (ss : sseg) : Prop :=
  exists enc, encode_seg true s = Ok enc /\ seg_parses f32 enc ss
              /\ bytes_ok enc = true /\ Nat.even (length enc) = true.

Lemma logical_value_ok t v ss : denote (Logical t v) = Some ss ->
  exists lt vb, assoc_text t spec_ltypes = Some lt /\ ss = SLogical lt (le_dec vb)
    /\ logical_value_bytes v = Ok vb /\ bytes_ok vb = true
    /\ (length vb = 1 \/ length vb = 2 \/ length vb = 4)%nat
    /\ (length vb = 4%nat -> is32 (Logical t v) = true).
Proof.
  cbn [denote]. destruct (assoc_text t spec_ltypes) as [lt|]; [|discriminate]. destruct v as [z|b].
  - destruct ((0 <=? z) && (z <? LOGICAL_LIMIT)) eqn:Er; [|discriminate]. intros [= <-].
    unfold LOGICAL_LIMIT in Er. destruct (logical_value_int z) as [Hv Hz]; [lia|].
    eexists lt, _. split; [reflexivity|]. rewrite le_dec_enc_id, le_enc_ok, le_enc_length by exact Hz.
    repeat split; [exact Hv| |]; cbn [is32]; destruct (z <=? 255) eqn:E1; destruct (z <=? 65535) eqn:E2; lia.
  - destruct (bytes_ok b && ((len b =? 1) || (len b =? 2) || (len b =? 4))) eqn:Er; [|discriminate].
    intros [= <-]. apply andb_true_iff in Er as [Hb Hl]. unfold len in Hl.
    exists lt, b. repeat split; [exact Hb|lia|]. cbn [is32]. unfold len. lia.
Qed.

Lemma logical_ok_gen t v ss :
  denote (Logical t v) = Some ss -> (table_f32 = f32 \/ is32 (Logical t v) = false) ->
  seg_result (Logical t v) ss.
Proof.
  intros Hd Hg. destruct (logical_value_ok t v ss Hd) as (lt & vb & Et & -> & Hv & Hb & Hlen & H32).
  destruct (logical_types_agree _ _ Et) as (ty & Hty & Hrow).
  (* the format code of the width, in the parser and in the regenerated table *)
  assert (Hw : exists f, width_fmt f32 vb = Some f /\ assoc_z (len vb) logical_format = Some f /\ 0 <= f <= 3
                         /\ forall b, Nat.even (length (b :: (if Nat.odd (1 + length vb) then [0] else []) ++ vb)) = true).
  { destruct vb as [|v0 [|v1 [|v2 [|v3 [|v4 vb]]]]]; cbn [length] in Hlen; try lia.
    - exists 0. repeat split; lia.
    - exists 1. repeat split; lia.
    - exists f32. repeat split; try lia. destruct Hg as [Hg|Hg]; [|rewrite H32 in Hg; [discriminate|reflexivity]].
      unfold table_f32 in Hg. change (len [v0; v1; v2; v3]) with 4. destruct (assoc_z 4 logical_format); [now subst|lia]. }
  destruct Hw as (f & Hf & Ha & Hr & Hev). destruct (logical_byte ty lt f Hrow Hr) as (B1 & B2 & B3 & B4 & B5).
  eexists. split; [exact (encode_logical_bytes t ty v vb f Hty Hv Ha B5)|]. split; [|split; [|apply Hev]].
  - eexists _, _. split; [reflexivity|]. intros tail. rewrite <- app_assoc.
    exact (parse_logical_value f32 _ lt vb f tail B1 B2 B4 B3 f32_cases Hf).
  - rewrite bytes_ok_cons, B5, bytes_ok_app, Hb. now destruct (Nat.odd _).
Qed.

Lemma lor16 n : 0 <= n <= 15 -> Z.lor n 16 = n + 16.
Proof.
  intros H. assert (E : In n [0;1;2;3;4;5;6;7;8;9;10;11;12;13;14;15]) by (cbn [In]; lia).
  cbn [In] in E. repeat (destruct E as [<-|E]; [reflexivity|]). destruct E.
Qed.

Definition resolve_port (port : Z + list Z) : res Z :=
  match port with
  | inl n => Ok n
  | inr name => match assoc_text name port_segments with Some n => Ok n | None => Err (Foreign KeyError) end
  end.

(* the port segment of port number [n] with link address [lb] (CIP Vol 1 C-1.4.1): the port
   identifier (15: the 16-bit port number follows), bit 4 set when a link size byte follows,
   a 00 pad to an even length *)
Definition port_wire (n : Z) (lb : list Z) : list Z :=
  let big := 1 <? len lb in
  let flag := if big then 16 else 0 in
  let size := if big then [len lb] else [] in
  let body := if n <? 15 then [n + flag] ++ size ++ lb
              else [15 + flag] ++ size ++ [n mod 256; n / 256] ++ lb in
  body ++ (if Nat.odd (length body) then [0] else []).

Lemma encode_port_wire port n link lb :
  resolve_port port = Ok n -> 0 <= n <= 65535 -> port_link_bytes link = Ok lb -> 1 <= len lb <= 255 ->
  encode_seg true (Port port link) = Ok (port_wire n lb).
Proof.
  intros Hp Hn Hl Hlen. unfold encode_seg, encode_port, encode_port_with. fold (resolve_port port).
  rewrite Hp, Hl. cbn [bind]. unfold port_wire, odd_len. change port_extended_link with 16.
  destruct (n <? 15) eqn:Esm;
    [replace (14 <? n) with false by lia|replace (14 <? n) with true by lia; rewrite UINT_small by lia];
    cbn [bind]; (destruct (1 <? len lb); [rewrite (USINT_small (len lb)) by lia|]); cbn [bind];
    rewrite ?lor16, ?Z.add_0_r by lia; rewrite USINT_small by lia; reflexivity.
Qed.

Lemma encode_port_err port link :
  (exists e, resolve_port port = Err e) \/ (exists e, port_link_bytes link = Err e) ->
  encode_seg true (Port port link) = Err DataError.
Proof.
  unfold encode_seg, encode_port, encode_port_with. fold (resolve_port port).
  intros [[e ->]|[e ->]]; [reflexivity|]. destruct (resolve_port port); reflexivity.
Qed.

Lemma parse_port_wire n lb : 1 <= n <= 65535 -> 1 <= len lb <= 255 -> seg_parses f32 (port_wire n lb) (SPort n lb).
Proof.
  intros Hn Hl. unfold port_wire, seg_parses.
  assert (Hlb : 1 <? len lb = false -> exists x, lb = [x]).
  { destruct lb as [|x [|y lb]]; unfold len in *; cbn [length] in *; try lia. eauto. }
  destruct (n <? 15) eqn:Esm; destruct (1 <? len lb) eqn:Ebig;
    (eexists _, _; split; [reflexivity|]; intros tail; unfold parse_seg, parse_port; cbv zeta).
  - replace ((n + 16) / 32) with 0 by lia. replace ((n + 16) / 16 mod 2) with 1 by lia.
    replace ((n + 16) mod 16) with n by lia. cbn [Z.eqb Pos.eqb app].
    replace (n =? 0) with false by lia. replace (len lb =? 0) with false by lia. replace (n =? 15) with false by lia.
    unfold len. rewrite Nat2Z.id, <- !app_assoc, take_app. cbn [length Nat.add]. rewrite !Nat.odd_succ_succ.
    destruct (Nat.odd (length lb)); reflexivity.
  - destruct (Hlb eq_refl) as [x ->]. rewrite Z.add_0_r.
    replace (n / 32) with 0 by lia. replace (n / 16 mod 2) with 0 by lia.
    replace (n mod 16) with n by lia. cbn [Z.eqb Pos.eqb app].
    replace (n =? 0) with false by lia. replace (n =? 15) with false by lia. reflexivity.
  - change ((15 + 16) / 32) with 0. change ((15 + 16) / 16 mod 2) with 1. change ((15 + 16) mod 16) with 15.
    cbn [Z.eqb Pos.eqb app].
    replace (len lb =? 0) with false by lia. replace (n mod 256 + 256 * (n / 256)) with n by lia.
    replace (n =? 0) with false by lia.
    unfold len. rewrite Nat2Z.id, <- !app_assoc, take_app. cbn [length Nat.add]. rewrite !Nat.odd_succ_succ.
    destruct (Nat.odd (length lb)); reflexivity.
  - destruct (Hlb eq_refl) as [x ->].
    change ((15 + 0) / 32) with 0. change ((15 + 0) / 16 mod 2) with 0. change ((15 + 0) mod 16) with 15.
    cbn [Z.eqb Pos.eqb app].
    replace (n mod 256 + 256 * (n / 256)) with n by lia. replace (n =? 0) with false by lia. reflexivity.
Qed.

Lemma port_wire_ok n lb : 0 <= n <= 65535 -> len lb <= 255 -> bytes_ok lb = true ->
  bytes_ok (port_wire n lb) = true /\ Nat.even (length (port_wire n lb)) = true.
Proof.
  intros Hn Hl Hb. unfold port_wire. split; [|apply padded_even].
  pose proof (len_nonneg lb). rewrite bytes_ok_app.
  destruct (n <? 15) eqn:Esm; destruct (1 <? len lb); cbn [app]; rewrite !bytes_ok_cons, Hb;
    (destruct (Nat.odd _); cbn [bytes_ok forallb]); unfold byte_ok; lia.
Qed.

Lemma denote_link_bytes link lk : denote_link link = Some lk ->
  port_link_bytes link = Ok lk /\ bytes_ok lk = true /\ 1 <= len lk <= 255.
Proof.
  destruct link as [z|s|b]; cbn [denote_link port_link_bytes].
  - destruct ((0 <=? z) && (z <=? 255)) eqn:E; [|discriminate]. intros H. injection H as <-.
    rewrite USINT_small by lia. repeat split; try (unfold len; cbn [length]; lia).
    cbn [bytes_ok forallb]. unfold byte_ok. lia.
  - destruct (isdigit s) eqn:Ed.
    + destruct (isdigit_all s Ed) as [Ha _].
      destruct (digits_val s 0) as [z|] eqn:Ev; [|discriminate].
      destruct ((z <=? 255) && (len s <=? 4300)) eqn:E; [|discriminate]. intros H. injection H as <-.
      pose proof (digits_val_nonneg s 0 z ltac:(lia) Ev) as Hz.
      unfold int_max_str_digits. destruct (len s <=? 4300) eqn:E4; [|lia].
      rewrite USINT_small by lia. repeat split; try (unfold len; cbn [length]; lia).
      cbn [bytes_ok forallb]. unfold byte_ok. lia.
    + change (dotted_quad s) with (ip_v4_ok s). destruct (ip_v4_ok s) eqn:Ei; [|discriminate].
      intros H. injection H as <-. destruct (ip_v4_ok_shape s Ei) as [Ha Hl].
      apply quad_chars_ascii in Ha.
      rewrite utf8_encode_ascii by exact Ha. repeat split; try lia. now apply ascii_bytes_ok.
  - destruct (bytes_ok b && (1 <=? len b) && (len b <=? 255)) eqn:E; [|discriminate].
    intros H. injection H as <-. apply andb_true_iff in E as [E E3]. apply andb_true_iff in E as [E1 E2].
    repeat split; try reflexivity; try assumption; lia.
Qed.

Lemma denote_port_resolve port n : denote_port port = Some n -> resolve_port port = Ok n /\ 1 <= n <= 65535.
Proof.
  destruct port as [k|name]; cbn [denote_port resolve_port].
  - destruct ((1 <=? k) && (k <=? 65535)) eqn:E; [|discriminate]. intros H. injection H as <-.
    split; [reflexivity|lia].
  - intros H. destruct (port_names_agree _ _ H) as [-> Hn]. split; [reflexivity|lia].
Qed.

Lemma port_ok_gen port link ss : denote (Port port link) = Some ss -> seg_result (Port port link) ss.
Proof.
  intros Hd. cbn [denote] in Hd.
  destruct (denote_port port) as [n|] eqn:Ep; [|discriminate].
  destruct (denote_link link) as [lk|] eqn:El; [|discriminate]. injection Hd as <-.
  destruct (denote_port_resolve port n Ep) as [Hr Hn].
  destruct (denote_link_bytes link lk El) as (Hlb & Hok & Hlen).
  exists (port_wire n lk). split; [apply (encode_port_wire port n link lk Hr); [lia|exact Hlb|exact Hlen]|].
  split; [now apply parse_port_wire|]. apply port_wire_ok; [lia|lia|exact Hok].
Qed.

Lemma parse_symbol n tail : 1 <= len n <= 255 ->
  parse_seg f32 145 ((len n :: n ++ (if Nat.odd (length n) then [0] else [])) ++ tail)
  = Some (SSymbol n, tail).
Proof.
  intros Hl. unfold parse_seg, parse_data. cbv zeta. change (145 / 32) with 4. cbn [Z.eqb Pos.eqb app].
  destruct (len n =? 0) eqn:E1; [lia|].
  unfold len. rewrite Nat2Z.id, Zodd_of_nat. rewrite <- app_assoc, take_app.
  destruct (Nat.odd (length n)); reflexivity.
Qed.

Lemma sym_ok_gen name ss : denote (DataSym name) = Some ss -> seg_result (DataSym name) ss.
Proof.
  cbn [denote]. destruct (ascii_ok name && (1 <=? len name) && (len name <=? 255)) eqn:E; [|discriminate].
  intros H. injection H as <-. apply andb_true_iff in E as [E E3]. apply andb_true_iff in E as [Ha E2].
  assert (Hl : 1 <= len name <= 255) by lia.
  exists (145 :: len name :: name ++ (if Nat.odd (length name) then [0] else [])). split; [|split; [|split]].
  - unfold encode_seg, encode_data_sym. rewrite (utf8_encode_ascii _ Ha). cbn [bind].
    change (Z.lor data_segment_type data_extended_symbol) with 145.
    rewrite (USINT_small 145) by lia. rewrite (USINT_small (len name)) by lia. cbn [bind wrap_all app].
    unfold odd_len. reflexivity.
  - eexists _, _. split; [reflexivity|]. intros tail. now apply parse_symbol.
  - rewrite !bytes_ok_cons, bytes_ok_app, (ascii_bytes_ok _ Ha). unfold byte_ok.
    destruct (Nat.odd (length name)); cbn [bytes_ok forallb]; unfold byte_ok; lia.
  - cbn [length]. rewrite Nat.even_succ_succ. apply padded_even.
Qed.

Definition seg_guard (s : seg) : bool := negb (table_f32 =? f32) && is32 s.

Lemma seg_ok_gen s ss : denote s = Some ss -> seg_guard s = false -> seg_result s ss.
Proof.
  intros Hd Hg. unfold seg_guard in Hg.
  destruct s as [t v|p l|n|b|b]; try discriminate.
  - apply logical_ok_gen; [exact Hd|]. destruct (table_f32 =? f32) eqn:E; [left; lia|right; exact Hg].
  - now apply port_ok_gen.
  - now apply sym_ok_gen.
Qed.

(* the path body: the parser gives back exactly the intended sequence *)
Lemma path_body_ok segs : forall ssegs,
  denote_all segs = Some ssegs -> existsb seg_guard segs = false ->
  exists body, encode_segs true segs = Ok body /\ bytes_ok body = true /\ Nat.even (length body) = true
               /\ forall fuel, (length body <= fuel)%nat -> parse_segs f32 fuel body = Some ssegs.
Proof.
  induction segs as [|s segs IH]; intros ssegs Hd Hg.
  - injection Hd as <-. exists []. repeat split. now intros [|f].
  - cbn [denote_all] in Hd. destruct (denote s) as [a|] eqn:Ea; [|discriminate].
    destruct (denote_all segs) as [b|] eqn:Eb; [|discriminate]. injection Hd as <-.
    cbn [existsb] in Hg. apply orb_false_iff in Hg as [Hs Hr].
    destruct (seg_ok_gen s a Ea Hs) as (enc & He & (x & e & -> & Hp) & Hb & Hev).
    destruct (IH b eq_refl Hr) as (rest & Hes & Hbs & Hevs & Hps).
    exists ((x :: e) ++ rest). cbn [encode_segs]. rewrite He, Hes. cbn [bind]. split; [reflexivity|].
    split; [now rewrite bytes_ok_app, Hb, Hbs|]. split; [now rewrite app_length, Nat.even_add, Hev, Hevs|].
    intros [|f] Hf; cbn [app length] in *; [lia|]. cbn [parse_segs]. rewrite Hp, Hps; [reflexivity|].
    rewrite app_length in Hf. lia.
Qed.

(* EPATH.encode with the word count: emitted iff the count fits its byte *)
Lemma epath_counted_ok segs ssegs pad_length :
  denote_all segs = Some ssegs -> existsb seg_guard segs = false ->
  exists body, encode_segs true segs = Ok body /\ Nat.even (length body) = true
    /\ parse_padded_epath_with f32 body = Some ssegs
    /\ epath_encode true segs true pad_length
       = (if len body / 2 <=? 255
          then Ok (len body / 2 :: (if pad_length then [0] else []) ++ body)
          else Err DataError)
    /\ (len body / 2 <= 255 ->
        parse_counted_with f32 pad_length (len body / 2 :: (if pad_length then [0] else []) ++ body) = Some ssegs).
Proof.
  intros Hd Hg. destruct (path_body_ok segs ssegs Hd Hg) as (body & He & Hb & Hev & Hps).
  assert (Hp : parse_padded_epath_with f32 body = Some ssegs).
  { unfold parse_padded_epath_with. rewrite Hb, Hev. now apply Hps. }
  exists body. split; [exact He|]. split; [exact Hev|]. split; [exact Hp|].
  assert (H2 : len body = 2 * (len body / 2)).
  { unfold len. apply Nat.even_spec in Hev as [k Hk]. rewrite Hk. lia. }
  split.
  - unfold epath_encode. rewrite He. cbn [bind].
    destruct (len body / 2 <=? 255) eqn:E.
    + rewrite USINT_small by (pose proof (len_nonneg body); lia). reflexivity.
    + rewrite USINT_out by lia. reflexivity.
  - intros _. unfold parse_counted_with. destruct pad_length; cbn [app].
    + destruct (len body =? 2 * (len body / 2)) eqn:E; [exact Hp|lia].
    + destruct (len body =? 2 * (len body / 2)) eqn:E; [exact Hp|lia].
Qed.

End WithF32.
