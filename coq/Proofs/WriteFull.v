(* Proofs/WriteFull.v — statements of C02 for BOOL arrays (aligned ranges, one element, one-element
   slices; proved in Proofs/WriteBools.v, named in Props/C02.v), the type class the upload builds for
   a data type ([wty_of], property C05's image of a template), the Python value that denotes a
   reference value ([py_of]), and hand checks of the statements on concrete inputs by computation. *)
From Coq Require Import ZifyBool String.
From PV Require Import Base.Bytes Base.BytesLemmas Base.Res Base.Proto Base.PyStr Model.CodecFloat Model.Path Model.LogixPlan Model.LogixWrite.
From PV Require Import Spec.EncapParser Spec.MRParser Spec.TargetIface Spec.TargetCore Spec.Project Spec.Expect Spec.TargetLogix.
From PV Require Import Proofs.WriteMsg.
Open Scope Z_scope.

(* the Python value a caller passes for a reference value *)
Fixpoint py_of (v : rvalue) : pv :=
  match v with
  | RInt z => PInt z
  | RBool b => PBool b
  | RReal b => PFloat (widen32 b)
  | RLReal b => PFloat b
  | RStr s => PStr s
  | RStruct fs => PDict ((fix go (l : list (text * rvalue)) : list (text * pv) :=
                           match l with [] => [] | (n, x) :: r => (n, py_of x) :: go r end) fs)
  | RList vs => PList ((fix go (l : list rvalue) : list pv := match l with [] => [] | x :: r => py_of x :: go r end) vs)
  end.

(* the type class the tag-list upload builds for a data type (logix_driver._parse_template_data):
   elementary class by name, Array for array members, FixedSizeString for LEN/DATA structures,
   StructTag(non-BOOL members with offsets, BOOL members as bits, hidden members private) *)
Fixpoint wty_of (fuel : nat) (p : project) (ty : base_ty) : option wty :=
  match fuel with
  | O => None
  | S f =>
      match ty with
      | BAtom c => option_map WElem (atom_name c)
      | BOpaque _ => None
      | BStruct tid =>
          match find_template (p_templates p) tid with
          | None => None
          | Some t =>
              match string_shape t with
              | Some (_, dm) => Some (WFixedStr (t_size t - 4) (m_arr dm))
              | None =>
                  let plain := filter (fun m => negb (is_bool_member m)) (t_members t) in
                  let tys := map (fun m => match wty_of f p (m_ty m) with
                                           | Some e => Some (m_name m, m_off m, if m_arr m =? 0 then e else WArray (m_arr m) e)
                                           | None => None
                                           end) plain in
                  match all_some tys with
                  | Some ms =>
                      Some (WStructTag ms
                              (map (fun m => (m_name m, (m_off m, m_bit m))) (filter is_bool_member (t_members t)))
                              (map m_name (filter m_hidden (t_members t)))
                              (t_size t))
                  | None => None
                  end
              end
          end
      end
  end.

Definition all_true (l : list pv) : list rvalue := map (fun x => RBool (truthy x)) l.

(* BOOL-array aligned range `arr[i]{n}`: i, n multiples of 32, n >= 32 *)
Definition stmt_bools : Prop :=
  forall p m r inst off nbits start n l_py m_ref img id tag n0 tyh inst_id ui seq path,
  resolve p r = Some (PlBools inst off nbits start) -> r_bit r = None -> r_count r = Some n ->
  mem_get m inst = Some img -> bytes_ok img = true ->
  0 <= start -> start mod 32 = 0 -> 32 <= n < 65536 * 32 -> n mod 32 = 0 ->
  ref_write p m r (RList (all_true l_py)) = Some m_ref ->
  0 <= seq < 65536 ->
  let info := mkInfo false n_DWORD (WArray n0 (WElem n_DWORD)) tyh inst_id in
  let q := mkParsed id false tag (Some start) ((start + n) / 32) (Some n) info (PList l_py) in
  let l := mkWLoc inst (off + 4 * (start / 32)) (BAtom C_DWORD) [] (nbits / 32 - start / 32) None in
  path_of tag info ui = Ok (Some path) ->
  exists data pk pk1,
    encode_value q = Ok (data, n / 32)
    /\ new_write_packet KWrite seq tag (n / 32) info id ui 0 data = Ok pk
    /\ build_message pk = Ok pk1
    /\ k_message pk1 = le_enc 2 seq ++ [77] ++ path ++ write_data (le_enc 2 C_DWORD) (n / 32) data
    /\ svc_write p m img l (write_data (le_enc 2 C_DWORD) (n / 32) data)
       = (m_ref, mr_ok [], [EvApp 1 [inst; off + 4 * (start / 32); 77] data]).

(* one BOOL-array element `arr[i]`: a Read-Modify-Write of bit i mod 32 of DWORD i / 32 *)
Definition stmt_bool_element : Prop :=
  forall p m r inst off nbits start v m_ref img,
  resolve p r = Some (PlBools inst off nbits start) -> r_bit r = None -> r_count r = None ->
  mem_get m inst = Some img -> bytes_ok img = true ->
  0 <= start -> 0 <= off -> off + 4 * (start / 32) + 4 <= Expect.blen img ->     (* the DWORD lies in the tag's image *)
  ref_write p m r (RBool (truthy v)) = Some m_ref ->
  let l := mkWLoc inst (off + 4 * (start / 32)) (BAtom C_DWORD) [] (nbits / 32 - start / 32) None in
  let o := fst (rmw_masks true [(start, truthy v)]) in
  let a := snd (rmw_masks true [(start, truthy v)]) in
  exists ob ab stored,
    mask_bytes o 4 = Ok ob /\ mask_bytes a 4 = Ok ab
    /\ svc_rmw p m img l (rmw_data 4 ob ab) = (m_ref, mr_ok [], [EvApp 1 [inst; off + 4 * (start / 32); 78] stored]).

(* a one-element slice of a BOOL array, `arr[i]{1}`, written with the one-item list [x]:
   planned as a bit write; set_bit takes the item of a one-item list *)
Definition stmt_bool_slice1 : Prop :=
  forall p m r inst off nbits start x m_ref img,
  resolve p r = Some (PlBools inst off nbits start) -> r_bit r = None -> r_count r = Some 1 ->
  mem_get m inst = Some img -> bytes_ok img = true ->
  0 <= start -> 0 <= off -> off + 4 * (start / 32) + 4 <= Expect.blen img ->
  ref_write p m r (RList [RBool x]) = Some m_ref ->
  let l := mkWLoc inst (off + 4 * (start / 32)) (BAtom C_DWORD) [] (nbits / 32 - start / 32) None in
  let o := fst (rmw_masks true [(start, truthy (unwrap_one (PList [PBool x])))]) in
  let a := snd (rmw_masks true [(start, truthy (unwrap_one (PList [PBool x])))]) in
  exists ob ab stored,
    mask_bytes o 4 = Ok ob /\ mask_bytes a 4 = Ok ab
    /\ svc_rmw p m img l (rmw_data 4 ob ab) = (m_ref, mr_ok [], [EvApp 1 [inst; off + 4 * (start / 32); 78] stored]).

Definition zs (x : string) : text := zs_of_string x.
Arguments zs x%string.

Definition ex_udt : template :=
  mkTemplate (zs "udtMix") (Some (zs "n1")) 672 17185 12 0
    [ mkMember (zs "ZZZZZZZZZZudtMix0") (BAtom C_SINT) 0 0 0 true;
      mkMember (zs "bRun") (BAtom C_BOOL) 0 0 0 false;
      mkMember (zs "bFault") (BAtom C_BOOL) 0 0 5 false;
      mkMember (zs "Count") (BAtom C_INT) 0 2 0 false;
      mkMember (zs "Vals") (BAtom C_DINT) 2 4 0 false ].
Definition ex_proj : project :=
  mkProject [ex_udt]
    [ mkTag (zs "bools") 7 ScCtrl (BAtom C_DWORD) [3] 0 false 0 0 0 0;
      mkTag (zs "mix") 9 ScCtrl (BStruct 672) [] 0 false 0 0 0 0 ].
Definition ex_mem : mem := [(7, [1; 2; 3; 4; 5; 6; 7; 8; 9; 10; 11; 12]); (9, [255; 254; 253; 252; 251; 250; 249; 248; 247; 246; 245; 244])].

Example ex_wf : wf_project ex_proj = true /\ wf_mem ex_proj ex_mem = true.
Proof. vm_compute. split; reflexivity. Qed.

Definition ex_bits32 : list pv := map (fun k => PBool (Z.odd k)) (map Z.of_nat (seq 0 40)).

(* stmt_bools: bools[32]{32} with a 40-item list: DWORD 1 becomes 0xAAAAAAAA, nothing else changes *)
Example ex_bools :
  let r := mkReq None [mkSeg (zs "bools") [32]] None (Some 32) in
  let info := mkInfo false n_DWORD (WArray 3 (WElem n_DWORD)) 0 (Some 7) in
  let q := mkParsed 0 false (zs "bools[1]") (Some 32) 2 (Some 32) info (PList ex_bits32) in
  let l := mkWLoc 7 4 (BAtom C_DWORD) [] 2 None in
  resolve ex_proj r = Some (PlBools 7 0 96 32)
  /\ encode_value q = Ok ([170; 170; 170; 170], 1)
  /\ ref_write ex_proj ex_mem r (RList (all_true ex_bits32)) = Some [(7, [1; 2; 3; 4; 170; 170; 170; 170; 9; 10; 11; 12]); (9, [255; 254; 253; 252; 251; 250; 249; 248; 247; 246; 245; 244])]
  /\ svc_write ex_proj ex_mem [1; 2; 3; 4; 5; 6; 7; 8; 9; 10; 11; 12] l (write_data (le_enc 2 C_DWORD) 1 [170; 170; 170; 170])
     = ([(7, [1; 2; 3; 4; 170; 170; 170; 170; 9; 10; 11; 12]); (9, [255; 254; 253; 252; 251; 250; 249; 248; 247; 246; 245; 244])],
        mr_ok [], [EvApp 1 [7; 4; 77] [170; 170; 170; 170]]).
Proof. vm_compute. repeat split; reflexivity. Qed.

(* stmt_bool_element: bools[70] := True: bit 6 of DWORD 2 (byte 8: 9 -> 73), one Read-Modify-Write *)
Example ex_bool_element :
  let r := mkReq None [mkSeg (zs "bools") [70]] None None in
  let l := mkWLoc 7 8 (BAtom C_DWORD) [] 1 None in
  resolve ex_proj r = Some (PlBools 7 0 96 70)
  /\ rmw_masks true [(70, true)] = (64, 18446744073709551615)
  /\ ref_write ex_proj ex_mem r (RBool true) = Some [(7, [1; 2; 3; 4; 5; 6; 7; 8; 73; 10; 11; 12]); (9, [255; 254; 253; 252; 251; 250; 249; 248; 247; 246; 245; 244])]
  /\ svc_rmw ex_proj ex_mem [1; 2; 3; 4; 5; 6; 7; 8; 9; 10; 11; 12] l (rmw_data 4 [64; 0; 0; 0] [255; 255; 255; 255])
     = ([(7, [1; 2; 3; 4; 5; 6; 7; 8; 73; 10; 11; 12]); (9, [255; 254; 253; 252; 251; 250; 249; 248; 247; 246; 245; 244])],
        mr_ok [], [EvApp 1 [7; 8; 78] [73; 10; 11; 12]]).
Proof. vm_compute. repeat split; reflexivity. Qed.

(* the whole structure as a dict: hidden host byte rebuilt from the BOOL members, padding zero *)
Definition ex_ty_opt : option wty := Eval vm_compute in wty_of (depth_fuel ex_proj) ex_proj (BStruct 672).
Example ex_struct :
  let r := mkReq None [mkSeg (zs "mix") []] None None in
  let rv := RStruct [(zs "bRun", RBool true); (zs "bFault", RBool true); (zs "Count", RInt (-2)); (zs "Vals", RList [RInt 1; RInt (-1)])] in
  let expect := [(7, [1; 2; 3; 4; 5; 6; 7; 8; 9; 10; 11; 12]); (9, [33; 0; 254; 255; 1; 0; 0; 0; 255; 255; 255; 255])] in
  match ex_ty_opt with
  | None => False
  | Some ty =>
    wty_of (depth_fuel ex_proj) ex_proj (BStruct 672) = Some ty
    /\ ref_write ex_proj ex_mem r rv = Some expect
    /\ encode_value (mkParsed 0 false (zs "mix") None 1 None (mkInfo true (zs "udtMix") ty 17185 (Some 9)) (py_of rv))
       = Ok ([33; 0; 254; 255; 1; 0; 0; 0; 255; 255; 255; 255], 1)
    /\ svc_write ex_proj ex_mem [255; 254; 253; 252; 251; 250; 249; 248; 247; 246; 245; 244] (mkWLoc 9 0 (BStruct 672) [] 1 None)
         (write_data (160 :: 2 :: le_enc 2 17185) 1 [33; 0; 254; 255; 1; 0; 0; 0; 255; 255; 255; 255])
       = (expect, mr_ok [], [EvApp 1 [9; 0; 77] [33; 0; 254; 255; 1; 0; 0; 0; 255; 255; 255; 255]])
  end.
Proof. vm_compute. repeat split; reflexivity. Qed.
