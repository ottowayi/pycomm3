(* Proofs/C19P.v — instantiation of the generic EnumMap lemmas on the regenerated tables. *)
From PV Require Import Base.Bytes Base.ListLemmas Base.Proto Model.EnumMapDefs Model.EnumMap Proofs.EnumMapP.
From PV Require Import Gen.Tables Gen.Types Gen.Status.
Open Scope Z_scope.

Lemma all_tables_ok :
  forallb (fun '(_, t) => table_ok_in type_codes (merged type_codes t) t) all_tables = true.
Proof. vm_compute. reflexivity. Qed.

Definition dt_member_ok tc (d : pydict) (t : table) (m : list Z * key) : bool :=
  match snd m with
  | KObj ty =>
      match code_of tc ty with
      | Some c => match getitem_in d t (KInt c) with
                  | Some k => match getitem_in d t k with
                              | Some (KObj ty') => match code_of tc ty' with Some c' => c' =? c | None => false end
                              | _ => false
                              end
                  | None => false
                  end
      | None => false
      end
  | _ => true
  end.
Lemma dt_member_ok_spec tc t n ty :
  dt_member_ok tc (merged tc t) t (n, KObj ty) = true ->
  exists c ty', code_of tc ty = Some c /\ get_type tc t c = Some (KObj ty') /\ code_of tc ty' = Some c.
Proof.
  unfold dt_member_ok, getitem_in. cbn [snd]. intros H.
  destruct (code_of tc ty) as [c|]; [|discriminate]. exists c.
  unfold get_type, get. cbn [norm_key] in *.
  destruct (lookup (merged tc t) (KInt c)) as [k|]; [|discriminate]. cbn [option_map] in H.
  destruct (lookup (merged tc t) (norm_key (caps t k))) as [v|]; [|discriminate]. cbn [option_map] in H.
  destruct (caps t v) as [| | |ty']; try discriminate.
  destruct (code_of tc ty') as [c'|] eqn:E; [|discriminate].
  apply Z.eqb_eq in H. subst c'. eauto.
Qed.
Lemma datatypes_ok :
  forallb (dt_member_ok type_codes (merged type_codes tbl_DataTypes) tbl_DataTypes) (t_members tbl_DataTypes) = true.
Proof. vm_compute. reflexivity. Qed.

Definition status_ok (tbl : list (Z * list Z)) (s : Z) : bool :=
  match ilookup tbl s with
  | Some txt => negb (match txt with [] => true | _ => false end)
  | None => contains_sub (hex_fixed 2 s) (unknown_error_prefix ++ hex_min2 s ++ [41])
  end.
Lemma status_ok_spec tbl s :
  status_ok tbl s = true ->
  get_service_status tbl s <> []
  /\ (ilookup tbl s = None -> contains_sub (hex_fixed 2 s) (get_service_status tbl s) = true).
Proof.
  unfold status_ok, get_service_status. destruct (ilookup tbl s) as [[|]|]; try discriminate.
  - split; congruence.
  - split; [discriminate|auto].
Qed.
Lemma status_sweep : forallb (status_ok service_status) (zrange 256) = true.
Proof. vm_compute. reflexivity. Qed.

Lemma C19_all :
  (forall tn t, In (tn, t) all_tables ->
     (forall n v s, In (n, v) (t_members t) -> lower s = lower n ->
        getitem type_codes t (KStr s) = Some v /\ get type_codes t (KStr s) None = Some v
        /\ contains type_codes t (KStr s) = true)
     /\ (t_bidir t = true -> forall n v, In (n, v) (t_members t) ->
           exists n' v', getitem type_codes t (vkey type_codes t v) = Some (KStr n')
                         /\ getitem type_codes t (KStr n') = Some v'
                         /\ vkey type_codes t v' = vkey type_codes t v
                         /\ mem_name (t_members t) (lower n') = true)
     /\ (forall k, contains type_codes t k = true <-> getitem type_codes t k <> None)
     /\ (forall k, get type_codes t k None = getitem type_codes t k)
     /\ (forall k d, getitem type_codes t k = None -> get type_codes t k (Some d) = Some (caps t d)))
  /\ (forall n ty, In (n, KObj ty) (t_members tbl_DataTypes) ->
        exists c ty', code_of type_codes ty = Some c
                      /\ get_type type_codes tbl_DataTypes c = Some (KObj ty') /\ code_of type_codes ty' = Some c)
  /\ (forall s, 0 <= s < 256 ->
        get_service_status service_status s <> []
        /\ (ilookup service_status s = None ->
              contains_sub (hex_fixed 2 s) (get_service_status service_status s) = true)).
Proof.
  split; [|split].
  - intros tn t Hin.
    assert (H : table_ok type_codes t = true).
    { rewrite table_ok_merged. exact (proj1 (forallb_forall _ _) all_tables_ok _ Hin). }
    split; [|split; [|split; [|split]]].
    + intros n v s Hm Hs. now apply by_name_any_case with (n := n).
    + intros Hb n v Hm. now apply by_code with (n := n).
    + intros k. apply contains_iff.
    + intros k. apply get_is_getitem.
    + intros k d. apply get_default.
  - intros n ty Hin. apply dt_member_ok_spec with (n := n).
    exact (proj1 (forallb_forall _ _) datatypes_ok _ Hin).
  - intros s Hs. apply status_ok_spec, (forallb_zrange _ 256 status_sweep). lia.
Qed.
