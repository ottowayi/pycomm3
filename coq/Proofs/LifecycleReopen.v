(* Proofs/LifecycleReopen.v — close(); open() works again (property C10, last clause). *)
From Coq Require Import ZifyBool.
From PV Require Import Base.Bytes Base.BytesLemmas Base.Res.
From PV Require Import Gen.Consts Gen.LifecycleGen.
From PV Require Import Spec.EncapParser Spec.TargetIface Spec.TargetCore.
From PV Require Import Proofs.TargetCoreP Proofs.LifecycleTarget Model.Lifecycle Proofs.LifecycleP.
Open Scope Z_scope.

Lemma register_frame_0 : register_frame 0 = Ok ex_register.
Proof. vm_compute. reflexivity. Qed.

(* the target grants a session to the driver's RegisterSession frame when its policy accepts sessions *)
Lemma tstep_register {S} (h : handler S) (t : tstate S) :
  cf_accept_session (t_cfg t) = true ->
  exists hd, in32 hd
    /\ snd (tstep h t ex_register) = Some (encap_reply CMD_REGISTER hd 0 CFG_CONTEXT [1; 0; 0; 0])
    /\ t_sessions (fst (tstep h t ex_register)) = hd :: t_sessions t.
Proof.
  intros Hacc. unfold tstep.
  replace (parse_header ex_register) with
    (Some ({| h_cmd := 101; h_len := 4; h_session := 0; h_status := 0; h_context := CFG_CONTEXT; h_options := 0 |}, [1; 0; 0; 0]))
    by (vm_compute; reflexivity).
  replace (parse_frame ex_register) with
    (RcOk {| f_cmd := CMD_REGISTER; f_session := 0; f_context := CFG_CONTEXT; f_body := BRegister |})
    by (vm_compute; reflexivity).
  unfold step_frame. cbn [f_body f_cmd f_session f_context h_cmd h_session logs t_cfg]. rewrite Hacc.
  eexists. split; [apply norm32_in |]. split; reflexivity.
Qed.

Lemma register_reply_valid hd : in32 hd ->
  let raw := encap_reply CMD_REGISTER hd 0 CFG_CONTEXT [1; 0; 0; 0] in
  register_valid raw = true /\ register_session_of raw = hd.
Proof.
  intros Hhd. unfold in32 in Hhd. split.
  - unfold register_valid, base_error, command_status, encap_reply, mk_header, OFF_STATUS_HI, OFF_STATUS_LO, slice, CFG_CONTEXT, CMD_REGISTER.
    cbn [le_enc app List.length firstn skipn Nat.sub Nat.ltb Nat.leb le_dec]. reflexivity.
  - unfold register_session_of, encap_reply, mk_header, OFF_SESSION_LO, OFF_SESSION_HI, slice, CMD_REGISTER.
    cbn [le_enc app firstn skipn Nat.sub].
    change [hd mod 256; hd / 256 mod 256; hd / 256 / 256 mod 256; hd / 256 / 256 / 256 mod 256] with (le_enc 4 hd).
    apply le_dec_enc_id. change (pow256 4) with 4294967296. lia.
Qed.

Section Reopen.
Context {S : Type} (h : handler S).

(* no fault is scheduled for the socket calls an open() makes from this world *)
Definition quiet_open (flt : faults) (w : world (S := S)) : Prop :=
  flookup (w_nconnect w) (f_connect flt) = None /\ fmem (w_nsend w) (f_vanish flt) = false
  /\ flookup (w_nsend w) (f_send flt) = None /\ fmem (w_nsend w) (f_drop flt) = false
  /\ flookup (w_nsend w) (f_send_after flt) = None /\ flookup (w_nrecv w) (f_recv flt) = None.

Lemma urandom_facts (w : world (S := S)) :
  w_t (snd (urandom w)) = w_t w /\ w_queue (snd (urandom w)) = w_queue w /\ w_open (snd (urandom w)) = w_open w
  /\ w_dead (snd (urandom w)) = w_dead w /\ w_nsend (snd (urandom w)) = w_nsend w /\ w_nrecv (snd (urandom w)) = w_nrecv w.
Proof. unfold urandom. destruct (w_rands w); cbn; auto 10. Qed.

Lemma drv_register_session_works flt (w : world (S := S)) d :
  d_session d = 0 -> d_sock d = true -> w_open w = true -> w_dead w = false -> w_queue w = [] ->
  fmem (w_nsend w) (f_vanish flt) = false -> flookup (w_nsend w) (f_send flt) = None -> fmem (w_nsend w) (f_drop flt) = false ->
  flookup (w_nsend w) (f_send_after flt) = None -> flookup (w_nrecv w) (f_recv flt) = None ->
  cf_accept_session (t_cfg (w_t w)) = true ->
  forall s' r, drv_register_session h flt (w, d) = (s', r) ->
  exists hd, r = Ok (Some hd) /\ snd s' = set_session hd d /\ in32 hd
             /\ t_sessions (w_t (fst s')) = hd :: t_sessions (w_t w).
Proof.
  intros Hs Hk Ho Hd Hq Q2 Q3 Q4 Q5 Q6 Hacc s' r H.
  unfold drv_register_session in H. rewrite Hs in H. cbn [Z.eqb negb] in H.
  rewrite register_frame_0 in H. unfold drv_send, tx in H. cbv beta iota zeta in H. rewrite Hk in H.
  unfold sock_send in H. cbv beta iota zeta in H.
  destruct (w_open w); [| discriminate]. destruct (w_dead w); [discriminate |].
  destruct (fmem (w_nsend w) (f_vanish flt)); [discriminate |].
  destruct (flookup (w_nsend w) (f_send flt)); [discriminate |].
  destruct (flookup (w_nsend w) (f_send_after flt)); [discriminate |].
  destruct (fmem (w_nsend w) (f_drop flt)); [discriminate |].
  cbn [negb orb] in H.
  destruct (tstep_register h (w_t w) Hacc) as (hd & Hhd & Hrep & Hses).
  destruct (tstep h (w_t w) ex_register) as [t' rep]. cbn [fst snd] in Hrep, Hses. subst rep.
  cbn [app wrap_all] in H.
  unfold rx in H. cbv beta iota zeta in H. rewrite Hk in H.
  unfold sock_recv in H. cbv beta iota zeta in H. cbn [w_open w_dead w_nrecv w_queue] in H.
  destruct (w_queue w); [| discriminate].
  destruct (flookup (w_nrecv w) (f_recv flt)); [discriminate |].
  cbn [negb orb wrap_all app] in H.
  destruct (register_reply_valid hd Hhd) as [Hv Hs']. cbv zeta in Hv, Hs'. rewrite Hv, Hs' in H.
  inversion H; subst. exists hd. cbn [fst snd w_t]. auto.
Qed.

Lemma cip_open_works flt (s : st (S := S)) :
  d_opened (snd s) = false -> d_session (snd s) = 0 -> quiet_open flt (fst s) ->
  cf_accept_session (t_cfg (w_t (fst s))) = true ->
  forall s' r, cip_open h flt s = (s', r) ->
  r = Ok true /\ d_opened (snd s') = true /\ d_session (snd s') <> 0
  /\ mem_z (d_session (snd s')) (t_sessions (w_t (fst s'))) = true.
Proof.
  destruct s as [w d]. cbn [fst snd]. intros Ho Hs (Q1 & Q2 & Q3 & Q4 & Q5 & Q6) Hacc s' r.
  unfold cip_open. rewrite Ho. unfold sock_connect. rewrite Q1.
  set (w1 := mkW _ _ _ _ _ _ _ _ _ _).
  pose proof (urandom_facts w1) as (A1 & A2 & A3 & A4 & A5 & A6).
  destruct (urandom w1) as [c w2]. cbn [snd] in *.
  pose proof (urandom_facts w2) as (B1 & B2 & B3 & B4 & B5 & B6).
  destruct (urandom w2) as [v w3]. cbn [snd] in *.
  set (d1 := set_ids c v (set_opened true (set_sock true d))).
  destruct (drv_register_session h flt (w3, d1)) as [s2 r2] eqn:E.
  destruct (drv_register_session_works flt w3 d1) with (s' := s2) (r := r2) as (hd & -> & Hd2 & Hhd & Hses);
    try exact E;
    try (unfold d1; cbn [set_ids set_opened set_sock d_session d_sock]; assumption);
    try (rewrite ?B1, ?B2, ?B3, ?B4, ?B5, ?B6, ?A1, ?A2, ?A3, ?A4, ?A5, ?A6; unfold w1; cbn [w_t w_queue w_open w_dead w_nsend w_nrecv]; assumption || reflexivity).
  intros H. inversion H; subst. rewrite Hd2.
  unfold in32 in Hhd. unfold d1. cbn [set_session set_ids set_opened set_sock d_opened d_session].
  repeat split; try lia. rewrite Hses. cbn [mem_z existsb]. rewrite Z.eqb_refl. reflexivity.
Qed.

Lemma drv_close_reset flt (s : st (S := S)) :
  exists w' d', fst (drv_close h flt s) = (w', reset_driver d').
Proof.
  destruct (drv_close_stages h (fun _ => True) flt s I) as (s2 & _ & _ & E); auto. rewrite E. eauto.
Qed.

(* close(); open(): whatever the state before, when no fault hits that open and the policy grants sessions *)
Theorem reopen_works_state flt (s : st (S := S)) :
  let s1 := fst (drv_close h flt s) in
  quiet_open flt (fst s1) -> cf_accept_session (t_cfg (w_t (fst s1))) = true ->
  forall s' r, cip_open h flt s1 = (s', r) ->
  r = Ok true /\ d_opened (snd s') = true /\ d_session (snd s') <> 0
  /\ mem_z (d_session (snd s')) (t_sessions (w_t (fst s'))) = true.
Proof.
  cbv zeta. intros Hq Hacc. destruct (drv_close_reset flt s) as (w' & d' & E). rewrite E in *.
  apply cip_open_works; try assumption; reflexivity.
Qed.
End Reopen.
