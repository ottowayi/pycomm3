(* Proofs/UploadScope.v — C05: one scope of the upload (model client o reference target):
   * [scope_symbols]: the pager returns every symbol of the scope, in instance order, for EVERY page
     policy and every capacity that lets one symbol through (Proofs/UploadParse.pagination_independent
     instantiated with the target, Proofs/UploadTarget);
   * [isolate_ok]: _isolate_user_tags + _create_tag over those symbols: exactly the user-visible
     tags of the scope (Spec/Project.hidden_symbol), each with the expected observation; programs,
     routines and tasks recorded; the structures they use fetched (Proofs/UploadMirror). *)
From Coq Require Import ZifyBool String Sorted.
From PV Require Import Base.Bytes Base.BytesLemmas Base.Proto Base.PyStr Base.Res.
From PV Require Import Spec.EncapParser Spec.MRParser Spec.TargetCore Spec.Project Spec.Expect Spec.TargetLogix Spec.UploadObs.
From PV Require Import Model.LogixUpload.
From PV Require Import Proofs.TargetLogixP Proofs.UploadDefs Proofs.UploadParse Proofs.UploadFilter Proofs.UploadTemplate Proofs.UploadBlob
  Proofs.UploadObsP Proofs.UploadTarget Proofs.UploadMirror.
From PV Require Gen.Status.
Open Scope string_scope.
Open Scope list_scope.
Open Scope Z_scope.

(* the domain of a symbol, clause by clause:
   - its list entry fits a reply of capacity cap, so that a page is never empty (4 bytes of reply
     header, at most 33 fixed bytes of an entry, the name; one byte to spare);
   - a dimension is a UDINT on the wire;
   - the Logix naming rules under which the code's filter agrees with Spec/Project.hidden_symbol
     (Proofs/UploadFilter.colon_regular, opaque_marked; outside them: filter_differs_outside_rules);
   - a Program: / Task: symbol lives in the controller scope; what follows the prefix does not contain
     the prefix again (name.replace(prefix, "") removes every occurrence); a program name is not empty
     and, with "Program:" before it, fits the one-byte length of a symbolic segment (255 - 8 = 247). *)
Definition tag_dom (cap : Z) (g : tagdef) : Prop :=
  Z.of_nat (length (g_name g)) + 38 <= cap
  /\ Forall (fun d => d < 4294967296) (g_dims g)
  /\ colon_regular (g_name g) = true /\ opaque_marked g = true
  /\ (starts_with txt_Program (g_name g) = true ->
      g_scope g = ScCtrl /\ skipn 8 (g_name g) <> [] /\ contains_str txt_Program (skipn 8 (g_name g)) = false
      /\ (length (skipn 8 (g_name g)) <= 247)%nat)
  /\ (starts_with txt_Routine (g_name g) = true -> contains_str txt_Routine (skipn 8 (g_name g)) = false)
  /\ (starts_with txt_Task (g_name g) = true ->
      g_scope g = ScCtrl /\ contains_str txt_Task (skipn 5 (g_name g)) = false).

Lemma wentry_of_tag_ok p g cap :
  templates_ok [] (p_templates p) = true -> tag_ok p g = true -> tag_dom cap g -> cap <= 65535 ->
  wentry_ok (wentry_of_tag g) /\ 0 <= we_inst (wentry_of_tag g).
Proof.
  intros Hts Hok (Hlen & Hdims & _) Hcap.
  pose proof (sym_type_word_range g (tag_ok_word_fields p g Hts Hok)) as Hw.
  unfold tag_ok in Hok. apply andb_prop in Hok. destruct Hok as [Hok _].
  assert (Hpos : forallb (fun d => 0 <? d) (g_dims g) = true) by (split_andb; assumption). split_andb.
  assert (Hdims' : forall k, 0 <= nth k (g_dims g) 0 < 4294967296).
  { intros k. destruct (nth_in_or_default k (g_dims g) 0) as [Hk | ->]; [|lia].
    pose proof (forallb_In _ _ _ Hpos Hk) as Hlo. pose proof (proj1 (Forall_forall _ _) Hdims _ Hk) as Hhi.
    cbv beta in Hlo, Hhi. lia. }
  unfold wentry_ok, wentry_of_tag, UploadParse.u32. cbn [we_inst we_name we_stype we_a3 we_a5 we_a6 we_d1 we_d2 we_d3 we_access].
  pose proof (Hdims' 0%nat). pose proof (Hdims' 1%nat). pose proof (Hdims' 2%nat).
  repeat split; lia.
Qed.

Lemma sorted_ascending (gs : list tagdef) :
  sorted_by_inst gs = true -> StronglySorted (fun a b => g_inst a < g_inst b) gs.
Proof.
  intros H. apply Sorted_StronglySorted; [intros a b c; lia|].
  induction gs as [|a gs IH]; [constructor|].
  destruct gs as [|b r]; [constructor; constructor|].
  cbn [sorted_by_inst] in H. apply andb_prop in H. destruct H as [Hab H].
  constructor; [apply IH; exact H | constructor; lia].
Qed.

Lemma ascending_scope (gs : list tagdef) f :
  StronglySorted (fun a b => g_inst a < g_inst b) gs -> ascending (map wentry_of_tag (filter f gs)).
Proof.
  induction 1 as [|a l Hl IH Ha]; cbn [filter map]; [constructor|].
  destruct (f a); cbn [map]; [|exact IH].
  constructor; [exact IH|]. rewrite Forall_forall in *. intros x Hx. apply in_map_iff in Hx.
  destruct Hx as (g & <- & Hg). apply filter_In in Hg. cbn [wentry_of_tag we_inst]. apply Ha, Hg.
Qed.

Lemma symbols_request_range wa prog start rq : symbols_request wa prog start = Ok rq -> start <= 4294967295.
Proof.
  unfold symbols_request. intros H.
  destruct (start <=? 4294967295) eqn:E; [lia|]. exfalso.
  assert (Hseg : logical_segment_int LT_INSTANCE start = Err DataError).
  { unfold logical_segment_int. replace (start <=? 255) with false by lia. replace (start <=? 65535) with false by lia.
    rewrite E. reflexivity. }
  rewrite Hseg in H. destruct (match prog with Some p => _ | None => _ end); discriminate.
Qed.

Section ScopeSec.
  Variable p : project.
  Variable pol : policy.
  Variable cap rev_major : Z.

  Let ts := p_templates p.
  Let st0 : lstate := target_state p pol.
  Let wa := with_access rev_major.

  Hypothesis Hts : templates_ok [] ts = true.
  Hypothesis Hcap : 34 <= cap <= 65535.
  Hypothesis Htags : forallb (tag_ok p) (p_tags p) = true.
  Hypothesis Hsorted : sorted_by_inst (p_tags p) = true.
  Hypothesis Htagdom : Forall (tag_dom cap) (p_tags p).

  Definition scope_tags (sc : scope) : list tagdef := filter (fun g => scope_eqb (g_scope g) sc) (p_tags p).

  Theorem scope_symbols prog sc fuel :
    scope_arg_ok p prog sc -> (length (p_tags p) < fuel)%nat ->
    get_instance_attribute_list lstate (target_call cap) rev_major fuel st0 prog 0 []
    = (st0, Done (map (fun g => raw_of_wentry wa (wentry_of_tag g)) (scope_tags sc))).
  Proof.
    intros Hsc Hfuel. unfold scope_tags.
    set (all := map wentry_of_tag (filter (fun g => scope_eqb (g_scope g) sc) (p_tags p))).
    assert (Hall_ok : Forall wentry_ok all /\ Forall (fun e => 0 <= we_inst e) all).
    { apply Forall_and_inv, Forall_map, Forall_forall. intros g Hg. apply filter_In in Hg. destruct Hg as [Hg _].
      apply (wentry_of_tag_ok p g cap Hts (forallb_In _ _ _ Htags Hg) (proj1 (Forall_forall _ _) Htagdom g Hg)); lia. }
    assert (Hpeer : paging_peer lstate (target_call cap) rev_major (fun s => s = st0) prog all).
    { intros st start rq -> Hstart Erq. fold wa in Erq.
      pose proof (symbols_request_range wa prog start rq Erq) as Hmax.
      destruct (request_of_scope p wa prog sc start Hsc ltac:(lia)) as (path & Erq' & Hres).
      rewrite Erq' in Erq. injection Erq as <-.
      destruct (target_call_symbols cap st0 wa sc start path Hres) as (k & Ecall & Hk & Hk1).
      { cbn [ls_proj st0 target_state]. intros g Hg. apply filter_In in Hg. destruct Hg as [Hg _].
        rewrite Forall_forall in Htagdom. destruct (Htagdom g Hg) as (Hlen & _).
        unfold sym_entry, enc_wentry, Expect.blen. rewrite !app_length, !le_enc_length.
        cbn [wentry_of_tag we_name we_inst]. destruct wa; cbn [length]; lia. }
      cbn [ls_proj st0 target_state] in Ecall, Hk, Hk1.
      assert (Efrom : from start all = map wentry_of_tag
                        (filter (fun g => scope_eqb (g_scope g) sc && (start <=? g_inst g)) (p_tags p))).
      { subst all. unfold from. rewrite filter_map_comm, filter_filter. reflexivity. }
      exists k, st0. rewrite Efrom, map_length, firstn_map, flat_map_map. fold wa.
      split; [exact Ecall|]. split; [reflexivity|]. split; [exact Hk|].
      intros Hne. apply Hk1. intros E. apply Hne. rewrite E. reflexivity. }
    destruct (pagination_independent lstate (target_call cap) rev_major (fun s => s = st0) prog all Hpeer (proj1 Hall_ok))
      with (fuel := fuel) (st := st0) as (st' & E & ->).
    - subst all. apply ascending_scope, sorted_ascending, Hsorted.
    - intros start Hs. destruct (request_of_scope p wa prog sc start Hsc Hs) as (path & E & _). fold wa. eauto.
    - reflexivity.
    - exact (proj2 Hall_ok).
    - subst all. rewrite map_length.
      pose proof (filter_length_le (fun g => scope_eqb (g_scope g) sc) (p_tags p)). lia.
    - fold wa in E. rewrite E. subst all. rewrite map_map. reflexivity.
  Qed.

  Definition odef_name (d : odef) : option text := let '(MkODef n _ _ _ _ _ _ _) := d in n.

  Definition tag_obs_ok (g : tagdef) (o : otag) : Prop :=
    ot_name o = full_name g /\ ot_inst o = g_inst g /\ ot_dims o = g_dims g
    /\ ot_access o = (if wa then Some (access_word (g_access g)) else None)
    /\ ot_alias o = alias_flag g /\ ot_a3 o = g_attr3 g /\ ot_a5 o = g_attr5 g /\ ot_a6 o = g_attr6 g
    /\ match g_ty g with
       | BAtom c => ot_ty o = inl c /\ ot_tyname o = atom_name c /\ ot_tid o = None
                    /\ ot_bitpos o = (if c =? C_BOOL then Some (g_bitpos g) else None)
       | BStruct tid => exists od, Exp ts tid od /\ ot_ty o = inr od /\ ot_tyname o = odef_name od
                                   /\ ot_tid o = Some tid /\ ot_bitpos o = None
       | BOpaque _ => False
       end.

  Lemma external_access_word a : external_access_name (Some a) = access_word a.
  Proof.
    unfold external_access_name, access_word, Status.external_access. cbn [ilookup]. rewrite !(Z.eqb_sym _ a).
    destruct (Z.eqb_spec a 0) as [->|]; [reflexivity|]. destruct (Z.eqb_spec a 1) as [->|]; [reflexivity|].
    destruct (Z.eqb_spec a 2) as [->|]; [reflexivity|]. destruct (a =? 3); reflexivity.
  Qed.

  Definition raw_of_tag (g : tagdef) : raw_tag := raw_of_wentry wa (wentry_of_tag g).

  Definition scope_name (prog : option text) (g : tagdef) : text :=
    match prog with Some pn => txt_Program_ ++ pn ++ [46] ++ g_name g | None => g_name g end.

  Definition data_tag (g : tagdef) : Prop := match g_ty g with BOpaque _ => False | _ => True end.

  (* the fields of a data tag every record shares; [Q]: what is left to show of tag_obs_ok *)
  Lemma common_fields g name is_struct tid dt dtname bp tc (Q : Prop) :
    tag_ok p g = true -> sym_dim (sym_type_word g) = nd g -> Q ->
    let w := sym_type_word g in
    let mt := mkMTag name (sym_dim w) (sym_alias (g_attr6 g)) (g_inst g) (g_attr3 g) (g_attr5 g) (g_attr6 g)
                     (rt_access (raw_of_tag g)) (rt_dims (raw_of_tag g)) is_struct tid dt dtname bp tc in
    let o := otag_of_mtag wa mt in
    ot_name o = name /\ ot_inst o = g_inst g /\ ot_dims o = g_dims g
    /\ ot_access o = (if wa then Some (access_word (g_access g)) else None)
    /\ ot_alias o = alias_flag g /\ ot_a3 o = g_attr3 g /\ ot_a5 o = g_attr5 g /\ ot_a6 o = g_attr6 g /\ Q.
  Proof.
    intros Hok Hdim HQ. cbv zeta.
    unfold tag_ok in Hok. apply andb_prop in Hok. destruct Hok as [Hok _]. split_andb.
    unfold otag_of_mtag.
    cbn [tg_name tg_inst tg_dim tg_dims tg_access tg_alias tg_addr tg_oaddr tg_swc ot_name ot_inst ot_dims ot_access ot_alias ot_a3 ot_a5 ot_a6].
    split; [reflexivity|]. split; [reflexivity|]. split.
    { rewrite Hdim. unfold nd, raw_of_tag, raw_of_wentry, wentry_of_tag. cbn [rt_dims we_d1 we_d2 we_d3].
      rewrite Nat2Z.id, <- pad3_nth. apply firstn_pad3. lia. }
    split.
    { unfold raw_of_tag, raw_of_wentry, wentry_of_tag. cbn [rt_access we_access]. destruct wa; [|reflexivity].
      rewrite Z.mod_small by lia. rewrite external_access_word. reflexivity. }
    split; [apply sym_alias_eq|]. auto.
  Qed.

  Variable R : Z -> Prop.

  Hypothesis Htd : Forall tmpl_dom ts.
  Hypothesis Hdisplay : NoDup (map (fun t => display_name (t_name t)) ts).

  Lemma create_tag_ok g fuel u :
    tag_ok p g = true -> data_tag g -> (length ts + max_blob p < fuel)%nat -> Inv p R u ->
    (forall tid, g_ty g = BStruct tid -> R tid) ->
    exists u' mt,
      create_tag lstate (target_call cap) fuel u st0 (full_name g) (raw_of_tag g) = (st0, u', Done mt)
      /\ (tag_obs_ok g (otag_of_mtag wa mt) /\ tg_name mt = full_name g)
      /\ Inv p R u' /\ (exists n, Step p n u u') /\ (forall tid, g_ty g = BStruct tid -> Post tid u').
  Proof.
    intros Hok Hdata Hfuel Hinv HR.
    pose proof (tag_ok_word_fields p g Hts Hok) as Hw.
    pose proof (create_tag_fields g Hw) as Hf. cbv zeta in Hf. destruct Hf as [Hw0 Hf].
    unfold create_tag.
    cbn [raw_of_tag raw_of_wentry wentry_of_tag rt_stype rt_swc rt_inst rt_addr rt_oaddr we_stype we_a6 we_inst we_a3 we_a5].
    unfold data_tag in Hdata.
    destruct (g_ty g) as [c|tid|w0] eqn:Ety; [| |contradiction].
    - (* an elementary tag *)
      destruct Hf as (Hs & Hdim & Hcode & Hbit & _). rewrite Hs, Hcode.
      assert (Hc : In c ATOMS).
      { destruct (atom_size c) as [s0|] eqn:Es; [exact (atom_size_in c s0 Es)|].
        unfold tag_ok in Hok. rewrite Ety, Es in Hok. apply andb_prop in Hok. destruct Hok as [_ Hty]. discriminate Hty. }
      destruct (atom_facts c Hc) as (n & En & Eget & Ecls & _).
      rewrite Eget, Ecls. change BOOL_CODE with C_BOOL.
      eexists u, _. split; [reflexivity|].
      split; [split; [|reflexivity] | split; [exact Hinv | split; [exists O; apply Step_refl | intros tid H; discriminate]]].
      unfold tag_obs_ok. rewrite Ety.
      apply common_fields; [exact Hok | exact Hdim|].
      unfold otag_of_mtag. cbn [ot_ty ot_tyname ot_tid ot_bitpos tg_struct tg_dtype tg_dtname tg_tid tg_bitpos oty_of_dtype].
      rewrite (atom_code_of_atom_name c n Hc En). split; [reflexivity|]. split; [symmetry; exact En|]. split; [reflexivity|].
      destruct (c =? C_BOOL) eqn:Eb; [|reflexivity]. rewrite (Hbit ltac:(lia)). reflexivity.
    - (* a structure tag *)
      destruct Hf as (Hs & Hdim & Htid & _). rewrite Hs, Htid.
      destruct (find_template (p_templates p) tid) as [t|] eqn:Hfind;
        [|unfold tag_ok in Hok; rewrite Ety, Hfind in Hok; apply andb_prop in Hok; destruct Hok as [_ Hty]; discriminate Hty].
      pose proof (find_template_in ts tid t Hfind) as [Hin Hid].
      destruct (in_split t ts Hin) as (e & l & Hsplit).
      assert (Hle : (length e <= length ts)%nat) by (rewrite Hsplit, app_length; lia).
      destruct (get_data_type_mirrors p pol cap Hts (proj1 Hcap) Htd Hdisplay R (length e) e t l Hsplit eq_refl fuel u (sym_type_word g)
                                      ltac:(lia) ltac:(rewrite Hid; exact Htid) Hinv ltac:(rewrite Hid; apply Reach_root; apply HR; reflexivity))
        as (u' & d & Eg & Hg & Hinv' & Hstep & Hpost).
      rewrite Hid in Eg, Hg, Hpost. fold st0 in Eg. rewrite Eg.
      eexists u', _. split; [reflexivity|].
      split; [split; [|reflexivity] | split; [exact Hinv' | split; [eexists; exact Hstep | intros tid' H; injection H as <-; exact Hpost]]].
      unfold tag_obs_ok. rewrite Ety.
      apply common_fields; [exact Hok | exact Hdim|].
      exists (odef_of_dt d). split; [exact (proj1 Hg)|].
      unfold otag_of_mtag. cbn [ot_ty ot_tyname ot_tid ot_bitpos tg_struct tg_dtype tg_dtname tg_tid tg_bitpos oty_of_dtype].
      split; [reflexivity|]. split; [destruct d; reflexivity|]. split; reflexivity.
  Qed.

  Definition book_step (prog : option text) (pt : list (text * (Z * list text)) * list (text * Z)) (g : tagdef)
    : list (text * (Z * list text)) * list (text * Z) :=
    match classify (g_name g) (sym_type_word g) with
    | IsoProgram n => (dict_set PyStr.text_eqb (fst pt) n (g_inst g, []), snd pt)
    | IsoRoutine n =>
        (match prog with
         | Some pn => match dict_get PyStr.text_eqb (fst pt) pn with
                      | Some (i, rs) => dict_set PyStr.text_eqb (fst pt) pn (i, rs ++ [n])
                      | None => fst pt
                      end
         | None => fst pt
         end, snd pt)
    | IsoTask n => (fst pt, dict_set PyStr.text_eqb (snd pt) n (g_inst g))
    | _ => pt
    end.
  Definition book (prog : option text) pt (gs : list tagdef) := fold_left (book_step prog) gs pt.

  Lemma Inv_programs x u : Inv p R u -> Inv p R (set_programs x u).
  Proof. intros [G S N T C Rr]. constructor; assumption. Qed.
  Lemma Inv_tasks x u : Inv p R u -> Inv p R (set_tasks x u).
  Proof. intros [G S N T C Rr]. constructor; assumption. Qed.

  Lemma scope_name_full prog g :
    match prog with None => g_scope g = ScCtrl | Some pn => g_scope g = ScProg pn end ->
    scope_name prog g = full_name g.
  Proof. unfold scope_name, full_name. destruct prog as [pn|]; intros ->; reflexivity. Qed.

  Lemma visible_is_data g : hidden_symbol g = false -> data_tag g.
  Proof.
    unfold hidden_symbol, data_tag. intros H. destruct (g_ty g); try exact I.
    rewrite orb_true_r in H. cbn in H. rewrite ?orb_true_r in H. discriminate.
  Qed.

  Theorem isolate_ok prog : forall gs,
    (forall g, In g gs -> In g (p_tags p)
                          /\ match prog with None => g_scope g = ScCtrl | Some pn => g_scope g = ScProg pn end) ->
    (forall g tid, In g gs -> hidden_symbol g = false -> g_ty g = BStruct tid -> R tid) ->
    forall fuel u acc, (length ts + max_blob p < fuel)%nat -> Inv p R u ->
    exists u' new,
      isolate_user_tags lstate (target_call cap) fuel u st0 prog (map raw_of_tag gs) acc = (st0, u', Done (acc ++ new))
      /\ Forall2 (fun g mt => tag_obs_ok g (otag_of_mtag wa mt) /\ tg_name mt = full_name g)
                 (filter (fun g => negb (hidden_symbol g)) gs) new
      /\ Inv p R u' /\ incl (keys u) (keys u')
      /\ (forall g tid, In g (filter (fun g => negb (hidden_symbol g)) gs) -> g_ty g = BStruct tid -> In tid (keys u'))
      /\ (u_programs u', u_tasks u') = book prog (u_programs u, u_tasks u) gs.
  Proof.
    induction gs as [|g gs IH]; intros Hgs HR fuel u acc Hfuel Hinv.
    - exists u, []. cbn [map isolate_user_tags filter book fold_left]. rewrite app_nil_r.
      split; [reflexivity|]. split; [constructor|]. split; [exact Hinv|]. split; [apply incl_refl|].
      split; [intros ? ? []|]. reflexivity.
    - destruct (Hgs g (or_introl eq_refl)) as [Hin Hsc].
      specialize (IH (fun g0 H0 => Hgs g0 (or_intror H0)) (fun g0 tid H0 => HR g0 tid (or_intror H0))).
      cbn [map isolate_user_tags filter].
      change (book prog (u_programs u, u_tasks u) (g :: gs)) with (book prog (book_step prog (u_programs u, u_tasks u) g) gs).
      change (rt_name (raw_of_tag g)) with (g_name g). change (rt_stype (raw_of_tag g)) with (sym_type_word g).
      change (rt_inst (raw_of_tag g)) with (g_inst g).
      unfold book_step.
      (* the code keeps exactly the user-visible symbols *)
      rewrite forallb_forall in Htags.
      destruct (proj1 (Forall_forall _ _) Htagdom g Hin) as (_ & _ & Hreg & Hop & _).
      pose proof (isolate_filter_exact g (tag_ok_word_fields p g Hts (Htags g Hin)) Hreg Hop) as Hh. rewrite <- Hh.
      destruct (classify (g_name g) (sym_type_word g)) as [n|n|n| |]; cbn [kept fst snd] in *.
      (* a symbol that is not kept: the rest of the list, from a state with the same types *)
      + apply IH; auto using Inv_programs.
      + destruct prog as [pn|]; [destruct (dict_get PyStr.text_eqb (u_programs u) pn) as [[i rs]|]|];
          apply IH; auto using Inv_programs.
      + apply IH; auto using Inv_tasks.
      + apply IH; auto.
      + (* a user tag *)
        symmetry in Hh. apply negb_true_iff in Hh.
        destruct (create_tag_ok g fuel u (Htags g Hin) (visible_is_data g Hh) Hfuel Hinv
                                (fun tid Ht => HR g tid (or_introl eq_refl) Hh Ht))
          as (u1 & mt & Ect & Hobs & Hinv1 & (n1 & Hk1 & _ & Hp1 & Ht1) & Hpost1).
        change (match prog with Some _ => _ | None => _ end) with (scope_name prog g). rewrite (scope_name_full prog g Hsc), Ect.
        destruct (IH fuel u1 (acc ++ [mt]) Hfuel Hinv1) as (u' & new & E & HF & Hi & Hk & Hp & Hb).
        exists u', (mt :: new). rewrite E, <- app_assoc. split; [reflexivity|].
        split; [constructor; [exact Hobs | exact HF]|].
        split; [exact Hi|]. split; [eapply incl_tran; eassumption|].
        split.
        { intros g0 tid [<- | H0] Ht; [apply Hk; eapply Hpost1; exact Ht | eapply Hp; eassumption]. }
        rewrite Hb, Hp1, Ht1. reflexivity.
  Qed.
End ScopeSec.
