(* Proofs/WriteEnc.v — value encoding (the encode_value_* theorems of C02) and its agreement with the
   reference encoding of Spec/Expect.v.

     encode_value_*         bytes pass through; a BOOL-array write whose index is not a multiple of 32
                            is a RequestError; its element count becomes elements - bit/32; a list
                            shorter than the requested count is a RequestError, a longer one is
                            truncated; a scalar for an array is [scalar]; every failure is a RequestError
     bool_array_elements    with _parse_tag_request's ceil((bit + n)/32): elements - bit/32 = ceil(n/32)
     elem_encode_spec       integers of every width / REAL / LREAL: the model's struct.pack = Spec encode_atom
     array_encode_each      Array.encode of a list whose items encode, cut to the requested count
     fixedstr_encode_spec   strings: LEN + characters truncated to the capacity + zero fill = Spec encode_string
     ref_write_inv, write_place_one / _many
                            the reference write unfolded: the image of the addressed tag with the encoding
                            of the value(s) put at the addressed place
   (BOOL arrays, 32 booleans per DWORD: Proofs/WriteBools.v) *)
From Coq Require Import ZifyBool String.
From PV Require Import Base.Bytes Base.BytesLemmas Base.Res Base.Proto Base.PyStr Model.CodecFloat Model.Path Model.LogixWrite.
From PV Require Import Spec.Project Spec.Expect.
From PV Require Import Proofs.TargetLogixP.
Open Scope Z_scope.
Ltac Zify.zify_post_hook ::= Z.to_euclidean_division_equations.

Definition with_value (q : wparsed) (v : pv) : wparsed :=
  mkParsed (q_id q) (q_error q) (q_plc_tag q) (q_bit q) (q_elements q) (q_bool_elements q) (q_info q) v.

Definition is_bytes (v : pv) : bool := match v with PBytes _ => true | _ => false end.
(* encode_value's tests and counts: the type is DWORD (a BOOL array); `bool_elements or elements`;
   the element count it returns (for a BOOL array the DWORDs from the one holding the first bit) *)
Definition q_dword (q : wparsed) : bool := PyStr.text_eqb (ti_type_name (q_info q)) n_DWORD.
Definition q_value_elements (q : wparsed) : Z := z_or (q_bool_elements q) (q_elements q).
Definition q_new_elements (q : wparsed) : Z :=
  if q_dword q then q_elements q - opt_or0 (q_bit q) / 32 else q_elements q.

Lemma wrap_all_err {A} e (r : res A) x : wrap_all e r = Err x -> x = e.
Proof. destruct r; cbn; congruence. Qed.
Lemma wrap_all_ok {A} e (r : res A) a : wrap_all e r = Ok a -> r = Ok a.
Proof. destruct r; cbn; congruence. Qed.

Lemma get_bytes_decomp img off n d : get_bytes img off n = Some d ->
  exists P S, img = P ++ d ++ S /\ Z.of_nat (length P) = off /\ Z.of_nat (length d) = n.
Proof.
  unfold get_bytes. destruct ((0 <=? off) && (0 <=? n) && (off + n <=? Expect.blen img)) eqn:E; [|discriminate].
  intros H; injection H as <-. unfold Expect.blen in E.
  exists (firstn (Z.to_nat off) img), (skipn (Z.to_nat n) (skipn (Z.to_nat off) img)).
  split; [rewrite firstn_skipn, firstn_skipn; reflexivity|].
  split; [rewrite firstn_length; lia|rewrite firstn_length, skipn_length; lia].
Qed.

Lemma put_bytes_decomp P d0 S d : length d = length d0 ->
  put_bytes (P ++ d0 ++ S) (Z.of_nat (length P)) d = Some (P ++ d ++ S).
Proof.
  intros Hl. unfold put_bytes, Expect.blen. rewrite !app_length, Hl.
  replace ((0 <=? Z.of_nat (length P)) && (Z.of_nat (length P) + Z.of_nat (length d0) <=? Z.of_nat (length P + (length d0 + length S)))) with true by lia.
  rewrite Nat2Z.id, firstn_app_exact. rewrite skipn_app_add. rewrite <- Hl.
  rewrite <- (Nat.add_0_r (length d)). rewrite Hl at 1. rewrite skipn_app_add. reflexivity.
Qed.

Lemma get_bytes_mid P d S n : n = Z.of_nat (length d) ->
  get_bytes (P ++ d ++ S) (Z.of_nat (length P)) n = Some d.
Proof.
  intros ->. unfold get_bytes, Expect.blen. rewrite !app_length.
  replace ((0 <=? Z.of_nat (length P)) && (0 <=? Z.of_nat (length d)) && (Z.of_nat (length P) + Z.of_nat (length d) <=? Z.of_nat (length P + (length d + length S)))) with true by lia.
  rewrite !Nat2Z.id, skipn_app_exact, firstn_app_exact. reflexivity.
Qed.

(* what encode_value does inside its try / except, once the bytes test has failed *)
Definition encode_nonbytes (q : wparsed) (value : pv) : res (bytes * Z) :=
  let ve := q_value_elements q in
  let t := ti_type (q_info q) in
  let counted (r : res bytes) := match r with Ok b => Ok (b, q_new_elements q) | Err e => Err e end in
  if q_dword q && negb (opt_or0 (q_bit q) mod 32 =? 0) then Err RequestError
  else if is_array_ty t then
    if 1 <? ve then
      match py_items value with
      | None => Err (Foreign TypeError)
      | Some items =>
          if zlen items <? ve then Err RequestError
          else counted (encode_ty_len t (if ve <? zlen items
                                         then match value with
                                              | PStr s => PStr (firstn (Z.to_nat ve) s)
                                              | _ => PList (firstn (Z.to_nat ve) items)
                                              end
                                         else value) ve)
      end
    else counted (encode_ty_len t (if is_nonstr_sequence value then value else PList [value]) ve)
  else counted (encode_ty t value).

Lemma encode_value_nonbytes q : is_bytes (q_value q) = false ->
  encode_value q = wrap_all RequestError (encode_nonbytes q (q_value q)).
Proof. unfold encode_value. destruct (q_value q); cbn [is_bytes]; (discriminate || reflexivity). Qed.

Lemma aligned_passes q : (q_dword q = true -> opt_or0 (q_bit q) mod 32 = 0) ->
  q_dword q && negb (opt_or0 (q_bit q) mod 32 =? 0) = false.
Proof. destruct (q_dword q); [intros H; rewrite H by reflexivity|]; reflexivity. Qed.

Lemma q_new_elements_nobit q : q_bit q = None -> q_new_elements q = q_elements q.
Proof. unfold q_new_elements. intros ->. destruct (q_dword q); [apply Z.sub_0_r|reflexivity]. Qed.

Theorem encode_value_bytes q b : q_value q = PBytes b -> encode_value q = Ok (b, q_elements q).
Proof. intros H. unfold encode_value. rewrite H. reflexivity. Qed.

Theorem encode_value_error_kind q e : is_bytes (q_value q) = false -> encode_value q = Err e -> e = RequestError.
Proof. intros Hb. rewrite (encode_value_nonbytes q Hb). apply wrap_all_err. Qed.

Theorem encode_value_misaligned q :
  is_bytes (q_value q) = false -> q_dword q = true -> opt_or0 (q_bit q) mod 32 <> 0 ->
  encode_value q = Err RequestError.
Proof.
  intros Hb Hd Hm. rewrite (encode_value_nonbytes q Hb). unfold encode_nonbytes. rewrite Hd.
  apply Z.eqb_neq in Hm. rewrite Hm. reflexivity.
Qed.

Theorem encode_value_elements q b n :
  is_bytes (q_value q) = false -> encode_value q = Ok (b, n) -> n = q_new_elements q.
Proof.
  intros Hb H. rewrite (encode_value_nonbytes q Hb) in H. apply wrap_all_ok in H. unfold encode_nonbytes in H.
  assert (G : forall r, match r with Ok b0 => Ok (b0, q_new_elements q) | Err e => Err e end = Ok (b, n) -> n = q_new_elements q)
    by (intros [b0|e] E; [injection E as _ <-; reflexivity|discriminate]).
  destruct (q_dword q && _); [discriminate|].
  destruct (is_array_ty _); [|exact (G _ H)].
  destruct (1 <? _); [|exact (G _ H)].
  destruct (py_items _); [|discriminate]. destruct (_ <? _); [discriminate|exact (G _ H)].
Qed.

Theorem encode_value_plain q d :
  is_bytes (q_value q) = false -> (q_dword q = true -> opt_or0 (q_bit q) mod 32 = 0) ->
  is_array_ty (ti_type (q_info q)) = false -> encode_ty (ti_type (q_info q)) (q_value q) = Ok d ->
  encode_value q = Ok (d, q_new_elements q).
Proof.
  intros Hb Hal Ha He. rewrite (encode_value_nonbytes q Hb). unfold encode_nonbytes.
  rewrite (aligned_passes q Hal), Ha, He. reflexivity.
Qed.

(* the array branch, for list values (what a caller passes for `tag{n}`) *)
Theorem encode_value_list q l :
  q_value q = PList l -> is_array_ty (ti_type (q_info q)) = true ->
  (q_dword q = true -> opt_or0 (q_bit q) mod 32 = 0) ->
  let ve := q_value_elements q in
  encode_value q =
    if 1 <? ve then
      if zlen l <? ve then Err RequestError
      else match encode_ty_len (ti_type (q_info q)) (PList (firstn (Z.to_nat ve) l)) ve with
           | Ok b => Ok (b, q_new_elements q)
           | Err _ => Err RequestError
           end
    else match encode_ty_len (ti_type (q_info q)) (PList l) ve with
         | Ok b => Ok (b, q_new_elements q)
         | Err _ => Err RequestError
         end.
Proof.
  intros Hv Ha Hal ve. rewrite encode_value_nonbytes by (rewrite Hv; reflexivity). rewrite Hv.
  unfold encode_nonbytes. fold ve. rewrite (aligned_passes q Hal), Ha. cbn [py_items is_nonstr_sequence].
  destruct (1 <? ve).
  - destruct (zlen l <? ve) eqn:E2; [reflexivity|].
    destruct (ve <? zlen l) eqn:E3.
    + destruct (encode_ty_len _ _ ve); reflexivity.
    + rewrite (firstn_all2 l) by (unfold zlen in *; lia). destruct (encode_ty_len _ _ ve); reflexivity.
  - destruct (encode_ty_len _ _ ve); reflexivity.
Qed.

(* truncation of long value lists: only the first `count` values matter *)
Corollary encode_value_truncates q l :
  q_value q = PList l -> is_array_ty (ti_type (q_info q)) = true ->
  (q_dword q = true -> opt_or0 (q_bit q) mod 32 = 0) -> 1 < q_value_elements q -> q_value_elements q <= zlen l ->
  encode_value q = encode_value (with_value q (PList (firstn (Z.to_nat (q_value_elements q)) l))).
Proof.
  intros Hv Ha Hal H1 H2.
  rewrite (encode_value_list q l Hv Ha Hal), (encode_value_list (with_value q _) _ eq_refl Ha Hal).
  cbn zeta. change (q_value_elements (with_value q _)) with (q_value_elements q).
  assert (Hl : zlen (firstn (Z.to_nat (q_value_elements q)) l) = q_value_elements q)
    by (unfold zlen in *; rewrite firstn_length; lia).
  rewrite Hl, firstn_firstn, Nat.min_id.
  replace (zlen l <? q_value_elements q) with false by lia. rewrite Z.ltb_irrefl.
  replace (1 <? q_value_elements q) with true by lia. reflexivity.
Qed.

Corollary encode_value_too_short q l :
  q_value q = PList l -> is_array_ty (ti_type (q_info q)) = true ->
  (q_dword q = true -> opt_or0 (q_bit q) mod 32 = 0) -> 1 < q_value_elements q -> zlen l < q_value_elements q ->
  encode_value q = Err RequestError.
Proof.
  intros Hv Ha Hal H1 H2. rewrite (encode_value_list q l Hv Ha Hal). cbn zeta.
  replace (1 <? q_value_elements q) with true by lia. replace (zlen l <? q_value_elements q) with true by lia. reflexivity.
Qed.

(* a scalar written to an (un-sliced) array element is wrapped in a one-element list *)
Theorem encode_value_scalar q :
  is_bytes (q_value q) = false -> is_nonstr_sequence (q_value q) = false ->
  is_array_ty (ti_type (q_info q)) = true -> q_value_elements q <= 1 ->
  (q_dword q = true -> opt_or0 (q_bit q) mod 32 = 0) ->
  encode_value q = encode_value (with_value q (PList [q_value q])).
Proof.
  intros Hb Hs Ha H1 Hal.
  rewrite (encode_value_nonbytes q Hb), (encode_value_nonbytes (with_value q (PList [q_value q])) eq_refl).
  unfold encode_nonbytes. change (q_value_elements (with_value q _)) with (q_value_elements q).
  cbn [with_value q_value q_info q_bit]. change (q_dword (with_value q _)) with (q_dword q).
  rewrite (aligned_passes q Hal), Ha, Hs. replace (1 <? q_value_elements q) with false by lia. reflexivity.
Qed.

(* _parse_tag_request computes, for `arr[bit]{n}` on a BOOL array, elements = ceil((bit + n) / 32);
   encode_value subtracts bit // 32: what is left is ceil(n / 32), the number of DWORDs written *)
Theorem bool_array_elements bit n :
  0 <= bit -> bit mod 32 = 0 -> 0 <= n ->
  let total := bit + n in
  let elements := total / 32 + (if total mod 32 =? 0 then 0 else 1) in
  elements - bit / 32 = n / 32 + (if n mod 32 =? 0 then 0 else 1).
Proof. intros Hb Hm Hn total elements. subst total elements. destruct ((bit + n) mod 32 =? 0) eqn:E1; destruct (n mod 32 =? 0) eqn:E2; lia. Qed.

Definition res_of_opt (o : option bytes) : res bytes := match o with Some d => Ok d | None => Err DataError end.

(* the Python value a reference value of an elementary type is written as *)
Inductive denotes_atom : Z -> pv -> rvalue -> Prop :=
  | DnInt c z : atom_integer c = true -> denotes_atom c (PInt z) (RInt z)
  | DnReal b64 b32 : round32 b64 = Some b32 -> 0 <= b32 < 4294967296 -> denotes_atom C_REAL (PFloat b64) (RReal b32)
  | DnLReal b : 0 <= b < 18446744073709551616 -> denotes_atom C_LREAL (PFloat b) (RLReal b).

Lemma value_atom_cases c : value_atom c = true ->
  (c = 194 \/ c = 195 \/ c = 196 \/ c = 197) \/ (c = 198 \/ c = 199 \/ c = 200 \/ c = 201) \/ c = 202 \/ c = 203.
Proof.
  unfold value_atom, atom_signed, atom_unsigned, C_SINT, C_INT, C_DINT, C_LINT, C_USINT, C_UINT, C_UDINT, C_ULINT, C_REAL, C_LREAL. lia.
Qed.

Definition atom_fmt (c s : Z) : fmt_kind :=
  if c =? C_REAL then FReal false else if c =? C_LREAL then FReal true else FInt (atom_signed c) (Z.to_nat s).

(* the class of an integer / REAL / LREAL code, in the regenerated tables: it is not DWORD, its values
   are not chunked into bit arrays, its code is the type field of a write, and its row carries the
   struct format of the code *)
Lemma value_atom_class c name : atom_name c = Some name -> value_atom c = true ->
  PyStr.text_eqb name n_DWORD = false /\ bitarray_chunk name = None
  /\ (forall ty h i, packed_data_type (mkInfo false name ty h i) = Ok (le_enc 2 c))
  /\ 0 <= c < 65536 /\ c mod 256 <> 160
  /\ exists r s, atom_size c = Some s /\ class_row name = Some r /\ PyStr.text_eqb name n_BOOL = false
       /\ fmt_sem (row_fmt r) = Some (atom_fmt c s).
Proof.
  intros Hn Hv.
  destruct (value_atom_cases c Hv) as [[-> | [-> | [-> | ->]]] | [[-> | [-> | [-> | ->]]] | [-> | ->]]];
  vm_compute in Hn; injection Hn as <-;
  (split; [reflexivity|]; split; [reflexivity|]; split; [intros; vm_compute; reflexivity|]; split; [lia|]; split; [cbn; lia|];
   eexists _, _; repeat split; reflexivity).
Qed.

Theorem elem_encode_spec c name v rv :
  atom_name c = Some name -> value_atom c = true -> denotes_atom c v rv ->
  elem_encode name v = res_of_opt (encode_atom c rv).
Proof.
  intros Hn Hv Hd. destruct (value_atom_class c name Hn Hv) as (_ & _ & _ & _ & _ & r & s & Hs & Hr & Hnb & Hf).
  unfold elem_encode, elem_encode_raw, encode_atom. rewrite Hr, Hnb, Hf, Hs. unfold atom_fmt.
  destruct Hd as [c z Hi | b64 b32 Hr32 Hb | b Hb].
  - (* integers: struct.pack reduces modulo the width; the reference asks for the range first *)
    assert (Hc : (c =? C_REAL) = false /\ (c =? C_LREAL) = false /\ (atom_signed c = false -> atom_unsigned c = true)).
    { revert Hi. unfold atom_integer, atom_signed, atom_unsigned, C_REAL, C_LREAL, C_SINT, C_INT, C_DINT, C_LINT,
        C_USINT, C_UINT, C_UDINT, C_ULINT. lia. }
    destruct Hc as (-> & -> & Hu). unfold pack_int, of_signed. destruct (atom_signed c).
    + destruct (in_srange _ z); reflexivity.
    + rewrite (Hu eq_refl). destruct (in_urange _ z); cbn [wrap_all res_of_opt]; [rewrite le_enc_mod|]; reflexivity.
  - injection Hs as <-. cbn [Z.eqb Pos.eqb C_REAL pack_real]. rewrite Hr32.
    replace (in_urange 4 b32) with true by (unfold in_urange; change (pow256 4) with 4294967296; lia). reflexivity.
  - injection Hs as <-. change (C_LREAL =? C_REAL) with false. change (C_LREAL =? C_LREAL) with true. cbn [pack_real andb].
    replace (in_urange 8 b) with true by (unfold in_urange; change (pow256 8) with 18446744073709551616; lia). reflexivity.
Qed.

Lemma map_res_length {A B} (f : A -> res B) l l' : map_res f l = Ok l' -> length l' = length l.
Proof.
  revert l'. induction l as [|a r IH]; intros l' H; cbn [map_res] in H; [injection H as <-; reflexivity|].
  destruct (f a); [|discriminate]. destruct (map_res f r) as [bs|]; [|discriminate]. injection H as <-.
  cbn [length]. rewrite (IH bs eq_refl). reflexivity.
Qed.

Lemma map_res_ext {A B} (f g : A -> res B) l : (forall x, f x = g x) -> map_res f l = map_res g l.
Proof. intros H. induction l as [|a r IH]; [reflexivity|]. cbn [map_res]. rewrite H, IH. reflexivity. Qed.

Lemma array_encode_each enc cls_len l len n ds :
  match len with Some x => if x =? 0 then cls_len else x | None => cls_len end = n ->
  0 <= n <= zlen l -> map_res enc (firstn (Z.to_nat n) l) = Ok ds ->
  array_encode enc None cls_len (PList l) len = Ok (concat ds).
Proof.
  intros Hn Hl Hm. unfold array_encode. cbn [py_items]. rewrite Hn, Hm.
  pose proof (map_res_length _ _ _ Hm) as Hd. rewrite firstn_length in Hd. unfold zlen in Hl.
  replace (zlen l <? n) with false by (unfold zlen; lia).
  replace (Z.of_nat (length ds) <? n) with false by lia. reflexivity.
Qed.

(* FixedSizeString(structure_size - 4, capacity = len(DATA)).encode(text) on the standard string
   layout (LEN at 0, DATA at 4) *)
Theorem fixedstr_encode_spec t lm dm cs :
  m_off lm = 0 -> m_off dm = 4 -> 0 <= m_arr dm -> 4 + m_arr dm <= t_size t -> bytes_ok cs = true ->
  encode_ty (WFixedStr (t_size t - 4) (m_arr dm)) (PStr cs) = res_of_opt (encode_string t lm dm cs).
Proof.
  intros Hl Hd Hcap Hsize Hok. cbn [encode_ty]. unfold fixedstr_encode, encode_string, latin1_encode. rewrite Hok, Hl, Hd.
  set (cap := Z.to_nat (m_arr dm)). set (s' := firstn cap cs).
  change (latin1_ok s') with (bytes_ok (firstn cap cs)) (* the same test on each character *). rewrite (bytes_ok_firstn cap cs Hok). cbn [wrap_all].
  set (n := Z.min (Expect.blen cs) (m_arr dm)).
  assert (Hn0 : 0 <= n <= m_arr dm) by (unfold n, Expect.blen; lia).
  assert (Hs' : firstn (Z.to_nat n) cs = s').
  { unfold s', cap, n, Expect.blen. destruct (Z_le_gt_dec (Z.of_nat (length cs)) (m_arr dm)).
    - rewrite Z.min_l, Nat2Z.id, !firstn_all2 by lia. reflexivity.
    - rewrite Z.min_r by lia. reflexivity. }
  assert (Hls : length s' = Z.to_nat n) by (unfold s', cap, n, Expect.blen; rewrite firstn_length; lia).
  assert (Hn : zlen s' = n) by (unfold zlen; rewrite Hls; lia).
  rewrite Hs', Hn. clearbody n s'. clear Hs' Hn Hok.
  (* the zero image, cut at LEN and DATA *)
  set (rest := (Z.to_nat (t_size t) - 4 - cap)%nat).
  assert (Hz : zeros (Z.to_nat (t_size t)) = zeros 4 ++ zeros cap ++ zeros rest).
  { rewrite !zeros_app. f_equal. unfold rest, cap. lia. }
  set (d := s' ++ zeros (Z.to_nat (m_arr dm - n))).
  assert (Hd' : length d = length (zeros cap)) by (unfold d; rewrite app_length, !zeros_length, Hls; unfold cap; lia).
  pose proof (put_bytes_decomp [] (zeros 4) (zeros cap ++ zeros rest) (le_enc 4 n) (le_enc_length 4 n)) as P1.
  pose proof (put_bytes_decomp (le_enc 4 n) (zeros cap) (zeros rest) d Hd') as P2. rewrite le_enc_length in P2.
  cbn [app length Z.of_nat] in P1. rewrite Hz, P1. change 4 with (Z.of_nat 4) at 2. rewrite P2.
  cbn [res_of_opt]. unfold d. rewrite <- !app_assoc, zeros_app. do 4 f_equal.
  unfold rest, cap. clear -Hn0 Hcap Hsize. lia.
Qed.

Lemma ref_write_inv p m r pl img v m_ref :
  resolve p r = Some pl -> mem_get m (place_inst pl) = Some img -> ref_write p m r v = Some m_ref ->
  exists img', write_place p img pl (r_bit r) (r_count r) v = Some img' /\ m_ref = mem_set m (place_inst pl) img'.
Proof.
  unfold ref_write. intros -> ->. destruct (write_place p img pl (r_bit r) (r_count r) v) as [img'|]; [|discriminate].
  intros H; injection H as <-. exists img'. split; reflexivity.
Qed.

Lemma write_place_one p img inst off ty dims avail v img' :
  write_place p img (PlData inst off ty dims avail) None None v = Some img' ->
  exists s d, base_size p ty = Some s /\ encode_val (depth_fuel p) p ty v = Some d
    /\ Expect.blen d = s /\ put_bytes img off d = Some img'.
Proof.
  unfold write_place. destruct (base_size p ty) as [s|]; [|discriminate].
  destruct (encode_val (depth_fuel p) p ty v) as [d|]; [|discriminate].
  destruct (Expect.blen d =? s) eqn:E; [|discriminate]. intros H. exists s, d. repeat split; (lia || exact H).
Qed.

Lemma write_place_many p img inst off ty dims avail n vs img' :
  is_bits_ty ty = false ->
  write_place p img (PlData inst off ty dims avail) None (Some n) (RList vs) = Some img' ->
  exists s ds, base_size p ty = Some s /\ 1 <= n <= avail /\ n <= Z.of_nat (length vs)
    /\ all_some (map (encode_val (depth_fuel p) p ty) (firstn (Z.to_nat n) vs)) = Some ds
    /\ Expect.blen (concat ds) = s * n /\ put_bytes img off (concat ds) = Some img'.
Proof.
  intros Hb. unfold write_place, take_values, encode_array_with. rewrite Hb.
  destruct (base_size p ty) as [s|]; [|discriminate].
  destruct ((1 <=? n) && (n <=? avail)) eqn:E1; [|discriminate].
  destruct (n <=? Z.of_nat (length vs)) eqn:E2; [|discriminate].
  destruct (Z.of_nat (length (firstn (Z.to_nat n) vs)) =? n); [|discriminate].
  destruct (all_some _) as [ds|]; [|discriminate].
  destruct (forallb _ ds); [|discriminate].
  destruct (Expect.blen (concat ds) =? s * n) eqn:E3; [|discriminate].
  intros H. exists s, ds. repeat split; try lia; (reflexivity || exact H).
Qed.
