(* Proofs/LifecycleHistory.v — from the target's tables back to the history: a session in the table
   was granted by a RegisterSession delivered earlier, a connection by a Forward Open delivered
   earlier, and the TCP connection has not dropped in between (property C10, "preceded by"). *)
From Coq Require Import ZifyBool.
From PV Require Import Base.Bytes Base.Res.
From PV Require Import Spec.EncapParser Spec.TargetIface Spec.TargetCore.
From PV Require Import Proofs.LifecycleTarget Model.Lifecycle Proofs.LifecycleP Proofs.LifecycleInv.
Open Scope Z_scope.

Section History.
Context {S : Type} (h : handler S).
Notation tev := (tev (S := S)).

(* the TCP connection dropped: the peer vanished, or the socket was closed and the target noticed *)
Definition is_reset (e : tev) : bool :=
  match e with TVanish => true | TSockClose n => n | _ => false end.
Definition no_reset (l : list tev) : Prop := forallb (fun e => negb (is_reset e)) l = true.

(* in the trace [tr] (newest first) a RegisterSession frame was delivered that put [s] into the
   session table, and no reset happened after it *)
Definition session_granted (tr : list tev) (s : Z) : Prop :=
  exists newer b fr rep older,
    tr = newer ++ TDeliver b fr rep :: older /\ no_reset newer /\ frame_effect fr = ERegister
    /\ ~ In s (t_sessions b) /\ In s (t_sessions (fst (tstep h b fr))).
(* likewise a Forward Open frame was delivered that put [c] into the connection table, no reset after it *)
Definition conn_granted (tr : list tev) (c : conn) : Prop :=
  exists newer b fr rep older l,
    tr = newer ++ TDeliver b fr rep :: older /\ no_reset newer /\ frame_effect fr = EFo l
    /\ t_conns (fst (tstep h b fr)) = c :: t_conns b.

Lemma session_granted_cons e tr s : is_reset e = false -> session_granted tr s -> session_granted (e :: tr) s.
Proof.
  intros He (newer & b & fr & rep & older & -> & Hn & Hf & H1 & H2).
  exists (e :: newer), b, fr, rep, older. repeat split; auto.
  unfold no_reset in *. cbn [forallb]. rewrite He, Hn. reflexivity.
Qed.
Lemma conn_granted_cons e tr c : is_reset e = false -> conn_granted tr c -> conn_granted (e :: tr) c.
Proof.
  intros He (newer & b & fr & rep & older & l & -> & Hn & Hf & H1).
  exists (e :: newer), b, fr, rep, older, l. repeat split; auto.
  unfold no_reset in *. cbn [forallb]. rewrite He, Hn. reflexivity.
Qed.

Lemma chained_granted tr : forall t, chained h tr t ->
  (forall s, In s (t_sessions t) -> session_granted tr s) /\ (forall c, In c (t_conns t) -> conn_granted tr c).
Proof.
  induction tr as [| e older IH]; intros t Hc; cbn [chained] in Hc.
  { destruct Hc as [Hs Hcn]. rewrite Hs, Hcn. split; intros ? []. }
  assert (forall b, chained h older b -> is_reset e = false ->
            (forall s, In s (t_sessions b) -> session_granted (e :: older) s)
            /\ (forall c, In c (t_conns b) -> conn_granted (e :: older) c)) as Hkeep.
  { intros b Hb He. destruct (IH b Hb) as [A B].
    split; intros x Hx; [apply session_granted_cons | apply conn_granted_cons]; auto. }
  destruct e as [okc | b fr rep | n |].
  - exact (Hkeep t Hc eq_refl).
  - destruct Hc as (Hb & Hinj & -> & ->). destruct (Hkeep b Hb eq_refl) as [Ks Kc].
    pose proof (tstep_effect h b fr Hinj) as (_ & _ & He).
    destruct (frame_effect fr) as [| | | l |] eqn:Ef.
    + destruct He as [E1 E2]. rewrite E1, E2. split; assumption.
    + destruct He as [E2 [E1 | [hd E1]]]; rewrite E2; [rewrite E1; split; assumption |].
      split; [| exact Kc]. intros s Hin.
      destruct (in_dec Z.eq_dec s (t_sessions b)) as [Hi | Hni]; [apply Ks, Hi |].
      exists [], b, fr, (snd (tstep h b fr)), older. repeat split; auto.
    + destruct He as [_ [[E1 E2] | (ses & E1 & E2)]]; rewrite E1, E2; [split; assumption |].
      split; intros x Hin; apply filter_In in Hin; [apply Ks | apply Kc]; apply Hin.
    + destruct He as [E1 [[E2 _] | (c' & f & raw & _ & E2 & _)]]; rewrite E1; [rewrite E2; split; assumption |].
      split; [exact Ks |]. intros c Hin. rewrite E2 in Hin. destruct Hin as [<- | Hin]; [| apply Kc, Hin].
      exists [], b, fr, (snd (tstep h b fr)), older, l. repeat split; auto.
    + destruct He as [E1 (P & E2)]. rewrite E1, E2. split; [exact Ks |].
      intros c Hin. apply filter_In in Hin. apply Kc, Hin.
  - destruct Hc as (b & Hb & ->). destruct n; [cbn; split; intros ? [] | exact (Hkeep b Hb eq_refl)].
  - destruct Hc as (b & Hb & ->). cbn. split; intros ? [].
Qed.

Lemma chained_suffix newer : forall e older t, chained h (newer ++ e :: older) t -> exists t', chained h (e :: older) t'.
Proof.
  induction newer as [| x newer IH]; intros e older t Hc; [exists t; exact Hc |].
  cbn [app chained] in Hc. destruct x as [okc | b fr rep | n |].
  - eapply IH; exact Hc.
  - destruct Hc as (Hb & _). eapply IH; exact Hb.
  - destruct Hc as (b & Hb & _). eapply IH; exact Hb.
  - destruct Hc as (b & Hb & _). eapply IH; exact Hb.
Qed.

(* a SendUnitData frame is preceded, with no intervening reset, by a RegisterSession success for the
   session of its header and by a Forward Open success that created, in that session, the connection
   whose id the frame carries *)
Definition unitdata_preceded (older : list tev) (fr : bytes) : Prop :=
  forall f, parse_frame fr = RcOk f -> f_cmd f = CMD_UNITDATA ->
    session_granted older (f_session f)
    /\ exists t cid dt d c, f_body f = BCpf t (AddrConn cid) dt d /\ conn_granted older c
                            /\ c_ot_id c = cid /\ c_session c = f_session f.

Lemma preceded_of_tables tr t : chained h tr t -> Forall (deliver_ok (S := S)) tr ->
  forall newer b fr rep older, tr = newer ++ TDeliver b fr rep :: older -> unitdata_preceded older fr.
Proof.
  intros Hc Hok newer b fr rep older -> f Hp Hcmd.
  destruct (chained_suffix _ _ _ _ Hc) as (t' & Hc'). cbn [chained] in Hc'. destruct Hc' as (Hb & _).
  rewrite Forall_forall in Hok.
  assert (deliver_ok (TDeliver b fr rep)) as Hd by (apply Hok; apply in_or_app; right; left; reflexivity).
  cbn [deliver_ok] in Hd. destruct (Hd f Hp Hcmd) as (Hm & tt & cid & dt & d & c & Hbody & Hin & Hot & Hses).
  split.
  - apply (chained_granted _ _ Hb). unfold mem_z in Hm. apply existsb_exists in Hm. destruct Hm as (x & Hx & E).
    assert (x = f_session f) by lia. subst x. exact Hx.
  - exists tt, cid, dt, d, c. split; [exact Hbody |]. split; [apply (chained_granted _ _ Hb), Hin |]. auto.
Qed.
End History.
