(* Proofs/UploadBlob.v — C05: _parse_template_data on the definition bytes the reference target
   serves (Spec/Project.template_blob: 8-byte member records, NUL-separated names, NUL padding):
   * [exp_member] / [exp_datatype]: the dictionary the upload must build for a template, given the
     dictionaries of the nested structures;
   * [names_of_data]: the template name and the member names out of the name area, for both name
     forms ("Name;tail" and the predefined "Name");
   * [member_info_decode]: one member record, elementary (with or without the array bit) or
     structure (the recursive _get_data_type is a parameter with a stated contract);
   * [parse_template_blob]: the whole function;
   * [served_shape]: the bytes a template read delivers have the shape [parse_template_blob] asks for. *)
From Coq Require Import ZifyBool String.
From PV Require Import Base.Bytes Base.BytesLemmas Base.Proto Base.PyStr Base.PyStrLemmas Base.Res.
From PV Require Import Spec.Project Spec.Expect Spec.UploadObs Model.LogixUpload.
From PV Require Import Proofs.TargetLogixP Proofs.UploadParse Proofs.UploadFilter Proofs.UploadTemplate.
Open Scope string_scope.
Open Scope list_scope.
Open Scope Z_scope.

Definition exp_member (nested : Z -> option datatype) (m : Project.member) : option LogixUpload.member :=
  match m_ty m with
  | BAtom c =>
      match atom_name c with
      | Some n =>
          let isb := c =? C_BOOL in
          Some (mkMem (m_off m) false (DName n) (Some n)
                      (if isb then Some (member_info_word m) else None)
                      (if isb then None else Some (member_info_word m))
                      (if isb then TcAtom n
                       else if member_info_word m =? 0 then TcAtom n else TcArray (member_info_word m) (TcAtom n)))
      | None => None
      end
  | BStruct tid =>
      match nested tid with
      | Some d =>
          Some (mkMem (m_off m) true (DDef d) (dt_name d) None (Some (m_arr m))
                      (if m_arr m =? 0 then dt_tclass d else TcArray (m_arr m) (dt_tclass d)))
      | None => None
      end
  | BOpaque _ => None
  end.

Definition template_attrs_of (t : template) : tmpl_attrs :=
  mkTA (template_defsize t) (t_size t) (template_member_count t) (t_handle t).

Definition exp_datatype (infos : list LogixUpload.member) (t : template) : datatype :=
  build_datatype (Some (display_name (t_name t))) (template_attrs_of t)
                 (member_loop (predefined_id (t_id t)) ml_init (map m_name (t_members t)) infos).

Definition member_rec (ab : bool) (m : Project.member) : bytes :=
  le_enc 2 (member_info_word m) ++ le_enc 2 (member_type_word ab m) ++ le_enc 4 (m_off m).

Lemma template_records_eq ab t : template_records ab t = flat_map (member_rec ab) (t_members t).
Proof. reflexivity. Qed.

Lemma member_rec_length ab m : length (member_rec ab m) = 8%nat.
Proof. unfold member_rec. rewrite !app_length, !le_enc_length. reflexivity. Qed.

Lemma info_chunks_records ab ms : info_chunks (length ms) (flat_map (member_rec ab) ms) = map (member_rec ab) ms.
Proof.
  induction ms as [|m ms IH]; [reflexivity|].
  cbn [length info_chunks flat_map map].
  rewrite <- (member_rec_length ab m) at 1 2. rewrite firstn_app_exact, skipn_app_exact, IH. reflexivity.
Qed.

Lemma records_length ab ms : length (flat_map (member_rec ab) ms) = (length ms * 8)%nat.
Proof. induction ms as [|m ms IH]; [reflexivity|]. cbn [flat_map length]. rewrite app_length, member_rec_length, IH. lia. Qed.

(* the ranges of the fields of a member record *)
Definition member_fields_ok (m : Project.member) : Prop :=
  0 <= member_info_word m < 65536 /\ 0 <= m_off m < 4294967296 /\
  match m_ty m with
  | BAtom c => In c ATOMS /\ (c = C_BOOL -> m_arr m = 0)
  | BStruct tid => 0 <= tid < 4096
  | BOpaque _ => False
  end.

Lemma member_type_word_range ab m : member_fields_ok m -> 0 <= member_type_word ab m < 65536.
Proof.
  intros (_ & _ & Hty). unfold member_type_word.
  destruct (m_ty m) as [c|tid|w]; [apply proj1, atoms_range in Hty | | contradiction];
    destruct (ab && negb (m_arr m =? 0)); lia.
Qed.

Lemma slices_2_2_4 (A B C : bytes) :
  length A = 2%nat -> length B = 2%nat -> length C = 4%nat ->
  slice 0 2 (A ++ B ++ C) = A /\ slice 2 4 (A ++ B ++ C) = B /\ slice 4 8 (A ++ B ++ C) = C.
Proof.
  intros HA HB HC.
  destruct A as [|a0 [|a1 [|? ?]]]; try discriminate.
  destruct B as [|b0 [|b1 [|? ?]]]; try discriminate.
  destruct C as [|c0 [|c1 [|c2 [|c3 [|? ?]]]]]; try discriminate.
  repeat split; reflexivity.
Qed.

Lemma member_record_rec ab m :
  member_fields_ok m ->
  member_record (member_rec ab m) = Ok (member_info_word m, member_type_word ab m, m_off m).
Proof.
  intros Hm. pose proof (member_type_word_range ab m Hm) as Hw. destruct Hm as (Hi & Ho & _).
  unfold member_record. rewrite member_rec_length. cbn [Nat.ltb Nat.leb].
  unfold member_rec.
  destruct (slices_2_2_4 (le_enc 2 (member_info_word m)) (le_enc 2 (member_type_word ab m)) (le_enc 4 (m_off m))
                         (le_enc_length _ _) (le_enc_length _ _) (le_enc_length _ _)) as (E1 & E2 & E3).
  rewrite E1, E2, E3.
  rewrite !le_dec_enc_id by (rewrite ?pow256_2, ?pow256_4; lia). reflexivity.
Qed.

(* a member type word: a code or template id in the low 12 bits, the array bit 13, the structure bit 15 *)
Lemma member_word_bits lo a st w :
  w = lo + a + 32768 * st -> 0 <= lo < 4096 -> a = 0 \/ a = 8192 -> 0 <= st <= 1 ->
  Z.land w 4095 = lo /\ (Z.land w 32768 =? 0) = (st =? 0).
Proof.
  intros -> Hlo Ha Hst. pose proof (land_bit_zero (lo + a + 32768 * st) 15) as Eb. change (2 ^ 15) with 32768 in Eb.
  rewrite Eb, (Z.land_ones _ 12) by lia. change (2 ^ 12) with 4096. split; [|f_equal]; lia.
Qed.

(* splitting at a separator: the fields before it, then the fields after it *)
Lemma split_chr_app_sep sep a b : split_chr sep (a ++ sep :: b) = split_chr sep a ++ split_chr sep b.
Proof.
  enough (H : forall cur, split_chr_aux sep (a ++ sep :: b) cur = split_chr_aux sep a cur ++ split_chr sep b) by apply H.
  induction a as [|c a IH]; intros cur; cbn [app split_chr_aux].
  - rewrite Z.eqb_refl. reflexivity.
  - destruct (c =? sep); rewrite IH; reflexivity.
Qed.

Lemma split_chr_last sep a : contains_chr sep a = false -> split_chr sep a = [a].
Proof.
  enough (H : forall cur, contains_chr sep a = false -> split_chr_aux sep a cur = [rev cur ++ a]) by apply H.
  induction a as [|c a IH]; intros cur H; cbn [split_chr_aux]; [rewrite app_nil_r; reflexivity|].
  cbn [contains_chr existsb] in H. apply orb_false_iff in H as [Hc H].
  rewrite Z.eqb_sym, Hc, IH by exact H. cbn [rev]. rewrite <- app_assoc. reflexivity.
Qed.

(* separator-terminated fields, followed by anything *)
Lemma split_chr_fields sep names rest :
  Forall (fun n => contains_chr sep n = false) names ->
  split_chr sep (flat_map (fun n => n ++ [sep]) names ++ rest) = names ++ split_chr sep rest.
Proof.
  induction 1 as [|n names Hn _ IH]; [reflexivity|].
  cbn [flat_map]. rewrite <- !app_assoc. cbn [app].
  rewrite split_chr_app_sep, split_chr_last, IH by exact Hn. reflexivity.
Qed.

Lemma split_zeros k : split_chr 0 (zeros k) = repeat [] (S k).
Proof.
  induction k as [|k IH]; [reflexivity|].
  cbn [zeros]. change (0 :: zeros k) with ([] ++ 0 :: zeros k). rewrite split_chr_app_sep, IH. reflexivity.
Qed.

(* names of a template and of its members are NUL- and ';'-free; a name without tail belongs to a
   predefined-range id *)
Definition names_ok (t : template) : Prop :=
  contains_chr 0 (t_name t) = false /\ contains_chr 59 (t_name t) = false
  /\ match t_tail t with
     | Some s => contains_chr 0 s = false
     | None => predefined_id (t_id t) = true
     end
  /\ Forall (fun m => contains_chr 0 (m_name m) = false /\ contains_chr 59 (m_name m) = false) (t_members t).

(* the first name of the name area: "Name;tail" or the predefined "Name" *)
Definition head_name (t : template) : text :=
  t_name t ++ match t_tail t with Some s => SEMI :: s | None => [] end.

Lemma template_names_eq t :
  template_names t = flat_map (fun n => n ++ [0]) (head_name t :: map m_name (t_members t)).
Proof. unfold template_names, head_name. cbn [flat_map]. rewrite flat_map_map, <- !app_assoc. reflexivity. Qed.

Lemma template_names_snoc t : exists X, template_names t = X ++ [0].
Proof.
  rewrite template_names_eq.
  destruct (exists_last_snoc (head_name t :: map m_name (t_members t))) as (i & x & ->); [discriminate|].
  exists (flat_map (fun n => n ++ [0]) i ++ x). rewrite flat_map_app. cbn [flat_map]. rewrite app_nil_r, app_assoc. reflexivity.
Qed.

Lemma area_names_nul_free t :
  names_ok t -> Forall (fun n => contains_chr 0 n = false) (head_name t :: map m_name (t_members t)).
Proof.
  intros (Hn0 & _ & Htail & Hms). constructor.
  - unfold head_name. rewrite contains_chr_app, Hn0. destruct (t_tail t); [exact Htail | reflexivity].
  - rewrite Forall_map. eapply Forall_impl; [|exact Hms]. intros m H. apply H.
Qed.

(* the name area as served: the names and NUL padding, or (a definition that ends exactly one byte
   after what the driver asks for) the names without their final NUL *)
Definition names_area_ok (t : template) (area : bytes) : Prop :=
  (exists k, area = template_names t ++ zeros k) \/ area ++ [0] = template_names t.

(* either way it splits into the first name, the member names and empty names from the padding *)
Lemma split_area t area :
  names_ok t -> names_area_ok t area ->
  exists extras, split_chr 0 area = head_name t :: map m_name (t_members t) ++ extras
                 /\ Forall (fun n => n = []) extras.
Proof.
  intros Hok%area_names_nul_free [(k & ->) | E]; rewrite template_names_eq in *.
  - exists (repeat [] (S k)). rewrite split_chr_fields, split_zeros by exact Hok.
    split; [reflexivity|]. apply Forall_forall. intros n Hn. exact (repeat_spec _ _ _ Hn).
  - exists []. split; [|constructor].
    apply (split_chr_fields 0 _ []) in Hok. rewrite app_nil_r, <- E, split_chr_app_sep in Hok.
    apply app_inj_tail in Hok as [-> _]. rewrite app_nil_r. reflexivity.
Qed.

Lemma names_loop_plain : forall names tn acc,
  (tn = None -> Forall (fun n => contains_chr 59 n = false) names) ->
  names_loop names tn acc = (tn, rev acc ++ names).
Proof.
  induction names as [|n r IH]; intros tn acc H; cbn [names_loop]; [rewrite app_nil_r; reflexivity|].
  assert (E : names_loop r tn (n :: acc) = (tn, rev acc ++ n :: r)).
  { rewrite IH; [cbn [rev]; rewrite <- app_assoc; reflexivity|]. intros Ht. apply H in Ht. inversion Ht; assumption. }
  destruct tn; [exact E|]. specialize (H eq_refl). inversion H as [|? ? Hn _]; subst. rewrite Hn. exact E.
Qed.

Lemma before_semi_app a r : contains_chr 59 a = false -> before_semi (a ++ 59 :: r) = a.
Proof. intros H. unfold before_semi. rewrite split_chr_app_sep, split_chr_last by exact H. reflexivity. Qed.

(* Spec/Project.v and Base/PyStr.v define the same fixpoint *)
Lemma text_eqb_same a b : PyStr.text_eqb a b = Project.text_eqb a b.
Proof. reflexivity. Qed.

Lemma display_name_eq n : (if PyStr.text_eqb n (T "ASCIISTRING82") then Some (T "STRING") else Some n) = Some (display_name n).
Proof.
  unfold display_name. change (T "ASCIISTRING82") with txt_ASCIISTRING82. change (T "STRING") with txt_STRING.
  rewrite text_eqb_same. destruct (Project.text_eqb n txt_ASCIISTRING82); reflexivity.
Qed.

(* the template name and the member names (followed by empty names from the padding) *)
Theorem names_of_data ab t stype area :
  names_ok t -> names_area_ok t area -> Z.land stype 4095 = t_id t ->
  exists extras,
    template_and_member_names (template_records ab t ++ area) (length (t_members t) * 8) stype
    = (Some (display_name (t_name t)), map m_name (t_members t) ++ extras).
Proof.
  intros Hok Harea Hid.
  destruct (split_area t area Hok Harea) as (extras & Esplit & Hex). exists extras.
  destruct Hok as (_ & Hn59 & Htail & Hms).
  assert (Hnosemi : Forall (fun n => contains_chr 59 n = false) (map m_name (t_members t) ++ extras)).
  { apply Forall_app. split.
    - rewrite Forall_map. eapply Forall_impl; [|exact Hms]. intros m H. apply H.
    - eapply Forall_impl; [|exact Hex]. intros a ->. reflexivity. }
  unfold template_and_member_names, split_nul, predefined.
  rewrite template_records_eq, <- (records_length ab (t_members t)), skipn_app_exact, Esplit, Hid.
  fold (predefined_id (t_id t)). cbn [names_loop]. unfold head_name.
  destruct (t_tail t) as [tail|].
  - (* "Name;tail" *)
    rewrite contains_chr_app. cbn [contains_chr existsb]. unfold SEMI. rewrite Z.eqb_refl, orb_true_r.
    rewrite names_loop_plain, before_semi_app, andb_false_r by (exact Hn59 || discriminate).
    cbn [rev app]. rewrite display_name_eq. reflexivity.
  - (* the predefined form "Name": the first of the member names is the template name *)
    rewrite app_nil_r, Hn59, names_loop_plain, Htail by (intros _; exact Hnosemi).
    cbn [rev app andb]. rewrite display_name_eq. reflexivity.
Qed.

Lemma member_loop_extras pre : forall names infos st extras,
  length names = length infos -> member_loop pre st (names ++ extras) infos = member_loop pre st names infos.
Proof.
  induction names as [|n names IH]; intros [|i infos] st extras H; try discriminate.
  - destruct extras; reflexivity.
  - cbn [app member_loop]. apply IH. cbn in H. lia.
Qed.

Lemma all_some_length {A B} (f : A -> option B) : forall l r, all_some (map f l) = Some r -> length r = length l.
Proof. intros l r H. rewrite (TargetLogixP.all_some_length _ _ H). apply map_length. Qed.

Section Parse.
  Variable St : Type.
  Variable gdt : ustate -> St -> Z -> Z -> St * ustate * outcome datatype.
  Variable I : ustate -> St -> Prop.
  Variable Good : Z -> datatype -> Prop.       (* what a definition returned for template id must satisfy *)
  (* how the driver state evolves: [Step] (reflexive, transitive), and what a call establishes
     about the requested id, stable under further steps: [Post] *)
  Variable Step : ustate -> ustate -> Prop.
  Variable Post : Z -> ustate -> Prop.
  Hypothesis Step_refl : forall u, Step u u.
  Hypothesis Step_trans : forall a b c, Step a b -> Step b c -> Step a c.
  Hypothesis Post_step : forall tid u u', Post tid u -> Step u u' -> Post tid u'.

  (* the contract of the recursive _get_data_type on the structure types of these members *)
  Definition gdt_contract (ms : list Project.member) : Prop :=
    forall u s tid w m, I u s -> In m ms -> m_ty m = BStruct tid -> Z.land w 4095 = tid ->
      exists s' u' d, gdt u s tid w = (s', u', Done d) /\ Good tid d /\ I u' s' /\ Step u u' /\ Post tid u'.

  (* the entry built for member m: [exp_member] over good nested definitions *)
  Definition info_good (m : Project.member) (info : LogixUpload.member) : Prop :=
    exists nested, exp_member nested m = Some info
                   /\ forall tid, m_ty m = BStruct tid -> exists d, nested tid = Some d /\ Good tid d.

  Theorem member_info_decode ab m ms u s :
    gdt_contract ms -> In m ms -> member_fields_ok m -> I u s ->
    exists s' u' info,
      parse_member_info St gdt u s (member_rec ab m) = (s', u', Done info)
      /\ info_good m info /\ I u' s' /\ Step u u' /\ (forall tid, m_ty m = BStruct tid -> Post tid u').
  Proof.
    intros Hg Hin Hm HI.
    unfold parse_member_info. rewrite (member_record_rec ab m Hm).
    destruct Hm as (Hi & Ho & Hty). unfold info_good, exp_member, member_type_word, member_info_word, is_bool_member.
    set (a := if ab && negb (m_arr m =? 0) then 8192 else 0).
    assert (Ha : a = 0 \/ a = 8192) by (subst a; destruct (ab && negb (m_arr m =? 0)); auto).
    destruct (m_ty m) as [c|tid|w] eqn:Ety; [| |contradiction].
    - (* elementary: the code itself, or the array-flagged word whose low 12 bits are the code *)
      destruct Hty as [Hc Hb].
      destruct (atom_facts c Hc) as (n & En & E1 & E2 & E3 & E4 & E5 & _).
      pose proof (atoms_range c Hc) as Hr.
      destruct (member_word_bits c a 0 (c + a)) as [Elow Ebit]; [ring | lia | exact Ha | lia |].
      destruct Ha as [-> | ->].
      1: rewrite Z.add_0_r, E1, E2.                                 (* DataTypes.get(code) *)
      2: rewrite E3, Ebit, Elow, E4; cbn [Z.eqb]; cbv beta iota.    (* not a code: get_type(word & 0xFFF) *)
      (* either way the entry of the elementary type named n *)
      all: rewrite E5; exists s, u; eexists; split; [reflexivity|]; split; [|split; [exact HI | split; [apply Step_refl | discriminate]]].
      all: exists (fun _ => None); rewrite En; split; [destruct (c =? C_BOOL); reflexivity | discriminate].
    - (* a structure: above every code, bit 15 set, the template id in the low 12 bits *)
      destruct (member_word_bits tid a 1 (32768 + tid + a)) as [Elow Ebit]; [ring | exact Hty | exact Ha | lia |].
      rewrite datatypes_get_code_big, Ebit, Elow by lia. cbv iota.
      destruct (Hg u s tid (32768 + tid + a) m HI Hin Ety Elow) as (s' & u' & d & Eg & Hgood & HI' & Hstep & Hpost).
      rewrite Eg.
      exists s', u'. eexists. split; [reflexivity|].
      split; [|split; [exact HI' | split; [exact Hstep | intros tid' H; injection H as <-; exact Hpost]]].
      exists (fun _ => Some d). split; [reflexivity|]. intros tid' H. injection H as <-. eauto.
  Qed.

  (* every member, in order *)
  Theorem member_infos_decode ab : forall ms all u s,
    gdt_contract all -> incl ms all -> Forall member_fields_ok ms -> I u s ->
    exists s' u' infos,
      parse_member_infos St gdt u s (map (member_rec ab) ms) = (s', u', Done infos)
      /\ Forall2 info_good ms infos /\ I u' s' /\ Step u u'
      /\ (forall m tid, In m ms -> m_ty m = BStruct tid -> Post tid u').
  Proof.
    induction ms as [|m ms IH]; intros all u s Hg Hincl Hok HI.
    - exists s, u, []. repeat split; auto. intros ? ? [].
    - inversion Hok as [|? ? Hm Hms]; subst.
      destruct (member_info_decode ab m all u s Hg (Hincl m (or_introl eq_refl)) Hm HI) as (s1 & u1 & info & E1 & En1 & HI1 & S1 & P1).
      destruct (IH all u1 s1 Hg (fun x Hx => Hincl x (or_intror Hx)) Hms HI1) as (s2 & u2 & infos & E2 & En2 & HI2 & S2 & P2).
      exists s2, u2, (info :: infos). cbn [map parse_member_infos].
      rewrite E1, E2. repeat split; eauto.
      intros m' tid [<- | Hin] Ht; [eapply Post_step; [apply P1; exact Ht | exact S2] | eapply P2; eassumption].
  Qed.

  Theorem parse_template_blob ab t stype u s area :
    gdt_contract (t_members t) ->
    Forall member_fields_ok (t_members t) -> names_ok t -> names_area_ok t area -> Z.land stype 4095 = t_id t ->
    I u s ->
    exists s' u' infos,
      parse_template_data St gdt u s (template_records ab t ++ area) (template_attrs_of t) stype
      = (s', u', Done (exp_datatype infos t))
      /\ Forall2 info_good (t_members t) infos /\ I u' s' /\ Step u u'
      /\ (forall m tid, In m (t_members t) -> m_ty m = BStruct tid -> Post tid u').
  Proof.
    intros Hg Hok Hnames Harea Hid HI.
    destruct (member_infos_decode ab (t_members t) (t_members t) u s Hg (incl_refl _) Hok HI)
      as (s' & u' & infos & E & En & HI' & HS & HP).
    destruct (names_of_data ab t stype area Hnames Harea Hid) as (extras & Enames).
    exists s', u', infos. split; [|auto].
    unfold parse_template_data. cbn [ta_count template_attrs_of]. unfold template_member_count. rewrite Nat2Z.id, Enames.
    rewrite template_records_eq, <- (records_length ab (t_members t)), firstn_app_exact, info_chunks_records, E.
    unfold exp_datatype, predefined. rewrite Hid. fold (predefined_id (t_id t)).
    rewrite member_loop_extras by (rewrite map_length; eapply Forall2_length; exact En).
    reflexivity.
  Qed.
End Parse.

Lemma core_length ab t :
  Z.of_nat (length (template_records ab t ++ template_names t)) = template_core_len t.
Proof.
  rewrite app_length, template_records_eq, records_length. unfold template_core_len, template_member_count. lia.
Qed.

(* the bytes _read_template ends up with (it asks for definition_size * 4 - 21 bytes in total; the
   target serves what exists of them): the records and a well-shaped name area *)
Theorem served_shape ab t :
  template_core_len t <= template_defsize t * 4 - 20 ->
  exists area,
    firstn (Z.to_nat (Z.min (template_defsize t * 4 - 21) (Z.of_nat (length (template_blob ab t))))) (template_blob ab t)
    = template_records ab t ++ area
    /\ names_area_ok t area.
Proof.
  intros Hcore. unfold template_blob. cbv zeta.
  pose proof (core_length ab t) as Hlen.
  set (core := template_records ab t ++ template_names t) in *.
  set (want := template_defsize t * 4 - 21) in *.
  destruct (Z.leb_spec (template_core_len t) want) as [Hle | Hgt].
  - (* padded up to what is asked for *)
    exists (template_names t ++ zeros (Z.to_nat want - length core)).
    split; [|left; eauto].
    rewrite firstn_all2.
    + subst core. rewrite <- app_assoc. reflexivity.
    + rewrite app_length, zeros_length. lia.
  - (* one byte longer than what is asked for: the final NUL is not read *)
    destruct (template_names_snoc t) as (X & EX).
    exists X. split; [|right; symmetry; exact EX].
    replace (Z.to_nat want - length core)%nat with O by lia. cbn [zeros]. rewrite app_nil_r.
    subst core. rewrite EX, app_assoc in Hlen |- *. apply firstn_app_length.
    rewrite (app_length _ [0]) in *. cbn [length] in *. lia.
Qed.
