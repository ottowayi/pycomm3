(* Proofs/ResultsW.v — C03, writes: the fan-out of read-modify-write results, the structure of write plans
   (request ids of RMW packets, group tags), the results dict after _send_requests + fan-out, and
   write() as a MAP over its (request, value) pairs against independent peers. *)
From PV Require Import Base.Bytes Base.ListLemmas Base.Proto Base.Res Base.PyStr Base.PyStrLemmas Gen.LogixParseGen.
From PV Require Import Model.LogixParse Model.LogixPlan Model.Path Model.LogixResults Proofs.PlanP Proofs.LogixParseP Proofs.ResultsP.
From Coq Require Import Permutation ZifyBool.
Open Scope Z_scope.

Lemma rlookup_app_map i t ids rs :
  rlookup i (map (fun j => (j, t)) ids ++ rs) = if in_dec Z.eq_dec i ids then Some t else rlookup i rs.
Proof.
  induction ids as [|j ids IH]; [reflexivity|]. cbn [map app rlookup].
  destruct (j =? i) eqn:E.
  - assert (j = i) by lia. subst. destruct (in_dec Z.eq_dec i (i :: ids)) as [_|n]; [reflexivity|]. exfalso. apply n. now left.
  - rewrite IH. destruct (in_dec Z.eq_dec i ids) as [a|n]; destruct (in_dec Z.eq_dec i (j :: ids)) as [a'|n']; try reflexivity.
    + exfalso. apply n'. now right.
    + exfalso. destruct a' as [->|a']; [lia | contradiction].
Qed.

Lemma rlookup_rremove i k rs : rlookup i (rremove k rs) = if i =? k then None else rlookup i rs.
Proof.
  induction rs as [|[j v] rs IH]; cbn [rremove filter rlookup fst]; [now destruct (i =? k)|].
  destruct (j =? k) eqn:E; cbn [negb].
  - fold (rremove k rs). rewrite IH. destruct (i =? k) eqn:E2; [reflexivity|]. destruct (j =? i) eqn:E3; [lia | reflexivity].
  - cbn [rlookup]. fold (rremove k rs). rewrite IH. destruct (j =? i) eqn:E3; [|reflexivity].
    destruct (i =? k) eqn:E2; [lia | reflexivity].
Qed.

Definition rids_of (ps : list packet) : list Z :=
  flat_map (fun pk => match pk with PRmw rid _ => [rid] | _ => [] end) ps.
Definition rmw_members (ps : list packet) : list Z :=
  flat_map (fun pk => match pk with PRmw _ ids => ids | _ => [] end) ps.

Lemma rids_of_In ps rid ids : In (PRmw rid ids) ps -> In rid (rids_of ps).
Proof. intros H. unfold rids_of. apply in_flat_map. exists (PRmw rid ids). split; [exact H | now left]. Qed.
Lemma rids_of_inv ps rid : In rid (rids_of ps) -> exists ids, In (PRmw rid ids) ps.
Proof.
  unfold rids_of. intros H. apply in_flat_map in H. destruct H as [pk [Hpk Hr]].
  destruct pk; try contradiction. destruct Hr as [<-|[]]. eauto.
Qed.
Lemma rmw_members_In ps rid ids i : In (PRmw rid ids) ps -> In i ids -> In i (rmw_members ps).
Proof. intros H Hi. unfold rmw_members. apply in_flat_map. exists (PRmw rid ids). split; [exact H | exact Hi]. Qed.
Lemma rmw_members_inv ps i : In i (rmw_members ps) -> exists rid ids, In (PRmw rid ids) ps /\ In i ids.
Proof.
  unfold rmw_members. intros H. apply in_flat_map in H. destruct H as [pk [Hpk Hi]].
  destruct pk; try contradiction. eauto.
Qed.

Lemma rmw_members_sub plan i : In i (rmw_members plan) -> In i (plan_ids plan).
Proof.
  intros H. apply rmw_members_inv in H. destruct H as [rid [ids [Hin Hi]]].
  unfold plan_ids. apply in_flat_map. exists (PRmw rid ids). split; [exact Hin | exact Hi].
Qed.

Lemma fan_out_lookup : forall ps rs,
  NoDup (rids_of ps) -> (forall rid, In rid (rids_of ps) -> rid < 0) ->
  NoDup (plan_ids ps) -> (forall i, In i (plan_ids ps) -> 0 <= i) ->
  (forall rid, In rid (rids_of ps) -> rlookup rid rs <> None) ->
  exists rs', fold_left fan_out_one ps (Ok rs) = Ok rs'
    /\ (forall rid ids i, In (PRmw rid ids) ps -> In i ids -> rlookup i rs' = rlookup rid rs)
    /\ (forall i, 0 <= i -> ~ In i (rmw_members ps) -> rlookup i rs' = rlookup i rs).
Proof.
  induction ps as [|pk ps IH]; intros rs ND NEG NDP POS PRES.
  - exists rs. split; [reflexivity|]. split; [intros ? ? ? []|]. auto.
  - unfold plan_ids in NDP, POS. cbn [flat_map] in NDP, POS. fold (plan_ids ps) in NDP, POS.
    destruct (NoDup_app_inv _ _ NDP) as [_ [NDP' DISJ]].
    assert (POS' : forall i, In i (plan_ids ps) -> 0 <= i) by (intros i Hi; apply POS, in_or_app; now right).
    cbn [fold_left]. destruct pk as [ids|j|j|rid ids].
    (* a packet that is not a read-modify-write leaves the dict as it is and has neither request id nor members *)
    1-3: (cbn [fan_out_one bind]; cbn [rids_of rmw_members flat_map app] in *;
          destruct (IH rs ND NEG NDP' POS' PRES) as [rs' [E [A B]]]; exists rs'; split; [exact E|]; split;
          [intros rid0 ids0 i [H|H]; [discriminate | eauto] | exact B]).
    cbn [rids_of rmw_members flat_map app packet_ids] in *. fold (rids_of ps) in *. fold (rmw_members ps) in *.
    inversion ND as [|? ? Hnr ND']; subst.
    assert (Hrid : rid < 0) by (apply NEG; now left).
    assert (Hids : forall i, In i ids -> 0 <= i) by (intros i Hi; apply POS, in_or_app; now left).
    cbn [fan_out_one bind].
    destruct (rlookup rid rs) as [t|] eqn:ET; [|exfalso; eapply PRES; [now left | exact ET]].
    (* the dict after this packet's result has been handed to its members: request ids of read-modify-write
       packets are negative and member ids are not, so the key removed and the keys added never collide *)
    set (rs1 := map (fun i => (i, t)) ids ++ rremove rid rs).
    assert (Hit : forall x, In x ids -> rlookup x rs1 = Some t).
    { intros x Hx. unfold rs1. rewrite rlookup_app_map. destruct (in_dec Z.eq_dec x ids); [reflexivity | contradiction]. }
    assert (Keep : forall x, ~ In x ids -> x <> rid -> rlookup x rs1 = rlookup x rs).
    { intros x Hx Hr. unfold rs1. rewrite rlookup_app_map, rlookup_rremove.
      destruct (in_dec Z.eq_dec x ids); [contradiction|]. destruct (x =? rid) eqn:E; [lia | reflexivity]. }
    assert (Other : forall r, In r (rids_of ps) -> rlookup r rs1 = rlookup r rs).
    { intros r Hr. apply Keep; [|intros ->; contradiction].
      intros Hi. assert (r < 0) by (apply NEG; now right). specialize (Hids r Hi). lia. }
    destruct (IH rs1 ND') as [rs' [E [A B]]]; try assumption.
    + intros r Hr. apply NEG. now right.
    + intros r Hr. rewrite (Other r Hr). apply PRES. now right.
    + exists rs'. split; [exact E|]. split.
      * intros rid0 ids0 i [H|H] Hi.
        -- inversion H; subst rid0 ids0. rewrite B, (Hit i Hi); [now rewrite ET | now apply Hids|].
           intros Hm. exact (DISJ i Hi (rmw_members_sub ps i Hm)).
        -- rewrite (A rid0 ids0 i H Hi). eapply Other, rids_of_In, H.
      * intros i Hi Hn. rewrite B; [|exact Hi | intros Hm; apply Hn, in_or_app; now right].
        apply Keep; [intros Hx; apply Hn, in_or_app; now left | lia].
Qed.

Definition bw_entry_ok (ws : list wreq) (e : list Z * (Z * list Z)) : Prop :=
  snd (snd e) <> [] /\ forall i, In i (snd (snd e)) ->
    exists w, In w ws /\ w_id w = i /\ w_err w = false /\ w_bit w = true /\ w_tag w = fst e.
Definition bw_rids (bw : list (list Z * (Z * list Z))) : list Z := map (fun e => fst (snd e)) bw.
Definition rid_inv (bw : list (list Z * (Z * list Z))) : Prop :=
  NoDup (bw_rids bw) /\ Forall (fun r => - Z.of_nat (length bw) <= r <= -1) (bw_rids bw).

Lemma rmw_add_ok ws w n : forall bw, In w ws -> w_err w = false -> w_bit w = true ->
  Forall (bw_entry_ok ws) bw -> Forall (bw_entry_ok ws) (rmw_add (w_tag w) (w_id w) n bw).
Proof.
  intros bw Hw He Hb. induction bw as [|[t [rid ids]] bw IH]; intros H; cbn [rmw_add].
  - constructor; [|constructor]. split; cbn; [discriminate|]. intros i [<-|[]]. exists w. auto.
  - inversion H as [|? ? H1 H2]; subst. destruct (LogixPlan.zs_eqb t (w_tag w)) eqn:E.
    + constructor; [|exact H2]. destruct H1 as [A B]. cbn in *. split; [destruct ids; discriminate|].
      intros i Hi. apply in_app_or in Hi. destruct Hi as [Hi|[<-|[]]]; [auto|].
      (* LogixPlan.zs_eqb is the same fixpoint as Proto.zs_eqb *)
      exists w. apply (PyStrLemmas.zs_eqb_eq t (w_tag w)) in E. auto.
    + constructor; [exact H1 | apply IH, H2].
Qed.

Lemma rmw_add_rids tag id n : forall bw,
  (bw_rids (rmw_add tag id n bw) = bw_rids bw /\ length (rmw_add tag id n bw) = length bw)
  \/ (bw_rids (rmw_add tag id n bw) = bw_rids bw ++ [- (1 + n)] /\ length (rmw_add tag id n bw) = S (length bw)).
Proof.
  induction bw as [|[t [rid ids]] bw IH]; cbn [rmw_add].
  - right. split; reflexivity.
  - destruct (LogixPlan.zs_eqb t tag).
    + left. split; reflexivity.
    + destruct IH as [[A B]|[A B]]; [left | right]; cbn [bw_rids map length] in *; unfold bw_rids in A; rewrite A, B; split; reflexivity.
Qed.

Lemma rid_inv_add tag id bw : rid_inv bw -> rid_inv (rmw_add tag id (Z.of_nat (length bw)) bw).
Proof.
  intros [ND FA]. destruct (rmw_add_rids tag id (Z.of_nat (length bw)) bw) as [[A B]|[A B]]; unfold rid_inv; rewrite A, B.
  - split; assumption.
  - split.
    + apply NoDup_snoc; [exact ND|]. intros Hx. rewrite Forall_forall in FA. specialize (FA _ Hx). lia.
    + apply Forall_app. split.
      * eapply Forall_impl; [|exact FA]. intros r Hr. cbn beta in *. lia.
      * constructor; [lia | constructor].
Qed.

Lemma write_scan_bw conn ws : forall reqs bw frags wr,
  (forall w, In w reqs -> In w ws) -> Forall (bw_entry_ok ws) bw -> rid_inv bw ->
  let '(bw', _, _) := write_scan conn reqs bw frags wr in Forall (bw_entry_ok ws) bw' /\ rid_inv bw'.
Proof.
  induction reqs as [|w reqs IH]; intros bw frags wr Hin Hok Hrid; cbn [write_scan]; [split; assumption|].
  assert (Hin' : forall w0, In w0 reqs -> In w0 ws) by (intros w0 H0; apply Hin; now right).
  destruct (w_err w) eqn:Ee; [apply IH; assumption|].
  destruct (w_bit w) eqn:Eb.
  - apply IH; [exact Hin' | apply rmw_add_ok; auto; apply Hin; now left | apply rid_inv_add, Hrid].
  - destruct (w_enc_err w); [apply IH; assumption|].
    destruct (w_fragm conn w); apply IH; assumption.
Qed.

Definition rmw_facts (ws : list wreq) (plan : list packet) : Prop :=
  forall rid ids, In (PRmw rid ids) plan -> rid < 0 /\ exists t, bw_entry_ok ws (t, (rid, ids)).

Lemma multi_plan_rmw conn ws :
  rmw_facts ws (write_build_multi conn ws) /\ NoDup (rids_of (write_build_multi conn ws)).
Proof.
  unfold write_build_multi.
  pose proof (write_scan_bw conn ws ws [] [] [] (fun w H => H) (Forall_nil _)) as H.
  assert (R0 : rid_inv []) by (split; constructor). specialize (H R0).
  destruct (write_scan conn ws [] [] []) as [[bw frags] wr]. destruct H as [Hok [ND FA]].
  assert (RID : forall A B (l : list (list Z * (Z * list Z))),
            rids_of (map PMulti A ++ map PFrag B ++ map (fun e => PRmw (fst (snd e)) (snd (snd e))) l) = bw_rids l).
  { induction A as [|a A IHA]; [|exact IHA]. induction B as [|b B IHB]; [|exact IHB].
    induction l as [|e l IHl]; [reflexivity|]. cbn [map app bw_rids]. unfold rids_of. cbn [flat_map app]. f_equal. exact IHl. }
  split; [|rewrite RID; exact ND].
  intros rid ids Hin. rewrite !in_app_iff, !in_map_iff in Hin.
  destruct Hin as [[g [Hg _]]|[[g [Hg _]]|[[t [rid' ids']] [He Hin]]]]; try discriminate.
  cbn in He. inversion He; subst rid' ids'.
  rewrite Forall_forall in Hok, FA. split; [|exists t; exact (Hok _ Hin)].
  assert (In rid (bw_rids bw)) by (unfold bw_rids; apply in_map_iff; exists (t, (rid, ids)); auto).
  specialize (FA _ H). lia.
Qed.

Definition single_packet (conn : Z) (w : wreq) : packet :=
  if w_bit w then PRmw (- (1 + w_id w)) [w_id w]
  else if w_val w + w_msg w >? conn then PFrag (w_id w) else PSingle (w_id w).

Lemma single_plan_eq conn : forall ws, filter_map (write_build_single conn) ws = map (single_packet conn) (wvalid ws).
Proof.
  unfold wvalid. induction ws as [|w ws IH]; [reflexivity|]. cbn [filter_map filter].
  unfold write_build_single at 1.
  destruct (w_err w); [exact IH|]. destruct (w_bit w) eqn:Eb; cbn [negb andb orb map].
  - rewrite IH. unfold single_packet. now rewrite Eb.
  - destruct (w_enc_err w); cbn [negb map]; [exact IH|]. rewrite IH. unfold single_packet. now rewrite Eb.
Qed.

Lemma single_plan_ids conn ws : plan_ids (filter_map (write_build_single conn) ws) = map w_id (wvalid ws).
Proof.
  rewrite single_plan_eq. unfold plan_ids. induction (wvalid ws) as [|w l IH]; [reflexivity|]. cbn [map flat_map]. rewrite IH.
  unfold single_packet. now destruct (w_bit w); [|destruct (_ >? _)].
Qed.

Lemma single_packet_rmw conn w rid ids : single_packet conn w = PRmw rid ids ->
  w_bit w = true /\ rid = - (1 + w_id w) /\ ids = [w_id w].
Proof. unfold single_packet. destruct (w_bit w); [intros [= <- <-]; auto | destruct (_ >? _); discriminate]. Qed.

Lemma single_plan_rmw conn ws : (forall w, In w ws -> 0 <= w_id w) -> rmw_facts ws (filter_map (write_build_single conn) ws).
Proof.
  intros POS rid ids Hin. rewrite single_plan_eq in Hin. apply in_map_iff in Hin. destruct Hin as [w [E Hw]].
  apply single_packet_rmw in E. destruct E as [Hb [-> ->]]. apply filter_In in Hw. destruct Hw as [Hw Hv].
  split; [specialize (POS w Hw); lia|]. exists (w_tag w). split; [discriminate|].
  intros i [<-|[]]. exists w. destruct (w_err w); [discriminate | auto].
Qed.

Lemma single_plan_rids conn : forall l, rids_of (map (single_packet conn) l) = map (fun w => - (1 + w_id w)) (filter w_bit l).
Proof.
  unfold rids_of. induction l as [|w l IH]; [reflexivity|]. cbn [map flat_map filter]. unfold single_packet at 1.
  destruct (w_bit w); [cbn [app map]; now rewrite IH | destruct (_ >? _); exact IH].
Qed.

Lemma single_plan_rids_NoDup conn ws : NoDup (map w_id ws) -> NoDup (rids_of (filter_map (write_build_single conn) ws)).
Proof.
  intros ND. rewrite single_plan_eq, single_plan_rids, <- (map_map w_id (fun i => - (1 + i))).
  apply FinFun.Injective_map_NoDup; [intros x y; lia|]. unfold wvalid. now do 2 apply NoDup_map_filter.
Qed.

Lemma map_eq_length {A B} (h : A -> B) l l' : map h l = l' -> length l' = length l.
Proof. intros <-. apply map_length. Qed.

Lemma combine_map_self {A B} (h : A -> B) : forall l, combine l (map h l) = map (fun x => (x, h x)) l.
Proof. induction l as [|a l IH]; cbn; [reflexivity | now rewrite IH]. Qed.

Lemma rlookup_some_of_key i : forall rs, In i (map fst rs) -> rlookup i rs <> None.
Proof.
  induction rs as [|[k v] rs IH]; cbn; intros H; [contradiction|].
  destruct (k =? i) eqn:E; [discriminate|]. destruct H as [H|H]; [lia | auto].
Qed.

Definition is_rid (rid : Z) (pk : packet) : bool := match pk with PRmw r _ => r =? rid | _ => false end.
Lemma find_rid plan rid ids : NoDup (rids_of plan) -> In (PRmw rid ids) plan ->
  List.find (is_rid rid) plan = Some (PRmw rid ids).
Proof.
  induction plan as [|pk plan IH]; intros ND H; [contradiction|]. cbn [List.find].
  destruct H as [->|H].
  - cbn [is_rid]. now rewrite Z.eqb_refl.
  - destruct pk as [l|j|j|r l]; cbn [is_rid]; try (apply IH; [exact ND | exact H]).
    unfold rids_of in ND. cbn [flat_map app] in ND. inversion ND as [|? ? Hn ND']; subst.
    destruct (r =? rid) eqn:E; [|apply IH; assumption].
    exfalso. apply Hn. assert (r = rid) by lia. subst. eapply rids_of_In, H.
Qed.

Fixpoint qvs_from (db : tagdb) (i : Z) (tvs : list (request * uval)) : list (preq * uval) :=
  match tvs with
  | [] => []
  | tv :: r => (mkPreq i (fst tv) (parse_request_obj db RwWrite (fst tv)), snd tv) :: qvs_from db (i + 1) r
  end.

Definition dflt_tv : request * uval := (ReqOther TypeError, mkUval 0 true false None).

Lemma qvs_from_eq db : forall tvs i,
  combine (parse_requested_from db RwWrite i (map fst tvs)) (map snd tvs) = qvs_from db i tvs.
Proof. induction tvs as [|tv tvs IH]; intros i; cbn; [reflexivity | now rewrite IH]. Qed.

Lemma qvs_from_fst db : forall tvs i, map fst (qvs_from db i tvs) = parse_requested_from db RwWrite i (map fst tvs).
Proof. induction tvs as [|tv tvs IH]; intros i; cbn; [reflexivity | now rewrite IH]. Qed.

Lemma qvs_from_length db : forall tvs i, length (qvs_from db i tvs) = length tvs.
Proof. induction tvs as [|tv tvs IH]; intros i; cbn; [reflexivity | now rewrite IH]. Qed.

Lemma qvs_from_nth db : forall tvs i k d, (k < length tvs)%nat ->
  nth k (qvs_from db i tvs) d
  = (mkPreq (i + Z.of_nat k) (fst (nth k tvs dflt_tv)) (parse_request_obj db RwWrite (fst (nth k tvs dflt_tv))),
     snd (nth k tvs dflt_tv)).
Proof.
  induction tvs as [|tv tvs IH]; intros i k d Hk; cbn [length] in Hk; [lia|].
  destruct k as [|k]; cbn [qvs_from nth].
  - do 2 f_equal. lia.
  - rewrite IH by lia. do 2 f_equal. lia.
Qed.

Lemma qvs_from_ids db : forall tvs i, map (fun qv => q_id (fst qv)) (qvs_from db i tvs) = zseq i (length tvs).
Proof. induction tvs as [|tv tvs IH]; intros i; cbn; [reflexivity | now rewrite IH]. Qed.

Lemma qvs_map_nth {B} db (F : preq * uval -> B) tvs k d : (k < length tvs)%nat ->
  let tv := nth k tvs dflt_tv in
  nth k (map F (qvs_from db 0 tvs)) d = F (mkPreq (Z.of_nat k) (fst tv) (parse_request_obj db RwWrite (fst tv)), snd tv).
Proof.
  intros H. cbn zeta. rewrite (nth_map_lt F _ k d (dflt_q, snd dflt_tv)) by now rewrite qvs_from_length.
  now rewrite qvs_from_nth.
Qed.

Lemma qvs_from_map {B} db (G : request * uval -> parsed + perr -> B) : forall tvs i,
  map (fun qv => G (q_request (fst qv), snd qv) (q_parsed (fst qv))) (qvs_from db i tvs)
  = map (fun tv => G tv (parse_request_obj db RwWrite (fst tv))) tvs.
Proof. induction tvs as [|[rq v] tvs IH]; intros i; cbn; [reflexivity | now rewrite IH]. Qed.

Lemma rmw_build_rejects c p :
  (rmw_mask_size (tag_info p) = None -> exists e, rmw_build c p = Err e)
  /\ (forall z, rmw_mask_size (tag_info p) = Some z -> is_dword_name (tag_info p) = false -> z * 8 <= or0 (bit p) ->
        exists e, rmw_build c p = Err e).
Proof.
  unfold rmw_build. split.
  - intros ->. destruct (tag_path c _ _); cbn; eauto.
  - intros z -> -> Hb. destruct (tag_path c _ _); cbn; [|eauto]. destruct (z =? 0); [eauto|].
    destruct ((0 <=? or0 (bit p)) && (or0 (bit p) <? z * 8)) eqn:E; [lia | eauto].
Qed.

Section W.
Variable enc_body : parsed -> uval -> option Z.

Lemma encode_value_fields p v n p' : encode_value enc_body p v = Some (n, p') ->
  user_tag p' = user_tag p /\ plc_tag p' = plc_tag p /\ bit p' = bit p /\ tag_info p' = tag_info p
  /\ bool_elements p' = bool_elements p.
Proof.
  unfold encode_value. destruct (uv_bytes v); [intros H; inversion H; subst; tauto|].
  destruct (is_dword_name (tag_info p)).
  - destruct (negb _); [discriminate|]. destruct (enc_body _ v); [|discriminate]. intros H; inversion H; subst. cbn. tauto.
  - destruct (enc_body p v); [|discriminate]. intros H; inversion H; subst. tauto.
Qed.

Lemma misaligned_bool_write p v : uv_bytes v = None -> is_dword_name (tag_info p) = true ->
  or0 (bit p) mod dword_bits <> 0 -> encode_value enc_body p v = None.
Proof.
  intros Hb Hd Hm. unfold encode_value. rewrite Hb, Hd.
  destruct (or0 (bit p) mod dword_bits =? 0) eqn:E; [lia | reflexivity].
Qed.

Definition wstate_of (c : cfg) (q : preq) (v : uval) : wstate := snd (mk_wreq enc_body c (q, v)).

Definition st_valid (st : wstate) : bool := match st with WBit => true | WVal _ => true | _ => false end.

Lemma wstate_of_eq c q v :
  wstate_of c q v =
  match q_parsed q with
  | inr _ => WParseErr
  | inl p =>
      if is_bit_write p then match rmw_build c p with Ok _ => WBit | Err e => WBuildErr e end
      else match encode_value enc_body p v with
           | None => WEncErr
           | Some (n, p') => match write_msg_len c p' n with Ok _ => WVal p' | Err e => WBuildErr e end
           end
  end.
Proof.
  unfold wstate_of, mk_wreq. destruct (q_parsed q) as [p|e]; [|reflexivity].
  destruct (is_bit_write p); [destruct (rmw_build c p); reflexivity|].
  destruct (encode_value enc_body p v) as [[n p']|]; [|reflexivity]. destruct (write_msg_len c p' n); reflexivity.
Qed.

Lemma mk_wreq_spec c q v : let w := fst (mk_wreq enc_body c (q, v)) in
  w_id w = q_id q
  /\ (negb (w_err w) && (w_bit w || negb (w_enc_err w))) = st_valid (wstate_of c q v)
  /\ (w_err w = false -> exists p, q_parsed q = inl p /\ w_tag w = plc_tag p /\ is_bit_write p = w_bit w).
Proof.
  unfold wstate_of, mk_wreq. destruct (q_parsed q) as [p|e]; [|cbn; repeat split; discriminate].
  destruct (is_bit_write p) eqn:EB.
  - destruct (rmw_build c p); cbn; repeat split; try discriminate; eauto.
  - destruct (encode_value enc_body p v) as [[n p']|]; [destruct (write_msg_len c p' n)|]; cbn; repeat split; try discriminate; eauto.
Qed.

Definition plan_of (c : cfg) (qvs : list (preq * uval)) : list packet :=
  write_build_requests (c_conn c) (c_micro800 c) (map fst (map (mk_wreq enc_body c) qvs)).

Lemma run_write_eq c db P tvs r : run_write enc_body c db P tvs = Ok r ->
  let qvs := qvs_from db 0 tvs in
  exists rs, fan_out (plan_of c qvs) (send_requests (plc_of (map fst qvs)) P (plan_of c qvs)) = Ok rs
    /\ r = shape (map (fun qv => assemble_write (uses_multi c (length tvs)) rs (qv, wstate_of c (fst qv) (snd qv))) qvs).
Proof.
  unfold run_write, parse_requested_tags, write_build, plan_of. cbn zeta.
  rewrite qvs_from_eq, qvs_from_fst.
  destruct (fan_out _ _) as [rs|e]; cbn [bind]; [|discriminate].
  intros [= <-]. exists rs. split; [reflexivity|]. f_equal.
  rewrite map_map, combine_map_self, map_map. apply map_ext. now intros [q v].
Qed.

Theorem write_result_shape c db P tvs r : run_write enc_body c db P tvs = Ok r ->
  length (results_of r) = length tvs
  /\ (length tvs = 1%nat -> exists t, r = ROne t)
  /\ (length tvs <> 1%nat -> exists l, r = RList l /\ length l = length tvs).
Proof.
  intros H. destruct (run_write_eq _ _ _ _ _ H) as [rs [_ ->]]. apply shape_spec. now rewrite map_length, qvs_from_length.
Qed.

Lemma assemble_write_name c multi rs q v :
  let t := assemble_write multi rs (q, v, wstate_of c q v) in
  (t_tag t = q_request q /\ truthy t = false)
  \/ (exists p, q_parsed q = inl p /\ t_tag t = ReqText (user_tag p)).
Proof.
  cbn zeta. unfold assemble_write. rewrite wstate_of_eq. destruct (q_parsed q) as [p|e] eqn:EP; [|left; split; reflexivity].
  destruct (is_bit_write p).
  - destruct (rmw_build c p); [|left; split; reflexivity].
    destruct (rlookup (q_id q) rs); [right; exists p; split; reflexivity | left; split; reflexivity].
  - destruct (encode_value enc_body p v) as [[n p']|] eqn:EE; [|left; split; reflexivity].
    destruct (write_msg_len c p' n); [|left; split; reflexivity].
    destruct (rlookup (q_id q) rs); [|left; split; reflexivity].
    right. exists p. split; [reflexivity|]. cbn. destruct (encode_value_fields _ _ _ _ EE) as [-> _]. reflexivity.
Qed.

Theorem write_result_names c db P tvs r : run_write enc_body c db P tvs = Ok r ->
  forall k, (k < length tvs)%nat ->
    let t := nth k (results_of r) (exc_tag (ReqOther TypeError) TypeError) in
    let rq := fst (nth k tvs dflt_tv) in
    (t_tag t = rq /\ truthy t = false)
    \/ (exists s, rq = ReqText s /\ t_tag t = ReqText (drop_count s)).
Proof.
  intros H k Hk. destruct (run_write_eq _ _ _ _ _ H) as [rs [_ ->]].
  rewrite results_of_shape, qvs_map_nth by exact Hk. cbn [fst snd]. cbn zeta.
  set (rq := fst (nth k tvs dflt_tv)). set (v := snd (nth k tvs dflt_tv)).
  set (q := mkPreq (Z.of_nat k) rq (parse_request_obj db RwWrite rq)).
  destruct (assemble_write_name c (uses_multi c (length tvs)) rs q v) as [A|[p [EP A]]]; [left; exact A|].
  right. cbn [q_parsed q] in EP. destruct rq as [s|x]; cbn [parse_request_obj] in EP; [|discriminate].
  exists s. split; [reflexivity|]. rewrite A. f_equal. apply (parse_ok_tags _ _ _ _ EP).
Qed.

(* the prefix assemble_write (Model/LogixResults.v) puts before the class name of a build failure; that the
   single planner words it "Invalid Tag Request - " is pycomm3's asymmetry *)
Definition build_prefix (multi : bool) : text := if multi then err_build else err_encoding_single.

Lemma enc_err_text_nonempty m : enc_err_text m <> [].
Proof. destruct m; discriminate. Qed.

Theorem write_invalid_falsy c db P tvs r : run_write enc_body c db P tvs = Ok r ->
  forall k, (k < length tvs)%nat ->
    let t := nth k (results_of r) (exc_tag (ReqOther TypeError) TypeError) in
    let rq := fst (nth k tvs dflt_tv) in
    let v := snd (nth k tvs dflt_tv) in
    let multi := uses_multi c (length tvs) in
    (forall e, parse_request_obj db RwWrite rq = inr e ->
       t = mkTag rq VNone None (Some (perr_text e)) /\ truthy t = false /\ perr_text e <> [])
    /\ (forall p, parse_request_obj db RwWrite rq = inl p -> is_bit_write p = false ->
          encode_value enc_body p v = None ->
          t = mkTag rq VNone None (Some (enc_err_text multi)) /\ truthy t = false /\ enc_err_text multi <> [])
    /\ (forall p e, parse_request_obj db RwWrite rq = inl p -> is_bit_write p = true -> rmw_build c p = Err e ->
          t = build_err_tag rq (build_prefix multi) e /\ truthy t = false)
    /\ (forall p n p' e, parse_request_obj db RwWrite rq = inl p -> is_bit_write p = false ->
          encode_value enc_body p v = Some (n, p') -> write_msg_len c p' n = Err e ->
          t = build_err_tag rq (build_prefix multi) e /\ truthy t = false).
Proof.
  intros H k Hk. destruct (run_write_eq _ _ _ _ _ H) as [rs [_ ->]].
  rewrite results_of_shape, qvs_map_nth by exact Hk. cbn [fst snd]. cbn zeta.
  unfold assemble_write. rewrite wstate_of_eq. cbn [q_parsed q_request q_id]. split; [|split; [|split]].
  - intros e ->. split; [reflexivity|]. split; [reflexivity | apply perr_text_nonempty].
  - intros p -> Hb ->. rewrite Hb. split; [reflexivity|]. split; [reflexivity | apply enc_err_text_nonempty].
  - intros p e -> Hb ->. rewrite Hb. split; reflexivity.
  - intros p n p' e -> Hb -> ->. rewrite Hb. split; reflexivity.
Qed.

Variable f : parsed -> uval -> reply.     (* the reply to a Write Tag service of (parsed after encode_value, value) *)
Variable g : text -> reply.               (* the reply to a read-modify-write of the tag with this plc name *)

Definition wreply (c : cfg) (qvs : list (preq * uval)) (i : Z) : reply :=
  match List.find (fun qv => q_id (fst qv) =? i) qvs with
  | Some (q, v) => match wstate_of c q v with
                   | WVal p' => f p' v
                   | WBit => match q_parsed q with inl p => g (plc_tag p) | inr _ => no_reply_ end
                   | _ => no_reply_
                   end
  | None => no_reply_
  end.
Definition rmw_reply (names : Z -> option text) (plan : list packet) (rid : Z) : reply :=
  match List.find (is_rid rid) plan with
  | Some (PRmw _ ids) => g (rmw_tag names ids)
  | _ => no_reply_
  end.
Definition wone (c : cfg) (qs : list preq) (qvs : list (preq * uval)) (plan : list packet) (i : Z) : reply :=
  if i <? 0 then rmw_reply (plc_of qs) plan i else wreply c qvs i.
Definition wpeer (c : cfg) (qs : list preq) (qvs : list (preq * uval)) (plan : list packet) : peer :=
  mkPeer (wone c qs qvs plan) (map (wone c qs qvs plan)) (fun _ => None).

(* the peer of a write() call: the plan of that call decides which packet carries which request *)
Definition wpeer_of (c : cfg) (db : tagdb) (tvs : list (request * uval)) : peer :=
  let qs := parse_requested_tags db RwWrite (map fst tvs) in
  let qvs := combine qs (map snd tvs) in
  wpeer c qs qvs (fst (write_build enc_body c qvs)).

Lemma wpeer_of_eq c db tvs :
  wpeer_of c db tvs = wpeer c (map fst (qvs_from db 0 tvs)) (qvs_from db 0 tvs) (plan_of c (qvs_from db 0 tvs)).
Proof. unfold wpeer_of, parse_requested_tags. now rewrite qvs_from_eq, qvs_from_fst. Qed.

Definition reply_error (r : reply) : option text := if rp_ok r then None else Some (rp_error r).
Lemma tag_of_reply_error n r : t_error (tag_of_reply n r) = reply_error r.
Proof. unfold tag_of_reply, reply_error. now destruct (rp_ok r). Qed.

(* what write() returns for ONE (request, value), as a function of that pair only (and of which
   planner ran, which decides the wording of an encoding error) *)
Definition write_outcome (c : cfg) (multi : bool) (tv : request * uval) (pr : parsed + perr) : tag :=
  match pr with
  | inr e => mkTag (fst tv) VNone None (Some (perr_text e))
  | inl p =>
      if is_bit_write p then
        match rmw_build c p with
        | Err e => build_err_tag (fst tv) (build_prefix multi) e
        | Ok _ => mkTag (ReqText (user_tag p)) (VUser (snd tv)) (Some (write_type p)) (reply_error (g (plc_tag p)))
        end
      else match encode_value enc_body p (snd tv) with
           | None => mkTag (fst tv) VNone None (Some (enc_err_text multi))
           | Some (n, p') =>
               match write_msg_len c p' n with
               | Err e => build_err_tag (fst tv) (build_prefix multi) e
               | Ok _ => mkTag (ReqText (user_tag p')) (VUser (snd tv)) (Some (write_type p')) (reply_error (f p' (snd tv)))
               end
           end
  end.

Section Plan.
  Variables (c : cfg) (qvs : list (preq * uval)).
  Let qs := map fst qvs.
  Let ws := map fst (map (mk_wreq enc_body c) qvs).
  Let plan := plan_of c qvs.
  Hypothesis NDq : NoDup (map q_id qs).
  Hypothesis POSq : forall q, In q qs -> 0 <= q_id q.

  Lemma ws_ids : map w_id ws = map q_id qs.
  Proof. unfold ws, qs. rewrite !map_map. apply map_ext. intros [q v]. apply mk_wreq_spec. Qed.

  Lemma NDw : NoDup (map w_id ws).
  Proof. rewrite ws_ids. exact NDq. Qed.

  Lemma wreq_of q v : In (q, v) qvs -> In (fst (mk_wreq enc_body c (q, v))) ws.
  Proof. intros H. unfold ws. rewrite map_map. now apply (in_map (fun qv => fst (mk_wreq enc_body c qv))). Qed.

  Lemma req_of w : In w ws -> exists q v, In (q, v) qvs /\ w = fst (mk_wreq enc_body c (q, v)).
  Proof. unfold ws. rewrite map_map. intros H. apply in_map_iff in H. destruct H as [[q v] [<- Hin]]. eauto. Qed.

  Lemma ws_nonneg w : In w ws -> 0 <= w_id w.
  Proof. intros H. apply (in_map w_id) in H. rewrite ws_ids in H. apply in_map_iff in H. destruct H as [q [<- Hq]]. now apply POSq. Qed.

  Lemma plan_facts : NoDup (plan_ids plan) /\ (forall i, In i (plan_ids plan) <-> In i (map w_id (wvalid ws)))
    /\ rmw_facts ws plan /\ NoDup (rids_of plan).
  Proof.
    assert (NDv : NoDup (map w_id (wvalid ws))) by (unfold wvalid; apply NoDup_map_filter, NDw).
    unfold plan, plan_of, write_build_requests. fold ws.
    destruct (negb (length ws =? 1)%nat && negb (c_micro800 c)).
    - pose proof (write_multi_partition (c_conn c) ws) as PP. destruct (multi_plan_rmw (c_conn c) ws) as [F1 F2].
      split; [eapply Permutation_NoDup; [apply Permutation_sym, PP | exact NDv]|].
      split; [split; apply Permutation_in; [exact PP | apply Permutation_sym, PP] | split; assumption].
    - rewrite single_plan_ids. split; [exact NDv|]. split; [tauto|].
      split; [apply single_plan_rmw, ws_nonneg | apply single_plan_rids_NoDup, NDw].
  Qed.

  Lemma plan_rmw : rmw_facts ws plan.
  Proof. apply plan_facts. Qed.

  Lemma plan_rids_NoDup : NoDup (rids_of plan).
  Proof. apply plan_facts. Qed.

  Lemma plan_valid i : In i (plan_ids plan) ->
    exists q v, In (q, v) qvs /\ q_id q = i /\ st_valid (wstate_of c q v) = true.
  Proof.
    intros H. apply plan_facts in H. apply in_map_iff in H. destruct H as [w [<- Hw]].
    apply filter_In in Hw. destruct Hw as [Hw Hv]. destruct (req_of w Hw) as [q [v [Hqv ->]]].
    destruct (mk_wreq_spec c q v) as [Hid [Hval _]]. exists q, v. now rewrite <- Hval.
  Qed.

  Lemma plan_ids_nonneg i : In i (plan_ids plan) -> 0 <= i.
  Proof. intros H. destruct (plan_valid i H) as [q [v [Hqv [<- _]]]]. apply POSq. now apply (in_map fst) in Hqv. Qed.

  Lemma plan_names_w i : In i (plan_ids plan) -> plc_of qs i = Some (name_of qs i).
  Proof.
    intros H. destruct (plan_valid i H) as [q [v [Hqv [<- Hv]]]].
    assert (Hq : In q qs) by now apply (in_map fst) in Hqv.
    unfold name_of, plc_of. rewrite (find_q_In qs q NDq Hq).
    rewrite wstate_of_eq in Hv. destruct (q_parsed q); [reflexivity | discriminate].
  Qed.

  Lemma rids_neg r : In r (rids_of plan) -> r < 0.
  Proof.
    intros H. destruct (rids_of_inv _ _ H) as [ids Hpk]. now destruct (plan_rmw _ _ Hpk).
  Qed.

  Lemma fan_out_ok P : let S := send_requests (plc_of qs) P plan in
    exists rs, fan_out plan S = Ok rs
    /\ (forall rid ids i, In (PRmw rid ids) plan -> In i ids -> rlookup i rs = rlookup rid S)
    /\ (forall i, 0 <= i -> ~ In i (rmw_members plan) -> rlookup i rs = rlookup i S).
  Proof.
    apply fan_out_lookup.
    - apply plan_rids_NoDup.
    - apply rids_neg.
    - apply plan_facts.
    - apply plan_ids_nonneg.
    - intros rid Hr. destruct (rids_of_inv _ _ Hr) as [ids Hpk]. apply rlookup_some_of_key.
      rewrite send_requests_eq, map_rev, <- in_rev.
      apply (in_map fst _ (rid, tag_of_reply (rmw_tag (plc_of qs) ids) (p_one P rid))), in_flat_map.
      exists (PRmw rid ids). split; [exact Hpk | now left].
  Qed.

  Let P := wpeer c qs qvs plan.
  Let S := send_requests (plc_of qs) P plan.

  Lemma S_rid rid ids : In (PRmw rid ids) plan ->
    rlookup rid S = Some (tag_of_reply (rmw_tag (plc_of qs) ids) (g (rmw_tag (plc_of qs) ids))).
  Proof.
    intros H. assert (Hneg : rid < 0) by (apply rids_neg; eapply rids_of_In, H).
    pose proof (find_rid plan rid ids plan_rids_NoDup H) as HF.
    assert (Hone : p_one P rid = g (rmw_tag (plc_of qs) ids)).
    { cbn [p_one P wpeer]. unfold wone. destruct (rid <? 0) eqn:E; [|lia]. unfold rmw_reply. now rewrite HF. }
    unfold S. rewrite send_requests_eq. apply rlookup_unique.
    - rewrite <- in_rev. apply in_flat_map. exists (PRmw rid ids). split; [exact H|]. cbn [packet_results]. left. do 2 f_equal. exact Hone.
    - (* no other packet binds rid: request ids are not negative, and rid belongs to this packet only *)
      intros t' H'. rewrite <- in_rev in H'. apply in_flat_map in H'. destruct H' as [pk' [Hpk' Hin]].
      destruct (is_rmw pk') eqn:ER'.
      + destruct pk' as [| | |rid' ids']; try discriminate. cbn [packet_results] in Hin. destruct Hin as [[= -> <-]|[]].
        rewrite (find_rid plan rid ids' plan_rids_NoDup Hpk') in HF. injection HF as ->. f_equal. exact Hone.
      + rewrite (packet_results_indep (plc_of qs) P (name_of qs) pk' (fun _ => eq_refl) ER') in Hin
          by (intros j Hj; apply plan_names_w, in_flat_map; eauto).
        apply in_map_iff in Hin. destruct Hin as [j [[= -> _] Hj]].
        assert (0 <= rid) by (apply plan_ids_nonneg, in_flat_map; eauto). lia.
  Qed.

  (* the group tag of a read-modify-write packet is the plc tag of each of its requests *)
  Lemma rmw_group_tag rid ids q v p : In (PRmw rid ids) plan -> In (q, v) qvs -> q_parsed q = inl p -> In (q_id q) ids ->
    rmw_tag (plc_of qs) ids = plc_tag p /\ is_bit_write p = true.
  Proof.
    intros Hpk Hqv EP Hin. destruct (plan_rmw _ _ Hpk) as [_ [t0 [Hne Hmem]]]. cbn [fst snd] in Hne, Hmem.
    (* this request *)
    destruct (mk_wreq_spec c q v) as [Hid [_ Htag]].
    destruct (Hmem _ Hin) as [w' [Hw' [Hid' [He' [Hb' Ht']]]]].
    assert (w' = fst (mk_wreq enc_body c (q, v)))
      by (eapply (NoDup_map_inj w_id); [apply NDw | exact Hw' | now apply wreq_of | congruence]). subst w'.
    destruct (Htag He') as [p1 [EP1 [Htag1 HB1]]]. rewrite EP in EP1. injection EP1 as <-.
    split; [|now rewrite HB1].
    (* the first request of the group *)
    destruct ids as [|i0 ids']; [congruence|]. cbn [rmw_tag].
    destruct (Hmem i0 (or_introl eq_refl)) as [w0 [Hw0 [Hid0 [He0 [_ Ht0]]]]].
    destruct (req_of w0 Hw0) as [q0 [v0 [Hqv0 ->]]].
    destruct (mk_wreq_spec c q0 v0) as [Hidq0 [_ Htag0]]. destruct (Htag0 He0) as [p0 [EP0 [Htp0 _]]].
    assert (Hq0 : In q0 qs) by now apply (in_map fst) in Hqv0.
    unfold plc_of. rewrite <- Hid0, Hidq0, (find_q_In qs q0 NDq Hq0), EP0. congruence.
  Qed.

  (* the result bound to a valid request after _send_requests and the fan-out: the reply of the
     service that carried it *)
  Lemma write_lookup rs q v p :
    fan_out plan S = Ok rs -> In (q, v) qvs -> q_parsed q = inl p -> st_valid (wstate_of c q v) = true ->
    exists t, rlookup (q_id q) rs = Some t
      /\ t_error t = reply_error (match wstate_of c q v with WVal p' => f p' v | _ => g (plc_tag p) end).
  Proof.
    intros HF Hqv EP Hv. destruct (fan_out_ok P) as [rs' [HF' [FA FB]]]. fold S in HF', FA, FB.
    rewrite HF in HF'. injection HF' as <-.
    assert (Hq : In q qs) by now apply (in_map fst) in Hqv.
    assert (Hin : In (q_id q) (plan_ids plan)).
    { apply plan_facts. destruct (mk_wreq_spec c q v) as [<- [Hval _]]. apply in_map, filter_In.
      split; [now apply wreq_of | now rewrite Hval]. }
    destruct (in_dec Z.eq_dec (q_id q) (rmw_members plan)) as [Hm|Hm].
    - (* merged into a read-modify-write: the reply to that packet, whose tag is this request's *)
      destruct (rmw_members_inv plan _ Hm) as [rid [ids [Hpk Hi]]].
      destruct (rmw_group_tag rid ids q v p Hpk Hqv EP Hi) as [HT HB].
      rewrite (FA rid ids (q_id q) Hpk Hi), (S_rid rid ids Hpk), HT.
      eexists. split; [reflexivity|]. rewrite tag_of_reply_error.
      rewrite wstate_of_eq, EP, HB in Hv |- *. now destruct (rmw_build c p).
    - (* its own service: the reply to its own id *)
      destruct (in_plan_packet plan _ Hin) as [pk [Hpk Hi]].
      assert (ER : is_rmw pk = false).
      { destruct pk as [| | |rid ids]; try reflexivity. destruct Hm. exact (rmw_members_In plan rid ids _ Hpk Hi). }
      assert (HS : rlookup (q_id q) S = Some (tag_of_reply (name_of qs (q_id q)) (p_one P (q_id q)))).
      { apply send_lookup; [intros ids; reflexivity | exact plan_names_w | | exists pk; auto].
        intros rid ids H E. assert (rid < 0) by (eapply rids_neg, rids_of_In, H). specialize (POSq q Hq). lia. }
      rewrite (FB (q_id q) (POSq q Hq) Hm), HS.
      eexists. split; [reflexivity|]. rewrite tag_of_reply_error. cbn [p_one P wpeer]. unfold wone, wreply.
      destruct (q_id q <? 0) eqn:E0; [specialize (POSq q Hq); lia|].
      pose proof (find_key (fun qv => q_id (fst qv)) qvs (q, v)) as Hf. rewrite <- (map_map fst q_id) in Hf.
      cbn [fst] in Hf. rewrite (Hf NDq Hqv), EP.
      now destruct (wstate_of c q v).
  Qed.
End Plan.

Lemma call_ids db tvs : let qs := map fst (qvs_from db 0 tvs) in
  NoDup (map q_id qs) /\ forall q, In q qs -> 0 <= q_id q.
Proof.
  cbn zeta. rewrite qvs_from_fst. fold (parse_requested_tags db RwWrite (map fst tvs)).
  split; [apply parse_requested_ids_NoDup | intros q; apply parse_requested_ids_nonneg].
Qed.

Theorem write_no_exception c db P tvs : exists r, run_write enc_body c db P tvs = Ok r.
Proof.
  destruct (call_ids db tvs) as [ND POS].
  destruct (fan_out_ok c (qvs_from db 0 tvs) ND POS P) as [rs [E _]].
  unfold run_write, parse_requested_tags, write_build. cbn zeta. rewrite qvs_from_eq.
  unfold plan_of in E. rewrite qvs_from_fst in E. rewrite E. cbn [bind]. eauto.
Qed.

Theorem write_results_map c db tvs r :
  run_write enc_body c db (wpeer_of c db tvs) tvs = Ok r ->
  results_of r = map (fun tv => write_outcome c (uses_multi c (length tvs)) tv (parse_request_obj db RwWrite (fst tv))) tvs.
Proof.
  intros H. destruct (run_write_eq _ _ _ _ _ H) as [rs [HF ->]]. rewrite results_of_shape, wpeer_of_eq in *.
  destruct (call_ids db tvs) as [ND POS].
  rewrite <- (qvs_from_map db (fun tv => write_outcome c (uses_multi c (length tvs)) tv) tvs 0).
  apply map_ext_in. intros [q v] Hin. unfold assemble_write, write_outcome. cbn [fst snd].
  destruct (q_parsed q) as [p|e] eqn:EP; [|reflexivity].
  pose proof (write_lookup c _ ND POS rs q v p HF Hin EP) as WL. rewrite wstate_of_eq, EP in WL |- *.
  destruct (is_bit_write p).
  - destruct (rmw_build c p) as [[]|x]; [|reflexivity]. destruct (WL eq_refl) as [t [-> ->]]. reflexivity.
  - destruct (encode_value enc_body p v) as [[n p']|]; [|reflexivity].
    destruct (write_msg_len c p' n) as [m|x]; [|reflexivity]. destruct (WL eq_refl) as [t [-> ->]]. reflexivity.
Qed.

(* two Tags that differ at most in the wording of an error raised before anything is sent (the two
   planners word encoding / build failures differently) *)
Definition same_outcome (a b : tag) : Prop :=
  t_tag a = t_tag b /\ t_value a = t_value b /\ t_type a = t_type b /\ truthy a = truthy b
  /\ (t_error a = t_error b
      \/ (t_value a = VNone /\ exists x y, t_error a = Some x /\ t_error b = Some y /\ x <> [] /\ y <> [])).


Lemma write_outcome_planner c m1 m2 tv pr :
  same_outcome (write_outcome c m1 tv pr) (write_outcome c m2 tv pr).
Proof.
  assert (Same : forall t, same_outcome t t) by (intros t; repeat (split; [reflexivity|]); now left).
  assert (Err : forall rq x y, x <> [] -> y <> [] -> same_outcome (mkTag rq VNone None (Some x)) (mkTag rq VNone None (Some y))).
  { intros rq x y Hx Hy. repeat (split; [reflexivity|]). right. split; [reflexivity|]. exists x, y. auto. }
  unfold write_outcome. destruct pr as [p|e]; [|apply Same].
  destruct (is_bit_write p).
  - destruct (rmw_build c p); [apply Same | apply Err; apply build_text_nonempty].
  - destruct (encode_value enc_body p (snd tv)) as [[n p']|]; [|apply Err; apply enc_err_text_nonempty].
    destruct (write_msg_len c p' n); [apply Same | apply Err; apply build_text_nonempty].
Qed.

Corollary write_isolation c db tvs k r r1 :
  (k < length tvs)%nat ->
  run_write enc_body c db (wpeer_of c db tvs) tvs = Ok r ->
  run_write enc_body c db (wpeer_of c db [nth k tvs dflt_tv]) [nth k tvs dflt_tv] = Ok r1 ->
  exists t1, r1 = ROne t1 /\ same_outcome (nth k (results_of r) (exc_tag (ReqOther TypeError) TypeError)) t1.
Proof.
  intros Hk H H1. destruct (run_write_eq _ _ _ _ _ H1) as [rs1 [_ E1]]. apply shape_of_results in E1.
  rewrite (write_results_map c db _ r1 H1) in E1. eexists. split; [exact E1|].
  rewrite (write_results_map c db tvs r H), (nth_map_lt _ _ _ _ dflt_tv) by exact Hk.
  apply write_outcome_planner.
Qed.

Lemma write_outcome_controller_error c m tv p :
  (is_bit_write p = true -> rmw_build c p = Ok tt -> rp_ok (g (plc_tag p)) = false ->
     let t := write_outcome c m tv (inl p) in
     t_tag t = ReqText (user_tag p) /\ t_error t = Some (rp_error (g (plc_tag p))) /\ truthy t = false)
  /\ (forall n p' z, is_bit_write p = false -> encode_value enc_body p (snd tv) = Some (n, p') -> write_msg_len c p' n = Ok z ->
     rp_ok (f p' (snd tv)) = false ->
     let t := write_outcome c m tv (inl p) in
     t_tag t = ReqText (user_tag p) /\ t_error t = Some (rp_error (f p' (snd tv))) /\ truthy t = false).
Proof.
  split.
  - intros HB HRB HR. cbn zeta. unfold write_outcome. rewrite HB, HRB. unfold reply_error. rewrite HR. cbn.
    repeat split. unfold truthy. cbn. apply Bool.andb_false_r.
  - intros n p' z HB HE HM HR. cbn zeta. unfold write_outcome. rewrite HB, HE, HM. unfold reply_error. rewrite HR. cbn.
    destruct (encode_value_fields _ _ _ _ HE) as [-> _]. repeat split. unfold truthy. cbn. apply Bool.andb_false_r.
Qed.
End W.
