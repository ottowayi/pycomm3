(* Proofs/ReadPlan.v — LogixDriver.read as a whole against the reference target: parsing of every
   request, planning (Model/LogixPlan.v, theorems of Proofs/PlanP.v: every request in exactly one
   packet, groups within the connection size), the three kinds of exchange (Proofs/ReadMulti.v,
   Proofs/ReadFrag.v), the id-keyed result map, and the per-tag post-processing.
     read_transport     for requests that the target serves: read() returns, for request i, post_read
                        applied to parse_read_reply of (type field ++ the whole addressed data) — whatever
                        the plan (single / multi-service groups / fragmented), connection size and
                        fragment policy
   No axioms. *)
From Coq Require Import ZifyBool Permutation.
From PV Require Import Base.Bytes Base.BytesLemmas Base.Res Base.PyStr.
From PV Require Import Gen.Consts Model.Path Model.Reply Model.LogixPlan Model.LogixRead.
From PV Require Import Spec.EncapParser Spec.MRParser Spec.TargetIface Spec.TargetCore Spec.Project Spec.Expect Spec.TargetLogix.
From PV Require Import Proofs.PlanP Proofs.TargetCoreP Proofs.TargetLogixP Proofs.ReadBits Proofs.ReadDecode Proofs.ReadTarget
  Proofs.ReadValue Proofs.ReadFrag Proofs.ReadMulti.
Open Scope Z_scope.
(* The imported files add the division equations to lia's preprocessing (zify_post_hook; an Ltac redefinition is global
   and reaches every importer), which is slow on every call. Off in this file, where the few goals about / and mod call
   Z.to_euclidean_division_equations themselves; the last line sets it again for the files that import this one. *)
Ltac Zify.zify_post_hook ::= idtac.

Record rq := mkRq { rq_s : text; rq_q : preq; rq_path : bytes; rq_tb : bytes; rq_d : bytes; rq_sz : Z }.

Definition rq_n (r : rq) : Z := pq_elements (rq_q r).
Definition res_of (r : rq) : option (rvalue * text) :=
  reply_opt (rq_tb r ++ rq_d r) (pq_info (rq_q r)) (rq_n r).
Definition rq_item (r : rq) : item := (rq_q r, rq_path r, rq_tb r, rq_d r, rq_sz r).
(* len(request.message): sequence count, service, path, element count *)
Definition rq_msglen (r : rq) : Z := 2 + (1 + Path.len (rq_path r) + 2).

Definition rq_good (app : lstate) (tags : tagdb) (use_ids : bool) (conn : Z) (r : rq) : Prop :=
  parse_tag_request tags (rq_s r) = Ok (rq_q r)
  /\ read_path use_ids (rq_q r) = Ok (rq_path r)
  /\ served app (rq_q r) (rq_path r) (rq_tb r) (rq_d r) (rq_sz r)
  /\ ti_esize (pq_info (rq_q r)) = rq_sz r
  /\ Path.len (rq_path r) + 11 <= conn /\ rq_sz r + 10 <= conn /\ rq_n r * rq_sz r < 4294967296.

Lemma good_facts app tags use_ids conn r : rq_good app tags use_ids conn r ->
  0 <= rq_n r < 65536 /\ 1 <= rq_sz r /\ 5 <= Path.len (rq_path r) /\ Expect.blen (rq_tb r) <= 4 /\ 1 <= rq_n r.
Proof.
  intros (_ & _ & (pb & l & img & Hpw & _ & Hpb4 & _ & _ & Hn & _ & _ & _ & Htb4 & Hs1 & Hav & _) & _).
  destruct Hpw as (E & _). unfold rq_n. repeat split; try lia.
  rewrite E. unfold Path.len, EncapParser.blen in *. cbn [length]. lia.
Qed.

Fixpoint tag_ids (i : Z) (rs : list rq) : list (Z * rq) :=
  match rs with [] => [] | r :: t => (i, r) :: tag_ids (i + 1) t end.

Lemma tag_ids_ge rs : forall i0 i r, In (i, r) (tag_ids i0 rs) -> i0 <= i.
Proof.
  induction rs as [|x t IH]; intros i0 i r H; [contradiction|]. cbn in H. destruct H as [E|H].
  - injection E as <- _. lia.
  - apply IH in H. lia.
Qed.

Lemma zget_tag_ids rs : forall i0 i r, In (i, r) (tag_ids i0 rs) -> zget i (tag_ids i0 rs) = Some r.
Proof.
  induction rs as [|x t IH]; intros i0 i r H; [contradiction|]. cbn [tag_ids zget] in *. destruct H as [E|H].
  - injection E as <- <-. rewrite Z.eqb_refl. reflexivity.
  - pose proof (tag_ids_ge _ _ _ _ H). replace (i0 =? i) with false by lia. apply IH. exact H.
Qed.

Lemma zget_map {A B} (g : A -> B) (l : list (Z * A)) i :
  zget i (map (fun e => (fst e, g (snd e))) l) = option_map g (zget i l).
Proof. induction l as [|[k v] l IH]; [reflexivity|]. cbn. destruct (k =? i); [reflexivity|exact IH]. Qed.

Lemma tag_ids_snd rs : forall i0, map snd (tag_ids i0 rs) = rs.
Proof. induction rs as [|x t IH]; intros i0; [reflexivity|]. cbn. rewrite IH. reflexivity. Qed.

Lemma Forall_tag_ids (P : rq -> Prop) rs i0 : Forall P rs -> Forall (fun e => P (snd e)) (tag_ids i0 rs).
Proof. intros H. revert i0. induction H; intros i0; constructor; auto. Qed.

Lemma tag_ids_length rs i0 : length (tag_ids i0 rs) = length rs.
Proof. rewrite <- (tag_ids_snd rs i0) at 2. rewrite map_length. reflexivity. Qed.

Lemma rget_map (g : Z -> option (rvalue * text)) ids i :
  rget i (map (fun j => (j, g j)) ids) = if existsb (Z.eqb i) ids then Some (g i) else None.
Proof.
  induction ids as [|j l IH]; [reflexivity|]. cbn [map rget existsb]. rewrite IH.
  destruct (existsb (Z.eqb i) l); [rewrite orb_true_r; reflexivity|]. rewrite orb_false_r, (Z.eqb_sym i j).
  destruct (j =? i) eqn:E; [|reflexivity]. replace j with i by lia. reflexivity.
Qed.

Section Transport.
  Variables (app : lstate) (tags : tagdb) (cfg : ccfg).
  Let conn := c_conn cfg.
  Let use_ids := c_use_ids cfg.
  Definition good := rq_good app tags use_ids conn.

  Lemma parse_requested_ok rs : Forall good rs -> forall i0,
    parse_requested tags (map rq_s rs) i0 = map (fun e => (fst e, rq_s (snd e), Ok (rq_q (snd e)))) (tag_ids i0 rs).
  Proof.
    induction 1 as [|r t Hr _ IH]; intros i0; [reflexivity|].
    cbn [map parse_requested tag_ids fst snd]. destruct Hr as (Hp & _). rewrite Hp, IH. reflexivity.
  Qed.

  Definition paths_of (IR : list (Z * rq)) : list (Z * (preq * bytes)) :=
    map (fun e => (fst e, (rq_q (snd e), rq_path (snd e)))) IR.

  Lemma build_paths_ok IR : Forall (fun e => good (snd e)) IR ->
    build_paths use_ids (map (fun e => (fst e, rq_s (snd e), Ok (rq_q (snd e)))) IR) = paths_of IR.
  Proof.
    induction 1 as [|[i r] t Hr _ IH]; [reflexivity|]. cbn [map build_paths fst snd paths_of]. cbn [snd] in Hr.
    pose proof (good_facts _ _ _ _ _ Hr) as (Hn & _). destruct Hr as (_ & Hpath & _).
    unfold build_one. rewrite Hpath. cbn [bind]. rewrite (read_message_ok _ _ Hn). cbn [bind]. fold (paths_of t).
    unfold paths_of in IH. rewrite IH. reflexivity.
  Qed.

  Definition rreq_of (e : Z * rq) : rreq :=
    {| r_id := fst e; r_err := false; r_data := rq_sz (snd e) * rq_n (snd e); r_msg := rq_msglen (snd e) |}.

  Lemma plan_input_ok IR : Forall (fun e => good (snd e)) IR ->
    (forall i r, In (i, r) IR -> zget i IR = Some r) ->
    plan_input (paths_of IR) (map (fun e => (fst e, rq_s (snd e), Ok (rq_q (snd e)))) IR) = map rreq_of IR.
  Proof.
    intros HF Hz. unfold plan_input. rewrite map_map. apply map_ext_in. intros [i r] Hin. cbn [fst snd].
    unfold paths_of. rewrite (zget_map (fun r => (rq_q r, rq_path r))), (Hz i r Hin). cbn [option_map].
    rewrite Forall_forall in HF. destruct (HF _ Hin) as (_ & _ & _ & Hes & _). cbn [snd] in Hes.
    unfold rreq_of, rq_msglen, rq_n. cbn [fst snd]. rewrite Hes. reflexivity.
  Qed.
End Transport.

Lemma msg_len r : Path.len (it_msg (rq_item r)) = 3 + Path.len (rq_path r).
Proof. unfold rq_item, it_msg, Path.len. cbn [length]. rewrite app_length, le_enc_length. lia. Qed.

Definition rq_est (r : rq) : Z := rq_sz r * rq_n r + rq_msglen r + 2.
Definition sum_est (rs : list rq) : Z := fold_right (fun r a => rq_est r + a) 0 rs.

Section Plan.
  Variables (app : lstate) (tags : tagdb) (cfg : ccfg) (IR : list (Z * rq)) (ms : bool) (fuel : nat).
  Let conn := c_conn cfg.
  Hypothesis HIR : Forall (fun e => good app tags cfg (snd e)) IR.
  Hypothesis Hz : forall i r, In (i, r) IR -> zget i IR = Some r.
  Hypothesis Hconn : conn < 65536.
  Hypothesis Hfuel : Forall (fun e => (Z.to_nat (rq_n (snd e) * rq_sz (snd e)) < fuel)%nat) IR.

  Definition ids_results (ids : list Z) : results :=
    map (fun i => (i, match zget i IR with Some r => res_of r | None => None end)) ids.

  Lemma good_in i r : In (i, r) IR -> good app tags cfg r.
  Proof. intros H. rewrite Forall_forall in HIR. apply (HIR _ H). Qed.

  Lemma zget_paths i r : In (i, r) IR -> zget i (paths_of IR) = Some (rq_q r, rq_path r).
  Proof.
    intros H. unfold paths_of. rewrite (zget_map (fun r => (rq_q r, rq_path r))), (Hz i r H). reflexivity.
  Qed.

  Lemma collect_reads_ok : forall ids rs, Forall2 (fun i r => In (i, r) IR) ids rs ->
    collect_reads (paths_of IR) ids = Ok (combine ids (map it_q (map rq_item rs)), map it_msg (map rq_item rs)).
  Proof.
    induction 1 as [|i r ids rs Hin _ IH]; [reflexivity|].
    cbn [collect_reads map combine]. rewrite (zget_paths i r Hin).
    pose proof (good_facts _ _ _ _ _ (good_in i r Hin)) as (Hn & _).
    fold (rq_n r). rewrite (read_message_ok _ _ Hn). cbn [bind]. rewrite IH. reflexivity.
  Qed.

  Inductive packet_ok : packet -> Prop :=
    | pok_single i r : In (i, r) IR -> rq_sz r * rq_n r + rq_msglen r <= conn -> packet_ok (PSingle i)
    | pok_frag i r : In (i, r) IR -> packet_ok (PFrag i)
    | pok_multi ids rs : ms = true -> ids <> [] -> Forall2 (fun i r => In (i, r) IR) ids rs ->
                         sum_est rs + 10 <= conn -> packet_ok (PMulti ids).

  Lemma run_packet_ok st pk : quiet app ms st -> packet_ok pk ->
    exists st' sent, run_packet (target_peer conn) fuel cfg (paths_of IR) st pk
                     = (st', sent, Done (ids_results (packet_ids pk))) /\ quiet app ms st'.
  Proof.
    intros Hq [i r Hin Hfit|i r Hin|ids rs Hms Hne HF Hsum]; cbn [run_packet packet_ids].
    - pose proof (good_in i r Hin) as Hg. pose proof (good_facts _ _ _ _ _ Hg) as (Hn & _).
      destruct Hg as (_ & _ & Hserved & _).
      rewrite (zget_paths i r Hin). fold (rq_n r). rewrite (read_message_ok _ _ Hn).
      destruct (single_read_ok app ms conn st (rq_q r) (rq_path r) (rq_tb r) (rq_d r) (rq_sz r) Hq Hserved) as (st' & Hs & Hq').
      { unfold rq_msglen, rq_n in *. lia. }
      fold (rq_n r) in Hs. rewrite Hs. exists st'. eexists. split; [|exact Hq'].
      rewrite read_response_204 by auto. unfold ids_results. cbn [map]. rewrite (Hz i r Hin). reflexivity.
    - pose proof (good_in i r Hin) as Hg. pose proof (good_facts _ _ _ _ _ Hg) as (Hn & Hs1 & Hp5 & Htb4 & Hn1).
      destruct Hg as (_ & _ & (pb & l & img & Hpw & Hcia & Hpb4 & Hres & Hmem & _ & Hs & Htb & Htbok & _ & _ & Hav & Hd & Hbit) & _ & Hplen & Hszc & Htot).
      rewrite Forall_forall in Hfuel. pose proof (Hfuel _ Hin) as Hf. cbn [snd] in Hf.
      rewrite (zget_paths i r Hin).
      destruct (frag_read_ok app ms conn (rq_path r) pb (rq_q r) l img (rq_sz r) (rq_tb r) (rq_d r) Hpw Hcia Hres Hmem Hn Hs Htb Htbok
                  Hs1 Hav) with (fuel := fuel) (st := st) (sent := @nil bytes) as (st' & sent' & Hl & Hq'); try assumption.
      + unfold Expect.blen in *. lia.
      + unfold EncapParser.blen, Path.len in *. lia.
      + rewrite Hl. exists st', sent'. split; [|exact Hq'].
        unfold ids_results. cbn [map]. rewrite (Hz i r Hin). reflexivity.
    - subst ms.
      assert (Hlen : length ids = length (map rq_item rs)) by (rewrite map_length; exact (Forall2_length _ _ _ HF)).
      assert (Hserved : Forall (it_served app) (map rq_item rs)).
      { clear -HF HIR. induction HF as [|i r ids rs Hin _ IH]; constructor; [|exact IH].
        destruct (good_in i r Hin) as (_ & _ & Hs & _). exact Hs. }
      assert (Hbounds : sum_need (map rq_item rs) + 4 * Z.of_nat (length rs) <= sum_est rs
                        /\ Path.len (concat (map it_msg (map rq_item rs))) + 5 * Z.of_nat (length rs) <= sum_est rs).
      { clear -HF HIR. induction HF as [|i r ids rs Hin _ IH]; [cbn; lia|].
        pose proof (good_facts _ _ _ _ _ (good_in i r Hin)) as (Hn & Hs1 & Hp5 & Htb4 & Hn1).
        cbn [map sum_need fold_right sum_est concat length]. fold (sum_need (map rq_item rs)). fold (sum_est rs).
        rewrite len_app_z, msg_len. unfold rq_item at 1. cbn [it_need]. unfold rq_est, rq_msglen, rq_n in *.
        unfold Path.len, Expect.blen in *. nia. }
      destruct Hbounds as [Hb1 Hb2].
      assert (HN : length (map rq_item rs) = length rs) by apply map_length.
      destruct (multi_read_ok app conn st (map rq_item rs) ids Hq) as (msg & st' & Hmm & Hsend & Hq' & Hres);
        try assumption.
      + destruct rs; [inversion HF; subst; congruence|discriminate].
      + rewrite HN. lia.
      + rewrite HN. lia.
      + rewrite (collect_reads_ok ids rs HF). cbn [bind]. rewrite Hmm. cbn [bind].
        rewrite Hsend. exists st'. eexists. split; [|exact Hq']. f_equal. f_equal.
        rewrite Hres. unfold ids_results. clear -HF Hz.
        induction HF as [|i r ids rs Hin _ IH]; [reflexivity|]. cbn [map combine]. rewrite IH, (Hz i r Hin). reflexivity.
  Qed.

  Lemma run_packets_ok : forall pks st sent acc, quiet app ms st -> Forall packet_ok pks ->
    exists st' sent', run_packets (target_peer conn) fuel cfg (paths_of IR) st pks sent acc
                      = (st', sent', Done (acc ++ ids_results (plan_ids pks))) /\ quiet app ms st'.
  Proof.
    induction pks as [|pk r IH]; intros st sent acc Hq HF.
    - cbn. rewrite app_nil_r. eauto.
    - inversion HF as [|x y Hpk HF']; subst. cbn [run_packets].
      destruct (run_packet_ok st pk Hq Hpk) as (st1 & s1 & H1 & Hq1). rewrite H1.
      destruct (IH st1 (sent ++ s1) (acc ++ ids_results (packet_ids pk)) Hq1 HF') as (st' & sent' & H2 & Hq').
      rewrite H2. exists st', sent'. split; [|exact Hq'].
      unfold plan_ids. cbn [flat_map]. fold (plan_ids r). unfold ids_results. rewrite map_app, app_assoc. reflexivity.
  Qed.
End Plan.

Section Planner.
  Variables (cfg : ccfg) (IR : list (Z * rq)).
  Let conn := c_conn cfg.

  Lemma rvalid_all (L : list (Z * rq)) : rvalid (map rreq_of L) = map rreq_of L.
  Proof. unfold rvalid. induction L as [|e L IH]; [reflexivity|]. cbn. rewrite IH. reflexivity. Qed.

  Lemma est_eq e : r_est (rreq_of e) = rq_est (snd e).
  Proof. reflexivity. Qed.

  Lemma single_plan_ok ms (L : list (Z * rq)) : Forall (fun e => In e IR) L ->
    Forall (packet_ok cfg IR ms) (filter_map (read_build_single conn) (map rreq_of L)).
  Proof.
    induction 1 as [|[i r] L Hin _ IH]; [constructor|].
    cbn [map filter_map]. unfold read_build_single at 1. cbn [rreq_of r_err r_data r_msg r_id fst snd].
    destruct (rq_sz r * rq_n r + rq_msglen r >? conn) eqn:E; (constructor; [|exact IH]).
    - apply (pok_frag cfg IR ms i r Hin).
    - apply (pok_single cfg IR ms i r Hin). fold conn. lia.
  Qed.

  Lemma group_members (g : list (Z * Z)) :
    Forall (fun pr => exists r, In (fst pr, r) IR /\ snd pr = rq_est r) g ->
    exists rs, Forall2 (fun i r => In (i, r) IR) (map fst g) rs /\ sum_est rs = sum_sz g.
  Proof.
    induction 1 as [|[i e] g (r & Hin & He) _ (rs & HF & Hs)].
    - exists []. split; [constructor|reflexivity].
    - exists (r :: rs). cbn [fst snd] in *. split; [constructor; assumption|].
      cbn [sum_est fold_right sum_sz snd]. fold (sum_est rs). fold (sum_sz g). lia.
  Qed.

  Lemma multi_plan_ok : Forall (packet_ok cfg IR true) (read_build_multi conn (map rreq_of IR)).
  Proof.
    rewrite read_build_multi_shape. rewrite rvalid_all. apply Forall_app. split.
    - set (G := filter (fun r => negb (r_frag conn r)) (map rreq_of IR)).
      destruct (is_nil G) eqn:EG; [constructor|].
      unfold read_groups. rewrite rvalid_all. fold G.
      set (sized := map (fun r => (r_id r, r_est r)) G).
      assert (Hsfit : Forall (fun pr => OVH + snd pr <= conn) sized).
      { unfold sized, G. apply grouped_fit. }
      assert (Hne : sized <> []) by (unfold sized; destruct G; [discriminate|discriminate]).
      pose proof (groups_sized_fit conn sized Hsfit) as Hfit.
      pose proof (groups_sized_nonempty conn sized Hne Hsfit) as Hnonempty.
      pose proof (groups_sized_concat conn sized) as Hcat.
      assert (Hmem : forall g, In g (groups_sized conn sized) ->
                Forall (fun pr => exists r, In (fst pr, r) IR /\ snd pr = rq_est r) g).
      { intros g Hg. apply Forall_forall. intros pr Hpr.
        assert (Hin : In pr sized) by (rewrite <- Hcat; apply in_concat; eauto).
        unfold sized in Hin. apply in_map_iff in Hin. destruct Hin as (rr & <- & Hrr).
        unfold G in Hrr. apply filter_In in Hrr. destruct Hrr as [Hrr _]. apply in_map_iff in Hrr.
        destruct Hrr as ([i r] & <- & He). exists r. split; [exact He|reflexivity]. }
      rewrite Forall_forall in Hfit, Hnonempty.
      apply Forall_forall. intros pk Hpk. apply in_map_iff in Hpk. destruct Hpk as (ids & <- & Hids).
      apply in_map_iff in Hids. destruct Hids as (g & <- & Hg).
      destruct (group_members g (Hmem g Hg)) as (rs & HF2 & Hsum).
      apply (pok_multi cfg IR true (map fst g) rs eq_refl).
      + pose proof (Hnonempty g Hg). destruct g; [congruence|discriminate].
      + exact HF2.
      + destruct (Hfit g Hg) as [H|H]; [|pose proof (Hnonempty g Hg); congruence].
        rewrite Hsum. unfold OVH, Gen.Consts.MULTISERVICE_READ_OVERHEAD in H. fold conn. lia.
    - apply Forall_forall. intros pk Hpk. apply in_map_iff in Hpk. destruct Hpk as (rr & <- & Hrr).
      apply filter_In in Hrr. destruct Hrr as [Hrr _]. apply in_map_iff in Hrr. destruct Hrr as ([i r] & <- & He).
      apply (pok_frag cfg IR true i r He).
  Qed.
End Planner.

Theorem read_transport app tags cfg st (rs : list rq) fuel ms :
  quiet app ms st -> (c_micro800 cfg = false -> ms = true) ->
  Forall (good app tags cfg) rs -> c_conn cfg < 65536 ->
  Forall (fun r => (Z.to_nat (rq_n r * rq_sz r) < fuel)%nat) rs ->
  exists st' sent,
    read (target_peer (c_conn cfg)) fuel cfg tags st (map rq_s rs)
    = (st', sent, Done (map (fun r => post_read (rq_q r) (res_of r)) rs)) /\ quiet app ms st'.
Proof.
  intros Hq Hms Hgood Hconn Hfuel.
  set (IR := tag_ids 0 rs).
  pose proof (Forall_tag_ids _ rs 0 Hgood) as HIR. pose proof (Forall_tag_ids _ rs 0 Hfuel) as HfuelIR. fold IR in HIR, HfuelIR.
  assert (Hz : forall i r, In (i, r) IR -> zget i IR = Some r) by (intros i r H; apply zget_tag_ids; exact H).
  unfold read.
  rewrite (parse_requested_ok app tags cfg rs Hgood 0). fold IR.
  rewrite (build_paths_ok app tags cfg IR HIR).
  rewrite (plan_input_ok app tags cfg IR HIR Hz).
  set (plan := read_build_requests (c_conn cfg) (c_micro800 cfg) (map rreq_of IR)).
  assert (Hplan : Forall (packet_ok cfg IR ms) plan).
  { unfold plan, read_build_requests.
    destruct (negb (length (map rreq_of IR) =? 1)%nat && negb (c_micro800 cfg)) eqn:Emode.
    - apply andb_prop in Emode. destruct Emode as [_ Em]. apply negb_true_iff in Em. rewrite (Hms Em).
      apply (multi_plan_ok cfg IR).
    - apply (single_plan_ok cfg IR ms IR). apply Forall_forall. auto. }
  destruct (run_packets_ok app tags cfg IR ms fuel HIR Hz Hconn HfuelIR plan st [] [] Hq Hplan) as (st' & sent' & Hrun & Hq').
  rewrite Hrun. exists st', sent'. split; [|exact Hq']. f_equal. f_equal.
  cbn [List.app].
  assert (Hperm : Permutation (plan_ids plan) (map fst IR)).
  { unfold plan. eapply Permutation_trans; [apply read_plan_partition|].
    rewrite rvalid_all, map_map. cbn [rreq_of r_id]. apply Permutation_refl. }
  rewrite map_map.
  replace (map (fun r : rq => post_read (rq_q r) (res_of r)) rs)
    with (map (fun e : Z * rq => post_read (rq_q (snd e)) (res_of (snd e))) IR)
    by (unfold IR; rewrite <- (tag_ids_snd rs 0) at 2; rewrite map_map; reflexivity).
  apply map_ext_in. intros [i r] Hin. cbn [fst snd].
  unfold ids_results. rewrite rget_map, (Hz i r Hin).
  replace (existsb (Z.eqb i) (plan_ids plan)) with true; [reflexivity|].
  symmetry. apply existsb_exists. exists i. split; [|apply Z.eqb_refl].
  eapply Permutation_in; [apply Permutation_sym; exact Hperm|]. apply (in_map fst) in Hin. exact Hin.
Qed.

Print Assumptions read_transport.

Ltac Zify.zify_post_hook ::= Z.to_euclidean_division_equations.
