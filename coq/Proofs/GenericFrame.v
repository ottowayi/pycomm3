(* Proofs/GenericFrame.v — the frames Model/Generic.v builds are the spec-side builders of
   Spec/EncapParser.v / Spec/MRParser.v applied to the same fields, and the spec parsers read them
   back (frame layer, message-router envelope, Unconnected Send wrapper with its pad byte). *)
From Coq Require Import String ZifyBool.
From PV Require Import Base.Bytes Base.BytesLemmas Base.Res Base.Proto Base.PyStr.
From PV Require Import Gen.PathTables Gen.Consts Gen.Tables Gen.GenericFacts Model.EnumMapDefs Model.Path Model.Generic.
From PV Require Import Spec.EncapParser Spec.MRParser Spec.TargetIface Proofs.TargetCoreP Proofs.PathStr Proofs.GenericPath.
Open Scope Z_scope.
Ltac Zify.zify_post_hook ::= Z.to_euclidean_division_equations.

(* regenerated members *)
Lemma cmd_unit : enc_command "send_unit_data" = Ok [112; 0]. Proof. reflexivity. Qed.
Lemma cmd_rr : enc_command "send_rr_data" = Ok [111; 0]. Proof. reflexivity. Qed.
Lemma addr_connection : member tbl_AddressItem "connection" = Ok [161; 0]. Proof. reflexivity. Qed.
Lemma addr_uccm : member tbl_AddressItem "uccm" = Ok [0; 0]. Proof. reflexivity. Qed.
Lemma item_connected : member tbl_DataItem "connected" = Ok [177; 0]. Proof. reflexivity. Qed.
Lemma item_unconnected : member tbl_DataItem "unconnected" = Ok [178; 0]. Proof. reflexivity. Qed.
Lemma packet_timeout_v : packet_timeout = [10; 0]. Proof. reflexivity. Qed.
Lemma driver_option_v : driver_option = 0. Proof. reflexivity. Qed.
Lemma ucsend_path_v : request_path (LBytes ucsend_class) (lval_of ucsend_instance) None = Ok [2; 32; 6; 36; 1].
Proof. reflexivity. Qed.


Definition drv_ok (d : drv) : bool :=
  (0 <=? d_session d) && (d_session d <? 4294967296)
  && bytes_ok (d_context d) && (blen (d_context d) =? 8)
  && (d_option d =? driver_option)
  && bytes_ok (d_cid d) && (blen (d_cid d) =? 4).

Lemma drv_ok_spec d : drv_ok d = true ->
  0 <= d_session d < 4294967296 /\ bytes_ok (d_context d) = true /\ blen (d_context d) = 8
  /\ d_option d = 0 /\ bytes_ok (d_cid d) = true /\ blen (d_cid d) = 4.
Proof.
  unfold drv_ok. rewrite driver_option_v. intros H. repeat (apply andb_prop in H as [H ?]).
  repeat split; assumption || lia.
Qed.

Lemma build_request_unit d msg :
  drv_ok d = true -> 2 <= blen msg < 65000 ->
  build_request [112; 0] [161; 0] [177; 0] (Some (d_cid d)) d msg
  = Ok (mk_frame {| f_cmd := 112; f_session := d_session d; f_context := d_context d;
                    f_body := BCpf 10 (AddrConn (le_dec (d_cid d))) 177 msg |}).
Proof.
  intros Hd Hm. destruct (drv_ok_spec d Hd) as (Hses & Hxo & Hxl & Hopt & Hco & Hcl).
  unfold build_request, common_packet_format. change (len (d_cid d)) with (blen (d_cid d)).
  rewrite UINT_ok by lia. cbn [bind]. change (len msg) with (blen msg). rewrite UINT_ok by lia. cbn [bind].
  rewrite packet_timeout_v.
  set (common := [0; 0; 0; 0] ++ [10; 0] ++ [2; 0] ++ [161; 0] ++ (le_enc 2 (blen (d_cid d)) ++ d_cid d) ++ [177; 0] ++ le_enc 2 (blen msg) ++ msg).
  assert (Hc : blen common = 20 + blen msg).
  { unfold common. rewrite !blen_app, !blen_le_enc, !blen_cons, !blen_nil. lia. }
  unfold build_header. change (len common) with (blen common).
  rewrite UINT_ok by lia. rewrite UDINT_ok by lia. replace (d_option d) with 0 by lia. rewrite UDINT_ok by lia.
  cbn [bind wrap_all]. f_equal.
  unfold mk_frame, mk_header. cbn [f_cmd f_session f_context f_body body_bytes].
  assert (Hb : mk_cpf 10 (AddrConn (le_dec (d_cid d))) 177 msg = common).
  { unfold mk_cpf, common, addr_bytes. replace (blen (d_cid d)) with 4 by lia.
    assert (Hcid : le_enc 4 (le_dec (d_cid d)) = d_cid d).
    { replace 4%nat with (List.length (d_cid d)) by (unfold blen in *; lia). apply le_enc_dec. assumption. }
    rewrite Hcid. reflexivity. }
  rewrite Hb. rewrite <- !app_assoc. reflexivity.
Qed.

Lemma build_request_rr d msg :
  drv_ok d = true -> 0 <= blen msg < 65000 ->
  build_request [111; 0] [0; 0] [178; 0] None d msg
  = Ok (mk_frame {| f_cmd := 111; f_session := d_session d; f_context := d_context d;
                    f_body := BCpf 10 AddrNull 178 msg |}).
Proof.
  intros Hd Hm. destruct (drv_ok_spec d Hd) as (Hses & Hxo & Hxl & Hopt & Hco & Hcl).
  unfold build_request, common_packet_format. cbn [bind]. change (len msg) with (blen msg). rewrite UINT_ok by lia. cbn [bind].
  rewrite packet_timeout_v.
  set (common := [0; 0; 0; 0] ++ [10; 0] ++ [2; 0] ++ [0; 0] ++ [0; 0] ++ [178; 0] ++ le_enc 2 (blen msg) ++ msg).
  assert (Hc : blen common = 16 + blen msg).
  { unfold common. rewrite !blen_app, !blen_le_enc, !blen_cons, !blen_nil. lia. }
  unfold build_header. change (len common) with (blen common).
  rewrite UINT_ok by lia. rewrite UDINT_ok by lia. replace (d_option d) with 0 by lia. rewrite UDINT_ok by lia.
  cbn [bind wrap_all]. reflexivity.
Qed.

Lemma frame_wf_unit d msg :
  drv_ok d = true -> bytes_ok msg = true -> 2 <= blen msg < 65000 ->
  frame_wf {| f_cmd := 112; f_session := d_session d; f_context := d_context d;
              f_body := BCpf 10 (AddrConn (le_dec (d_cid d))) 177 msg |} = true.
Proof.
  intros Hd Ho Hm. destruct (drv_ok_spec d Hd) as (Hses & Hxo & Hxl & Hopt & Hco & Hcl).
  assert (Hr : 0 <= le_dec (d_cid d) < pow256 (List.length (d_cid d))) by (apply le_dec_range; assumption).
  replace (List.length (d_cid d)) with 4%nat in Hr by (unfold blen in *; lia). rewrite pow256_4 in Hr.
  unfold frame_wf, body_wf. cbn [f_cmd f_session f_context f_body].
  unfold CMD_UNITDATA, ITEM_CONN_DATA. rewrite Ho, Hxo. lia.
Qed.

Lemma frame_wf_rr d msg :
  drv_ok d = true -> bytes_ok msg = true -> 0 <= blen msg < 65000 ->
  frame_wf {| f_cmd := 111; f_session := d_session d; f_context := d_context d;
              f_body := BCpf 10 AddrNull 178 msg |} = true.
Proof.
  intros Hd Ho Hm. destruct (drv_ok_spec d Hd) as (Hses & Hxo & Hxl & Hopt & Hco & Hcl).
  unfold frame_wf, body_wf. cbn [f_cmd f_session f_context f_body].
  unfold CMD_RRDATA, ITEM_UNCONN_DATA. rewrite Ho, Hxo. lia.
Qed.

Lemma parse_mr_built svc p data :
  0 <= svc < 128 -> Z.even (blen p) = true -> blen p < 512 ->
  parse_mr (svc :: (blen p / 2) :: p ++ data) = RcOk {| mr_service := svc; mr_path := p; mr_data := data |}.
Proof.
  intros Hs He Hl.
  apply (parse_mk_mr {| mr_service := svc; mr_path := p; mr_data := data |}).
  unfold mr_wf. cbn [mr_service mr_path]. rewrite He. lia.
Qed.

Lemma ucsend_parts_eval rp m r :
  map (ucsend_part rp m r) ucsend_parts
  = [member tbl_ConnectionManagerServices "unconnected_send"; Ok rp; Ok PRIORITY; Ok TIMEOUT_TICKS;
     UINT_encode (len m); Ok m; Ok (if Z.odd (len m) then [0] else []);
     Ok (match r with [] => ucsend_empty_route | _ => r end)].
Proof. reflexivity. Qed.

Lemma ucsend_service_v : member tbl_ConnectionManagerServices "unconnected_send" = Ok [82]. Proof. reflexivity. Qed.

(* wrap_unconnected_send = the Unconnected Send request to the connection manager whose data is the
   spec-side [mk_ucsend] — when the route carries its size byte and pad: (words, 0, route path); an
   Unconnected Send WITHOUT a route carries an EMPTY route path: size 0, reserved 0 *)
Lemma wrap_unconnected_send_spec emb rt rb :
  blen emb < 65536 -> match rt with [] => ucsend_empty_route | _ => rt end = (blen rb / 2) :: 0 :: rb ->
  wrap_unconnected_send emb rt
  = Ok (82 :: (blen [32; 6; 36; 1] / 2) :: [32; 6; 36; 1] ++ mk_ucsend 10 5 emb rb).
Proof.
  intros Hl Hr. unfold wrap_unconnected_send. rewrite ucsend_path_v. cbn [bind].
  rewrite ucsend_parts_eval, ucsend_service_v, Hr. change (len emb) with (blen emb).
  pose proof (blen_nonneg emb). rewrite UINT_ok by lia.
  cbn [concat_res bind]. f_equal. unfold mk_ucsend.
  change PRIORITY with [10]. change TIMEOUT_TICKS with [5].
  cbn [app]. rewrite app_nil_r. reflexivity.
Qed.

Lemma u16_le_enc z r : 0 <= z < 65536 -> exists l0 l1, le_enc 2 z ++ r = l0 :: l1 :: r /\ u16 l0 l1 = z.
Proof. intros H. exists (z mod 256), ((z / 256) mod 256). split; [reflexivity | apply u16_enc; assumption]. Qed.

(* the spec-side Unconnected Send unwrapper reads the wrapper back: embedded length, the pad byte
   exactly when that length is odd (case analysis on the parity), route words, reserved byte, route *)
Theorem parse_mk_ucsend pr tk emb rb rq :
  blen emb < 65536 -> Z.even (blen rb) = true -> blen rb < 512 -> route_ok rb = true ->
  parse_mr emb = RcOk rq ->
  parse_ucsend (mk_ucsend pr tk emb rb)
  = RcOk {| us_priority := pr; us_ticks := tk; us_embedded := emb; us_request := rq; us_route := rb |}.
Proof.
  intros Hl He Hr Hok Hrq. pose proof (blen_nonneg emb) as Hn. pose proof (blen_nonneg rb) as Hnr.
  unfold mk_ucsend.
  destruct (u16_le_enc (blen emb) (emb ++ (if Z.odd (blen emb) then [0] else []) ++ blen rb / 2 :: 0 :: rb) ltac:(lia))
    as (l0 & l1 & Heq & Hu).
  rewrite Heq. unfold parse_ucsend. rewrite Hu.
  rewrite takez_app.
  assert (Hw : (blen rb <? 2 * (blen rb / 2)) = false /\ (2 * (blen rb / 2) <? blen rb) = false)
    by (apply Z.even_spec in He; destruct He as [k Hk]; lia).
  destruct (Z.odd (blen emb)); cbn [app Z.eqb negb]; rewrite (proj1 Hw), (proj2 Hw), Hok, Hrq; reflexivity.
Qed.
