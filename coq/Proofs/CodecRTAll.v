(* Proofs/CodecRTAll.v — C06: the round-trip theorem, by nested induction on type terms. *)
From Coq Require Import Permutation.
From PV Require Import Base.Bytes Base.BytesLemmas Base.Res.
From PV Require Import Model.Codec Model.CodecDom.
From PV Require Import Proofs.CodecRTBase Proofs.CodecRT Proofs.CodecRTDict Proofs.CodecRTComp Proofs.CodecRTStag.
Open Scope Z_scope.

Lemma prt_all t : PRT t.
Proof.
  induction t as [t Hl|n e [Hrt Hfw]| |e [Hrt _]|k ms IH|ms bits priv size IH] using ty_ind_nested.
  - (* the elementary classes *) split; [|destruct t; try discriminate Hl; now apply fw_leaf].
    destruct t; try discriminate Hl;
      [apply rt_TBool|apply rt_TInt|apply rt_TReal|apply rt_TDateTime|apply rt_TStr|apply rt_TStringN|apply rt_TStringI
      |apply rt_TNBytes|apply rt_TBits|apply rt_TFixedStr|apply rt_TIPAddr|apply rt_TPcccAscii|apply rt_TPcccString].
  - (* TArrFixed *) split; [now apply rt_TArrFixed|now apply fw_TArrFixed].
  - (* TArrPrefix: no such type is well formed, see [roundtrip_prefixed] *) split; [intros H'; discriminate H'|now apply fw_leaf].
  - (* TArrAll *) split; [now apply rt_TArrAll|now apply fw_leaf].
  - (* TStruct *) split; [|now apply fw_leaf]. apply rt_TStruct. revert IH. apply Forall_impl. now intros m [H _].
  - (* TStructTag *) split; [now apply rt_TStructTag|now apply fw_TStructTag].
Qed.

(* [wf_ty] holds of no Array(<length type>, T): encode writes no length prefix there, so the law
   cannot hold of it; what holds instead is [roundtrip_prefixed] below *)
Theorem roundtrip t v rest :
  wf_ty t = true -> in_dom t v = true -> (greedy t = true -> rest = []) ->
  exists bs, encode t v = Ok bs /\ decode t (bs ++ rest) = Ok (norm t v, rest).
Proof.
  intros Hwf Hd Hg. destruct (prt_all t) as [Hrt _].
  destruct (Hrt Hwf v rest Hd Hg) as (bs & He & Hdec). exists bs. split; [exact He|].
  apply decode_ok_iff. apply Hdec. rewrite app_length. lia.
Qed.

(* decoding consumes exactly the encoding: the unread rest is what followed it *)
Corollary decode_consumes_exactly t v rest bs :
  wf_ty t = true -> in_dom t v = true -> (greedy t = true -> rest = []) -> encode t v = Ok bs ->
  exists v', decode t (bs ++ rest) = Ok (v', rest).
Proof.
  intros Hwf Hd Hg He. destruct (roundtrip t v rest Hwf Hd Hg) as (bs' & He' & Hdec).
  rewrite He in He'. injection He' as <-. eauto.
Qed.

(* encoding a structure from a dict or from the positional sequence of its values: identical bytes
   (for EVERY value, in or out of the domain), when the dict's keys are the member names in order *)
Lemma dict_get_own kvs k x : keys_nodup (map fst kvs) = true -> In (k, x) kvs -> dict_get kvs k = Ok x.
Proof.
  induction kvs as [|[k' x'] kvs IH]; intros Hnd Hin; [destruct Hin|]. destruct Hin as [E|Hin]; cbn [dict_get].
  - injection E as -> ->. now rewrite keyb_refl.
  - cbn [map fst keys_nodup] in Hnd. apply andb_prop in Hnd as [H1 H2]. apply negb_true_iff in H1.
    destruct (keyb k' k) eqn:E; [|now apply IH]. apply keyb_eq in E. subst k'.
    assert (existsb (keyb k) (map fst kvs) = true); [|congruence].
    apply existsb_exists. exists k. split; [exact (in_map fst _ _ Hin)|apply keyb_refl].
Qed.

Theorem struct_dict_positional ms kvs :
  map fst kvs = map fst ms -> keys_nodup (map fst ms) = true ->
  encode (TStruct SPlain ms) (VDict kvs) = encode (TStruct SPlain ms) (VList (map snd kvs)).
Proof.
  intros Hk Hnd. rewrite <- Hk in Hnd. cbn [encode]. unfold struct_encode, pub_encode. f_equal.
  cbn [struct_encode_inner py_iter bind]. fold (enc_members ms).
  replace (length (map snd kvs)) with (length (enc_members ms))
    by (unfold enc_members; now rewrite !map_length, <- (map_length fst ms), <- Hk, map_length).
  rewrite Nat.ltb_irrefl. apply struct_dict_seq.
  (* each member's name finds the value at the member's position *)
  assert (H : forall sub (ms' : list (key * ty)), incl sub kvs -> map fst sub = map fst ms' ->
              Forall2 (fun m x => dict_get kvs (fst m) = Ok x) ms' (map snd sub)).
  { induction sub as [|[k x] sub IH]; intros [|m ms'] Hs E; try discriminate E; cbn [map snd]; constructor.
    - injection E as <- _. apply (dict_get_own _ _ _ Hnd), Hs. now left.
    - injection E as _ E. apply IH; [|exact E]. intros y Hy. apply Hs. now right. }
  exact (H kvs ms (incl_refl _) Hk).
Qed.

(* Array(<length type>, T): encode writes NO length prefix (documented), so decode (encode v) is not
   v; what holds is the documented decode: the count, encoded with the length type, followed by the
   encoding, decodes to the value and leaves what follows untouched. *)
Theorem roundtrip_prefixed inst lsg lw e l rest :
  (0 < lw)%nat -> is_bits e = false -> wf_ty (TArrFixed (length l) e) = true ->
  in_dom (TArrFixed (length l) e) (VList l) = true ->
  int_in_range lsg lw (zlen l) = true -> zlen l <= count_limit ->
  exists p bs, encode (TInt lsg lw) (VInt (zlen l)) = Ok p
               /\ encode (TArrPrefix inst (TInt lsg lw) e) (VList l) = Ok bs
               /\ decode (TArrPrefix inst (TInt lsg lw) e) (p ++ bs ++ rest) = Ok (norm (TArrFixed (length l) e) (VList l), rest).
Proof.
  intros Hlw Hnb Hwf Hd Hr Hlim. destruct (prt_all e) as (Hrt & _).
  cbn [wf_ty] in Hwf. apply andb_prop in Hwf as [Hwf Hg]. apply negb_true_iff in Hg.
  assert (Hdd : forallb (in_dom e) l = true).
  { cbn [in_dom] in Hd. rewrite <- (firstn_all l). destruct e; try discriminate Hnb; now apply andb_prop in Hd as [_ Hd]. }
  destruct (list_good e l Hrt Hwf Hg Hdd) as (bss & Hbss).
  exists (le_enc lw (zlen l)), (concat bss). split; [|split].
  - cbn [encode]. now apply int_encode_ok.
  - cbn [encode]. now apply (array_encode_plain None e l _ l bss Hnb eq_refl (le_n _) (firstn_all l)).
  - apply decode_ok_iff. cbn [decode_fuel]. unfold array_decode_prefix.
    rewrite int_decode_ok by assumption. cbn [dbind].
    replace (Z.to_nat (Z.min (zlen l) count_limit)) with (length l) by (unfold zlen in *; lia).
    rewrite (decode_n_good e l bss _ rest Hbss) by (rewrite !app_length; lia).
    destruct (count_limit <? zlen l) eqn:E; [lia|]. rewrite Hnb. cbn [array_flatten dwrap norm].
    rewrite firstn_all. destruct e; try reflexivity. discriminate Hnb.
Qed.

(* Struct._encode does `values[typ.name]` per member: the bytes depend only on the name -> value
   lookups of the member names — not on the order of the dict, nor on other keys *)
Lemma struct_encode_dict_ext (encs : list (key * (val -> res bytes))) (d d' : list (key * val)) :
  (forall m, In m encs -> dict_get d (fst m) = dict_get d' (fst m)) ->
  struct_encode_dict encs d = struct_encode_dict encs d'.
Proof.
  induction encs as [|[k enc] encs IH]; intros H; [reflexivity|].
  cbn [struct_encode_dict]. pose proof (H (k, enc) (or_introl eq_refl)) as Hk. cbn [fst] in Hk. rewrite Hk.
  destruct (dict_get d' k) as [x|]; [|reflexivity]. cbn [bind]. destruct (enc x); [|reflexivity]. cbn [bind].
  rewrite IH; [reflexivity|]. intros m Hin. apply H. now right.
Qed.

Theorem struct_dict_lookup ms kvs kvs' :
  (forall m, In m ms -> dict_get kvs (fst m) = dict_get kvs' (fst m)) ->
  encode (TStruct SPlain ms) (VDict kvs) = encode (TStruct SPlain ms) (VDict kvs').
Proof.
  intros H. cbn [encode]. unfold struct_encode, pub_encode. f_equal. cbn [struct_encode_inner].
  apply struct_encode_dict_ext. intros m Hin. apply in_map_iff in Hin as (m0 & <- & Hin0). cbn [fst]. now apply H.
Qed.

Lemma dict_get_not_in d k : ~ In k (map fst d) -> dict_get d k = Err (Foreign KeyError).
Proof.
  induction d as [|[k' v] d IH]; intros H; [reflexivity|]. cbn [dict_get].
  destruct (keyb k' k) eqn:E.
  - apply keyb_eq in E. subst. exfalso. apply H. now left.
  - apply IH. intros Hin. apply H. now right.
Qed.

Lemma dict_get_perm d d' k : Permutation d d' -> NoDup (map fst d) -> dict_get d k = dict_get d' k.
Proof.
  induction 1 as [|[k1 v1] d d' Hp IH|[k1 v1] [k2 v2] d|d1 d2 d3 H12 IH12 H23 IH23]; intros Hnd.
  - reflexivity.
  - cbn [dict_get]. destruct (keyb k1 k); [reflexivity|]. apply IH. now inversion Hnd.
  - cbn [dict_get]. destruct (keyb k2 k) eqn:E2, (keyb k1 k) eqn:E1; try reflexivity.
    apply keyb_eq in E1, E2. subst. exfalso. cbn [map fst] in Hnd. inversion Hnd as [|? ? Hn _]. apply Hn. now left.
  - rewrite IH12 by exact Hnd. apply IH23. eapply Permutation_NoDup; [|exact Hnd]. now apply Permutation_map.
Qed.

(* the order of the dict does not matter *)
Theorem struct_dict_permutation ms kvs kvs' :
  Permutation kvs kvs' -> NoDup (map fst kvs) ->
  encode (TStruct SPlain ms) (VDict kvs) = encode (TStruct SPlain ms) (VDict kvs').
Proof. intros Hp Hnd. apply struct_dict_lookup. intros m _. now apply dict_get_perm. Qed.

(* a key that is no member's name does not matter *)
Theorem struct_dict_extra_key ms pre k x post :
  (forall m, In m ms -> fst m <> k) ->
  encode (TStruct SPlain ms) (VDict (pre ++ (k, x) :: post)) = encode (TStruct SPlain ms) (VDict (pre ++ post)).
Proof.
  intros Hk. apply struct_dict_lookup. intros m Hin. specialize (Hk m Hin).
  induction pre as [|[k' v'] pre IH]; cbn [app dict_get].
  - destruct (keyb k (fst m)) eqn:E; [apply keyb_eq in E; congruence|reflexivity].
  - destruct (keyb k' (fst m)); [reflexivity|exact IH].
Qed.

(* a member whose name is missing from the dict: DataError (KeyError inside the wrapper) *)
Theorem struct_dict_missing_key ms kvs m :
  In m ms -> ~ In (fst m) (map fst kvs) -> encode (TStruct SPlain ms) (VDict kvs) = Err DataError.
Proof.
  intros Hin Hk. cbn [encode]. unfold struct_encode, pub_encode. cbn [struct_encode_inner].
  assert (H : exists e, struct_encode_dict (map (fun m0 => (fst m0, as_member (snd m0) (encode (snd m0)))) ms) kvs = Err e).
  { induction ms as [|m0 ms IH]; [destruct Hin|]. cbn [map struct_encode_dict fst].
    destruct Hin as [->|Hin].
    - rewrite (dict_get_not_in _ _ Hk). cbn [bind]. eauto.
    - destruct (dict_get kvs (fst m0)) as [x|]; cbn [bind]; [|eauto].
      destruct (as_member (snd m0) (encode (snd m0)) x); cbn [bind]; [|eauto].
      destruct (IH Hin) as (e & ->). cbn [bind]. eauto. }
  destruct H as (e & ->). reflexivity.
Qed.

(* encode(time, date) and encode((time, date)) are the same function of the pair, for EVERY integer
   time and date (0 included; out-of-range values give the same DataError) *)
Theorem datetime_call_forms t d :
  encode_args TDateTime [VInt t; VInt d] = encode TDateTime (VTuple [VInt t; VInt d]).
Proof. reflexivity. Qed.

Corollary datetime_positional_roundtrip t d rest :
  in_urange 4 t = true -> in_urange 2 d = true ->
  exists bs, encode_args TDateTime [VInt t; VInt d] = Ok bs
             /\ decode TDateTime (bs ++ rest) = Ok (VTuple [VInt t; VInt d], rest).
Proof.
  intros Ht Hd. rewrite datetime_call_forms.
  apply (roundtrip TDateTime (VTuple [VInt t; VInt d]) rest eq_refl); [|discriminate].
  cbn [in_dom]. now rewrite Ht, Hd.
Qed.
