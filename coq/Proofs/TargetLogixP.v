(* Proofs/TargetLogixP.v — the Logix half of the reference target: a reference write followed by a
   reference read at the same atomic place returns the written value and moves no other byte; a
   Read Tag / Read Tag Fragmented reply (envelope included) never exceeds the capacity handed to
   the handler.  It opens with the small facts about Spec/Project.v and Spec/Expect.v (name tests, template
   lookup, [distinct_by], [all_some], image slices, bit lists) that the read, write and upload proofs share. *)
From Coq Require Import ZifyBool.
From PV Require Import Base.Bytes Base.BytesLemmas Base.PyStr Base.PyStrLemmas Spec.EncapParser Spec.MRParser Spec.TargetIface
  Spec.TargetCore Spec.Project Spec.Expect Spec.TargetLogix.
Open Scope Z_scope.

Lemma some_inj {A} (x y : A) : Some x = Some y -> x = y.
Proof. congruence. Qed.

Lemma find_template_in ts tid t : find_template ts tid = Some t -> In t ts /\ t_id t = tid.
Proof.
  induction ts as [|a ts IH]; [discriminate|]. cbn [find_template].
  destruct (t_id a =? tid) eqn:E.
  - intros H. injection H as <-. split; [left; reflexivity | lia].
  - intros H. destruct (IH H). split; [right|]; assumption.
Qed.

(* [Project.text_eqb], which Spec/Project.v and the dictionaries of Model/LogixRead.v use, has the body of
   PyStr.text_eqb, so the facts of Base/PyStrLemmas.v hold of it by conversion (but do not rewrite its occurrences) *)
Lemma teqb_refl a : Project.text_eqb a a = true.
Proof. exact (PyStrLemmas.text_eqb_refl a). Qed.
Lemma teqb_eq a b : Project.text_eqb a b = true -> a = b.
Proof. exact (proj1 (PyStrLemmas.text_eqb_eq a b)). Qed.

Lemma name_eqb_refl a : name_eqb a a = true.
Proof. exact (teqb_refl (lower a)). Qed.

Lemma distinct_by_NoDup {A} (eqb : A -> A -> bool) l : (forall a, eqb a a = true) -> distinct_by eqb l = true -> NoDup l.
Proof.
  intros Hrefl. induction l as [|x r IH]; cbn [distinct_by]; intros H; [constructor|].
  apply andb_true_iff in H as [H1 H2]. constructor; [|apply IH, H2].
  intros Hin. apply negb_true_iff in H1. assert (E : existsb (eqb x) r = true); [|congruence].
  apply existsb_exists. exists x. split; [exact Hin|apply Hrefl].
Qed.

Lemma all_some_length {A} (l : list (option A)) ds : all_some l = Some ds -> length ds = length l.
Proof.
  revert ds. induction l as [|[x|] r IH]; intros ds H; cbn [all_some] in H; [injection H as <-; reflexivity| |discriminate].
  destruct (all_some r) as [r'|]; [|discriminate]. injection H as <-. cbn [length]. rewrite (IH r' eq_refl). reflexivity.
Qed.

Lemma bools_of_byte_length b : length (bools_of_byte b) = 8%nat.
Proof. reflexivity. Qed.

Lemma bools_of_bytes_length bs : length (bools_of_bytes bs) = (8 * length bs)%nat.
Proof.
  unfold bools_of_bytes. induction bs as [|b r IH]; [reflexivity|].
  cbn [flat_map]. rewrite app_length, IH, bools_of_byte_length. cbn [length]. lia.
Qed.

Lemma blen_app a b : Expect.blen (a ++ b) = Expect.blen a + Expect.blen b.
Proof. unfold Expect.blen. rewrite app_length. lia. Qed.

Lemma blen_nonneg a : 0 <= Expect.blen a.
Proof. unfold Expect.blen. lia. Qed.

Lemma get_bytes_len img off n d : get_bytes img off n = Some d -> Expect.blen d = n.
Proof.
  unfold get_bytes. destruct ((0 <=? off) && (0 <=? n) && (off + n <=? Expect.blen img)) eqn:E; [|discriminate].
  intros H; injection H as <-. unfold Expect.blen in *.
  rewrite firstn_length, skipn_length. lia.
Qed.

Lemma put_bytes_len img off d img' : put_bytes img off d = Some img' -> length img' = length img.
Proof.
  unfold put_bytes. destruct ((0 <=? off) && (off + Expect.blen d <=? Expect.blen img)) eqn:E; [|discriminate].
  intros H; injection H as <-. unfold Expect.blen in *.
  rewrite !app_length, firstn_length, skipn_length. lia.
Qed.

Lemma put_get_bytes img off d img' :
  put_bytes img off d = Some img' -> get_bytes img' off (Expect.blen d) = Some d.
Proof.
  intros H. pose proof (put_bytes_len _ _ _ _ H) as L. revert H.
  unfold put_bytes, get_bytes.
  destruct ((0 <=? off) && (off + Expect.blen d <=? Expect.blen img)) eqn:E; [|discriminate].
  intros H; injection H as <-.
  assert (Hl : length (firstn (Z.to_nat off) img) = Z.to_nat off).
  { rewrite firstn_length. unfold Expect.blen in *. lia. }
  replace ((0 <=? off) && (0 <=? Expect.blen d)
           && (off + Expect.blen d <=? Expect.blen (firstn (Z.to_nat off) img ++ d ++ skipn (Z.to_nat off + length d) img)))
    with true.
  2:{ symmetry. unfold Expect.blen in *. rewrite L. lia. }
  f_equal.
  rewrite <- Hl at 1. rewrite skipn_app_exact.
  unfold Expect.blen. rewrite Nat2Z.id. apply firstn_app_exact.
Qed.

Lemma put_bytes_outside img off d img' k :
  put_bytes img off d = Some img' ->
  (k < Z.to_nat off \/ Z.to_nat off + length d <= k)%nat -> nth k img' 0 = nth k img 0.
Proof.
  unfold put_bytes. destruct ((0 <=? off) && (off + Expect.blen d <=? Expect.blen img)) eqn:E; [|discriminate].
  intros H; injection H as <-. unfold Expect.blen in *.
  assert (Hl : length (firstn (Z.to_nat off) img) = Z.to_nat off) by (rewrite firstn_length; lia).
  intros [Hk | Hk].
  - rewrite app_nth1 by lia. rewrite <- (firstn_skipn (Z.to_nat off) img) at 2.
    rewrite app_nth1 by lia. reflexivity.
  - rewrite app_nth2 by lia. rewrite app_nth2 by lia. rewrite Hl.
    rewrite <- (firstn_skipn (Z.to_nat off + length d) img) at 2.
    rewrite app_nth2 by (rewrite firstn_length; lia).
    rewrite firstn_length. f_equal. lia.
Qed.

(* the elementary types whose reference value is a number (not BOOL, not a bit string) *)
Definition value_atom (c : Z) : bool := atom_signed c || atom_unsigned c || (c =? C_REAL) || (c =? C_LREAL).

Lemma atom_size_cases c s : atom_size c = Some s -> s = 1 \/ s = 2 \/ s = 4 \/ s = 8.
Proof.
  unfold atom_size.
  repeat match goal with |- context [if ?b then _ else _] => destruct b end;
  intros H; inversion H; auto.
Qed.

Lemma value_atom_plain c : value_atom c = true -> (c =? C_BOOL) = false /\ atom_bits c = false.
Proof.
  unfold value_atom, atom_signed, atom_unsigned, atom_bits, C_REAL, C_LREAL, C_SINT, C_INT, C_DINT, C_LINT,
    C_USINT, C_UINT, C_UDINT, C_ULINT, C_BYTE, C_WORD, C_DWORD, C_LWORD, C_BOOL. lia.
Qed.

Lemma encode_atom_inv c v d s : atom_size c = Some s -> value_atom c = true -> encode_atom c v = Some d ->
  exists z, d = le_enc (Z.to_nat s) z /\ 0 <= z < pow256 (Z.to_nat s)
    /\ v = if atom_signed c then RInt (to_signed (Z.to_nat s) z) else if atom_unsigned c then RInt z
           else if c =? C_REAL then RReal z else RLReal z.
Proof.
  intros Hs Hv He. unfold encode_atom in He. rewrite Hs in He.
  destruct (value_atom_plain c Hv) as [Hnb Hb].
  assert (0 < Z.to_nat s)%nat as Hw by (destruct (atom_size_cases _ _ Hs) as [| [| [|]]]; lia).
  destruct v; try discriminate.
  - destruct (atom_signed c).
    + destruct (in_srange (Z.to_nat s) z) eqn:Er; [| discriminate]. apply some_inj in He.
      exists (of_signed (Z.to_nat s) z). rewrite to_of_signed by assumption. auto using of_signed_range.
    + destruct (atom_unsigned c); [| discriminate].
      destruct (in_urange (Z.to_nat s) z) eqn:Er; [| discriminate]. apply some_inj in He.
      exists z. apply in_urange_iff in Er. auto.
  - rewrite Hnb in He. discriminate.
  - destruct ((c =? C_REAL) && in_urange 4 bits) eqn:E; [| discriminate]. apply some_inj in He.
    apply andb_prop in E. destruct E as [E1 E2]. apply in_urange_iff in E2.
    assert (c = C_REAL) by lia. subst c. apply some_inj in Hs. subst s. exists bits. auto.
  - destruct ((c =? C_LREAL) && in_urange 8 bits) eqn:E; [| discriminate]. apply some_inj in He.
    apply andb_prop in E. destruct E as [E1 E2]. apply in_urange_iff in E2.
    assert (c = C_LREAL) by lia. subst c. apply some_inj in Hs. subst s. exists bits. auto.
  - rewrite Hb in He. discriminate.
Qed.

Lemma encode_atom_len c v d s : atom_size c = Some s -> encode_atom c v = Some d -> value_atom c = true ->
  Expect.blen d = s.
Proof.
  intros Hs He Hv. destruct (encode_atom_inv _ _ _ _ Hs Hv He) as (z & -> & _).
  unfold Expect.blen. rewrite le_enc_length. destruct (atom_size_cases _ _ Hs) as [| [| [|]]]; lia.
Qed.

Lemma atom_roundtrip c v d : value_atom c = true -> encode_atom c v = Some d -> decode_atom c d = Some v.
Proof.
  intros Hv He.
  destruct (atom_size c) as [s |] eqn:Hs; [| unfold encode_atom in He; rewrite Hs in He; discriminate].
  pose proof (encode_atom_len _ _ _ _ Hs He Hv) as Hl.
  destruct (encode_atom_inv _ _ _ _ Hs Hv He) as (z & -> & Hz & ->).
  unfold decode_atom. rewrite Hs, Hl, Z.eqb_refl. cbn [negb].
  destruct (value_atom_plain c Hv) as [-> _]. rewrite le_dec_enc_id by exact Hz.
  unfold value_atom in Hv. destruct (atom_signed c); [reflexivity |]. destruct (atom_unsigned c); [reflexivity |].
  destruct (c =? C_REAL); [reflexivity |]. cbn [orb] in Hv. rewrite Hv. reflexivity.
Qed.

Lemma depth_fuel_S p : exists f, depth_fuel p = S f.
Proof. unfold depth_fuel. eauto. Qed.

Theorem write_read_place_atom p img inst off c dims avail v img' s :
  value_atom c = true -> atom_size c = Some s ->
  write_place p img (PlData inst off (BAtom c) dims avail) None None v = Some img' ->
  read_place p img' (PlData inst off (BAtom c) dims avail) None None = Some v
  /\ length img' = length img
  /\ forall k, (k < Z.to_nat off \/ Z.to_nat off + Z.to_nat s <= k)%nat -> nth k img' 0 = nth k img 0.
Proof.
  intros Hv Hs Hw. unfold write_place in Hw. cbn [base_size] in Hw. rewrite Hs in Hw.
  destruct (depth_fuel_S p) as [f Hf]. rewrite Hf in Hw. cbn [encode_val] in Hw.
  destruct (encode_atom c v) as [d|] eqn:He; [|discriminate].
  pose proof (encode_atom_len _ _ _ _ Hs He Hv) as Hl.
  rewrite Hl, Z.eqb_refl in Hw.
  split; [|split].
  - unfold read_place. cbn [base_size]. rewrite Hs.
    pose proof (put_get_bytes _ _ _ _ Hw) as Hg. rewrite Hl in Hg. rewrite Hg.
    rewrite Hf. cbn [decode_val]. apply atom_roundtrip; assumption.
  - eapply put_bytes_len; eassumption.
  - intros k Hk. eapply put_bytes_outside; [eassumption|].
    unfold Expect.blen in Hl. lia.
Qed.

Lemma mem_get_set_same m i v : mem_get (mem_set m i v) i = Some v.
Proof.
  induction m as [|[k w] r IH]; cbn.
  - rewrite Z.eqb_refl. reflexivity.
  - destruct (k =? i) eqn:E; cbn; rewrite ?E; auto.
Qed.

Lemma mem_get_set_other m i j v : i <> j -> mem_get (mem_set m i v) j = mem_get m j.
Proof.
  intros Hne. induction m as [|[k w] r IH]; cbn.
  - destruct (i =? j) eqn:E; [lia|reflexivity].
  - destruct (k =? i) eqn:E; cbn.
    + destruct (k =? j) eqn:E2; [lia|reflexivity].
    + destruct (k =? j); auto.
Qed.

(* a request that resolves to an atomic place (an atomic tag, an array element, an atomic member
   at any depth), read or written as one value *)
Theorem ref_write_read_atom p m r v m' inst off c dims avail s :
  resolve p r = Some (PlData inst off (BAtom c) dims avail) ->
  r_bit r = None -> r_count r = None ->
  value_atom c = true -> atom_size c = Some s ->
  ref_write p m r v = Some m' ->
  ref_read p m' r = Some v
  /\ (forall j, j <> inst -> mem_get m' j = mem_get m j)
  /\ exists img img', mem_get m inst = Some img /\ mem_get m' inst = Some img'
       /\ length img' = length img
       /\ forall k, (k < Z.to_nat off \/ Z.to_nat off + Z.to_nat s <= k)%nat -> nth k img' 0 = nth k img 0.
Proof.
  intros Hr Hb Hc Hv Hs Hw. unfold ref_write in Hw. rewrite Hr in Hw. cbn [place_inst] in Hw.
  destruct (mem_get m inst) as [img|] eqn:Hm; [|discriminate].
  rewrite Hb, Hc in Hw.
  destruct (write_place p img (PlData inst off (BAtom c) dims avail) None None v) as [img'|] eqn:Hp; [|discriminate].
  injection Hw as <-.
  destruct (write_read_place_atom _ _ _ _ _ _ _ _ _ _ Hv Hs Hp) as (H1 & H2 & H3).
  split; [|split].
  - unfold ref_read. rewrite Hr. cbn [place_inst]. rewrite mem_get_set_same, Hb, Hc. exact H1.
  - intros j Hj. apply mem_get_set_other. congruence.
  - exists img, img'. rewrite mem_get_set_same. auto.
Qed.

(* non-vacuity: a DINT tag in a one-tag project *)
Example ref_write_read_example :
  let g := mkTag [100] 7 ScCtrl (BAtom C_DINT) [] 0 false 0 0 0 0 in
  let p := mkProject [] [g] in
  let m := [(7, [1; 2; 3; 4])] in
  let r := mkReq None [mkSeg [100] []] None None in
  wf_project p = true /\ wf_mem p m = true
  /\ resolve p r = Some (PlData 7 0 (BAtom C_DINT) [] 1)
  /\ ref_write p m r (RInt (-2)) = Some [(7, [254; 255; 255; 255])]
  /\ ref_read p [(7, [254; 255; 255; 255])] r = Some (RInt (-2)).
Proof. vm_compute. repeat split; reflexivity. Qed.

Definition reply_len (svc : Z) (rp : mr_reply) : Z := EncapParser.blen (mr_bytes svc rp).

Lemma reply_len_eq svc rp :
  reply_len svc rp = 4 + 2 * Z.of_nat (length (rp_ext rp)) + Z.of_nat (length (rp_data rp)).
Proof.
  unfold reply_len, mr_bytes, EncapParser.blen. cbn [length].
  rewrite app_length.
  assert (H : forall l : list Z, length (flat_map (le_enc 2) l) = (2 * length l)%nat).
  { induction l as [|x l IH]; cbn [flat_map length]; [reflexivity|].
    rewrite app_length, le_enc_length, IH. lia. }
  rewrite H. lia.
Qed.

(* every error constructor used by the read services *)
Definition small_err (e : rres unit) : Prop :=
  match e with ROk _ => True | RErr _ ext _ => (length ext <= 1)%nat end.

Lemma fail_len svc (e : rres unit) : small_err e -> reply_len svc (fst (fail svc e)) <= 6.
Proof.
  intros H. rewrite reply_len_eq. destruct e as [u|st ext why];
  unfold fail, mr_error, small_err in *; cbn [fst rp_ext rp_data length]; lia.
Qed.

Lemma loc_bytes_len pol img l from k d : loc_bytes pol img l from k = Some d -> 1 <= k -> Expect.blen d <= k.
Proof.
  unfold loc_bytes. destruct (w_bit l).
  - destruct (get_bytes img (w_off l) 1) as [[|x [|y t]]|]; try discriminate.
    intros H; injection H as <-. unfold Expect.blen. cbn. lia.
  - intros H _. apply get_bytes_len in H. lia.
Qed.

Lemma ok_reply_len svc more tb d :
  reply_len svc (reply6 more (tb ++ d)) = 4 + Expect.blen tb + Expect.blen d.
Proof. rewrite reply_len_eq. unfold reply6. cbn [rp_ext rp_data length]. rewrite app_length. unfold Expect.blen. lia. Qed.

Theorem svc_read_fits p pol img l cap data :
  6 <= cap -> reply_len 76 (fst (svc_read p pol img l cap data)) <= cap.
Proof.
  intros Hcap. unfold svc_read.
  assert (Hf : forall e, small_err e -> reply_len 76 (fst (fail 76 e)) <= cap).
  { intros e He. pose proof (fail_len 76 e He). lia. }
  destruct data as [|e0 [|e1 [|e2 rest]]].
  1,2,4: match goal with |- context [if ?b then _ else _] => destruct b end; apply Hf; cbn; lia.
  destruct (loc_esize p l) as [s|]; [|apply Hf; cbn; lia].
  destruct (type_bytes p l) as [tb|]; [|apply Hf; cbn; lia].
  destruct (s <? 1) eqn:Es; [apply Hf; cbn; lia|].
  destruct ((u16 e0 e1 <? 1) || (w_avail l <? u16 e0 e1)); [apply Hf; cbn; lia|].
  set (n := u16 e0 e1). set (total := n * s). set (room := cap - 4 - Expect.blen tb).
  set (k := if total <=? room then total
            else let whole := room / s * s in if (whole <? 1) && loc_is_struct l then room - room mod 4 else whole).
  assert (Hk : k <= room \/ k < 1).
  { subst k. destruct (total <=? room) eqn:E1; [lia|]. cbn zeta.
    destruct ((room / s * s <? 1) && loc_is_struct l); [left; lia|left; nia]. }
  destruct (k <? 1) eqn:Ek.
  { cbn [fst]. rewrite reply_len_eq. cbn. lia. }
  destruct (loc_bytes pol img l 0 k) as [d|] eqn:Hd.
  - cbn [fst]. rewrite ok_reply_len. pose proof (loc_bytes_len _ _ _ _ _ _ Hd).
    unfold room, Expect.blen, Expect.blen in *. lia.
  - cbn [fst]. rewrite reply_len_eq. cbn. lia.
Qed.

Theorem svc_read_frag_fits p pol img l cap data :
  6 <= cap -> reply_len 82 (fst (svc_read_frag p pol img l cap data)) <= cap.
Proof.
  intros Hcap. unfold svc_read_frag.
  assert (Hf : forall e, small_err e -> reply_len 82 (fst (fail 82 e)) <= cap).
  { intros e He. pose proof (fail_len 82 e He). lia. }
  destruct data as [|e0 [|e1 [|o0 [|o1 [|o2 [|o3 [|x rest]]]]]]].
  1-6,8: match goal with |- context [if ?b then _ else _] => destruct b end; apply Hf; cbn; lia.
  destruct (loc_esize p l) as [s|]; [|apply Hf; cbn; lia].
  destruct (type_bytes p l) as [tb|]; [|apply Hf; cbn; lia].
  destruct (s <? 1) eqn:Es; [apply Hf; cbn; lia|].
  destruct ((u16 e0 e1 <? 1) || (w_avail l <? u16 e0 e1)); [apply Hf; cbn; lia|].
  set (n := u16 e0 e1). set (off := u32 o0 o1 o2 o3). set (total := n * s).
  destruct (total <=? off) eqn:Eo; [apply Hf; cbn; lia|].
  destruct (negb (loc_is_struct l) && negb (off mod s =? 0)); [apply Hf; cbn; lia|].
  set (room := cap - 4 - Expect.blen tb).
  set (want := pol_entry (po_frag pol) off).
  set (lim0 := if want <=? 0 then room else Z.min want room).
  set (lim := if loc_is_struct l then Z.max 1 lim0 else Z.max s (lim0 - lim0 mod s)).
  assert (Hl1 : 1 <= lim) by (subst lim; destruct (loc_is_struct l); lia).
  destruct (room <? lim) eqn:Er.
  { cbn [fst]. rewrite reply_len_eq. cbn. lia. }
  set (k := Z.min (total - off) lim).
  destruct (loc_bytes pol img l off k) as [d|] eqn:Hd.
  - cbn [fst]. rewrite ok_reply_len. pose proof (loc_bytes_len _ _ _ _ _ _ Hd).
    unfold room, Expect.blen, Expect.blen in *. lia.
  - cbn [fst]. rewrite reply_len_eq. cbn. lia.
Qed.

Print Assumptions ref_write_read_atom.
Print Assumptions svc_read_fits.
Print Assumptions svc_read_frag_fits.
