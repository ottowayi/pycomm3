(* Proofs/LifecycleTarget.v — what one frame can do to the reference target's session and
   connection tables (Spec/TargetCore.tstep, any handler), as needed by the lifecycle theorems (C10):
   [frame_effect] classifies a frame with the target's own strict parsers; [tstep_effect] says what
   each class does to the tables and which replies it can produce. *)
From Coq Require Import ZifyBool.
From PV Require Import Base.Bytes Base.BytesLemmas Spec.EncapParser Spec.MRParser Spec.TargetIface Spec.TargetCore.
From PV Require Import Proofs.TargetCoreP.
Open Scope Z_scope.

(* statuses whose byte is not 0: what every refusal of the target carries *)
Definition nz (s : Z) : Prop := s mod 256 <> 0.
Definition inj_ok (l : list injection) : Prop := Forall (fun i => nz (inj_status i)) l.

Lemma fit_status cap svc rp : nz (rp_status rp) -> nth 2 (fst (fit cap svc (mr_bytes svc rp))) 0 <> 0.
Proof.
  intros H. unfold fit. destruct (blen (mr_bytes svc rp) <=? cap); cbn [fst].
  - exact H.
  - cbn. lia.
Qed.

Lemma finish_reply_bytes {S} cap svc (p : tstate S * mr_reply) :
  snd (finish_reply cap svc p) = fst (fit cap svc (mr_bytes svc (snd p))).
Proof.
  unfold finish_reply. destruct p as [st1 rp]. cbn [snd].
  destruct (fit cap svc (mr_bytes svc rp)) as [bs evs]. reflexivity.
Qed.

Definition in32 (v : Z) : Prop := 1 <= v < 4294967296.
Lemma norm32_in v : in32 (norm32 v).
Proof. unfold in32, norm32. destruct (v mod 4294967296 =? 0) eqn:E; lia. Qed.
Definition in32z (v : Z) : Prop := 0 <= v < 4294967296.     (* connection ids: 0 included *)
Lemma wrap32_in v : in32z (wrap32 v).
Proof. unfold in32z, wrap32. lia. Qed.

Inductive effect := ENone | ERegister | EUnregister | EFo (large : bool) | EFClose.

(* what a message-router request that arrives over UCMM asks of the connection manager *)
Definition msg_effect (data : bytes) : effect :=
  match parse_mr data with
  | RcOk rq =>
      match path_cia (mr_path rq) with
      | Some (6, 1, None) =>
          if mr_service rq =? 84 then EFo false
          else if mr_service rq =? 91 then EFo true
          else if mr_service rq =? 78 then EFClose
          else ENone
      | _ => ENone
      end
  | RcErr _ => ENone
  end.

Definition parsed_effect (f : frame) : effect :=
  match f_body f with
  | BRegister => ERegister
  | BEmpty => if f_cmd f =? CMD_UNREGISTER then EUnregister else ENone
  | BCpf _ AddrNull _ data => msg_effect data
  | _ => ENone
  end.

Definition frame_effect (bs : bytes) : effect :=
  match parse_frame bs with
  | RcOk f => parsed_effect f
  | RcErr _ => ENone
  end.

(* a user message is any byte string that does not ask the connection manager to open or close a connection *)
Definition user_ok (msg : bytes) : bool := match msg_effect msg with ENone => true | _ => false end.

(* the match on the connection manager's path (class 6, instance 1, no attribute), as two cases *)
Lemma cm_path_cases (o : option (Z * Z * option Z)) :
  o = Some (6, 1, None) \/ forall A (a b : A), match o with Some (6, 1, None) => a | _ => b end = b.
Proof.
  destruct o as [[[c i] oa] |]; [| auto].
  destruct (Z.eq_dec c 6) as [-> | Nc]; [destruct (Z.eq_dec i 1) as [-> | Ni]; [destruct oa; [| left; reflexivity] |] |];
    right; intros A a b.
  - reflexivity.
  - destruct i as [| [] |]; try reflexivity. contradiction.
  - destruct c as [| p |]; try reflexivity. do 3 (destruct p as [p | p |]; try reflexivity). contradiction.
Qed.

Definition rq_effect (rq : mr_request) : effect :=
  match path_cia (mr_path rq) with
  | Some (6, 1, None) =>
      if mr_service rq =? 84 then EFo false
      else if mr_service rq =? 91 then EFo true
      else if mr_service rq =? 78 then EFClose
      else ENone
  | _ => ENone
  end.

Lemma rq_effect_cases rq : rq_effect rq = ENone \/ (exists l, rq_effect rq = EFo l) \/ rq_effect rq = EFClose.
Proof.
  unfold rq_effect. destruct (cm_path_cases (path_cia (mr_path rq))) as [-> | ->]; [| auto].
  repeat break_match; auto; right; left; eexists; reflexivity.
Qed.
Lemma msg_effect_cases d : msg_effect d = ENone \/ (exists l, msg_effect d = EFo l) \/ msg_effect d = EFClose.
Proof. unfold msg_effect. destruct (parse_mr d) as [rq |]; [apply rq_effect_cases | auto]. Qed.

Lemma same_inj_ok {S} (a b : tstate S) : same_tables a b -> inj_ok (t_inject b) -> inj_ok (t_inject a).
Proof. intros H Hb. apply (st_inj _ _ H nz). exact Hb. Qed.

(* a Forward Open that reached the connection manager: granted (a connection of this session is added
   and the reply starts with its O->T id) or answered with a non-zero status byte, tables unchanged *)
Lemma fo_finish {S} session (st0 st : tstate S) rq large svc :
  same_tables st0 st -> inj_ok (t_inject st) ->
  let r := finish_reply UCMM_CAPACITY svc (with_injection st0 svc (fun s => forward_open large session s rq)) in
  t_sessions (fst r) = t_sessions st /\ t_cfg (fst r) = t_cfg st /\ inj_sub (t_inject (fst r)) (t_inject st)
  /\ ((t_conns (fst r) = t_conns st /\ nth 2 (snd r) 0 <> 0)
      \/ exists c rest, t_conns (fst r) = c :: t_conns st /\ c_session c = session /\ in32z (c_ot_id c)
                        /\ snd r = reply_service svc :: 0 :: 0 :: 0 :: le_enc 4 (c_ot_id c) ++ rest).
Proof.
  intros H0 Hinj.
  destruct (with_injection_cases st0 svc (fun s => forward_open large session s rq))
    as [(i & Hi & Hsame & Hrp) | (s & Hs0 & Heq)].
  - (* an injected error *)
    assert (same_tables (fst (with_injection st0 svc (fun s => forward_open large session s rq))) st) as Hst
      by (eapply same_trans; eassumption).
    pose proof (finish_reply_same UCMM_CAPACITY svc _ st Hst) as Hf.
    destruct Hf as [F1 F2 F3 F4].
    split; [exact F1 |]. split; [exact F3 |]. split; [exact F4 |].
    left. split; [exact F2 |].
    rewrite finish_reply_bytes, Hrp. apply fit_status. cbn [rp_status mr_error].
    exact (proj2 (take_injection_keeps svc nz _ None (same_inj_ok st0 st H0 Hinj) ltac:(discriminate)) i Hi).
  - rewrite Heq.
    assert (same_tables s st) as Hss by (eapply same_trans; eassumption).
    destruct (forward_open_cases large session s rq) as [(evs & E & Hnz) | (evs & c & v & rest & E & Hses & Hid & _ & Hrp & Hl)];
      destruct (forward_open large session s rq) as [s1 rp]; cbn [fst snd] in *; subst s1.
    + destruct (finish_reply_same UCMM_CAPACITY svc (logs evs s, rp) st (same_logs_l _ _ _ Hss)) as [F1 F2 F3 F4].
      split; [exact F1 |]. split; [exact F3 |]. split; [exact F4 |]. left. split; [exact F2 |].
      rewrite finish_reply_bytes. apply fit_status, Hnz.
    + destruct Hss as [S1 S2 S3 S4].
      destruct (finish_reply_same UCMM_CAPACITY svc (logs evs (set_conns (c :: t_conns s) (t_nconns s + 1) s), rp) _ (same_refl _))
        as [G1 G2 G3 G4].
      cbn [fst logs set_conns t_sessions t_conns t_cfg t_inject] in G1, G2, G3, G4.
      split; [congruence |]. split; [congruence |]. split; [eapply inj_sub_trans; eassumption |].
      right. exists c, rest. split; [congruence |]. split; [exact Hses |]. split; [rewrite Hid; apply wrap32_in |].
      rewrite finish_reply_bytes. cbn [snd]. subst rp. unfold fit.
      assert (blen (mr_bytes svc (mr_ok (le_enc 4 (c_ot_id c) ++ rest))) = 30) as ->; [| reflexivity].
      unfold mr_bytes, mr_ok. cbn [rp_ext rp_data rp_status flat_map app].
      rewrite !blen_cons, blen_app, blen_le_enc. lia.
Qed.

Lemma fc_finish {S} (st0 st : tstate S) rq svc :
  same_tables st0 st ->
  let r := finish_reply UCMM_CAPACITY svc (with_injection st0 svc (fun s => forward_close s rq)) in
  t_sessions (fst r) = t_sessions st /\ t_cfg (fst r) = t_cfg st /\ inj_sub (t_inject (fst r)) (t_inject st)
  /\ exists P, t_conns (fst r) = filter P (t_conns st).
Proof.
  intros H0.
  destruct (with_injection_cases st0 svc (fun s => forward_close s rq)) as [(i & Hi & Hsame & Hrp) | (s & Hs0 & Heq)].
  - assert (same_tables (fst (with_injection st0 svc (fun s => forward_close s rq))) st) as Hst
      by (eapply same_trans; eassumption).
    destruct (finish_reply_same UCMM_CAPACITY svc _ st Hst) as [F1 F2 F3 F4].
    repeat split; try assumption. exists (fun _ => true). rewrite F2. apply filter_true.
  - rewrite Heq.
    assert (same_tables s st) as [S1 S2 S3 S4] by (eapply same_trans; eassumption).
    destruct (forward_close_spec s rq) as (Fs & Fc & Fi & (P & FP)).
    destruct (forward_close s rq) as [s1 rp].
    destruct (finish_reply_same UCMM_CAPACITY svc (s1, rp) s1 (same_refl _)) as [G1 G2 G3 G4]. cbn [fst] in *.
    split; [congruence |]. split; [congruence |].
    split; [eapply inj_sub_trans; [exact G4 |]; rewrite Fi; exact S4 |].
    exists P. congruence.
Qed.

Lemma ucmm_effect {S} (h : handler S) session st rq : inj_ok (t_inject st) ->
  let r := ucmm h session st rq in
  t_sessions (fst r) = t_sessions st /\ t_cfg (fst r) = t_cfg st /\ inj_sub (t_inject (fst r)) (t_inject st)
  /\ match rq_effect rq with
     | EFo _ => (t_conns (fst r) = t_conns st /\ nth 2 (snd r) 0 <> 0)
                \/ exists c rest, t_conns (fst r) = c :: t_conns st /\ c_session c = session /\ in32z (c_ot_id c)
                                  /\ snd r = reply_service (mr_service rq) :: 0 :: 0 :: 0 :: le_enc 4 (c_ot_id c) ++ rest
     | EFClose => exists P, t_conns (fst r) = filter P (t_conns st)
     | _ => t_conns (fst r) = t_conns st
     end.
Proof.
  intros Hinj. unfold rq_effect, ucmm.
  assert (forall r : tstate S * bytes, same_tables (fst r) st ->
            t_sessions (fst r) = t_sessions st /\ t_cfg (fst r) = t_cfg st /\ inj_sub (t_inject (fst r)) (t_inject st)
            /\ t_conns (fst r) = t_conns st) as Hsame by (intros r [A1 A2 A3 A4]; auto).
  destruct (cm_path_cases (path_cia (mr_path rq))) as [-> | H]; [| rewrite !H; apply Hsame, dispatch_same].
  pose proof (same_logs [EvRequest TUcmm None rq] st) as H0.
  destruct (mr_service rq =? 84) eqn:E84.
  { replace (mr_service rq =? 82) with false by lia. apply fo_finish; assumption. }
  destruct (mr_service rq =? 91) eqn:E91.
  { replace (mr_service rq =? 82) with false by lia. apply fo_finish; assumption. }
  destruct (mr_service rq =? 78) eqn:E78.
  { replace (mr_service rq =? 82) with false by lia. apply fc_finish; assumption. }
  apply Hsame. repeat break_match; try apply dispatch_same; apply finish_reply_same; cbn [fst]; apply same_logs.
Qed.

Definition tables_eq {S} (a b : tstate S) : Prop := t_sessions a = t_sessions b /\ t_conns a = t_conns b.

(* replies the originator of a request cannot take for a success: a bare 24-byte header, or an
   unconnected data item whose general status byte is not 0 *)
Definition rr_refusal (raw : bytes) : Prop :=
  List.length raw = 24%nat
  \/ exists cmd ses ctx bs, List.length ctx = 8%nat
                             /\ raw = encap_reply cmd ses 0 ctx (mk_cpf 0 AddrNull ITEM_UNCONN_DATA bs) /\ nth 2 bs 0 <> 0.
(* the success reply of a Forward Open: status 0, no extended status, data = O->T id ... *)
Definition fo_success (raw : bytes) (otid : Z) : Prop :=
  exists cmd ses ctx svcb rest, List.length ctx = 8%nat /\ 128 <= svcb
    /\ raw = encap_reply cmd ses 0 ctx (mk_cpf 0 AddrNull ITEM_UNCONN_DATA (svcb :: 0 :: 0 :: 0 :: le_enc 4 otid ++ rest)).

Lemma encap_reply_len cmd ses status ctx body :
  List.length ctx = 8%nat -> List.length (encap_reply cmd ses status ctx body) = (24 + List.length body)%nat.
Proof.
  intros H. unfold encap_reply, mk_header. rewrite !app_length, !le_enc_length, H. lia.
Qed.

Definition effect_post {S} (e : effect) (bs : bytes) (st : tstate S) (r : tstate S * option bytes) : Prop :=
  t_cfg (fst r) = t_cfg st /\ inj_ok (t_inject (fst r)) /\
  match e with
  | ENone => tables_eq (fst r) st
  | ERegister => t_conns (fst r) = t_conns st
                 /\ (t_sessions (fst r) = t_sessions st \/ exists hd, t_sessions (fst r) = hd :: t_sessions st)
  | EUnregister => snd r = None
                   /\ (tables_eq (fst r) st
                       \/ exists ses, t_sessions (fst r) = filter (fun x => negb (x =? ses)) (t_sessions st)
                                      /\ t_conns (fst r) = filter (fun c => negb (c_session c =? ses)) (t_conns st))
  | EFo large =>
      t_sessions (fst r) = t_sessions st
      /\ ((t_conns (fst r) = t_conns st /\ forall raw, snd r = Some raw -> rr_refusal raw)
          \/ exists c f raw, parse_frame bs = RcOk f /\ t_conns (fst r) = c :: t_conns st /\ c_session c = f_session f
                             /\ mem_z (f_session f) (t_sessions st) = true /\ in32z (c_ot_id c)
                             /\ snd r = Some raw /\ fo_success raw (c_ot_id c))
  | EFClose => t_sessions (fst r) = t_sessions st /\ exists P, t_conns (fst r) = filter P (t_conns st)
  end.

Lemma effect_post_same {S} bs (st : tstate S) r : inj_ok (t_inject st) -> same_tables (fst r) st -> effect_post ENone bs st r.
Proof.
  intros Hinj [A1 A2 A3 A4]. split; [exact A3 |]. split; [apply (A4 nz); exact Hinj |]. split; assumption.
Qed.

Lemma ucmm_item_effect {S} (h : handler S) (st st' : tstate S) bs f t dt d :
  inj_ok (t_inject st') -> same_tables st st' ->
  parse_frame bs = RcOk f -> f_body f = BCpf t AddrNull dt d -> List.length (f_context f) = 8%nat ->
  mem_z (f_session f) (t_sessions st') = true ->
  effect_post (msg_effect d) bs st'
    (match ucmm_item h (f_session f) st d with
     | (st1, Some bs1) => (st1, Some (encap_reply (f_cmd f) (f_session f) 0 (f_context f) (mk_cpf 0 AddrNull ITEM_UNCONN_DATA bs1)))
     | (st1, None) => (st1, Some (encap_reply (f_cmd f) (f_session f) 3 (f_context f) []))
     end).
Proof.
  intros Hinj' H0 Ep Ebody Hctx Emem.
  assert (inj_ok (t_inject st)) as Hinj by (eapply same_inj_ok; eassumption).
  unfold ucmm_item, msg_effect.
  destruct (parse_mr d) as [rq | c] eqn:Emr.
  2: { destruct (c =? 1); (apply effect_post_same; [exact Hinj' |]); cbn [fst]; repeat apply same_logs_l; exact H0. }
  fold (rq_effect rq).
  pose proof (ucmm_effect h (f_session f) st rq Hinj) as (G1 & G2 & G3 & G4).
  destruct (ucmm h (f_session f) st rq) as [st1 bs1]. cbn [fst snd] in *. destruct H0 as [B1 B2 B3 B4].
  split; [cbn [fst]; congruence |]. split; [cbn [fst]; apply (G3 nz); exact Hinj |]. cbn [fst snd].
  destruct (rq_effect_cases rq) as [E | [[large E] | E]]; rewrite E in *.
  - split; congruence.
  - split; [congruence |].
    destruct G4 as [[Gc Gnz] | (c & rest & Gc & Gs & Gid & Gb)].
    + left. split; [congruence |]. intros raw H. inversion H; subst. right. do 4 eexists. split; [exact Hctx |]. split; [reflexivity | exact Gnz].
    + right. exists c, f. eexists. split; [exact Ep |]. split; [congruence |]. split; [exact Gs |].
      split; [exact Emem |]. split; [exact Gid |]. split; [reflexivity |].
      subst bs1. do 5 eexists. split; [exact Hctx |]. split; [| reflexivity].
      unfold reply_service. lia.
  - split; [congruence |]. destruct G4 as [P G4]. exists P. congruence.
Qed.

Theorem tstep_effect {S} (h : handler S) st bs : inj_ok (t_inject st) ->
  effect_post (frame_effect bs) bs st (tstep h st bs).
Proof.
  intros Hinj. unfold tstep, frame_effect.
  destruct (parse_header bs) as [[hd body] |] eqn:Eh.
  2: { assert (exists c, parse_frame bs = RcErr c) as [c Hc].
       { unfold parse_frame. rewrite Eh. destruct (negb (bytes_ok bs)); eexists; reflexivity. }
       rewrite Hc. apply effect_post_same; [exact Hinj | apply same_logs]. }
  set (st0 := logs [EvFrame (h_cmd hd) (h_session hd) (List.length bs)] st).
  assert (same_tables st0 st) as H0 by apply same_logs.
  destruct (parse_frame bs) as [f | c] eqn:Ep.
  2: { apply effect_post_same; [exact Hinj | cbn [fst]; apply same_logs_l; exact H0]. }
  destruct (parse_frame_inv bs f Ep) as (hd' & body' & Eh' & Fcmd & Fses & Fctx & Fbody & Fknown & Fok).
  rewrite Eh in Eh'. inversion Eh'; subst hd' body'; clear Eh'.
  assert (List.length (f_context f) = 8%nat) as Hctx by (rewrite Fctx; exact (proj2 (parse_header_inv _ _ _ Eh))).
  unfold parsed_effect.
  destruct (f_body f) as [d | | | t a dt d] eqn:Ebody.
  - (* NOP *) unfold step_frame. rewrite Ebody. apply effect_post_same; [exact Hinj | exact H0].
  - (* no data *)
    unfold step_frame. rewrite Ebody. rewrite Fcmd in *.
    assert (h_cmd hd = CMD_LIST_SERVICES \/ h_cmd hd = CMD_LIST_IDENTITY \/ h_cmd hd = CMD_LIST_INTERFACES
            \/ h_cmd hd = CMD_UNREGISTER) as [E | [E | [E | E]]]
      by (pose proof (parse_body_inv _ _ _ Fbody) as Hc;
          unfold known_command, CMD_NOP, CMD_REGISTER, CMD_RRDATA, CMD_UNITDATA, CMD_LIST_SERVICES, CMD_LIST_IDENTITY,
            CMD_LIST_INTERFACES, CMD_UNREGISTER in *; lia).
    all: rewrite E;
      cbn [Z.eqb Pos.eqb CMD_LIST_SERVICES CMD_LIST_IDENTITY CMD_LIST_INTERFACES CMD_UNREGISTER];
      try (apply effect_post_same; [exact Hinj | exact H0]).
    destruct (mem_z (f_session f) (t_sessions st0)).
    + split; [reflexivity |]. split; [exact Hinj |]. split; [reflexivity |].
      right. exists (f_session f). split; reflexivity.
    + split; [reflexivity |]. split; [exact Hinj |]. split; [reflexivity |]. left. split; reflexivity.
  - (* RegisterSession *)
    unfold step_frame. rewrite Ebody.
    destruct (cf_accept_session (t_cfg st0)).
    + split; [reflexivity |]. split; [exact Hinj |]. split; [reflexivity |]. right. eexists. reflexivity.
    + split; [reflexivity |]. split; [exact Hinj |]. split; [reflexivity |]. left. reflexivity.
  - (* common packet format *)
    pose proof (parse_body_inv _ _ _ Fbody) as Ecmd. destruct a as [| cid].
    2: { apply effect_post_same; [exact Hinj |].
         eapply same_trans; [eapply step_frame_conn_same; exact Ebody | exact H0]. }
    unfold step_frame. rewrite Ebody.
    destruct (mem_z (f_session f) (t_sessions st0)) eqn:Emem; cbn [negb].
    2: { (* session not registered *)
         split; [reflexivity |]. split; [exact Hinj |].
         assert (forall raw, (if f_cmd f =? CMD_RRDATA then Some (encap_reply (f_cmd f) (f_session f) 100 (f_context f) []) else None) = Some raw
                             -> rr_refusal raw) as Href.
         { intros raw. destruct (f_cmd f =? CMD_RRDATA); [| discriminate].
           intros H; inversion H; subst. left. rewrite encap_reply_len by exact Hctx. reflexivity. }
         cbn [fst snd].
         destruct (msg_effect_cases d) as [-> | [[large ->] | ->]].
         - split; reflexivity.
         - split; [reflexivity |]. left. split; [reflexivity | exact Href].
         - split; [reflexivity |]. exists (fun _ => true). apply filter_true. }
    apply (ucmm_item_effect h st0 st bs f t dt d Hinj H0 Ep Ebody Hctx). exact Emem.
Qed.
