(* Proofs/LifecycleP.v — lemmas about the connection lifecycle model (Model/Lifecycle.v) composed
   with the reference target: frames the driver builds as the target's strict parser reads them,
   replies of the target as the driver classifies them, and the reachability predicate [Good] that
   every call of a history keeps. *)
From Coq Require Import ZifyBool.
From PV Require Import Base.Bytes Base.BytesLemmas Base.Res.
From PV Require Import Gen.Consts Gen.LifecycleGen Gen.SeqGen.
From PV Require Import Spec.EncapParser Spec.MRParser Spec.TargetIface Spec.TargetCore.
From PV Require Import Proofs.TargetCoreP Proofs.LifecycleTarget Model.Lifecycle.
Open Scope Z_scope.

Lemma nth_header_body cmd len ses st ctx opt body k :
  List.length ctx = 8%nat -> nth (24 + k) (mk_header cmd len ses st ctx opt ++ body) 0 = nth k body 0.
Proof.
  intros H. rewrite app_nth2; unfold mk_header; rewrite !app_length, !le_enc_length, H; [| lia].
  f_equal. lia.
Qed.

Lemma rr_refusal_invalid raw : rr_refusal raw -> valid KRR raw = false.
Proof.
  intros [H | (cmd & ses & ctx & bs & Hctx & -> & Hnz)].
  - unfold valid, parse_error, cip_error, off_svc, off_st, RR_OFF_SERVICE, RR_OFF_STATUS, base_error, OFF_STATUS_HI.
    rewrite H. reflexivity.
  - destruct (length8 ctx ltac:(unfold blen; rewrite Hctx; reflexivity)) as (x0 & x1 & x2 & x3 & x4 & x5 & x6 & x7 & ->).
    unfold valid, off_st, RR_OFF_STATUS.
    assert (nthz 42 (encap_reply cmd ses 0 [x0; x1; x2; x3; x4; x5; x6; x7] (mk_cpf 0 AddrNull ITEM_UNCONN_DATA bs)) = nth 2 bs 0) as ->.
    { unfold nthz, encap_reply, mk_header, mk_cpf, addr_bytes. cbn [le_enc app nth]. reflexivity. }
    destruct (nth 2 bs 0 =? SUCCESS) eqn:E; [unfold SUCCESS in E; lia |].
    rewrite Bool.andb_false_r. reflexivity.
Qed.

Lemma fo_success_valid raw otid : fo_success raw otid ->
  valid KRR raw = true /\ firstn 4 (data_of KRR raw) = le_enc 4 otid /\ error_raises KRR raw = None.
Proof.
  intros (cmd & ses & ctx & svcb & rest & Hctx & Hsvc & ->).
  destruct (length8 ctx ltac:(unfold blen; rewrite Hctx; reflexivity)) as (x0 & x1 & x2 & x3 & x4 & x5 & x6 & x7 & ->).
  assert (valid KRR (encap_reply cmd ses 0 [x0; x1; x2; x3; x4; x5; x6; x7]
                       (mk_cpf 0 AddrNull ITEM_UNCONN_DATA (svcb :: 0 :: 0 :: 0 :: le_enc 4 otid ++ rest))) = true) as Hv.
  { unfold valid, parse_error, cip_error, base_error, command_status, off_svc, off_st, nthz,
      RR_OFF_SERVICE, RR_OFF_STATUS, OFF_STATUS_HI, OFF_STATUS_LO, slice, encap_reply, mk_header, mk_cpf, addr_bytes.
    cbn [le_enc app nth List.length firstn skipn Nat.sub Nat.ltb Nat.leb le_dec].
    destruct (svcb <? 128) eqn:E; [lia |]. reflexivity. }
  split; [exact Hv |]. split.
  - unfold data_of, off_data, RR_OFF_DATA, encap_reply, mk_header, mk_cpf, addr_bytes.
    cbn [le_enc app skipn firstn]. reflexivity.
  - unfold error_raises. rewrite Hv. reflexivity.
Qed.

Lemma in_urange2 x : in_urange 2 x = true <-> 0 <= x < 65536.
Proof. exact (in_urange_iff 2 x). Qed.
Lemma in_urange4 x : in_urange 4 x = true <-> 0 <= x < 4294967296.
Proof. exact (in_urange_iff 4 x). Qed.

Lemma build_request_inv cmd common ses fr : build_request cmd common ses = Ok fr ->
  exists c, common = Ok c /\ 0 <= blen c < 65536 /\ 0 <= ses < 4294967296
            /\ fr = (cmd ++ le_enc 2 (blen c) ++ le_enc 4 ses ++ HEADER_STATUS ++ CFG_CONTEXT ++ le_enc 4 CFG_OPTION) ++ c.
Proof.
  unfold build_request, bind. destruct common as [c | e]; [| discriminate].
  unfold build_header.
  destruct (in_urange 2 (blen c)) eqn:E1; cbn [andb]; [| discriminate].
  destruct (in_urange 4 ses) eqn:E2; cbn [andb]; [| discriminate].
  destruct (in_urange 4 CFG_OPTION); [| discriminate].
  intros H. inversion H; subst. exists c. apply in_urange2 in E1. apply in_urange4 in E2. auto.
Qed.

Definition rr_parsed (ses : Z) (msg : bytes) : frame :=
  {| f_cmd := CMD_RRDATA; f_session := ses; f_context := CFG_CONTEXT; f_body := BCpf 10 AddrNull ITEM_UNCONN_DATA msg |}.

Lemma rr_frame_mk ses msg fr : rr_frame ses msg = Ok fr ->
  fr = mk_frame (rr_parsed ses msg) /\ 0 <= ses < 4294967296 /\ blen msg < 65536 - 16.
Proof.
  unfold rr_frame. intros H. destruct (build_request_inv _ _ _ _ H) as (c & Hc & Hlen & Hses & ->).
  unfold cpf, bind in Hc. destruct (in_urange 2 (blen msg)) eqn:E; [| discriminate].
  inversion Hc; subst c; clear Hc. apply in_urange2 in E.
  split; [| split; [exact Hses |]].
  - unfold mk_frame, rr_parsed, mk_header, mk_cpf, body_bytes, addr_bytes. cbn [f_cmd f_session f_context f_body].
    reflexivity.
  - clear - Hlen. rewrite !blen_cons in Hlen. lia.
Qed.

Lemma rr_frame_parse ses msg fr : rr_frame ses msg = Ok fr ->
  parse_frame fr = if bytes_ok msg then RcOk (rr_parsed ses msg) else RcErr 1.
Proof.
  intros H. destruct (rr_frame_mk _ _ _ H) as (-> & Hses & Hlen).
  destruct (bytes_ok msg) eqn:Eok.
  - apply parse_mk_frame. unfold frame_wf, rr_parsed, body_wf. cbn [f_session f_context f_cmd f_body].
    rewrite Eok. pose proof (blen_nonneg msg).
    replace (bytes_ok CFG_CONTEXT) with true by reflexivity.
    replace (blen CFG_CONTEXT =? 8) with true by reflexivity.
    unfold CMD_RRDATA, ITEM_UNCONN_DATA. lia.
  - unfold parse_frame, mk_frame, rr_parsed, body_bytes, mk_cpf. cbn [f_cmd f_session f_context f_body].
    rewrite !bytes_ok_app, Eok, !Bool.andb_false_r. reflexivity.
Qed.

Lemma rr_frame_effect ses msg fr : rr_frame ses msg = Ok fr ->
  frame_effect fr = if bytes_ok msg then msg_effect msg else ENone.
Proof.
  intros H. unfold frame_effect. rewrite (rr_frame_parse _ _ _ H). destruct (bytes_ok msg); reflexivity.
Qed.

Lemma parse_frame_cmd bs f : parse_frame bs = RcOk f -> f_cmd f = u16 (nth 0 bs 0) (nth 1 bs 0).
Proof.
  intros H. destruct (parse_frame_inv _ _ H) as (hd & body & Eh & Fcmd & _). rewrite Fcmd.
  exact (proj1 (parse_header_inv _ _ _ Eh)).
Qed.

Lemma frame_effect_cmd bs :
  let c := u16 (nth 0 bs 0) (nth 1 bs 0) in
  match frame_effect bs with
  | ENone => True
  | ERegister => c = CMD_REGISTER
  | EUnregister => c = CMD_UNREGISTER
  | EFo _ | EFClose => c = CMD_RRDATA
  end.
Proof.
  unfold frame_effect. destruct (parse_frame bs) as [f | e] eqn:Ep; [| exact I].
  rewrite <- (parse_frame_cmd _ _ Ep).
  destruct (parse_frame_inv _ _ Ep) as (hd & body & Eh & Fcmd & Fses & Fctx & Fbody & Fk & Fok).
  pose proof (parse_body_inv _ _ _ Fbody) as Hc. unfold parsed_effect. rewrite Fcmd.
  destruct (f_body f) as [d | | | t [| cid] dt d]; try exact I.
  - destruct (h_cmd hd =? CMD_UNREGISTER) eqn:E; [lia | exact I].
  - exact Hc.
  - destruct (msg_effect_cases d) as [-> | [[l ->] | ->]]; try exact I; exact Hc.
Qed.

Lemma build_request_cmd a b common ses fr : build_request [a; b] common ses = Ok fr ->
  u16 (nth 0 fr 0) (nth 1 fr 0) = u16 a b.
Proof.
  intros H. destruct (build_request_inv _ _ _ _ H) as (c & _ & _ & _ & ->). reflexivity.
Qed.

Lemma ud_frame_effect ses cid sq msg fr : ud_frame ses cid sq msg = Ok fr -> frame_effect fr = ENone.
Proof.
  unfold ud_frame. destruct (in_urange 2 sq); [| discriminate]. intros H.
  pose proof (build_request_cmd _ _ _ _ _ H) as Hc. pose proof (frame_effect_cmd fr) as He.
  rewrite Hc in He. destruct (frame_effect fr); try reflexivity; discriminate.
Qed.

Definition ud_parsed (ses otid sq : Z) (msg : bytes) : frame :=
  {| f_cmd := CMD_UNITDATA; f_session := ses; f_context := CFG_CONTEXT;
     f_body := BCpf 10 (AddrConn otid) ITEM_CONN_DATA (le_enc 2 sq ++ msg) |}.

Lemma ud_frame_mk ses otid sq msg fr : ud_frame ses (Some (le_enc 4 otid)) sq msg = Ok fr ->
  fr = mk_frame (ud_parsed ses otid sq msg) /\ 0 <= ses < 4294967296 /\ blen msg < 65536 - 22.
Proof.
  unfold ud_frame. destruct (in_urange 2 sq) eqn:Esq; [| discriminate]. intros H.
  destruct (build_request_inv _ _ _ _ H) as (c & Hc & Hlen & Hses & ->).
  unfold cpf, bind in Hc. rewrite blen_le_enc in Hc.
  replace (in_urange 2 (Z.of_nat 4)) with true in Hc by reflexivity.
  destruct (in_urange 2 (blen (le_enc 2 sq ++ msg))) eqn:E; [| discriminate].
  inversion Hc; subst c; clear Hc.
  split; [| split; [exact Hses |]].
  - unfold mk_frame, ud_parsed, mk_header, mk_cpf, body_bytes, addr_bytes. cbn [f_cmd f_session f_context f_body].
    reflexivity.
  - clear - Hlen. rewrite !blen_cons in Hlen. lia.
Qed.

Lemma ud_frame_parse ses otid sq msg fr f :
  ud_frame ses (Some (le_enc 4 otid)) sq msg = Ok fr -> 0 <= otid < 4294967296 -> parse_frame fr = RcOk f ->
  f = ud_parsed ses otid sq msg.
Proof.
  intros H Hid Hp. destruct (ud_frame_mk _ _ _ _ _ H) as (-> & Hses & Hlen).
  destruct (parse_frame_inv _ _ Hp) as (_ & _ & _ & _ & _ & _ & _ & _ & Hok).
  assert (bytes_ok (le_enc 2 sq ++ msg) = true) as Hokm.
  { unfold mk_frame, ud_parsed, body_bytes, mk_cpf in Hok. cbn [f_cmd f_session f_context f_body] in Hok.
    rewrite !bytes_ok_app in Hok. rewrite !Bool.andb_true_iff in Hok.
    rewrite bytes_ok_app, le_enc_ok. cbn [andb]. tauto. }
  assert (parse_frame (mk_frame (ud_parsed ses otid sq msg)) = RcOk (ud_parsed ses otid sq msg)) as Hp'.
  { apply parse_mk_frame. unfold frame_wf, ud_parsed, body_wf. cbn [f_session f_context f_cmd f_body].
    rewrite Hokm. replace (bytes_ok CFG_CONTEXT) with true by reflexivity.
    replace (blen CFG_CONTEXT =? 8) with true by reflexivity.
    rewrite blen_app, blen_le_enc. pose proof (blen_nonneg msg).
    unfold CMD_UNITDATA, ITEM_CONN_DATA. lia. }
  rewrite Hp' in Hp. inversion Hp. reflexivity.
Qed.

Definition okres {A} (r : res A) : Prop := is_library r = true.
Lemma okres_ok {A} (a : A) : okres (Ok a). Proof. reflexivity. Qed.
Lemma okres_wrap {A} (r : res A) : okres (wrap_all CommError r).
Proof. destruct r; reflexivity. Qed.

Lemma okres_bind {A B} (r : res A) (f : A -> res B) : okres r -> (forall a, okres (f a)) -> okres (bind r f).
Proof. intros H Hf. destruct r as [a | e]; [apply Hf | exact H]. Qed.

Lemma build_header_ok cmd len ses : okres (build_header cmd len ses).
Proof. unfold build_header. destruct (_ && _); reflexivity. Qed.
Lemma cpf_ok a b c d : okres (cpf a b c d).
Proof.
  apply okres_bind; [destruct b as [x |]; [destruct (in_urange 2 (blen x)) |]; reflexivity |].
  intros ad. destruct (in_urange 2 (blen d)); reflexivity.
Qed.
Lemma build_request_ok cmd common ses : okres common -> okres (build_request cmd common ses).
Proof. intros H. apply okres_bind; [exact H |]. intros c. apply okres_bind; [apply build_header_ok | reflexivity]. Qed.

Lemma rr_frame_ok ses msg : okres (rr_frame ses msg).
Proof. apply build_request_ok, cpf_ok. Qed.
Lemma ud_frame_ok ses cid sq msg : okres (ud_frame ses cid sq msg).
Proof. unfold ud_frame. destruct (in_urange 2 sq); [apply build_request_ok, cpf_ok | reflexivity]. Qed.
Lemma simple_frames_ok ses : okres (register_frame ses) /\ okres (unregister_frame ses) /\ okres (list_identity_frame ses).
Proof. repeat split; apply build_request_ok; reflexivity. Qed.

Lemma ext_status_raises_lib s e : ext_status_raises s = Some e -> is_foreign e = false.
Proof.
  unfold ext_status_raises.
  repeat (match goal with |- context [match ?x with _ => _ end] => destruct x end; try discriminate);
    intros H; inversion H; reflexivity.
Qed.

Lemma classify_ok k raw : okres (classify k raw).
Proof.
  unfold okres, classify, error_raises.
  destruct (valid k raw || parse_error k raw); [reflexivity |].
  destruct (ext_status_raises (skipn (off_ext k) raw)) as [e |] eqn:E; [| reflexivity].
  cbn. rewrite (ext_status_raises_lib _ _ E). reflexivity.
Qed.

Section World.
Context {S : Type} (h : handler S).
Notation world := (world (S := S)).
Notation st := (st (S := S)).

(* the trace (newest first) is a consistent history of the target: it starts from empty tables, every
   frame delivered was processed by [tstep] in the state the previous event left, and the TCP
   connection dropping ([TVanish], a socket close the target is notified of) empties the tables *)
Fixpoint chained (tr : list (tev (S := S))) (t : tstate S) : Prop :=
  match tr with
  | [] => t_sessions t = [] /\ t_conns t = []
  | e :: older =>
      match e with
      | TDeliver b fr rep =>
          chained older b /\ inj_ok (t_inject b) /\ t = fst (tstep h b fr) /\ rep = snd (tstep h b fr)
      | TVanish => exists b, chained older b /\ t = tclosed b
      | TSockClose n => exists b, chained older b /\ t = (if n then tclosed b else b)
      | TConnect _ => chained older t
      end
  end.

(* holds of every world a run can reach, whatever the faults *)
Record WGood (cfg0 : tcfg) (w : world) : Prop := {
  wg_cfg : t_cfg (w_t w) = cfg0;
  wg_inj : inj_ok (t_inject (w_t w));
  wg_closed : w_open w = false -> t_sessions (w_t w) = [] /\ t_conns (w_t w) = [];
  wg_chain : chained (w_trace w) (w_t w) }.

Ltac wproj := cbn [w_t w_open w_queue w_dead w_rands w_trace w_nconnect w_nsend w_nrecv w_nclose fst snd].

Lemma sock_connect_w cfg0 flt (w : world) : WGood cfg0 w -> WGood cfg0 (fst (sock_connect flt w)).
Proof.
  intros [A B C D]. unfold sock_connect. destruct (flookup (w_nconnect w) (f_connect flt)); wproj.
  - split; wproj; assumption.
  - split; wproj; try assumption. intros; discriminate.
Qed.

Lemma sock_send_w cfg0 flt (w : world) fr : WGood cfg0 w ->
  WGood cfg0 (fst (sock_send h flt w fr)) /\ w_open (fst (sock_send h flt w fr)) = w_open w.
Proof.
  intros [A B C D]. unfold sock_send.
  destruct (negb (w_open w) || w_dead w) eqn:E1; wproj.
  { split; [split; wproj; assumption | reflexivity]. }
  assert (w_open w = true) as Ho by (destruct (w_open w); [reflexivity | discriminate]).
  destruct (fmem (w_nsend w) (f_vanish flt)); wproj.
  { split; [split; wproj; try assumption; [rewrite Ho; intros; discriminate | cbn [chained]; exists (w_t w); auto]
           | reflexivity]. }
  destruct (flookup (w_nsend w) (f_send flt)); wproj.
  { split; [split; wproj; assumption | reflexivity]. }
  pose proof (tstep_effect h (w_t w) fr B) as (T1 & T2 & _).
  destruct (tstep h (w_t w) fr) as [t' rep] eqn:Et. cbn [fst] in *.
  destruct (flookup (w_nsend w) (f_send_after flt)); wproj;
    (split; [split; wproj; [congruence | assumption | rewrite Ho; intros; discriminate
                             | cbn [chained]; rewrite Et; auto] | reflexivity]).
Qed.

Lemma sock_recv_w cfg0 flt (w : world) : WGood cfg0 w ->
  WGood cfg0 (fst (sock_recv flt w)) /\ w_open (fst (sock_recv flt w)) = w_open w.
Proof.
  intros [A B C D]. unfold sock_recv.
  destruct (negb (w_open w) || w_dead w); wproj; [split; [split; wproj; assumption | reflexivity] |].
  destruct (flookup (w_nrecv w) (f_recv flt)); wproj; [split; [split; wproj; assumption | reflexivity] |].
  destruct (w_queue w); wproj; (split; [split; wproj; assumption | reflexivity]).
Qed.

Lemma sock_close_w cfg0 flt (w : world) : WGood cfg0 w ->
  WGood cfg0 (fst (sock_close flt w)) /\ w_open (fst (sock_close flt w)) = false
  /\ t_sessions (w_t (fst (sock_close flt w))) = [] /\ t_conns (w_t (fst (sock_close flt w))) = [].
Proof.
  intros [A B C D]. unfold sock_close.
  assert (t_sessions (if w_open w then tclosed (w_t w) else w_t w) = []
          /\ t_conns (if w_open w then tclosed (w_t w) else w_t w) = []) as [H1 H2].
  { destruct (w_open w); [split; reflexivity | apply C; reflexivity]. }
  assert (t_cfg (if w_open w then tclosed (w_t w) else w_t w) = cfg0
          /\ inj_ok (t_inject (if w_open w then tclosed (w_t w) else w_t w))) as [H3 H4].
  { destruct (w_open w); split; assumption. }
  destruct (flookup (w_nclose w) (f_close flt)); wproj;
    (split; [split; wproj; try assumption; [intros _; split; assumption | cbn [chained]; exists (w_t w); auto]
            | repeat split; assumption]).
Qed.

Lemma urandom_w cfg0 (w : world) : WGood cfg0 w -> WGood cfg0 (snd (urandom w)).
Proof. intros [A B C D]. unfold urandom. destruct (w_rands w); wproj; split; wproj; assumption. Qed.

Record DGood (s : st) : Prop := {
  dg_sock : d_sock (snd s) = false -> w_open (fst s) = false;
  dg_tconn : d_tconn (snd s) = true -> d_session (snd s) <> 0;
  dg_sess : d_session (snd s) <> 0 -> d_opened (snd s) = true }.

Definition Good (cfg0 : tcfg) (s : st) : Prop := WGood cfg0 (fst s) /\ DGood s.

(* what CIPDriver._abandon_transport leaves: no socket, no session, not connected *)
Definition abandoned (s : st) : Prop :=
  d_sock (snd s) = false /\ d_session (snd s) = 0 /\ d_opened (snd s) = false /\ d_tconn (snd s) = false
  /\ w_open (fst s) = false.

(* the socket stays as it is; the driver keeps its socket, session and `connected`; a connection is
   only ever claimed while a session is held (what [dg_tconn] needs) — or the transport was abandoned *)
Definition soft (s s' : st) : Prop :=
  (w_open (fst s') = w_open (fst s) /\ d_sock (snd s') = d_sock (snd s) /\ d_session (snd s') = d_session (snd s)
   /\ d_opened (snd s') = d_opened (snd s)
   /\ (d_tconn (snd s') = true -> d_tconn (snd s) = true \/ d_session (snd s) <> 0))
  \/ abandoned s'.
Lemma soft_refl s : soft s s. Proof. left. repeat split; auto. Qed.
Lemma soft_trans a b c : soft a b -> soft b c -> soft a c.
Proof.
  intros Hab [(B1 & B2 & B3 & B4 & B5) | Hc]; [| right; exact Hc].
  destruct Hab as [(A1 & A2 & A3 & A4 & A5) | (A1 & A2 & A3 & A4 & A5)].
  - left. repeat split; try congruence.
    intros H. destruct (B5 H) as [H1 | H1]; [apply A5; exact H1 | right; congruence].
  - right. unfold abandoned. rewrite B1, B2, B3, B4. repeat split; auto.
    destruct (d_tconn (snd c)) eqn:E; [| reflexivity]. destruct (B5 eq_refl) as [H1 | H1]; [congruence | exfalso; apply H1; exact A2].
Qed.
Lemma abandoned_dgood s : abandoned s -> DGood s.
Proof.
  intros (A1 & A2 & A3 & A4 & A5). split; intros H; try assumption; try congruence; exfalso; apply H; exact A2.
Qed.
Lemma soft_good cfg0 s s' : soft s s' -> WGood cfg0 (fst s') -> Good cfg0 s -> Good cfg0 s'.
Proof.
  intros [(A1 & A2 & A3 & A4 & A5) | Ha] Hw [_ [D1 D2 D3]]; (split; [exact Hw |]); [| apply abandoned_dgood; exact Ha].
  split; rewrite ?A1, ?A2, ?A3, ?A4; try assumption.
  intros H. destruct (A5 H) as [H1 | H1]; [apply D2; exact H1 | exact H1].
Qed.
Lemma soft_upd (s : st) (d' : dstate) :
  d_sock d' = d_sock (snd s) -> d_session d' = d_session (snd s) -> d_opened d' = d_opened (snd s) ->
  (d_tconn d' = true -> d_tconn (snd s) = true \/ d_session (snd s) <> 0) -> soft s (fst s, d').
Proof. intros. left. repeat split; assumption. Qed.

Lemma good_upd cfg0 (s : st) (d' : dstate) : Good cfg0 s ->
  d_sock d' = d_sock (snd s) -> d_session d' = d_session (snd s) -> d_opened d' = d_opened (snd s) ->
  (d_tconn d' = true -> d_tconn (snd s) = true \/ d_session (snd s) <> 0) -> Good cfg0 (fst s, d').
Proof. intros G H1 H2 H3 H4. exact (soft_good _ _ _ (soft_upd s d' H1 H2 H3 H4) (proj1 G) G). Qed.

(* when the I/O succeeded the driver state and the socket are as they were *)
Definition io_kept {A} (s s' : st) (r : res A) : Prop :=
  forall a, r = Ok a -> snd s' = snd s /\ w_open (fst s') = w_open (fst s).

Definition spec_soft (cfg0 : tcfg) {A} (s : st) (r : st * res A) : Prop :=
  Good cfg0 (fst r) /\ soft s (fst r) /\ okres (snd r).
Lemma spec_soft_here cfg0 {A} s (r : res A) : Good cfg0 s -> okres r -> spec_soft cfg0 s (s, r).
Proof. intros G R. split; [exact G |]. split; [apply soft_refl | exact R]. Qed.
Lemma spec_soft_ret cfg0 {A B} s s1 (r1 : res A) (r : res B) : spec_soft cfg0 s (s1, r1) -> okres r -> spec_soft cfg0 s (s1, r).
Proof. intros (G & I & _) R. split; [exact G |]. split; [exact I | exact R]. Qed.
Lemma spec_soft_then cfg0 {A B} s s1 (r1 : res A) (r2 : st * res B) :
  spec_soft cfg0 s (s1, r1) -> spec_soft cfg0 s1 r2 -> spec_soft cfg0 s r2.
Proof. intros (_ & I & _) (G & I' & R). split; [exact G |]. split; [eapply soft_trans; eassumption | exact R]. Qed.
Lemma spec_soft_upd cfg0 {B} (s : st) d' (r : st * res B) : Good cfg0 s -> soft s (fst s, d') ->
  (Good cfg0 (fst s, d') -> spec_soft cfg0 (fst s, d') r) -> spec_soft cfg0 s r.
Proof.
  intros G Hu Hr. destruct (Hr (soft_good _ _ _ Hu (proj1 G) G)) as (G' & I & R).
  split; [exact G' |]. split; [exact (soft_trans _ _ _ Hu I) | exact R].
Qed.
Lemma spec_soft_bind cfg0 {A B} s (x : st * res A) (k : st -> A -> st * res B) :
  spec_soft cfg0 s x -> (forall s1 a, Good cfg0 s1 -> spec_soft cfg0 s1 (k s1 a)) ->
  spec_soft cfg0 s (let (s1, r) := x in match r with Ok a => k s1 a | Err e => (s1, Err e) end).
Proof.
  intros H1 Hk. destruct x as [s1 [a | e]]; [| exact H1].
  exact (spec_soft_then _ _ _ _ _ H1 (Hk s1 a (proj1 H1))).
Qed.

Lemma abandon_good cfg0 flt (s : st) : WGood cfg0 (fst s) -> (d_sock (snd s) = false -> w_open (fst s) = false) ->
  WGood cfg0 (fst (abandon_transport flt s)) /\ abandoned (abandon_transport flt s).
Proof.
  destruct s as [w d]. intros W Hs. unfold abandon_transport.
  destruct (d_sock d) eqn:Ek; cbn [fst snd].
  - pose proof (sock_close_w cfg0 flt w W) as (W1 & O1 & _). split; [exact W1 |].
    unfold abandoned. cbn [fst snd reset_driver set_opened set_session set_tconn set_sock d_sock d_tconn d_session d_opened]. auto 10.
  - split; [exact W |]. unfold abandoned.
    cbn [fst snd reset_driver set_opened set_session set_tconn set_sock d_sock d_tconn d_session d_opened]. auto 10.
Qed.

(* _send / _receive: the socket call went through and the driver state is as it was, or the transport was abandoned *)
Definition spec_io (cfg0 : tcfg) {A} (s : st) (r : st * res A) : Prop :=
  Good cfg0 (fst r) /\ soft s (fst r) /\ okres (snd r) /\ io_kept s (fst r) (snd r).

Lemma spec_io_soft cfg0 {A} s (r : st * res A) : spec_io cfg0 s r -> spec_soft cfg0 s r.
Proof. intros (G & I & R & _). split; [exact G | split; assumption]. Qed.

Lemma abandon_io cfg0 flt {A} (s0 s : st) : WGood cfg0 (fst s) -> (d_sock (snd s) = false -> w_open (fst s) = false) ->
  spec_io cfg0 s0 (abandon_transport flt s, @Err A CommError).
Proof.
  intros W Hs. destruct (abandon_good cfg0 flt s W Hs) as [Wa Ha].
  split; [split; [exact Wa | apply abandoned_dgood; exact Ha] |]. split; [right; exact Ha |].
  split; [reflexivity | intros a H; discriminate].
Qed.

Lemma sock_io cfg0 flt {A B} (w : world) d (c : world * res A) (f : A -> B) :
  Good cfg0 (w, d) -> WGood cfg0 (fst c) /\ w_open (fst c) = w_open w ->
  spec_io cfg0 (w, d)
    (if d_sock d
     then let (w', r) := c in
          match r with Ok a => ((w', d), Ok (f a)) | Err _ => (abandon_transport flt (w', d), Err CommError) end
     else (abandon_transport flt (w, d), Err CommError)).
Proof.
  intros G [W1 W2].
  destruct (d_sock d) eqn:Ek; [| apply abandon_io; [apply G | intros _; exact (dg_sock _ (proj2 G) Ek)]].
  destruct c as [w' [a | e]]; cbn [fst] in *.
  - assert (soft (w, d) (w', d)) as Hio by (left; repeat split; auto).
    split; [eapply soft_good; eassumption |]. split; [exact Hio |]. split; [reflexivity |].
    intros x _. split; [reflexivity | exact W2].
  - apply abandon_io; [exact W1 |]. cbn [fst snd]. rewrite Ek. discriminate.
Qed.

Lemma spec_io_ret cfg0 {A B} (s s1 : st) (r1 : res A) (r : res B) :
  spec_io cfg0 s (s1, r1) -> okres r -> (forall b, r = Ok b -> exists a, r1 = Ok a) -> spec_io cfg0 s (s1, r).
Proof.
  intros (G & I & _ & K) R H. split; [exact G |]. split; [exact I |]. split; [exact R |].
  intros b Hb. destruct (H b Hb) as [a Ha]. exact (K a Ha).
Qed.

Lemma tx_good cfg0 flt s fr : Good cfg0 s -> spec_io cfg0 s (tx h flt s fr).
Proof.
  intros G. destruct s as [w d].
  exact (sock_io cfg0 flt w d (sock_send h flt w fr) (fun _ => tt) G (sock_send_w cfg0 flt w fr (proj1 G))).
Qed.

Lemma rx_good cfg0 flt s : Good cfg0 s -> spec_io cfg0 s (rx (S := S) flt s).
Proof.
  intros G. destruct s as [w d].
  exact (sock_io cfg0 flt w d (sock_recv flt w) (fun raw => raw) G (sock_recv_w cfg0 flt w (proj1 G))).
Qed.

Lemma drv_send_good cfg0 flt s fr nr : Good cfg0 s -> okres fr -> spec_io cfg0 s (drv_send h flt s fr nr).
Proof.
  intros G Hfr. unfold drv_send. destruct fr as [f | e].
  { pose proof (tx_good cfg0 flt s f G) as H1. destruct (tx h flt s f) as [s1 r1].
    destruct r1 as [u | e]; [| apply (spec_io_ret _ _ _ _ _ H1); [exact (proj1 (proj2 (proj2 H1))) | discriminate]].
    destruct nr; [apply (spec_io_ret _ _ _ _ _ H1); [reflexivity | eauto] |].
    destruct H1 as (G1 & I1 & _ & K1). destruct (K1 u eq_refl) as [K1a K1b].
    pose proof (rx_good cfg0 flt s1 G1) as (G2 & I2 & R2 & K2).
    destruct (rx flt s1) as [s2 r2]. cbn [fst snd] in *.
    destruct r2 as [raw | e]; cbn [fst snd]; (split; [exact G2 |]); (split; [eapply soft_trans; eassumption |]).
    - split; [reflexivity |]. intros a _. destruct (K2 raw eq_refl) as [Ka Kb]. split; cbn [fst snd]; congruence.
    - split; [exact R2 | intros a H; discriminate]. }
  split; [exact G |]. split; [apply soft_refl |]. split; [exact Hfr | intros a H; discriminate].
Qed.

Lemma generic_unconnected_good cfg0 flt s msg : Good cfg0 s -> spec_io cfg0 s (generic_unconnected h flt s msg).
Proof.
  intros G. unfold generic_unconnected.
  pose proof (drv_send_good cfg0 flt s (rr_frame (d_session (snd s)) msg) false G (rr_frame_ok _ _)) as H1.
  destruct (drv_send h flt s (rr_frame (d_session (snd s)) msg) false) as [s1 r1].
  destruct r1 as [[raw |] | e]; apply (spec_io_ret _ _ _ _ _ H1); eauto; try discriminate; [apply classify_ok | reflexivity | apply H1].
Qed.

Lemma epath_len_ok p pad : okres (epath_len p pad).
Proof. unfold epath_len. destruct (blen p / 2 <? 256); reflexivity. Qed.

Lemma fo_message_ok d : okres (fo_message d).
Proof.
  apply okres_bind; [| intros np; apply okres_bind; [apply epath_len_ok | reflexivity]].
  unfold net_params. destruct (d_ext d); [destruct (in_urange 4 _) | destruct (in_urange 2 _)]; reflexivity.
Qed.
Lemma fc_message_ok d : okres (fc_message d).
Proof. apply okres_bind; [apply epath_len_ok | reflexivity]. Qed.

Lemma drv_forward_open_good cfg0 flt s : Good cfg0 s -> spec_soft cfg0 s (drv_forward_open h flt s).
Proof.
  intros G. unfold drv_forward_open. destruct s as [w d].
  destruct (d_tconn d); [apply spec_soft_here; [exact G | reflexivity] |].
  destruct (d_session d =? 0) eqn:Es; [apply spec_soft_here; [exact G | reflexivity] |].
  pose proof (fo_message_ok d) as Hm. destruct (fo_message d) as [msg | e]; [| apply spec_soft_here; assumption].
  pose proof (generic_unconnected_good cfg0 flt (w, d) msg G) as H1.
  destruct (generic_unconnected h flt (w, d) msg) as [s1 r1].
  apply (spec_soft_then _ _ _ _ _ (spec_io_soft _ _ _ H1)). destruct H1 as (G1 & _ & R1 & K1). cbn [fst snd] in *.
  destruct r1 as [[[|] value] | e]; [| apply spec_soft_here; [exact G1 | reflexivity] | apply spec_soft_here; [exact G1 | exact R1]].
  apply (spec_soft_upd cfg0 s1 (set_tconn true (set_cid (Some (firstn 4 value)) (snd s1))) _ G1);
    [| intros G2; apply spec_soft_here; [exact G2 | reflexivity]].
  destruct (K1 _ eq_refl) as [I2 _]. apply soft_upd; try reflexivity. rewrite I2. intros _. right. cbn [snd]. lia.
Qed.

Lemma with_forward_open_good cfg0 flt s : Good cfg0 s -> spec_soft cfg0 s (with_forward_open h flt s).
Proof.
  intros G. unfold with_forward_open.
  destruct (d_tconn (snd s)); [apply spec_soft_here; [exact G | reflexivity] |].
  apply spec_soft_bind; [exact (drv_forward_open_good cfg0 flt s G) |].
  intros s1 [|] G1; [apply spec_soft_here; [exact G1 | reflexivity] |].
  destruct (d_ext (snd s1)); [| apply spec_soft_here; [exact G1 | reflexivity]].
  apply (spec_soft_upd cfg0 s1 (set_fo_cfg FALLBACK_EXTENDED_FO FALLBACK_CONNECTION_SIZE (snd s1)) _ G1);
    [apply soft_upd; try reflexivity; cbn; auto |]. intros G2.
  apply spec_soft_bind; [exact (drv_forward_open_good cfg0 flt _ G2) |].
  intros s3 [|] G3; apply spec_soft_here; first [exact G3 | reflexivity].
Qed.

Lemma connected_request_seq_good cfg0 flt s sq msg : Good cfg0 s -> spec_soft cfg0 s (connected_request_seq h flt s sq msg).
Proof.
  intros G. apply spec_soft_bind; [exact (spec_io_soft _ _ _ (drv_send_good cfg0 flt s _ false G (ud_frame_ok _ _ _ _))) |].
  intros s1 [raw |] G1; (apply spec_soft_here; [exact G1 |]); [apply classify_ok | reflexivity].
Qed.

Lemma connected_request_good cfg0 flt s msg : Good cfg0 s -> spec_soft cfg0 s (connected_request h flt s msg).
Proof.
  intros G. unfold connected_request. destruct s as [w d]. unfold draw.
  destruct (cycle_step SEQ_STOP SEQ_START (d_seq d)) as [sq v].
  apply (spec_soft_upd cfg0 (w, d) (set_seq v d) _ G); [apply soft_upd; try reflexivity; cbn; auto |].
  exact (connected_request_seq_good cfg0 flt (w, set_seq v d) sq msg).
Qed.

Lemma generic_connected_good cfg0 flt s msg : Good cfg0 s -> spec_soft cfg0 s (generic_connected h flt s msg).
Proof.
  intros G. apply spec_soft_bind; [exact (with_forward_open_good cfg0 flt s G) |].
  intros s1 _ G1. exact (connected_request_good cfg0 flt s1 msg G1).
Qed.

Lemma connected_requests_good cfg0 flt items : forall s, Good cfg0 s -> spec_soft cfg0 s (connected_requests h flt s items).
Proof.
  induction items as [| [sq m] rest IH]; intros s G; cbn [connected_requests]; [apply spec_soft_here; [exact G | reflexivity] |].
  apply spec_soft_bind; [exact (connected_request_seq_good cfg0 flt s sq m G) |]. intros s1 [b v] G1.
  apply spec_soft_bind; [exact (IH s1 G1) |]. intros s2 l G2. apply spec_soft_here; [exact G2 | reflexivity].
Qed.

Lemma connected_call_good cfg0 flt s items sa : Good cfg0 s -> spec_soft cfg0 s (connected_call h flt s items sa).
Proof.
  intros G. apply spec_soft_bind; [exact (with_forward_open_good cfg0 flt s G) |]. intros s1 _ G1.
  apply (spec_soft_upd cfg0 s1 (set_seq sa (snd s1)) _ G1); [apply soft_upd; try reflexivity; cbn; auto |].
  exact (connected_requests_good cfg0 flt items _).
Qed.

Lemma drv_register_session_good cfg0 flt s : Good cfg0 s -> d_opened (snd s) = true ->
  let r := drv_register_session h flt s in Good cfg0 (fst r) /\ okres (snd r).
Proof.
  intros G Ho. unfold drv_register_session. destruct s as [w d]. cbn [snd] in Ho.
  destruct (negb (d_session d =? 0)) eqn:Es.
  { split; [exact G | reflexivity]. }
  pose proof (drv_send_good cfg0 flt (w, d) (register_frame (d_session d)) false G (proj1 (simple_frames_ok _))) as (G1 & I1 & R1 & K1).
  destruct (drv_send h flt (w, d) (register_frame (d_session d)) false) as [s1 r1]. cbn [fst snd] in *.
  destruct r1 as [[raw |] | e]; cbn [fst snd]; try (split; [exact G1 |]; first [exact R1 | reflexivity]).
  destruct (register_valid raw); cbn [fst snd]; [| split; [exact G1 | reflexivity]].
  split; [| reflexivity].
  destruct (K1 _ eq_refl) as [I2 I3]. cbn [fst snd] in I2, I3.
  destruct G1 as [W1 [D1 D2 D3]]. rewrite I2 in *. split; [exact W1 |].
  split; cbn [fst snd set_session d_sock d_tconn d_session d_opened]; auto.
  intros Ht. exfalso. apply (D2 Ht). lia.
Qed.

Lemma cip_open_good cfg0 flt s : Good cfg0 s -> let r := cip_open h flt s in Good cfg0 (fst r) /\ okres (snd r).
Proof.
  intros G. unfold cip_open. destruct s as [w d].
  destruct (d_opened d) eqn:Eo; [cbn [fst snd]; split; [exact G | reflexivity] |].
  destruct G as [W [D1 D2 D3]].
  pose proof (sock_connect_w cfg0 flt w W) as W1.
  destruct (sock_connect flt w) as [w1 rc]. cbn [fst] in W1.
  assert (DGood (w1, set_sock true d)) as DG1.
  { split; cbn [fst snd set_sock d_sock d_tconn d_session d_opened]; auto. intros; discriminate. }
  destruct rc as [u | e]; [| cbn [fst snd]; split; [split; assumption | reflexivity]].
  pose proof (urandom_w cfg0 w1 W1) as W2. destruct (urandom w1) as [c w2]. cbn [snd] in *.
  pose proof (urandom_w cfg0 w2 W2) as W3. destruct (urandom w2) as [v w3]. cbn [snd] in *.
  set (d1 := set_ids c v (set_opened true (set_sock true d))).
  assert (Good cfg0 (w3, d1)) as G3.
  { split; [exact W3 |]. split; cbn [fst snd d1 set_ids set_opened set_sock d_sock d_tconn d_session d_opened]; auto.
    intros; discriminate. }
  pose proof (drv_register_session_good cfg0 flt (w3, d1) G3 eq_refl) as (G4 & R4).
  destruct (drv_register_session h flt (w3, d1)) as [s2 r].
  destruct r as [[z |] | e]; cbn [fst snd]; split; auto; reflexivity.
Qed.

Lemma plc_info_message_ok d m : okres (plc_info_message d m).
Proof.
  unfold plc_info_message. destruct m; [reflexivity |]. apply okres_bind; [apply epath_len_ok |].
  intros rp. unfold wrap_unconnected_send. destruct (in_urange 2 (blen PLC_INFO_MSG)); reflexivity.
Qed.

Lemma get_plc_info_good cfg0 flt s : Good cfg0 s -> spec_soft cfg0 s (get_plc_info h flt s).
Proof.
  intros G. unfold get_plc_info.
  destruct (plc_info_message (snd s) (d_micro (snd s))) as [msg | e]; [| apply spec_soft_here; [exact G | reflexivity]].
  pose proof (spec_io_soft _ _ _ (drv_send_good cfg0 flt s (rr_frame (d_session (snd s)) msg) false G (rr_frame_ok _ _))) as H1.
  destruct (drv_send h flt s (rr_frame (d_session (snd s)) msg) false) as [s1 r1].
  destruct r1 as [[raw |] | e]; apply (spec_soft_ret _ _ _ _ _ H1); try reflexivity.
  destruct (Identity.get_plc_info raw); reflexivity.
Qed.

Lemma get_plc_name_good cfg0 flt s : Good cfg0 s -> spec_soft cfg0 s (get_plc_name h flt s).
Proof.
  intros G. apply spec_soft_bind; [exact (with_forward_open_good cfg0 flt s G) |]. intros s1 _ G1.
  pose proof (connected_request_good cfg0 flt s1 PLC_NAME_MSG G1) as H2.
  destruct (connected_request h flt s1 PLC_NAME_MSG) as [s2 r2].
  destruct r2 as [[[|] data] | e]; apply (spec_soft_ret _ _ _ _ _ H2); try reflexivity.
  destruct (string_decodes data); reflexivity.
Qed.

Lemma initialize_driver_good cfg0 flt s : Good cfg0 s -> spec_soft cfg0 s (initialize_driver h flt s).
Proof.
  intros G. apply spec_soft_bind.
  { exact (spec_io_soft _ _ _ (drv_send_good cfg0 flt s _ false G (proj2 (proj2 (simple_frames_ok _))))). }
  intros s1 reply G1.
  set (micro := match reply with Some raw => starts_with MICRO800_PREFIX (product_name_of raw) | None => false end).
  apply (spec_soft_upd cfg0 s1 (set_micro micro (snd s1)) _ G1); [apply soft_upd; try reflexivity; cbn; auto |]. intros G2.
  apply spec_soft_bind; [exact (get_plc_info_good cfg0 flt _ G2) |]. intros s3 _ G3.
  apply spec_soft_bind.
  { destruct micro; [apply spec_soft_here; [exact G3 | reflexivity] | exact (get_plc_name_good cfg0 flt s3 G3)]. }
  intros s4 _ G4.
  apply (spec_soft_upd cfg0 s4 (if micro then set_route (removelast (d_route (snd s4))) (snd s4) else snd s4) _ G4);
    [apply soft_upd; destruct micro; try reflexivity; cbn; auto |].
  intros G5. apply spec_soft_here; [exact G5 | reflexivity].
Qed.

Lemma drv_open_good cfg0 logix flt s : Good cfg0 s -> let r := drv_open h logix flt s in Good cfg0 (fst r) /\ okres (snd r).
Proof.
  intros G. unfold drv_open. destruct logix; [| apply cip_open_good; exact G].
  unfold logix_open. pose proof (cip_open_good cfg0 flt s G) as (G1 & R1).
  destruct (cip_open h flt s) as [s1 r1].
  destruct r1 as [[|] | e]; cbn [fst snd]; auto.
  pose proof (initialize_driver_good cfg0 flt s1 G1) as (G2 & _ & R2).
  destruct (initialize_driver h flt s1) as [s2 r2].
  destruct r2; cbn [fst snd]; split; auto; reflexivity.
Qed.

Lemma drv_forward_close_good cfg0 flt s : Good cfg0 s -> spec_soft cfg0 s (drv_forward_close h flt s).
Proof.
  intros G. unfold drv_forward_close. destruct s as [w d].
  destruct (d_session d =? 0); [apply spec_soft_here; [exact G | reflexivity] |].
  pose proof (fc_message_ok d) as Hm. destruct (fc_message d) as [msg | e]; [| apply spec_soft_here; assumption].
  apply spec_soft_bind; [exact (spec_io_soft _ _ _ (generic_unconnected_good cfg0 flt (w, d) msg G)) |].
  intros s1 [[|] value] G1; [| apply spec_soft_here; [exact G1 | reflexivity]].
  apply (spec_soft_upd cfg0 s1 (set_tconn false (snd s1)) _ G1); [apply soft_upd; try reflexivity; cbn; discriminate |].
  intros G2. apply spec_soft_here; [exact G2 | reflexivity].
Qed.

Lemma drv_un_register_session_good cfg0 flt s : Good cfg0 s -> spec_soft cfg0 s (drv_un_register_session h flt s).
Proof.
  intros G. apply spec_soft_bind.
  { exact (spec_io_soft _ _ _ (drv_send_good cfg0 flt s _ true G (proj1 (proj2 (simple_frames_ok _))))). }
  intros s1 _ G1. apply spec_soft_here; [exact G1 | reflexivity].
Qed.

(* CIPDriver.close: whatever happened before and whatever fails inside, the driver is reset and
   the target holds nothing *)
Definition closed_state (s : st) : Prop :=
  d_sock (snd s) = false /\ d_session (snd s) = 0 /\ d_opened (snd s) = false /\ d_tconn (snd s) = false
  /\ w_open (fst s) = false /\ t_sessions (w_t (fst s)) = [] /\ t_conns (w_t (fst s)) = [].

Lemma drv_close_stages (P : st -> Prop) flt s :
  P s -> (forall s0, P s0 -> P (fst (drv_forward_close h flt s0))) ->
  (forall s0, P s0 -> P (fst (drv_un_register_session h flt s0))) ->
  exists s2, P s2 /\ okres (snd (drv_close h flt s))
    /\ fst (drv_close h flt s)
       = (if d_sock (snd s2) then fst (sock_close flt (fst s2)) else fst s2, reset_driver (snd s2)).
Proof.
  intros H0 Hfc Hun. unfold drv_close.
  set (e1 := if d_tconn (snd s) then _ else _).
  assert (P (fst e1)) as H1.
  { subst e1. destruct (d_tconn (snd s)); [| exact H0].
    specialize (Hfc s H0). destruct (drv_forward_close h flt s). exact Hfc. }
  clearbody e1. destruct e1 as [s1 r1]. cbn [fst] in H1.
  set (e2 := match r1 with Err e => _ | Ok _ => _ end).
  assert (P (fst e2)) as H2.
  { subst e2. destruct r1; [| exact H1]. destruct (negb _); [apply Hun, H1 | exact H1]. }
  clearbody e2. destruct e2 as [s2 r2]. exists s2. split; [exact H2 |].
  destruct (d_sock (snd s2)); [destruct (sock_close flt (fst s2)) as [w' r3]; destruct r3 |];
    destruct r2; split; reflexivity.
Qed.

Lemma drv_close_good cfg0 flt s : Good cfg0 s ->
  let r := drv_close h flt s in Good cfg0 (fst r) /\ okres (snd r) /\ closed_state (fst r).
Proof.
  intros G. cbv zeta.
  destruct (drv_close_stages (Good cfg0) flt s G) as ([w2 d2] & [W2 D2] & R & ->).
  { intros s0 G0. apply (drv_forward_close_good cfg0 flt s0 G0). }
  { intros s0 G0. apply (drv_un_register_session_good cfg0 flt s0 G0). }
  cbn [fst snd] in *. set (w3 := if d_sock d2 then _ else _).
  assert (WGood cfg0 w3 /\ w_open w3 = false /\ t_sessions (w_t w3) = [] /\ t_conns (w_t w3) = []) as (W3 & O3 & T3 & C3).
  { subst w3. destruct (d_sock d2) eqn:Es; [apply sock_close_w; exact W2 |].
    pose proof (dg_sock _ D2 Es) as Ho. split; [exact W2 |]. split; [exact Ho | exact (wg_closed _ _ W2 Ho)]. }
  split; [| split; [exact R |]].
  - split; [exact W3 |]. split; cbn; intros H; try discriminate; [exact O3 | exfalso; apply H; reflexivity].
  - unfold closed_state. cbn. auto 10.
Qed.

Definition lib_outcome (o : outcome) : Prop := match o with OErr e => is_foreign e = false | _ => True end.
Lemma lib_of_res {A} (r : res A) (f : A -> outcome) :
  okres r -> (forall a, lib_outcome (f a)) -> lib_outcome (match r with Ok a => f a | Err e => OErr e end).
Proof. intros H Hf. destruct r as [a | e]; [apply Hf |]. unfold okres in H. cbn in *. destruct e; cbn in *; congruence. Qed.

Lemma exec_sop_good cfg0 logix flt s o : Good cfg0 s ->
  let r := exec_sop h logix flt s o in
  Good cfg0 (fst r) /\ lib_outcome (snd r) /\ (o = Close -> closed_state (fst r)).
Proof.
  intros G. destruct o as [| | m | m | items sa]; cbn [exec_sop].
  - pose proof (drv_open_good cfg0 logix flt s G) as (G1 & R1).
    destruct (drv_open h logix flt s) as [s1 r1].
    split; [exact G1 |]. split; [| discriminate]. apply lib_of_res; [exact R1 | intros; exact I].
  - pose proof (drv_close_good cfg0 flt s G) as (G1 & R1 & C1).
    destruct (drv_close h flt s) as [s1 r1].
    split; [exact G1 |]. split; [| intros _; exact C1]. apply lib_of_res; [exact R1 | intros; exact I].
  - pose proof (generic_connected_good cfg0 flt s m G) as (G1 & _ & R1).
    destruct (generic_connected h flt s m) as [s1 r1].
    split; [exact G1 |]. split; [| discriminate]. apply lib_of_res; [exact R1 | intros [b v]; exact I].
  - pose proof (generic_unconnected_good cfg0 flt s m G) as (G1 & _ & R1 & _).
    destruct (generic_unconnected h flt s m) as [s1 r1].
    split; [exact G1 |]. split; [| discriminate]. apply lib_of_res; [exact R1 | intros [b v]; exact I].
  - pose proof (connected_call_good cfg0 flt s items sa G) as (G1 & _ & R1).
    destruct (connected_call h flt s items sa) as [s1 r1].
    split; [exact G1 |]. split; [| discriminate]. apply lib_of_res; [exact R1 | intros; exact I].
Qed.

Definition obs_ok (cfg0 : tcfg) (o : obs (S := S)) : Prop := Good cfg0 (o_state o) /\ lib_outcome (o_out o).

(* Histories: the induction principle of [run_ops].  A state property [P] and an outcome property [Q]
   that every single call, open() and close() keep (for calls satisfying [C]) hold of every
   observation of a history.  The body's exception is re-raised by the with statement as it is. *)
Section Histories.
Context (logix : bool) (flt : faults) (P : st -> Prop) (Q : outcome -> Prop) (C : sop -> Prop).
Hypothesis Hsop : forall s o, P s -> C o -> P (fst (exec_sop h logix flt s o)) /\ Q (snd (exec_sop h logix flt s o)).
Hypothesis Hopen : forall s, P s -> P (fst (drv_open h logix flt s))
                                    /\ forall e, snd (drv_open h logix flt s) = Err e -> Q (OErr e).
Hypothesis Hclose : forall s, P s -> P (fst (drv_close h flt s)).
Hypothesis Hq : Q ONone /\ Q OUser.
Let ok (o : obs) : Prop := P (o_state o) /\ Q (o_out o).

Lemma exec_body_keeps body : forall s, P s -> Forall C body ->
  let r := exec_body h logix flt s body in
  P (fst (fst r)) /\ Forall ok (snd (fst r)) /\ (forall e, snd r = Some e -> Q (OErr e)).
Proof.
  induction body as [| o rest IH]; intros s G Hc; cbv zeta; cbn [exec_body].
  - split; [exact G |]. split; [constructor | discriminate].
  - inversion Hc as [| ? ? Ho Hr]; subst. destruct (Hsop s o G Ho) as (G1 & L1).
    destruct (exec_sop h logix flt s o) as [s1 out].
    assert (ok (mkObs out s1)) as Hob by (split; assumption).
    specialize (IH s1 G1 Hr).
    destruct (exec_body h logix flt s1 rest) as [[s2 l] e].
    destruct IH as (G2 & F2 & E2).
    destruct out; cbn [fst snd]; try (split; [exact G2 |]; split; [constructor; assumption | exact E2]).
    split; [exact G1 |]. split; [constructor; [exact Hob | constructor] |].
    intros e' H. inversion H; subst. exact L1.
Qed.

Lemma run_ops_keeps ops : forall s, P s ->
  Forall (fun o => match o with Simple so => C so | WithBlock body _ => Forall C body end) ops ->
  P (fst (run_ops h logix flt s ops)) /\ Forall ok (snd (run_ops h logix flt s ops)).
Proof.
  induction ops as [| o rest IH]; intros s G Hc; cbn [run_ops]; [split; [exact G | constructor] |].
  inversion Hc as [| ? ? Ho Hr]; subst.
  assert (P (fst (exec_op h logix flt s o)) /\ Forall ok (snd (exec_op h logix flt s o))) as [G1 F1].
  { destruct o as [so | body raises]; cbn [exec_op].
    - destruct (Hsop s so G Ho) as (G1 & L1). destruct (exec_sop h logix flt s so) as [s1 out].
      split; [exact G1 |]. constructor; [split; assumption | constructor].
    - destruct (Hopen s G) as (G1 & R1). destruct (drv_open h logix flt s) as [s1 r1].
      destruct r1 as [b | e]; [| split; [exact G1 |]; constructor; [split; [exact G1 | apply R1; reflexivity] | constructor]].
      destruct (exec_body_keeps body s1 G1 Ho) as (G2 & F2 & E2).
      destruct (exec_body h logix flt s1 body) as [[s2 l] e].
      pose proof (Hclose s2 G2) as G3. destruct (drv_close h flt s2) as [s3 r3].
      split; [exact G3 |]. apply Forall_app. split; [exact F2 |]. constructor; [| constructor].
      split; [exact G3 |]. cbn [o_out]. destruct e as [ex |]; [apply E2; reflexivity |]. destruct raises; apply Hq. }
  destruct (exec_op h logix flt s o) as [s1 l1].
  destruct (IH s1 G1 Hr) as [G2 F2]. destruct (run_ops h logix flt s1 rest) as [s2 l2].
  split; [exact G2 |]. apply Forall_app. split; assumption.
Qed.
End Histories.

Lemma run_ops_good cfg0 logix flt ops : forall s, Good cfg0 s ->
  let r := run_ops h logix flt s ops in Good cfg0 (fst r) /\ Forall (obs_ok cfg0) (snd r).
Proof.
  intros s G. apply (run_ops_keeps logix flt (Good cfg0) lib_outcome (fun _ => True)); try exact G.
  - intros s0 o G0 _. destruct (exec_sop_good cfg0 logix flt s0 o G0) as (G1 & L1 & _). split; assumption.
  - intros s0 G0. destruct (drv_open_good cfg0 logix flt s0 G0) as [G1 R1]. split; [exact G1 |].
    intros e He. rewrite He in R1. unfold okres in R1. cbn in *. destruct (is_foreign e); [discriminate | reflexivity].
  - intros s0 G0. apply (drv_close_good cfg0 flt s0 G0).
  - split; exact I.
  - apply Forall_forall. intros [so | body r] _; [exact I | apply Forall_forall; intros; exact I].
Qed.

Lemma run_ops_app logix flt a b s :
  run_ops h logix flt s (a ++ b) =
  let (s1, l1) := run_ops h logix flt s a in let (s2, l2) := run_ops h logix flt s1 b in (s2, l1 ++ l2).
Proof.
  revert s. induction a as [| o rest IH]; intros s; cbn [run_ops app].
  - destruct (run_ops h logix flt s b). reflexivity.
  - destruct (exec_op h logix flt s o) as [s1 l1]. rewrite IH.
    destruct (run_ops h logix flt s1 rest) as [s2 l2]. destruct (run_ops h logix flt s2 b) as [s3 l3].
    rewrite app_assoc. reflexivity.
Qed.
End World.

Lemma start_good {S} (h : handler S) (app : S) cfg inj rands route : inj_ok inj ->
  Good h cfg (init_world (start_target cfg inj app) rands, init_dstate route).
Proof.
  intros Hinj. split.
  - split; cbn; auto.
  - split; cbn; auto; intros H; try discriminate; exfalso; apply H; reflexivity.
Qed.

Lemma run_good {S} (h : handler S) app cfg inj flt logix route rands ops : inj_ok inj ->
  let r := run h app cfg inj flt logix route rands ops in Good h cfg (fst r) /\ Forall (obs_ok h cfg) (snd r).
Proof. intros Hinj. exact (run_ops_good h cfg logix flt ops _ (start_good h app cfg inj rands route Hinj)). Qed.
