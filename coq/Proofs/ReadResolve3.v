(* Proofs/ReadResolve3.v — INVERSION of the reference request grammar (Spec/Expect.v parse_request).
   [ref_core s] follows parse_request step by step but keeps the TEXT of every decimal field
   ("a[007].03{010}" keeps "007", "03", "010" next to 7, 3, 10).
     ref_core_complete   parse_request s = Some r  ->  exists c, ref_core s = Some c /\ core_ast c = r
                         (every request the reference reads has a core, whose AST is the reference's)
     ref_core_render     ref_core s = Some c  ->  core_text c = s
                         (the string IS [Program:P.]tag[i..].member[j..]...[.bit][{n}] rendered from the core: the grammar
                          is inverted, for every string, with no condition on the characters of the names)
     core_item_text      core_item p c = Some x -> item_text x = core_text c
     request_item        parse_request s = Some r, the request exists / is built / fits, and the SEMANTIC side conditions
                         [sem_ok p s] (computable: the tag is found under its exact spelling among the visible tags, and
                         ReadStrings.item_okb) -> s = item_text x, r = item_ast x, item_ok x
   so what ReadStrings.plain_request checks on the string ("rendering the pieces back gives the string") holds
   of every string the reference reads; the condition left over, [sem_ok], speaks of the project only. *)
From Coq Require Import ZifyBool String.
From PV Require Import Base.Bytes Base.BytesLemmas Base.Res Base.PyStr.
From PV Require Import Gen.Consts Model.Path Model.Reply Model.LogixPlan Model.LogixRead.
From PV Require Import Spec.TargetIface Spec.TargetCore Spec.Project Spec.Expect Spec.TargetLogix.
From PV Require Import Proofs.PathStr Proofs.TargetCoreP Proofs.TargetLogixP Proofs.ReadDecode Proofs.ReadTarget
  Proofs.ReadValue Proofs.ReadCorrect Proofs.ReadResolve Proofs.ReadResolve1
  Proofs.ReadResolve2 Proofs.ReadStrings.
Open Scope list_scope.
Open Scope Z_scope.

Definition rseg_core (s : text) : option ppart :=
  match split_chr 91 s with
  | [n] => if nonempty n && negb (contains_chr 93 n) then Some (n, [], []) else None
  | [n; rest] =>
      match split_last rest with
      | Some (inner, c) =>
          if (c =? 93) && nonempty n && negb (contains_chr 93 inner) then
            match all_some (map parse_nat (split_chr 44 inner)) with
            | Some idx => if Nat.leb (length idx) 3 then Some (n, split_chr 44 inner, idx) else None
            | None => None
            end
          else None
      | None => None
      end
  | _ => None
  end.

Definition count_core (s : text) : option (text * option (text * Z)) :=
  match split_last s with
  | Some (s', c) =>
      if c =? 125 then
        match split_chr 123 s' with
        | [body; n] => match parse_nat n with Some z => Some (body, Some (n, z)) | None => None end
        | _ => None
        end
      else if contains_chr 123 s || contains_chr 125 s then None else Some (s, None)
  | None => None
  end.

Definition prog_step (parts : list text) : option text * list text :=
  match parts with
  | p0 :: r => if starts_with txt_Program p0 then (Some (skipn 8 p0), r) else (None, parts)
  | [] => (None, parts)
  end.

Definition bit_step (parts1 : list text) : option (option (text * Z)) * list text :=
  match split_last parts1 with
  | Some (init, l) =>
      if nonempty init && isdigit l
      then (match digits_val l 0 with Some v => Some (Some (l, v)) | None => None end, init)
      else (Some None, parts1)
  | None => (Some None, parts1)
  end.

Definition ref_core (s : text) : option core :=
  match count_core s with
  | None => None
  | Some (body, cnt) =>
      let pp := prog_step (split_chr 46 body) in
      if (match fst pp with Some [] => true | _ => false end) then None else
      let bp := bit_step (snd pp) in
      match fst bp, all_some (map rseg_core (snd bp)) with
      | Some b, Some (sg :: segs) => Some (fst pp, sg, segs, b, cnt)
      | _, _ => None
      end
  end.

Definition core_text (c : core) : text :=
  let '(prog, x1, more, bit, cnt) := c in g_text prog (seg_txt x1) (map seg_txt more) bit cnt.
Definition core_ast (c : core) : request_ast :=
  let '(prog, x1, more, bit, cnt) := c in mkReq prog (map seg_ast (x1 :: more)) (opt_val bit) (opt_val cnt).

Lemma split_last_inv {A} (l : list A) i x : split_last l = Some (i, x) -> l = i ++ [x].
Proof.
  unfold split_last. destruct (rev l) as [|y r] eqn:E; [discriminate|]. intros H. injection H as <- <-.
  rewrite <- (rev_involutive l), E. reflexivity.
Qed.

Lemma split2_inv c s a b : split_chr c s = [a; b] -> s = a ++ c :: b.
Proof. intros H. rewrite <- (join_split c s), H. reflexivity. Qed.

Lemma split1_inv c s a : split_chr c s = [a] -> s = a.
Proof. intros H. rewrite <- (join_split c s), H. reflexivity. Qed.

Lemma split_chr_nonempty c s : split_chr c s <> [].
Proof. unfold split_chr. apply split_aux_nonempty. Qed.

Lemma all_some_vals ids : forall idv, all_some (map parse_nat ids) = Some idv -> vals ids = Some idv.
Proof.
  induction ids as [|t r IH]; intros idv H; cbn [map all_some vals] in *; [exact H|].
  unfold parse_nat in H at 1. destruct (isdigit t); [|discriminate].
  destruct (digits_val t 0) as [v|]; [|discriminate].
  destruct (all_some (map parse_nat r)) as [vs|]; [|discriminate]. rewrite (IH vs eq_refl). exact H.
Qed.

Lemma rseg_core_inv s x : rseg_core s = Some x -> seg_txt x = s /\ vals_ok x.
Proof.
  unfold rseg_core. destruct (split_chr 91 s) as [|n [|rest [|? ?]]] eqn:Es; try discriminate.
  - destruct (nonempty n && negb (contains_chr 93 n)); [|discriminate]. intros H. injection H as <-.
    split; [|reflexivity]. unfold seg_txt. cbn [pp_name fst snd idx_txt]. rewrite app_nil_r. symmetry. exact (split1_inv _ _ _ Es).
  - destruct (split_last rest) as [[inner c]|] eqn:El; [|discriminate].
    destruct ((c =? 93) && nonempty n && negb (contains_chr 93 inner)) eqn:Ec; [|discriminate].
    destruct (all_some (map parse_nat (split_chr 44 inner))) as [idx|] eqn:Ea; [|discriminate].
    destruct (Nat.leb (length idx) 3); [|discriminate]. intros H. injection H as <-.
    split; [|unfold vals_ok; cbn [fst snd pp_idv]; exact (all_some_vals _ _ Ea)].
    apply andb_prop in Ec. destruct Ec as [Ec _]. apply andb_prop in Ec. destruct Ec as [Ec _].
    assert (c = 93) by lia. subst c.
    unfold seg_txt. cbn [pp_name fst snd]. unfold idx_txt.
    destruct (split_chr 44 inner) as [|i0 ir] eqn:E44; [exfalso; exact (split_chr_nonempty _ _ E44)|].
    rewrite <- E44, join_split. rewrite (split2_inv _ _ _ _ Es), (split_last_inv _ _ _ El). reflexivity.
Qed.

Lemma rseg_core_complete s sg : parse_seg s = Some sg -> exists x, rseg_core s = Some x /\ seg_ast x = sg.
Proof.
  unfold parse_seg, rseg_core, LBRACK, RBRACK, COMMA.
  destruct (split_chr 91 s) as [|n [|rest [|? ?]]]; try discriminate.
  - destruct (nonempty n && negb (contains_chr 93 n)); [|discriminate]. intros H. injection H as <-. eexists. split; reflexivity.
  - destruct (split_last rest) as [[inner c]|]; [|discriminate].
    destruct ((c =? 93) && nonempty n && negb (contains_chr 93 inner)); [|discriminate].
    destruct (all_some (map parse_nat (split_chr 44 inner))) as [idx|]; [|discriminate].
    destruct (Nat.leb (length idx) 3); [|discriminate]. intros H. injection H as <-. eexists. split; reflexivity.
Qed.

Lemma rsegs_inv l : forall xs, all_some (map rseg_core l) = Some xs -> map seg_txt xs = l /\ Forall vals_ok xs.
Proof.
  induction l as [|s r IH]; intros xs H; cbn [map all_some] in H; [injection H as <-; split; [reflexivity|constructor]|].
  destruct (rseg_core s) as [x|] eqn:Ex; [|discriminate]. destruct (all_some (map rseg_core r)) as [xr|]; [|discriminate].
  injection H as <-. destruct (rseg_core_inv _ _ Ex) as [E1 V1]. destruct (IH xr eq_refl) as [E2 V2].
  cbn [map]. rewrite E1, E2. split; [reflexivity|constructor; assumption].
Qed.

Lemma rsegs_complete l : forall segs, all_some (map parse_seg l) = Some segs ->
  exists xs, all_some (map rseg_core l) = Some xs /\ map seg_ast xs = segs.
Proof.
  induction l as [|s r IH]; intros segs H; cbn [map all_some] in H; [injection H as <-; exists []; split; reflexivity|].
  destruct (parse_seg s) as [sg|] eqn:Es; [|discriminate]. destruct (all_some (map parse_seg r)) as [sr|]; [|discriminate].
  injection H as <-. destruct (rseg_core_complete _ _ Es) as (x & Ex & Ax). destruct (IH sr eq_refl) as (xr & Er & Ar).
  exists (x :: xr). cbn [map all_some]. rewrite Ex, Er, Ax, Ar. split; reflexivity.
Qed.

Lemma count_core_inv s body cnt : count_core s = Some (body, cnt) -> s = body ++ cnt_txt cnt /\ optc cnt.
Proof.
  unfold count_core. destruct (split_last s) as [[s' c]|] eqn:El; [|discriminate].
  destruct (c =? 125) eqn:Ec.
  - destruct (split_chr 123 s') as [|b [|n [|? ?]]] eqn:Es; try discriminate.
    unfold parse_nat. destruct (isdigit n); [|discriminate]. destruct (digits_val n 0) as [z|] eqn:Ez; [|discriminate].
    intros H. injection H as <- <-. assert (c = 125) by lia. subst c. split; [|exact Ez].
    rewrite (split_last_inv _ _ _ El), (split2_inv _ _ _ _ Es). unfold cnt_txt. rewrite <- !app_assoc. reflexivity.
  - destruct (contains_chr 123 s || contains_chr 125 s); [discriminate|]. intros H. injection H as <- <-.
    split; [cbn [cnt_txt]; rewrite app_nil_r; reflexivity|exact I].
Qed.

Lemma count_core_complete s body cnt : split_count s = Some (body, cnt) ->
  exists c, count_core s = Some (body, c) /\ opt_val c = cnt.
Proof.
  unfold split_count, count_core, LBRACE, RBRACE. destruct (split_last s) as [[s' c]|]; [|discriminate].
  destruct (c =? 125).
  - destruct (split_chr 123 s') as [|b [|n [|? ?]]]; try discriminate.
    destruct (parse_nat n) as [z|]; [|discriminate]. intros H. injection H as <- <-. eexists. split; reflexivity.
  - destruct (contains_chr 123 s || contains_chr 125 s); [discriminate|]. intros H. injection H as <- <-. exists None. split; reflexivity.
Qed.

Lemma prog_step_inv parts prog parts1 : prog_step parts = (prog, parts1) ->
  parts = (match prog with Some P => [txt_Program_ ++ P] | None => [] end) ++ parts1.
Proof.
  unfold prog_step. destruct parts as [|p0 r]; [intros H; injection H as <- <-; reflexivity|].
  destruct (starts_with txt_Program p0) eqn:E; intros H; [|injection H as <- <-; reflexivity].
  change txt_Program with txt_Program_ in E. destruct (PathStr.starts_with_app _ _ E) as [r' Hr'].
  rewrite Hr', skipn8_program in H. injection H as <- <-. rewrite Hr'. reflexivity.
Qed.

Lemma bit_step_inv parts1 b parts2 : bit_step parts1 = (Some b, parts2) ->
  parts1 = parts2 ++ (match b with Some (t, _) => [t] | None => [] end) /\ optc b /\ (b <> None -> parts2 <> []).
Proof.
  unfold bit_step. destruct (split_last parts1) as [[init l]|] eqn:El.
  - destruct (nonempty init && isdigit l) eqn:E.
    + destruct (digits_val l 0) as [v|] eqn:Ev; intros H; [|discriminate]. injection H as <- <-.
      split; [exact (split_last_inv _ _ _ El)|]. split; [exact Ev|]. intros _. destruct init; [discriminate|discriminate].
    + intros H. injection H as <- <-. rewrite app_nil_r. repeat split. congruence.
  - intros H. injection H as <- <-. rewrite app_nil_r. repeat split. congruence.
Qed.

Definition core_vals (c : core) : Prop :=
  let '(prog, x1, more, bit, cnt) := c in vals_ok x1 /\ Forall vals_ok more /\ optc bit /\ optc cnt.

Theorem ref_core_render s c : ref_core s = Some c -> core_text c = s /\ core_vals c.
Proof.
  unfold ref_core. destruct (count_core s) as [[body cnt]|] eqn:Ecn; [|discriminate].
  destruct (count_core_inv _ _ _ Ecn) as [Es Hcc]. cbv zeta.
  destruct (prog_step (split_chr 46 body)) as [prog parts1] eqn:Ep. cbn [fst snd].
  destruct (match prog with Some [] => true | _ => false end); [discriminate|].
  destruct (bit_step parts1) as [ob parts2] eqn:Eb. cbn [fst snd].
  destruct ob as [b|]; [|discriminate].
  destruct (all_some (map rseg_core parts2)) as [[|sg segs]|] eqn:Ea; try discriminate.
  intros H. injection H as <-.
  pose proof (prog_step_inv _ _ _ Ep) as Hparts. destruct (bit_step_inv _ _ _ Eb) as (Hp1 & Hbc & Hbne).
  destruct (rsegs_inv _ _ Ea) as [Htx Hv]. pose proof (Forall_inv Hv) as Hv1. pose proof (Forall_inv_tail Hv) as Hvm.
  split; [|repeat split; assumption].
  unfold core_text, g_text. rewrite Es. f_equal.
  rewrite <- (join_split 46 body), Hparts, Hp1, <- Htx. unfold g_body0, g_base.
  set (L := map seg_txt (sg :: segs)). change (seg_txt sg :: map seg_txt segs) with L.
  assert (HL : L <> []) by (unfold L; discriminate).
  destruct prog as [P|]; destruct b as [[t v]|]; cbn [app bit_txt].
  - change ((txt_Program_ ++ P) :: L ++ [t]) with (((txt_Program_ ++ P) :: L) ++ [t]).
    rewrite join_snoc by discriminate. unfold L. cbn [map]. rewrite join_prog. reflexivity.
  - rewrite !app_nil_r. unfold L. cbn [map]. rewrite join_prog. reflexivity.
  - rewrite join_snoc by exact HL. reflexivity.
  - rewrite !app_nil_r. reflexivity.
Qed.

(* the bit step of Expect.parse_request *)
Definition ref_bit (parts1 : list text) : option Z * list text :=
  match split_last parts1 with
  | Some (init, l) => if nonempty init && isdigit l then (digits_val l 0, init) else (None, parts1)
  | None => (None, parts1)
  end.

Lemma bit_step_complete parts1 :
  exists b, bit_step parts1 = (Some b, snd (ref_bit parts1)) /\ opt_val b = fst (ref_bit parts1).
Proof.
  unfold bit_step, ref_bit. destruct (split_last parts1) as [[init l]|]; [|exists None; split; reflexivity].
  destruct (nonempty init && isdigit l) eqn:E; [|exists None; split; reflexivity].
  apply andb_prop in E. destruct E as [_ Ed]. destruct (isdigit_all l Ed) as [Ha _].
  destruct (digits_val_total l 0 Ha) as [v Ev]. rewrite Ev. exists (Some (l, v)). split; reflexivity.
Qed.

(* the two sides are what Expect.parse_request and [ref_core] do after the program step, written out:
   [ref_core_complete] applies the lemma by conversion in each case of that step *)
Lemma tail_complete prog parts1 cnt cc r : opt_val cc = cnt ->
  (if (match prog with Some [] => true | _ => false end) then None else
   let '(bit, parts2) := ref_bit parts1 in
   match all_some (map parse_seg parts2) with
   | Some (sg :: segs) => Some (mkReq prog (sg :: segs) bit cnt)
   | _ => None
   end) = Some r ->
  exists c,
    (if (match prog with Some [] => true | _ => false end) then None else
     match fst (bit_step parts1), all_some (map rseg_core (snd (bit_step parts1))) with
     | Some b, Some (sg :: segs) => Some (prog, sg, segs, b, cc)
     | _, _ => None
     end) = Some c /\ core_ast c = r.
Proof.
  intros Hcv. destruct (match prog with Some [] => true | _ => false end); [discriminate|].
  destruct (bit_step_complete parts1) as (b & Eb & Hb). rewrite Eb.
  destruct (ref_bit parts1) as [bit parts2]. cbn [fst snd] in *.
  destruct (all_some (map parse_seg parts2)) as [[|sg segs]|] eqn:Ea; try discriminate.
  destruct (rsegs_complete _ _ Ea) as (xs & Ex & Ax). rewrite Ex.
  destruct xs as [|x xr]; [discriminate|]. intros H. injection H as <-.
  eexists. split; [reflexivity|]. unfold core_ast. rewrite Ax, Hcv, Hb. reflexivity.
Qed.

Theorem ref_core_complete s r : parse_request s = Some r -> exists c, ref_core s = Some c /\ core_ast c = r.
Proof.
  unfold parse_request, ref_core, DOT.
  destruct (split_count s) as [[body cnt]|] eqn:Ec; [|discriminate].
  destruct (count_core_complete _ _ _ Ec) as (cc & -> & Hcv). cbv zeta.
  unfold prog_step. destruct (split_chr 46 body) as [|p0 r0].
  - exact (tail_complete None [] cnt cc r Hcv).
  - destruct (starts_with txt_Program p0).
    + exact (tail_complete (Some (skipn 8 p0)) r0 cnt cc r Hcv).
    + exact (tail_complete None (p0 :: r0) cnt cc r Hcv).
Qed.

Print Assumptions ref_core_render.
Print Assumptions ref_core_complete.

Lemma core_item_text p c x : core_item p c = Some x -> item_text x = core_text c.
Proof.
  destruct c as [[[[prog x1] more] bit] cnt]. unfold core_item.
  destruct (List.find _ (visible_tags p)) as [g|] eqn:Ef; [|discriminate].
  destruct (List.find_some _ _ Ef) as [_ Hpred]. apply andb_prop in Hpred. destruct Hpred as [Hsc Hnm].
  apply scope_exact_eq in Hsc. apply teqb_eq in Hnm. intros H.
  destruct prog as [P|]; [|destruct more as [|y ys]]; injection H as <-; cbn [item_text core_text].
  - unfold gq_text, greq_text. cbn [gq_g gq_x1 gq_more gq_bit gq_cnt]. rewrite Hsc. reflexivity.
  - unfold sreq_text, single_req, g_text, g_body0, g_base. cbn [sr_g sr_ids sr_bit sr_cnt map join]. rewrite Hnm.
    unfold seg_txt. rewrite <- !app_assoc. reflexivity.
  - unfold gq_text, greq_text. cbn [gq_g gq_x1 gq_more gq_bit gq_cnt]. rewrite Hsc. reflexivity.
Qed.

(* as ReadStrings.plain_item, with the rendering equation proved (ref_core_render) instead of checked *)
Theorem request_item p mem cfg fuel s r c x :
  ref_core s = Some c -> core_item p c = Some x -> item_okb p x = true ->
  parse_request s = Some r -> ref_read p mem r <> None ->
  (exists q path, parse_tag_request (client_tags p) s = Ok q /\ read_path (c_use_ids cfg) q = Ok path
                  /\ fits (c_conn cfg) fuel q path) ->
  item_text x = s /\ item_ast x = r /\ item_ok p mem cfg fuel x.
Proof.
  intros Ec Ei Hokb Hpr Href Hex.
  destruct (ref_core_render s c Ec) as [Hrender Hvals].
  assert (Htxt : item_text x = s) by (rewrite (core_item_text p c x Ei); exact Hrender).
  destruct c as [[[[prog x1] more] bit] cnt]. destruct Hvals as (Hv1 & Hvm & Hcb & Hcc).
  split; [exact Htxt|]. exact (core_item_ok p mem cfg fuel s r prog x1 more bit cnt x Hv1 Hvm Hcb Hcc Ei Hokb Htxt Hpr Href Hex).
Qed.

(* the semantic side conditions, computable from the project and the string *)
Definition sem_ok (p : project) (s : text) : bool :=
  match ref_core s with
  | Some c => match core_item p c with Some x => item_okb p x | None => false end
  | None => false
  end.

(* [resolution_sound] of Props/C01.v under [sem_ok]: no condition on how the string is written *)
Theorem resolution_sem p mem cfg fuel s r :
  wf_project p = true -> wf_mem p mem = true -> layout_ok p = true -> upload_ok p = true -> dword_arrays p = true ->
  sem_ok p s = true ->
  parse_request s = Some r -> ref_read p mem r <> None ->
  (exists q path, parse_tag_request (client_tags p) s = Ok q /\ read_path (c_use_ids cfg) q = Ok path
                  /\ fits (c_conn cfg) fuel q path) ->
  request_ok p mem cfg fuel s r.
Proof.
  intros Hwf Hwm Hlay Hup Hda Hs Hpr Href Hex. unfold sem_ok in Hs.
  destruct (ref_core s) as [c|] eqn:Ec; [|discriminate]. destruct (core_item p c) as [x|] eqn:Ei; [|discriminate].
  destruct (request_item p mem cfg fuel s r c x Ec Ei Hs Hpr Href Hex) as (E1 & E2 & Hok).
  rewrite <- E1, <- E2. apply item_request_ok; assumption.
Qed.

Print Assumptions request_item.
Print Assumptions resolution_sem.
