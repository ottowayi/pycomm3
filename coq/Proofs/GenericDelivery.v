(* Proofs/GenericDelivery.v — delivered_verbatim: what the spec parsers (Spec/GenericSpec.v
   spec_extract = frame parser, message-router request parser, Unconnected Send unwrapper, path
   reader, composed as the target composes them) read out of the frame Model/Generic.v emits is
   what the caller asked — for connected messaging, Unconnected Send with a route, and direct UCMM
   without one (the default route_path=True resolves to none there), an Unconnected Send without a
   route carrying an empty route path; and exactly NOT so on the one guarded input class. *)
From Coq Require Import String ZifyBool.
From PV Require Import Base.Bytes Base.BytesLemmas Base.Res Base.Proto Base.PyStr.
From PV Require Import Gen.PathTables Gen.Consts Gen.Tables Gen.GenericFacts Gen.SeqGen Model.EnumMapDefs Model.Path Model.Generic.
From PV Require Model.Seq Proofs.SeqP.
From PV Require Import Spec.EncapParser Spec.MRParser Spec.TargetIface Spec.GenericSpec.
From PV Require Import Proofs.TargetCoreP Proofs.PathStr Proofs.GenericPath Proofs.GenericFrame.
Open Scope Z_scope.
Ltac Zify.zify_post_hook ::= Z.to_euclidean_division_equations.

(* a service code: int 0..127, or that one byte *)
Definition service_value (s : sval) : option Z :=
  match s with
  | SInt z => if (0 <=? z) && (z <? 128) then Some z else None
  | SBytes [z] => if (0 <=? z) && (z <? 128) then Some z else None
  | SBytes _ => None
  end.

(* a route path: port segments, even length, at most 255 words *)
Definition route_payload_wf (rb : bytes) : bool :=
  Z.even (blen rb) && (blen rb <? 512) && route_ok rb && bytes_ok rb.
(* the bytes a requested route becomes (PADDED_EPATH with length and pad): words, 0, route path *)
Definition route_wf (rt : bytes) : bool :=
  match rt with
  | n :: 0 :: rb => (n =? blen rb / 2) && route_payload_wf rb
  | _ => false
  end.
Definition requested_route (rt : bytes) : bytes := skipn 2 rt.

Record wf_call (d : drv) (a : gm_args) (svc : Z) (rt : bytes) : Prop := {
  wf_drv : drv_ok d = true;
  wf_conn : a_connected a = true -> d_connected d = true /\ 1 <= d_seq d <= 65536;
  wf_svc : service_value (a_service a) = Some svc;
  wf_cls : id_ok 2 (a_class a) = true;
  wf_ins : id_ok 4 (a_instance a) = true;
  wf_att : att_ok (a_attribute a) = true;
  wf_data : bytes_ok (a_data a) = true /\ blen (a_data a) <= 60000;
  (* unconnected: the route argument resolves to [rt]: nothing, or a well-formed encoded route *)
  wf_route : a_connected a = false -> resolve_route d (a_ucsend a) (a_route a) = Ok rt /\ (rt = [] \/ route_wf rt = true);
  (* a hand-made Unconnected Send passed through direct UCMM is the caller's own wrapper, not a request *)
  wf_plain : a_connected a = false -> a_ucsend a = false ->
             ~ (svc = 82 /\ lval_value (a_class a) = 6 /\ lval_value (a_instance a) = 1 /\ att_value (a_attribute a) = None) }.

(* what the caller asked the target's message router for *)
Definition asked (d : drv) (a : gm_args) (svc : Z) (rt : bytes) : delivered :=
  {| dl_mode := if a_connected a then MConnected (le_dec (d_cid d)) (fst (Seq.draw (d_seq d)))
                else if a_ucsend a then MUcsend (hd 0 PRIORITY) (hd 0 TIMEOUT_TICKS) (requested_route rt)
                else MUcmm;
     dl_session := d_session d; dl_service := svc;
     dl_class := lval_value (a_class a); dl_instance := lval_value (a_instance a);
     dl_attribute := att_value (a_attribute a); dl_data := a_data a |}.

(* the one input class on which the target is NOT asked [asked]: direct UCMM with an EXPLICITLY
   given route (str / segments / bytes): it is appended after the request data — the library's own
   Forward Open / Forward Close calls rely on it.  (An Unconnected Send without a route carries an
   empty route path; route_path=True means the connection's route inside an Unconnected Send only.) *)
Definition delivery_guard (a : gm_args) (rt : bytes) : bool :=
  negb (a_connected a) && negb (a_ucsend a) && match rt with [] => false | _ => true end.

Lemma service_bytes_ok s svc : service_value s = Some svc -> service_bytes s = Ok [svc] /\ 0 <= svc < 128.
Proof.
  destruct s as [z | [| z [| ? ?]]]; cbn [service_value service_bytes]; try discriminate.
  - destruct ((0 <=? z) && (z <? 128)) eqn:E; [| discriminate]. intros [= <-].
    unfold byte_ok. replace ((0 <=? z) && (z <? 256)) with true by lia. split; [reflexivity | lia].
  - destruct ((0 <=? z) && (z <? 128)) eqn:E; [| discriminate]. intros [= <-]. split; [reflexivity | lia].
Qed.

Lemma route_wf_inv rt : route_wf rt = true ->
  exists rb, rt = (blen rb / 2) :: 0 :: rb /\ Z.even (blen rb) = true /\ blen rb < 512 /\ route_ok rb = true /\ bytes_ok rb = true.
Proof.
  destruct rt as [| n [| z rb]]; try discriminate.
  destruct z; try discriminate. cbn [route_wf]. unfold route_payload_wf. intros H.
  apply andb_prop in H as [Hn H]. apply andb_prop in H as [H Hb]. apply andb_prop in H as [H Hr].
  apply andb_prop in H as [He Hl].
  exists rb. repeat split; try assumption; try lia. f_equal. lia.
Qed.

(* the message-router request of a call, carrying request data [data]: service and path as the model
   emits them, and what the spec reads from the request (embedded or direct, in whatever mode [m]) *)
Lemma request_read d a svc rt data :
  wf_call d a svc rt -> bytes_ok data = true ->
  exists p, service_bytes (a_service a) = Ok [svc]
    /\ request_path (a_class a) (a_instance a) (a_attribute a) = Ok (blen p / 2 :: p)
    /\ path_cia p = Some (lval_value (a_class a), lval_value (a_instance a), att_value (a_attribute a))
    /\ bytes_ok (svc :: blen p / 2 :: p ++ data) = true
    /\ 2 < blen (svc :: blen p / 2 :: p ++ data) <= 20 + blen data
    /\ parse_mr (svc :: blen p / 2 :: p ++ data) = RcOk {| mr_service := svc; mr_path := p; mr_data := data |}
    /\ forall m, deliver_mr m (d_session d) {| mr_service := svc; mr_path := p; mr_data := data |}
         = Some {| dl_mode := m; dl_session := d_session d; dl_service := svc;
                   dl_class := lval_value (a_class a); dl_instance := lval_value (a_instance a);
                   dl_attribute := att_value (a_attribute a); dl_data := data |}.
Proof.
  intros W Hd. destruct (service_bytes_ok _ _ (wf_svc _ _ _ _ W)) as [Hsb Hsr].
  destruct (request_path_cia _ _ _ (wf_cls _ _ _ _ W) (wf_ins _ _ _ _ W) (wf_att _ _ _ _ W))
    as (p & Hrp & Hcia & Hpo & Hpe & Hpl).
  pose proof (blen_nonneg data). exists p. split; [exact Hsb |]. split; [exact Hrp |]. split; [exact Hcia |].
  split; [rewrite !bytes_ok_cons, bytes_ok_app, Hpo, Hd, !(proj2 (byte_ok_iff _)) by lia; reflexivity |].
  split; [rewrite !blen_cons, blen_app; lia |].
  split; [apply parse_mr_built; assumption || lia |].
  intros m. unfold deliver_mr. cbn [mr_path mr_service mr_data]. rewrite Hcia. reflexivity.
Qed.

Lemma delivered_connected d a svc rt :
  wf_call d a svc rt -> a_connected a = true ->
  exists d' fr, gm_request d a = (d', Done fr) /\ spec_extract fr = Some (asked d a svc rt).
Proof.
  intros W Hc.
  destruct (request_read d a svc rt (a_data a) W (proj1 (wf_data _ _ _ _ W))) as (p & Hsb & Hrp & _ & Heo & Hel & Hpm & Hdm).
  destruct W as [Wd Wc _ _ _ _ [_ Wdl] _ _]. destruct (Wc Hc) as [Hdc Hseq].
  pose proof (SeqP.draw_range _ Hseq) as Hdr.
  unfold gm_request, asked. rewrite Hc, Hdc. cbn [negb].
  destruct (Seq.draw (d_seq d)) as [seq v'] eqn:Ed. cbn [fst] in Hdr |- *.
  rewrite Hsb. cbn [bind]. unfold connected_message. rewrite UINT_ok by lia. cbn [bind]. rewrite Hrp. cbn [bind].
  rewrite cmd_unit, addr_connection, item_connected. cbn [bind app].
  set (msg := le_enc 2 seq ++ svc :: blen p / 2 :: p ++ a_data a).
  assert (Hml : blen msg = 2 + blen (svc :: blen p / 2 :: p ++ a_data a)).
  { unfold msg. rewrite blen_app, blen_le_enc. reflexivity. }
  assert (Hmo : bytes_ok msg = true).
  { unfold msg. rewrite bytes_ok_app, le_enc_ok. exact Heo. }
  rewrite (build_request_unit d msg Wd) by lia.
  cbn [of_res]. eexists _, _. split; [reflexivity |].
  unfold spec_extract. rewrite parse_mk_frame by (apply (frame_wf_unit d); [exact Wd | exact Hmo | lia]).
  cbn [f_body f_session]. unfold msg. cbn [le_enc app].
  rewrite Hpm, Hdm, u16_enc by lia. reflexivity.
Qed.

Lemma cia_is_ucsend (c i : Z) (oa : option Z) :
  match Some (c, i, oa) with Some (6, 1, None) => true | _ => false end
  = (c =? 6) && (i =? 1) && match oa with None => true | Some _ => false end.
Proof.
  destruct (c =? 6) eqn:Ec.
  - apply Z.eqb_eq in Ec. subst c. destruct (i =? 1) eqn:Ei.
    + apply Z.eqb_eq in Ei. subst i. destruct oa; reflexivity.
    + destruct i as [| q | q]; try reflexivity. destruct q; try reflexivity. discriminate.
  - destruct c as [| q | q]; try reflexivity.
    destruct q as [q | q |]; try reflexivity. destruct q as [q | q |]; try reflexivity.
    destruct q; try reflexivity. discriminate.
Qed.

(* whatever the route argument resolved to travels after the caller's data: nothing in the domain
   of the statement, the encoded route on the one guarded input class *)
Lemma ucmm_delivered d a svc rt :
  wf_call d a svc rt -> a_connected a = false -> a_ucsend a = false -> bytes_ok rt = true -> blen rt <= 514 ->
  exists d' fr, gm_request d a = (d', Done fr)
    /\ spec_extract fr = Some {| dl_mode := MUcmm; dl_session := d_session d; dl_service := svc;
                                 dl_class := lval_value (a_class a); dl_instance := lval_value (a_instance a);
                                 dl_attribute := att_value (a_attribute a); dl_data := a_data a ++ rt |}.
Proof.
  intros W Hc Hu Hrto Hrtl.
  assert (Hdo : bytes_ok (a_data a ++ rt) = true) by (rewrite bytes_ok_app, (proj1 (wf_data _ _ _ _ W)), Hrto; reflexivity).
  destruct (request_read d a svc rt _ W Hdo) as (p & Hsb & Hrp & Hcia & Hmo & Hml & Hpm & Hdm). rewrite blen_app in Hml.
  destruct W as [Wd _ _ _ _ _ [_ Wdl] Wr Wp].
  destruct (Wr Hc) as [Hrt _]. rewrite Hu in Hrt. specialize (Wp Hc Hu).
  unfold gm_request. rewrite Hc, Hu, Hrt. cbn [bind].
  rewrite Hsb. cbn [bind]. unfold unconnected_message. rewrite Hrp. cbn [bind].
  rewrite cmd_rr, addr_uccm, item_unconnected. cbn [bind app].
  rewrite (build_request_rr d _ Wd) by lia.
  cbn [of_res]. eexists _, _. split; [reflexivity |].
  unfold spec_extract. rewrite parse_mk_frame by (apply (frame_wf_rr d); [exact Wd | exact Hmo | lia]).
  cbn [f_body f_session]. rewrite Hpm.
  assert (Hnu : is_unconnected_send {| mr_service := svc; mr_path := p; mr_data := a_data a ++ rt |} = false).
  { unfold is_unconnected_send. cbn [mr_service mr_path]. rewrite Hcia, cia_is_ucsend.
    destruct (svc =? 82) eqn:E1; [| reflexivity].
    destruct (lval_value (a_class a) =? 6) eqn:E2; [| reflexivity].
    destruct (lval_value (a_instance a) =? 1) eqn:E3; [| reflexivity].
    destruct (att_value (a_attribute a)) eqn:E4; [reflexivity |].
    exfalso. apply Wp. repeat split; lia. }
  rewrite Hnu, Hdm. reflexivity.
Qed.

Lemma delivered_ucmm d a svc :
  wf_call d a svc [] -> a_connected a = false -> a_ucsend a = false ->
  exists d' fr, gm_request d a = (d', Done fr) /\ spec_extract fr = Some (asked d a svc []).
Proof.
  intros W Hc Hu. destruct (ucmm_delivered d a svc [] W Hc Hu eq_refl) as (d' & fr & H1 & H2); [cbn; lia |].
  exists d', fr. split; [exact H1 |]. rewrite H2, app_nil_r. unfold asked. rewrite Hc, Hu. reflexivity.
Qed.

Lemma bytes_ok_mk_ucsend pr tk emb rb :
  byte_ok pr = true -> byte_ok tk = true -> bytes_ok emb = true -> bytes_ok rb = true -> blen rb < 512 ->
  bytes_ok (mk_ucsend pr tk emb rb) = true.
Proof.
  intros Hp Ht He Hr Hrl. pose proof (blen_nonneg rb). unfold mk_ucsend.
  rewrite !bytes_ok_cons, !bytes_ok_app, le_enc_ok, Hp, Ht, He, !bytes_ok_cons, Hr.
  rewrite (proj2 (byte_ok_iff (blen rb / 2))) by lia.
  destruct (Z.odd (blen emb)); reflexivity.
Qed.

Lemma blen_mk_ucsend pr tk emb rb : blen (mk_ucsend pr tk emb rb) <= 7 + blen emb + blen rb.
Proof.
  unfold mk_ucsend. rewrite !blen_cons, !blen_app, blen_le_enc, !blen_cons.
  destruct (Z.odd (blen emb)); rewrite ?blen_cons, ?blen_nil; lia.
Qed.

Lemma delivered_ucsend d a svc rt :
  wf_call d a svc rt -> a_connected a = false -> a_ucsend a = true ->
  exists d' fr, gm_request d a = (d', Done fr) /\ spec_extract fr = Some (asked d a svc rt).
Proof.
  intros W Hc Hu.
  (* the route path [rb] the wrapper carries: empty without a route, else what follows size and reserved byte *)
  assert (R : exists rb, requested_route rt = rb
                /\ match rt with [] => ucsend_empty_route | _ => rt end = blen rb / 2 :: 0 :: rb
                /\ Z.even (blen rb) = true /\ blen rb < 512 /\ route_ok rb = true /\ bytes_ok rb = true).
  { destruct (wf_route _ _ _ _ W Hc) as [_ [-> | Hrw]].
    - exists []. repeat split; reflexivity.
    - destruct (route_wf_inv _ Hrw) as (rb & -> & Hre & Hrl & Hrok & Hrbo). exists rb. repeat split; assumption. }
  destruct R as (rb & Hreq & Hwrap & Hre & Hrl & Hrok & Hrbo).
  destruct (request_read d a svc rt (a_data a) W (proj1 (wf_data _ _ _ _ W))) as (p & Hsb & Hrp & _ & Heo & Hel & Hpm & Hdm).
  destruct W as [Wd _ _ _ _ _ [_ Wdl] Wr _].
  destruct (Wr Hc) as [Hrt _]. rewrite Hu in Hrt.
  unfold gm_request, asked. rewrite Hc, Hu, Hrt, Hreq. cbn [bind].
  rewrite Hsb. cbn [bind]. unfold unconnected_message. rewrite Hrp. cbn [bind app].
  set (emb := svc :: blen p / 2 :: p ++ a_data a) in *.
  pose proof (blen_nonneg rb) as Hrn.
  rewrite (wrap_unconnected_send_spec emb rt rb) by (try exact Hwrap; lia). cbn [bind].
  rewrite cmd_rr, addr_uccm, item_unconnected. cbn [bind].
  set (msg := 82 :: blen [32; 6; 36; 1] / 2 :: [32; 6; 36; 1] ++ mk_ucsend 10 5 emb rb).
  pose proof (blen_mk_ucsend 10 5 emb rb) as Hul. pose proof (blen_nonneg (mk_ucsend 10 5 emb rb)) as Hun.
  assert (Hml : blen msg = 6 + blen (mk_ucsend 10 5 emb rb)).
  { unfold msg. rewrite !blen_cons, blen_app, !blen_cons, blen_nil. lia. }
  assert (Hmo : bytes_ok msg = true).
  { unfold msg. rewrite !bytes_ok_cons, bytes_ok_app, bytes_ok_mk_ucsend by (reflexivity || assumption || lia). reflexivity. }
  rewrite (build_request_rr d msg Wd) by lia.
  cbn [of_res]. eexists _, _. split; [reflexivity |].
  unfold spec_extract. rewrite parse_mk_frame by (apply (frame_wf_rr d); [exact Wd | exact Hmo | lia]).
  cbn [f_body f_session]. unfold msg.
  rewrite (parse_mr_built 82 [32; 6; 36; 1] (mk_ucsend 10 5 emb rb)) by (try reflexivity; lia).
  replace (is_unconnected_send {| mr_service := 82; mr_path := [32; 6; 36; 1]; mr_data := mk_ucsend 10 5 emb rb |})
    with true by reflexivity.
  cbn [mr_data].
  rewrite (parse_mk_ucsend 10 5 emb rb _ ltac:(lia) Hre Hrl Hrok Hpm).
  cbn [us_priority us_ticks us_route us_request]. rewrite Hdm. reflexivity.
Qed.

Theorem delivered_verbatim d a svc rt :
  wf_call d a svc rt -> delivery_guard a rt = false ->
  exists d' fr, gm_request d a = (d', Done fr) /\ spec_extract fr = Some (asked d a svc rt).
Proof.
  intros W G. unfold delivery_guard in G.
  destruct (a_connected a) eqn:Hc; [apply delivered_connected; assumption |].
  cbn [negb andb] in G. destruct (a_ucsend a) eqn:Hu.
  - apply delivered_ucsend; assumption.
  - cbn [negb andb] in G. destruct rt as [| x rt']; [| discriminate]. apply delivered_ucmm; assumption.
Qed.

(* direct UCMM with a route: the route bytes arrive as request data after the caller's data *)
Lemma ucmm_route_appended d a svc rt :
  wf_call d a svc rt -> a_connected a = false -> a_ucsend a = false -> route_wf rt = true ->
  exists d' fr, gm_request d a = (d', Done fr)
    /\ spec_extract fr = Some {| dl_mode := MUcmm; dl_session := d_session d; dl_service := svc;
                                 dl_class := lval_value (a_class a); dl_instance := lval_value (a_instance a);
                                 dl_attribute := att_value (a_attribute a); dl_data := a_data a ++ rt |}.
Proof.
  intros W Hc Hu Hrw. destruct (route_wf_inv _ Hrw) as (rb & -> & _ & Hrl & _ & Hrbo).
  pose proof (blen_nonneg rb). apply ucmm_delivered; try assumption.
  - rewrite !bytes_ok_cons, Hrbo, (proj2 (byte_ok_iff (blen rb / 2))) by lia. reflexivity.
  - rewrite !blen_cons. lia.
Qed.

Theorem delivery_guard_exact d a svc rt :
  wf_call d a svc rt -> delivery_guard a rt = true ->
  exists d' fr, gm_request d a = (d', Done fr) /\ spec_extract fr <> Some (asked d a svc rt).
Proof.
  intros W G. unfold delivery_guard in G.
  destruct (a_connected a) eqn:Hc; [discriminate |]. cbn [negb andb] in G.
  destruct (wf_route _ _ _ _ W Hc) as [_ Hrw].
  destruct (a_ucsend a) eqn:Hu; [discriminate |]. cbn [negb andb] in G.
  destruct rt as [| x rt']; [discriminate |]. destruct Hrw as [Hrw | Hrw]; [discriminate |].
  destruct (ucmm_route_appended d a svc (x :: rt') W Hc Hu Hrw) as (d' & fr & H1 & H2).
  exists d', fr. split; [exact H1 |]. rewrite H2. unfold asked. rewrite Hc, Hu.
  intros [= Heq]. apply (f_equal (@List.length Z)) in Heq. rewrite app_length in Heq. cbn [List.length] in Heq. lia.
Qed.
