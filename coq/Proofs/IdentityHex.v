(* Proofs/IdentityHex.v — the serial number: Python's f"{n:08x}" (Model: [fmt_08x], digits produced
   least-significant first by repeated division, then zero-padded to a MINIMUM width of 8) is, for
   every 0 <= n < 2^32, exactly the eight lower-case hex digits of the Spec ([hex8], positional
   arithmetic), by induction and arithmetic — no enumeration of n.  Reading back: [unhex],
   bytes.fromhex + int.from_bytes. Only per-DIGIT facts (16 digits, character codes < 103) are swept. *)
From Coq Require Import String ZifyBool.
From PV Require Import Base.Bytes Base.BytesLemmas Base.Res Base.Proto Base.PyStr Model.Identity Spec.IdentitySpec.
From PV Require Import Proofs.IdentityPrim.
Open Scope Z_scope.
Ltac Zify.zify_post_hook ::= Z.to_euclidean_division_equations.

Lemma hexdigit_hexchar d : 0 <= d < 16 -> hexdigit d = hexchar d.
Proof. revert d. apply (Forall_zrange _ 16). repeat constructor. Qed.
Lemma index_hexchar d : 0 <= d < 16 -> index_of (hexchar d) hexchars 0 = Some d.
Proof. revert d. apply (Forall_zrange _ 16). repeat constructor. Qed.
Lemma hexval_hexchar d : 0 <= d < 16 -> hexval (hexchar d) = Some d.
Proof. revert d. apply (Forall_zrange _ 16). repeat constructor. Qed.
Lemma is_space_hexchar d : 0 <= d < 16 -> is_space (hexchar d) = false.
Proof. revert d. apply (Forall_zrange _ 16). repeat constructor. Qed.

Definition lower_hex (c : Z) : bool := ((48 <=? c) && (c <=? 57)) || ((97 <=? c) && (c <=? 102)).
Definition digit_of (c : Z) : Z := if c <=? 57 then c - 48 else c - 87.
Lemma lower_hex_hexchar d : 0 <= d < 16 -> lower_hex (hexchar d) = true.
Proof. revert d. apply (Forall_zrange _ 16). repeat constructor. Qed.
Lemma hexchar_digit_of c : lower_hex c = true -> hexchar (digit_of c) = c /\ 0 <= digit_of c < 16.
Proof.
  intros H. assert (Hc : 0 <= c < 103) by (unfold lower_hex in H; lia).
  assert (E : (if lower_hex c then (hexchar (digit_of c) =? c) && (0 <=? digit_of c) && (digit_of c <? 16) else true) = true).
  { apply (forallb_zrange (fun c => if lower_hex c then (hexchar (digit_of c) =? c) && (0 <=? digit_of c) && (digit_of c <? 16) else true) 103);
      [vm_compute; reflexivity|lia]. }
  rewrite H in E. lia.
Qed.

Lemma hex_fixed_length k n : length (hex_fixed k n) = k.
Proof.
  revert n; induction k as [|k IH]; intros n; cbn [hex_fixed]; [reflexivity|].
  rewrite app_length, IH. cbn [length]. lia.
Qed.

Lemma repeat_snoc {A} (x : A) j : repeat x j ++ [x] = x :: repeat x j.
Proof. induction j as [|j IH]; cbn [repeat app]; [reflexivity|]. now rewrite IH. Qed.

Lemma hex_fixed_zero j : hex_fixed j 0 = repeat 48 j.
Proof.
  induction j as [|j IH]; cbn [hex_fixed repeat]; [reflexivity|].
  change (0 / 16) with 0. change (hexdigit (0 mod 16)) with 48. rewrite IH. apply repeat_snoc.
Qed.

Lemma pow16_S k : 16 ^ Z.of_nat (S k) = 16 * 16 ^ Z.of_nat k.
Proof. rewrite Nat2Z.inj_succ, Z.pow_succ_r; lia. Qed.
Lemma pow16_pos k : 0 < 16 ^ Z.of_nat k.
Proof. apply Z.pow_pos_nonneg; lia. Qed.

(* a number below 16^k written on j + k digits starts with j zeros *)
Lemma hex_fixed_pad j k n : 0 <= n < 16 ^ Z.of_nat k -> hex_fixed (j + k) n = repeat 48 j ++ hex_fixed k n.
Proof.
  revert n; induction k as [|k IH]; intros n H.
  - change (16 ^ Z.of_nat 0) with 1 in H. assert (n = 0) by lia. subst n.
    rewrite Nat.add_0_r, hex_fixed_zero. cbn [hex_fixed]. now rewrite app_nil_r.
  - rewrite pow16_S in H. pose proof (pow16_pos k) as Hp.
    rewrite Nat.add_succ_r. cbn [hex_fixed]. rewrite IH by lia. now rewrite app_assoc.
Qed.

(* the division loop yields the MINIMAL number of digits k >= 1 *)
Lemma hex_digits_spec fuel : forall n acc, (0 < fuel)%nat -> 0 <= n < 16 ^ Z.of_nat fuel ->
  exists k, (1 <= k <= fuel)%nat /\ n < 16 ^ Z.of_nat k /\ (k = 1%nat \/ 16 ^ Z.of_nat (k - 1) <= n)
            /\ hex_digits fuel n acc = hex_fixed k n ++ acc.
Proof.
  induction fuel as [|f IH]; intros n acc Hf Hn; [lia|].
  cbn [hex_digits]. destruct (n <? 16) eqn:E.
  - exists 1%nat. split; [lia|]. split; [change (16 ^ Z.of_nat 1) with 16; lia|]. split; [now left|reflexivity].
  - rewrite pow16_S in Hn.
    assert (Hf' : (0 < f)%nat).
    { destruct f; [|lia]. change (16 ^ Z.of_nat 0) with 1 in Hn. lia. }
    destruct (IH (n / 16) (hexdigit (n mod 16) :: acc) Hf') as (k & Hk & Hlt & Hmin & Heq).
    { pose proof (pow16_pos f). lia. }
    exists (S k). split; [lia|]. split; [rewrite pow16_S; pose proof (pow16_pos k); lia|]. split.
    + right. replace (S k - 1)%nat with k by lia.
      destruct Hmin as [->|Hmin]; [change (16 ^ Z.of_nat 1) with 16; lia|].
      replace k with (S (k - 1)) by lia. rewrite pow16_S. pose proof (pow16_pos (k - 1)). lia.
    + rewrite Heq. cbn [hex_fixed]. now rewrite <- app_assoc.
Qed.

Lemma log2_fuel n : 0 <= n -> n < 16 ^ Z.of_nat (S (Z.to_nat (Z.log2 n))).
Proof.
  intros H. rewrite Nat2Z.inj_succ, Z2Nat.id by apply Z.log2_nonneg.
  destruct (Z.eq_dec n 0) as [->|Hn]; [vm_compute; reflexivity|].
  assert (Hlt : n < 2 ^ Z.succ (Z.log2 n)) by (apply Z.log2_spec; lia).
  assert (2 ^ Z.succ (Z.log2 n) <= 16 ^ Z.succ (Z.log2 n)).
  { apply Z.pow_le_mono_l. pose proof (Z.log2_nonneg n). lia. }
  lia.
Qed.

Lemma pow16_mono a b : (a <= b)%nat -> 16 ^ Z.of_nat a <= 16 ^ Z.of_nat b.
Proof. intros H. apply Z.pow_le_mono_r; lia. Qed.

Lemma fmt_08x_fixed n : 0 <= n < 4294967296 -> fmt_08x n = hex_fixed 8 n.
Proof.
  intros H. unfold fmt_08x, py_hex.
  destruct (hex_digits_spec (S (Z.to_nat (Z.log2 n))) n []) as (k & Hk & Hlt & Hmin & Heq);
    [lia|split; [lia|apply log2_fuel; lia]|].
  rewrite Heq, app_nil_r, hex_fixed_length.
  assert (Hk8 : (k <= 8)%nat).
  { destruct Hmin as [->|Hmin]; [lia|].
    destruct (le_lt_dec k 8) as [?|Hgt]; [assumption|exfalso].
    pose proof (pow16_mono 8 (k - 1) ltac:(lia)) as Hm. change (16 ^ Z.of_nat 8) with 4294967296 in Hm. lia. }
  replace 8%nat with ((8 - k) + k)%nat at 2 by lia.
  symmetry. apply hex_fixed_pad. lia.
Qed.

(* positional form: the digit at weight 16^j is (n / 16^j) mod 16 *)
Lemma hex_fixed_8 n : 0 <= n < 4294967296 -> hex_fixed 8 n = hex8 n.
Proof.
  intros H. cbn [hex_fixed app]. unfold hex8.
  rewrite !hexdigit_hexchar by (apply Z.mod_pos_bound; lia).
  rewrite !Z.div_div by lia. reflexivity.
Qed.

(* f"{serial:08x}" is the Spec's eight digits *)
Theorem fmt_08x_hex8 n : 0 <= n < 4294967296 -> fmt_08x n = hex8 n.
Proof. intros H. rewrite fmt_08x_fixed, hex_fixed_8 by assumption. reflexivity. Qed.

Lemma hex8_length n : length (hex8 n) = 8%nat.
Proof. reflexivity. Qed.

Lemma hex8_lower n : 0 <= n < 4294967296 -> forallb lower_hex (hex8 n) = true.
Proof.
  intros H. unfold hex8. cbn [forallb]. rewrite !lower_hex_hexchar by (apply Z.mod_pos_bound; lia). reflexivity.
Qed.

Lemma unhex_fixed k : forall n a, 0 <= n < 16 ^ Z.of_nat k ->
  fold_left (fun acc c => match acc, index_of c hexchars 0 with
                          | Some a, Some d => Some (16 * a + d)
                          | _, _ => None
                          end) (hex_fixed k n) (Some a) = Some (a * 16 ^ Z.of_nat k + n).
Proof.
  induction k as [|k IH]; intros n a H.
  - change (16 ^ Z.of_nat 0) with 1 in *. cbn [hex_fixed fold_left]. f_equal. lia.
  - rewrite pow16_S in *. pose proof (pow16_pos k). cbn [hex_fixed]. rewrite fold_left_app, IH by lia.
    cbn [fold_left]. rewrite hexdigit_hexchar, index_hexchar by (apply Z.mod_pos_bound; lia). f_equal. lia.
Qed.

Theorem hex8_roundtrip n : 0 <= n < 4294967296 -> length (hex8 n) = 8%nat /\ unhex (hex8 n) = Some n.
Proof.
  intros H. split; [reflexivity|]. rewrite <- hex_fixed_8 by assumption. exact (unhex_fixed 8 n 0 H).
Qed.

Lemma hex8_inj a b : 0 <= a < 4294967296 -> 0 <= b < 4294967296 -> hex8 a = hex8 b -> a = b.
Proof.
  intros Ha Hb E. destruct (hex8_roundtrip a Ha) as [_ Ua]. destruct (hex8_roundtrip b Hb) as [_ Ub].
  rewrite E in Ua. congruence.
Qed.

(* every text of eight lower-case hex digits is hex8 of its value *)
Definition is_hex8 (s : list Z) : bool := (length s =? 8)%nat && forallb lower_hex s.
Lemma is_hex8_hex8 n : 0 <= n < 4294967296 -> is_hex8 (hex8 n) = true.
Proof. intros H. unfold is_hex8. rewrite hex8_lower by assumption. reflexivity. Qed.

Lemma hex_fixed_snoc k a d : 0 <= d < 16 -> hex_fixed (S k) (16 * a + d) = hex_fixed k a ++ [hexdigit d].
Proof. intros H. cbn [hex_fixed]. do 2 f_equal; [|f_equal]; lia. Qed.

Lemma is_hex8_value s : is_hex8 s = true -> exists n, 0 <= n < 4294967296 /\ s = hex8 n.
Proof.
  unfold is_hex8. intros H. apply andb_true_iff in H as [Hl Hc]. apply Nat.eqb_eq in Hl.
  destruct s as [|c7 [|c6 [|c5 [|c4 [|c3 [|c2 [|c1 [|c0 [|? ?]]]]]]]]]; cbn [length] in Hl; try lia.
  cbn [forallb] in Hc. repeat (apply andb_true_iff in Hc as [? Hc]).
  destruct (hexchar_digit_of c7) as [E7 R7]; [assumption|]. destruct (hexchar_digit_of c6) as [E6 R6]; [assumption|].
  destruct (hexchar_digit_of c5) as [E5 R5]; [assumption|]. destruct (hexchar_digit_of c4) as [E4 R4]; [assumption|].
  destruct (hexchar_digit_of c3) as [E3 R3]; [assumption|]. destruct (hexchar_digit_of c2) as [E2 R2]; [assumption|].
  destruct (hexchar_digit_of c1) as [E1 R1]; [assumption|]. destruct (hexchar_digit_of c0) as [E0 R0]; [assumption|].
  (* the value in Horner form: its digits can be read off by [hex_fixed_snoc] *)
  exists (16 * (16 * (16 * (16 * (16 * (16 * (16 * (16 * 0 + digit_of c7) + digit_of c6) + digit_of c5) + digit_of c4)
                            + digit_of c3) + digit_of c2) + digit_of c1) + digit_of c0).
  split; [lia|]. rewrite <- hex_fixed_8 by lia. rewrite !hex_fixed_snoc by assumption.
  cbn [hex_fixed app]. rewrite !hexdigit_hexchar by assumption. congruence.
Qed.

Lemma fromhex_pair a b r : 0 <= a < 16 -> 0 <= b < 16 ->
  bytes_fromhex (hexchar a :: hexchar b :: r) = (let* t := bytes_fromhex r in Ok (16 * a + b :: t)).
Proof.
  intros Ha Hb. cbn [bytes_fromhex]. rewrite is_space_hexchar, !hexval_hexchar by assumption. reflexivity.
Qed.

Lemma fromhex_hex8 n : 0 <= n < 4294967296 -> bytes_fromhex (hex8 n) = Ok (spec_u32be n).
Proof.
  intros H. unfold hex8. rewrite !fromhex_pair by (apply Z.mod_pos_bound; lia). cbn [bytes_fromhex bind].
  unfold spec_u32be. f_equal. list_lia.
Qed.

Lemma int_from_u32be n : int_from_bytes_big (spec_u32be n) = n.
Proof. unfold int_from_bytes_big, spec_u32be. cbn [fold_left]. lia. Qed.
