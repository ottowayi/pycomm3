(* Proofs/ReadInstance.v — symbol-instance addressing (use_instance_ids=True) and member paths.
   The reference target (Spec/TargetLogix.v): the pair  class 0x6B / instance i  stands for the tag whose
           symbol instance is i: followed by ANY segments (element indexes, member names, deeper members) it
           resolves to the same place as the symbolic segment of the tag's name followed by the same segments —
           in every scope (after a Program:P segment too), for every project with distinct instance ids / names.
           At the byte level for controller-scope tags: inst_seg_bytes i ++ R  vs  sym_seg_bytes name ++ R.
   The driver (Model/Path.v tag_request_path through LogixRead.read_path): WHEN the code uses an instance
           segment.  [by_instance use q]: use_instance_ids, the tag info of the request carries an instance id
           that is not 0, and the first dotted part does not start with "Program:".  Outside it the path is the
           symbolic one whatever use_instance_ids is.  A request with a member path takes its info from the
           data-type dict of the member (_get_tag_info), which has no instance id: member requests are ALWAYS
           addressed symbolically (so are Program: scoped tags).  The instance form is only emitted for
           single-segment controller-scope requests (tag, tag[i,j,k], .bit, {n}): ReadResolve1.path_single. *)
From Coq Require Import ZifyBool String.
From PV Require Import Base.Bytes Base.BytesLemmas Base.Res Base.PyStr.
From PV Require Import Gen.Consts Model.Path Model.Reply Model.LogixPlan Model.LogixRead.
From PV Require Import Spec.TargetIface Spec.TargetCore Spec.Project Spec.Expect Spec.TargetLogix.
From PV Require Import Proofs.PathStr Proofs.TargetCoreP Proofs.TargetLogixP Proofs.ReadDecode Proofs.ReadTarget
  Proofs.ReadValue Proofs.ReadCorrect Proofs.ReadResolve Proofs.ReadResolve1
  Proofs.ReadResolve2.
Open Scope list_scope.
Open Scope Z_scope.
Ltac Zify.zify_post_hook ::= Z.to_euclidean_division_equations.

Lemma wf_distinct p : wf_project p = true ->
  distinct_by Z.eqb (map g_inst (p_tags p)) = true /\ distinct_by tag_key_eqb (p_tags p) = true.
Proof.
  intros H. unfold wf_project in H. repeat (apply andb_prop in H; destruct H as [H ?]). split; assumption.
Qed.

Definition inst_psegs (i : Z) : list pseg := [PLog 0 107; PLog 1 i].

Lemma resolve_in_scope_inst p listing sc i rest :
  resolve_in_scope p listing sc (PLog 0 107 :: PLog 1 i :: rest)
  = match rest, listing with
    | [], true => TgSymbols sc i
    | _, _ => match find_tag_inst (p_tags p) i with
              | Some g => if scope_eqb (g_scope g) sc
                          then match tag_wloc g with ROk l => of_rres (resolve_segs p l [] rest) | RErr a b c => TgErr a b c end
                          else TgErr 4 [] 9
              | None => TgErr 4 [] 9
              end
    end.
Proof. reflexivity. Qed.

Theorem instance_in_scope p g listing rest :
  wf_project p = true -> In g (p_tags p) -> (listing = false \/ rest <> []) ->
  resolve_in_scope p listing (g_scope g) (inst_psegs (g_inst g) ++ rest)
  = resolve_in_scope p listing (g_scope g) (PSym (g_name g) :: rest).
Proof.
  intros Hwf Hin Hl. destruct (wf_distinct p Hwf) as [Hdi Hdk].
  unfold inst_psegs. cbn [app]. rewrite resolve_in_scope_inst.
  rewrite (find_tag_inst_distinct _ g Hdi Hin), scope_eqb_refl.
  cbn [resolve_in_scope]. rewrite (find_tag_name_distinct _ g Hdk Hin).
  destruct rest as [|r0 rr]; [|reflexivity]. destruct listing; [|reflexivity]. destruct Hl; congruence.
Qed.

(* the rest of a path: element indexes of the tag, then member parts *)
Definition rest_bytes (idv : list Z) (more : list ppart) : bytes := mems_bytes idv ++ gbytes more.
Definition rest_psegs (idv : list Z) (more : list ppart) : list pseg := map (PLog 2) idv ++ gpsegs more.

Lemma parse_rest idv more : idx32 idv -> Forall ppart_ok more ->
  parse_psegs (length idv + length (gpsegs more)) (rest_bytes idv more) = Some (rest_psegs idv more)
  /\ (length idv + length (gpsegs more) <= length (rest_bytes idv more))%nat.
Proof.
  intros H32 HF. unfold rest_bytes, rest_psegs. split.
  - rewrite (parse_psegs_mems_app idv (gbytes more) _ H32), (parse_gpsegs more HF). reflexivity.
  - rewrite app_length. destruct (gbytes_len more) as [_ Hl]. destruct (mems_len idv) as [_ Hm]. unfold Path.len in Hm. lia.
Qed.

Theorem instance_path_resolves p g idv more :
  wf_project p = true -> In g (p_tags p) -> g_scope g = ScCtrl ->
  starts_with txt_Program_ (g_name g) = false -> Path.len (g_name g) < 256 -> idx32 idv -> Forall ppart_ok more ->
  parse_psegs (length (inst_seg_bytes (g_inst g) ++ rest_bytes idv more)) (inst_seg_bytes (g_inst g) ++ rest_bytes idv more)
    = Some (inst_psegs (g_inst g) ++ rest_psegs idv more)
  /\ parse_psegs (length (sym_seg_bytes (g_name g) ++ rest_bytes idv more)) (sym_seg_bytes (g_name g) ++ rest_bytes idv more)
    = Some (PSym (g_name g) :: rest_psegs idv more)
  /\ resolve_path p false (inst_seg_bytes (g_inst g) ++ rest_bytes idv more)
     = resolve_path p false (sym_seg_bytes (g_name g) ++ rest_bytes idv more).
Proof.
  intros Hwf Hin Hsc Hnp Hn256 H32 HF.
  assert (Hok : tag_ok p g = true).
  { pose proof Hwf as H. unfold wf_project in H. repeat (apply andb_prop in H; destruct H as [H ?]).
    apply (forallb_In _ (p_tags p)); assumption. }
  assert (Hir : 0 < g_inst g < 4294967296).
  { unfold tag_ok in Hok. repeat (apply andb_prop in Hok; destruct Hok as [Hok ?]). lia. }
  assert (Hnl : 1 <= Path.len (g_name g) < 256).
  { unfold tag_ok in Hok. repeat (apply andb_prop in Hok; destruct Hok as [Hok ?]).
    destruct (g_name g); [discriminate|]. unfold Path.len in *. cbn [length] in *. lia. }
  destruct (parse_rest idv more H32 HF) as [Hpr Hlen].
  assert (P1 : parse_psegs (length (inst_seg_bytes (g_inst g) ++ rest_bytes idv more)) (inst_seg_bytes (g_inst g) ++ rest_bytes idv more)
               = Some (inst_psegs (g_inst g) ++ rest_psegs idv more)).
  { apply (parse_psegs_mono (S (S (length idv + length (gpsegs more))))).
    - rewrite (parse_psegs_inst _ _ _ Hir), Hpr. reflexivity.
    - rewrite app_length. pose proof (inst_seg_len (g_inst g)) as Hl. unfold Path.len in Hl. lia. }
  assert (P2 : parse_psegs (length (sym_seg_bytes (g_name g) ++ rest_bytes idv more)) (sym_seg_bytes (g_name g) ++ rest_bytes idv more)
               = Some (PSym (g_name g) :: rest_psegs idv more)).
  { apply (parse_psegs_mono (S (length idv + length (gpsegs more)))).
    - rewrite (parse_psegs_sym _ _ _ Hnl), Hpr. reflexivity.
    - rewrite app_length. unfold sym_seg_bytes. rewrite !app_length. cbn [length]. lia. }
  split; [exact P1|]. split; [exact P2|].
  unfold resolve_path. rewrite P1, P2.
  pose proof (instance_in_scope p g false (rest_psegs idv more) Hwf Hin (or_introl eq_refl)) as E. rewrite Hsc in E.
  change txt_Program with txt_Program_. rewrite Hnp.
  unfold inst_psegs in *. cbn [app] in *.
  destruct (rest_psegs idv more); exact E.
Qed.

(* the condition under which tag_request_path opens with the class / instance pair *)
Definition by_instance (use_ids : bool) (q : preq) : bool :=
  match ti_inst (pq_info q) with
  | Some i => use_ids && negb (starts_with (txt "Program:") (hd [] (split_chr 46 (pq_plc q)))) && negb (i =? 0)
  | None => false
  end.

Theorem read_path_symbolic use q : by_instance use q = false -> read_path use q = read_path false q.
Proof.
  unfold by_instance, read_path, tag_request_path, tag_segments.
  destruct (split_chr 46 (pq_plc q)) as [|base attrs]; [reflexivity|]. cbn [hd].
  destruct (find_tag_index base) as [bt idx]. destruct (ti_inst (pq_info q)) as [i|]; [|reflexivity].
  intros ->. reflexivity.
Qed.

Lemma by_instance_exclusions use q :
  (use = false \/ ti_inst (pq_info q) = None \/ ti_inst (pq_info q) = Some 0
   \/ starts_with (txt "Program:") (hd [] (split_chr 46 (pq_plc q))) = true) -> by_instance use q = false.
Proof.
  unfold by_instance. intros [Hu|[Hn|[Hz|H]]].
  - rewrite Hu. destruct (ti_inst (pq_info q)); reflexivity.
  - rewrite Hn. reflexivity.
  - rewrite Hz. cbn [Z.eqb negb]. rewrite andb_false_r. reflexivity.
  - rewrite H. destruct (ti_inst (pq_info q)); [|reflexivity]. cbn [negb]. rewrite andb_false_r. reflexivity.
Qed.

(* member requests and Program: requests are symbolic
   (the hypotheses of ReadResolve2.gen_request_ok without the build / fit ones) *)
Theorem greq_symbolic p mem cfg g x1 more bit cnt :
  wf_project p = true -> wf_mem p mem = true -> layout_ok p = true -> upload_ok p = true -> dword_arrays p = true ->
  In g (visible_tags p) -> pp_name x1 = g_name g ->
  Forall ppart_ok (prog_parts (g_scope g) ++ x1 :: more) ->
  starts_with txt_Program_ (seg_txt x1) = false ->
  forallb (fun y => negb (isdigit (seg_txt y))) more = true ->
  opt_ok bit -> opt_ok cnt ->
  Forall (fun d => d <= 4294967296) (g_dims g) ->
  (more <> [] \/ g_scope g <> ScCtrl \/ c_use_ids cfg = false) ->
  (forall pl0 pl1, tag_place g = Some pl0 -> index_place p pl0 (pp_idv x1) = Some pl1 -> exact_members p pl1 more) ->
  ref_read p mem (greq_ast g x1 more bit cnt) <> None ->
  exists q, parse_tag_request (client_tags p) (greq_text g x1 more bit cnt) = Ok q
    /\ (more <> [] -> ti_inst (pq_info q) = None)
    /\ by_instance (c_use_ids cfg) q = false
    /\ read_path (c_use_ids cfg) q = read_path false q.
Proof.
  intros Hwf Hwm Hlay Hup Hda Hvis Hx1n HF Hnp Hdig Hbit Hcnt H32 Hsym Hex Href.
  destruct (gen_resolves p mem cfg g x1 more bit cnt) as (q & Hparse & Hinone & Hby & _); try assumption.
  exists q. split; [exact Hparse|]. split; [exact Hinone|]. split; [exact Hby|apply read_path_symbolic; exact Hby].
Qed.

Print Assumptions instance_in_scope.
Print Assumptions instance_path_resolves.
Print Assumptions greq_symbolic.

Theorem greq_ok_symbolic p mem cfg fuel x :
  wf_project p = true -> wf_mem p mem = true -> layout_ok p = true -> upload_ok p = true -> dword_arrays p = true ->
  greq_ok p mem cfg fuel x ->
  exists q, parse_tag_request (client_tags p) (gq_text x) = Ok q
    /\ (gq_more x <> [] -> ti_inst (pq_info q) = None)
    /\ by_instance (c_use_ids cfg) q = false
    /\ read_path (c_use_ids cfg) q = read_path false q.
Proof.
  intros Hwf Hwm Hlay Hup Hda (H1 & H2 & H3 & H4 & H5 & H6 & H7 & H8 & H9 & H10 & H11 & _).
  apply (greq_symbolic p mem cfg); assumption.
Qed.
