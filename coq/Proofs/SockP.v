(* Proofs/SockP.v — C12: Socket.receive / Socket.send over any transport script. *)
From PV Require Import Base.Bytes Base.BytesLemmas Base.Res Model.Sock.
From Coq Require Import ZifyBool.
Open Scope Z_scope.
Ltac Zify.zify_post_hook ::= Z.to_euclidean_division_equations.

Definition nonempty (c : bytes) : Prop := c <> [].

(* a reply frame per the EtherNet/IP encapsulation: 24-byte header whose bytes 2-3 hold, little
   endian, the number of bytes that follow *)
Definition well_formed_frame (f : bytes) : Prop :=
  (24 <= length f)%nat /\ le_dec (slice 2 4 f) = Z.of_nat (length f) - 24.

Lemma nonempty_length (c : bytes) : nonempty c -> (1 <= length c)%nat.
Proof. destruct c; cbn; [congruence|lia]. Qed.

Lemma concat_chunks_cons (c : bytes) r : concat (c :: r) = c ++ concat r.
Proof. reflexivity. Qed.

Lemma recv_nonempty_ok s tl c1 s' : recv RECV_SIZE s tl = (Ok c1, s') -> nonempty c1 -> recv_nonempty s tl = (Ok c1, s').
Proof. intros H Hc. unfold recv_nonempty. rewrite H. destruct c1; [congruence|reflexivity]. Qed.

(* one read from a script of non-empty chunks: returns a non-empty prefix of what remains *)
Lemma recv_nonempty_chunks c r rest tl :
  nonempty c ->
  exists c1 c2, recv_nonempty (map Chunk (c :: r) ++ rest) tl =
                  (Ok c1, map Chunk (c2 ++ r) ++ rest)
                /\ nonempty c1 /\ Forall nonempty c2 /\ c1 ++ concat c2 = c.
Proof.
  intros Hc. cbn [map app].
  destruct (length c <=? RECV_SIZE)%nat eqn:E.
  - exists c, []. cbn [app concat]. rewrite app_nil_r. repeat split; auto.
    apply recv_nonempty_ok; [|exact Hc]. unfold recv. now rewrite E.
  - exists (firstn RECV_SIZE c), [skipn RECV_SIZE c].
    assert (Hlen : (RECV_SIZE < length c)%nat) by (apply Nat.leb_gt; exact E).
    assert (H1 : nonempty (firstn RECV_SIZE c)).
    { intros H0. apply (f_equal (@length Z)) in H0. rewrite firstn_length in H0.
      unfold RECV_SIZE in *. cbn [length] in H0. lia. }
    assert (H2 : nonempty (skipn RECV_SIZE c)).
    { intros H0. apply (f_equal (@length Z)) in H0. rewrite skipn_length in H0. cbn [length] in H0. lia. }
    cbn [concat]. rewrite app_nil_r. repeat split; auto.
    + apply recv_nonempty_ok; [|exact H1]. unfold recv. now rewrite E.
    + apply firstn_skipn.
Qed.

Section Receive.
  Variable f : bytes.
  Hypothesis Hwf : well_formed_frame f.

  (* what the peer may do instead of delivering the rest of the frame *)
  Inductive stops : list ev -> Prop :=
    | stop_end : stops []                       (* script exhausted: closed or timeout, by [tail] *)
    | stop_closed r : stops (Closed :: r)
    | stop_raise r : stops (Raise :: r).

  Lemma recv_nonempty_stops rest tl : stops rest -> exists s, recv_nonempty rest tl = (Err CommError, s).
  Proof. intros [| |]; unfold recv_nonempty, recv; [destruct tl|..]; eauto. Qed.

  (* The script delivers [cs], any segmentation of the frame short of its last bytes [q], and then
     [rest]: nothing is missing ([q] empty, [rest] is not looked at) or the peer stops there. *)
  Definition receive_result (q : bytes) : res bytes := match q with [] => Ok f | _ => Err CommError end.

  (* body loop: from any point with the length field already in [data] *)
  Lemma recv_body_spec tl rest : forall fuel data cs q,
    Forall nonempty cs -> data ++ concat cs ++ q = f -> (q <> [] -> stops rest) -> (4 <= length data)%nat ->
    (length (concat cs) + 1 <= fuel)%nat ->
    recv_body fuel data (Z.of_nat (length f) - 24) (map Chunk cs ++ rest) tl = Done (receive_result q).
  Proof.
    induction fuel as [|fuel IH]; intros data cs q Hne Hcat Hq H4 Hfuel; [lia|].
    assert (Hl : (length data + (length (concat cs) + length q) = length f)%nat)
      by (rewrite <- Hcat, !app_length; reflexivity).
    cbn [recv_body]. change header_size with 24.
    destruct (Z.of_nat (length data) - 24 <? Z.of_nat (length f) - 24) eqn:E.
    - destruct cs as [|c r].
      + destruct q as [|x q]; [cbn [concat length] in Hl; lia|].
        cbn [map app]. destruct (recv_nonempty_stops rest tl (Hq ltac:(discriminate))) as [s Hs]. now rewrite Hs.
      + pose proof (Forall_inv Hne) as Hc; pose proof (Forall_inv_tail Hne) as Hr.
        destruct (recv_nonempty_chunks c r rest tl Hc) as (c1 & c2 & Hrecv & Hc1 & Hc2 & Hsplit).
        rewrite Hrecv. apply IH; auto.
        * apply Forall_app; split; assumption.
        * rewrite concat_app, <- !app_assoc. rewrite concat_chunks_cons, <- Hsplit, <- !app_assoc in Hcat. exact Hcat.
        * rewrite app_length. lia.
        * rewrite concat_app, app_length. rewrite concat_chunks_cons, app_length, <- Hsplit, app_length in Hfuel.
          apply nonempty_length in Hc1. lia.
    - destruct (concat cs); [|cbn [length] in Hl; lia]. destruct q; [|cbn [length] in Hl; lia].
      rewrite !app_nil_r in Hcat. now subst data.
  Qed.

  Lemma recv_header_spec tl rest : forall fuel data cs q,
    Forall nonempty cs -> data ++ concat cs ++ q = f -> (q <> [] -> stops rest) ->
    (length (concat cs) + 1 <= fuel)%nat ->
    (q <> [] /\ recv_header fuel data (map Chunk cs ++ rest) tl = Done (Err CommError))
    \/ exists data' cs', recv_header fuel data (map Chunk cs ++ rest) tl = Done (Ok (data', map Chunk cs' ++ rest))
                         /\ Forall nonempty cs' /\ data' ++ concat cs' ++ q = f /\ (4 <= length data')%nat
                         /\ (length (concat cs') <= length (concat cs))%nat.
  Proof.
    destruct Hwf as [H24 _].
    induction fuel as [|fuel IH]; intros data cs q Hne Hcat Hq Hfuel; [lia|].
    cbn [recv_header]. destruct (4 <=? length data)%nat eqn:E.
    - apply Nat.leb_le in E. right. exists data, cs. repeat split; auto.
    - apply Nat.leb_gt in E. destruct cs as [|c r].
      + destruct q as [|x q]; [cbn [concat app] in Hcat; rewrite app_nil_r in Hcat; subst data; lia|].
        cbn [map app]. destruct (recv_nonempty_stops rest tl (Hq ltac:(discriminate))) as [s Hs]. rewrite Hs.
        left. split; [discriminate|reflexivity].
      + pose proof (Forall_inv Hne) as Hc; pose proof (Forall_inv_tail Hne) as Hr.
        destruct (recv_nonempty_chunks c r rest tl Hc) as (c1 & c2 & Hrecv & Hc1 & Hc2 & Hsplit).
        rewrite Hrecv.
        assert (Hlen : (length (concat (c2 ++ r)) < length (concat (c :: r)))%nat).
        { rewrite concat_app, app_length, concat_chunks_cons, app_length, <- Hsplit, app_length.
          apply nonempty_length in Hc1. lia. }
        destruct (IH (data ++ c1) (c2 ++ r) q) as [Herr | (d' & cs' & Hr' & Hne' & Hcat' & H4' & Hle')].
        * apply Forall_app; split; assumption.
        * rewrite concat_app, <- !app_assoc. rewrite concat_chunks_cons, <- Hsplit, <- !app_assoc in Hcat. exact Hcat.
        * exact Hq.
        * lia.
        * now left.
        * right. exists d', cs'. repeat split; auto. lia.
  Qed.

  Lemma receive_spec cs q rest tl fuel :
    concat cs ++ q = f -> Forall nonempty cs -> (q <> [] -> stops rest) -> (length f + 1 <= fuel)%nat ->
    receive fuel (map Chunk cs ++ rest) tl = Done (receive_result q).
  Proof.
    intros Hcat Hne Hq Hfuel. unfold receive.
    assert (Hl : (length (concat cs) <= length f)%nat) by (rewrite <- Hcat, app_length; lia).
    destruct (recv_header_spec tl rest fuel [] cs q Hne Hcat Hq) as [[Hq' Herr] | (d' & cs' & Hr & Hne' & Hcat' & H4 & Hle)];
      [lia | rewrite Herr; destruct q; [congruence|reflexivity] |].
    rewrite Hr.
    assert (Hlenf : le_dec (slice 2 4 d') = Z.of_nat (length f) - 24).
    { destruct Hwf as [_ Hlf]. rewrite <- Hlf, <- Hcat'. symmetry. f_equal. apply slice_app_prefix. exact H4. }
    rewrite Hlenf. apply recv_body_spec; auto. lia.
  Qed.

  (* C12, receive, success: every segmentation of the frame, down to one byte *)
  Theorem receive_any_segmentation cs tl fuel :
    concat cs = f -> Forall nonempty cs -> (length f + 1 <= fuel)%nat ->
    receive fuel (map Chunk cs) tl = Done (Ok f).
  Proof.
    intros Hcat Hne Hfuel. rewrite <- (app_nil_r (map Chunk cs)).
    apply (receive_spec cs [] [] tl fuel); auto; [now rewrite app_nil_r | congruence].
  Qed.

  (* C12, receive, failure: the peer closes, times out or errors after any strict prefix, delivered
     in any segmentation: the call terminates with CommError (never hangs, never a partial frame) *)
  Theorem receive_peer_stops cs q rest tl fuel :
    concat cs ++ q = f -> q <> [] -> Forall nonempty cs -> stops rest ->
    (length f + 1 <= fuel)%nat ->
    receive fuel (map Chunk cs ++ rest) tl = Done (Err CommError).
  Proof.
    intros Hcat Hq Hne Hstop Hfuel. rewrite (receive_spec cs q rest tl fuel); auto.
    destruct q; [congruence|reflexivity].
  Qed.
End Receive.

Definition is_prefix (w msg : bytes) : Prop := exists r, w ++ r = msg.

Lemma send_loop_spec : forall fuel msg total script wire,
  wire = firstn total msg -> (total <= length msg)%nat -> (length msg - total + 1 <= fuel)%nat ->
  exists r w, send_loop fuel msg total script wire = (Done r, w) /\ is_prefix w msg
              /\ (forall n, r = Ok n -> n = length msg /\ w = msg)
              /\ (forall e, r = Err e -> e = CommError).
Proof.
  induction fuel as [|fuel IH]; intros msg total script wire Hw Ht Hf; [lia|].
  cbn [send_loop]. destruct (total <? length msg)%nat eqn:E.
  - apply Nat.ltb_lt in E.
    assert (Hpre : is_prefix wire msg) by (exists (skipn total msg); subst wire; apply firstn_skipn).
    destruct script as [|[n|] r].
    + exists (Err CommError), wire. repeat split; auto; intros; congruence.
    + destruct (Nat.min n (length (skipn total msg)) =? 0)%nat eqn:Ek.
      * exists (Err CommError), wire. repeat split; auto; intros; congruence.
      * apply Nat.eqb_neq in Ek. rewrite skipn_length in *.
        apply IH; try lia. subst wire. symmetry. apply firstn_add.
    + exists (Err CommError), wire. repeat split; auto; intros; congruence.
  - apply Nat.ltb_ge in E. assert (total = length msg) by lia. subst total.
    exists (Ok (length msg)), wire. rewrite firstn_all in Hw. subst wire.
    split; [reflexivity|]. split; [exists []; apply app_nil_r|].
    split; [intros n Hn; injection Hn as <-; auto | intros e He; congruence].
Qed.

(* C12, send: never hangs; success means every byte was handed over, in order; failure is CommError
   and what was handed over is a prefix of the message *)
Theorem send_total msg script fuel :
  (length msg + 1 <= fuel)%nat ->
  exists r w, send fuel msg script = (Done r, w) /\ is_prefix w msg
              /\ (forall n, r = Ok n -> n = length msg /\ w = msg)
              /\ (forall e, r = Err e -> e = CommError).
Proof. intros H. unfold send. apply send_loop_spec; [reflexivity|lia|lia]. Qed.

Fixpoint sum_nat (l : list nat) : nat := match l with [] => 0 | x :: r => x + sum_nat r end.

Lemma send_loop_all : forall fuel msg total accepts wire,
  Forall (fun n => 0 < n)%nat accepts -> (length msg <= total + sum_nat accepts)%nat ->
  (total <= length msg)%nat -> wire = firstn total msg -> (length msg - total + 1 <= fuel)%nat ->
  send_loop fuel msg total (map Accept accepts) wire = (Done (Ok (length msg)), msg).
Proof.
  induction fuel as [|fuel IH]; intros msg total accepts wire Hpos Hsum Ht Hw Hf; [lia|].
  cbn [send_loop]. destruct (total <? length msg)%nat eqn:E.
  - apply Nat.ltb_lt in E. destruct accepts as [|n r]; [cbn in Hsum; lia|].
    pose proof (Forall_inv Hpos) as Hn; pose proof (Forall_inv_tail Hpos) as Hr. cbn beta in Hn. cbn [map].
    rewrite skipn_length.
    destruct (Nat.min n (length msg - total) =? 0)%nat eqn:Ek; [apply Nat.eqb_eq in Ek; lia|].
    apply IH; auto; try (cbn [sum_nat] in Hsum; lia).
    subst wire. symmetry. apply firstn_add.
  - apply Nat.ltb_ge in E. assert (total = length msg) by lia. subst total.
    rewrite firstn_all in Hw. now subst wire.
Qed.

(* C12, send, success: every pattern of partial sends that eventually accepts everything *)
Theorem send_all msg accepts fuel :
  Forall (fun n => 0 < n)%nat accepts -> (length msg <= sum_nat accepts)%nat -> (length msg + 1 <= fuel)%nat ->
  send fuel msg (map Accept accepts) = (Done (Ok (length msg)), msg).
Proof. intros Hp Hs Hf. unfold send. apply send_loop_all; auto; lia. Qed.
